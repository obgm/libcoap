(* C04 - in-place message edits change only what they name.
   Statements; the proofs live in Edit/*.v.

   Objects.  [pdu] (Wire/Build.v) = abstract message (token, ordered option list, payload, header
   fields) + max_size; [ed_apply]/[ed_run]/[ed_dup] (Edit/EdSpec.v) = the edits as list
   operations with the refusal rules of the code.  [ed_bpdu] (Edit/EdBytes.v) = the byte buffer
   token[0..used_size) with e_token_length, actual_token.length, max_opt, data offset, max_size;
   [ed_b_apply]/[ed_b_run]/[ed_b_dup] = coap_insert_option, coap_update_option,
   coap_remove_option, coap_update_token, coap_pdu_duplicate_lkd transcribed on the buffer (option
   iterator, header patches of the neighbouring option, memmoves, all bounds-checked: result
   [None] = stuck).  [ed_of_pdu] = the buffer the builder / the parser leave for an abstract
   message (canonical encoding); [ed_abs] = what the accessors of the dump read back. *)
From LibcoapV Require Import Base.Tactics Base.Bytes Wire.OptCodec Wire.Pdu
  Wire.PduProofs Wire.Build Edit.EdSpec Edit.EdBytes Edit.EdLemmas Edit.EdSpecProofs
  Edit.EdBytesProofs Edit.EdStart Edit.EdResize Edit.EdSize Edit.EdRefuted Edit.EdExample.
Local Open Scope Z_scope.

(* one edit: on the buffer of any well-formed PDU the transcribed C function is never stuck,
   returns what the specification returns, and leaves exactly the buffer, e_token_length, max_opt
   and data offset of the specification's result (so also: a refused edit leaves the bytes as
   the specification says) *)
Theorem C04_edit_refines : forall q e,
  ed_pwf q -> ed_op_ok e ->
  ed_b_apply (ed_of_pdu q) e = Some (fst (ed_apply q e), ed_of_pdu (snd (ed_apply q e))).
Proof. exact ed_b_apply_refines. Qed.
Print Assumptions C04_edit_refines.

(* the same in the shape of the property text: what the accessors show after the edit is the edit
   applied to what they showed before; a refused edit leaves the PDU as it was (or with the
   implicit Hop-Limit only) *)
Theorem C04_edit_abs : forall q e,
  ed_pwf q -> ed_op_ok e ->
  exists r p',
    ed_b_apply (ed_of_pdu q) e = Some (r, p') /\
    ed_abs (ed_of_pdu q) = Some (p_msg q) /\
    r = fst (ed_apply q e) /\
    ed_abs p' = Some (p_msg (snd (ed_apply q e))) /\
    (r = false ->
     p' = ed_of_pdu q \/
     exists n v, (e = EdInsert n v \/ e = EdUpdate n v) /\ ed_hop_trigger (p_msg q) n = true /\
                 p' = ed_of_pdu (snd (add_opt_raw q 16 [16]))).
Proof. exact ed_b_apply_abs. Qed.
Print Assumptions C04_edit_abs.

(* edit lists of any length, by induction *)
Theorem C04_edits_refine : forall es q,
  ed_pwf q -> Forall ed_op_ok es ->
  ed_b_run (ed_of_pdu q) es = Some (fst (ed_run q es), ed_of_pdu (snd (ed_run q es))).
Proof. exact ed_b_run_refines. Qed.
Print Assumptions C04_edits_refine.

(* well-formedness is an invariant of the edits *)
Theorem C04_wf_preserved : forall es q,
  ed_pwf q -> Forall ed_op_ok es -> ed_pwf (snd (ed_run q es)).
Proof. exact ed_pwf_run. Qed.
Print Assumptions C04_wf_preserved.

(* the accessors (token, option iterator, payload) read the abstract message back *)
Theorem C04_abs : forall q, ed_mwf (p_msg q) -> ed_abs (ed_of_pdu q) = Some (p_msg q).
Proof. exact ed_abs_of_pdu. Qed.
Print Assumptions C04_abs.

(* starting points: a PDU parsed from any wire bytes (DESIGN.md's parse_WF) ... *)
Theorem C04_start_parsed : forall pr bs max,
  wfb bs -> 0 <= max ->
  match ed_b_start_wire pr bs max with
  | Some p => exists q, ed_start_wire pr bs max = Some q /\ p = ed_of_pdu q /\ ed_pwf q /\
                        parse pr bs = Some (p_msg q)
  | None => ed_start_wire pr bs max = None
  end.
Proof. exact ed_start_wire_rep. Qed.
Print Assumptions C04_start_parsed.

(* ... or built through the API: coap_pdu_init, coap_add_token, coap_add_option, coap_add_data
   transcribed on the buffer give exactly the canonical buffer of the abstract builder's message
   (same return values), and that message is well-formed *)
Theorem C04_start_built : forall ops ty code mid max,
  0 <= max -> Forall ed_bop_ok ops ->
  let q := snd (run_ops (pdu_init ty code mid max) ops) in
  ed_b_build (ed_b_init ty code mid max) ops =
    Some (fst (run_ops (pdu_init ty code mid max) ops), ed_of_pdu q) /\ ed_pwf q.
Proof.
  intros ops ty code mid max Hm Hops.
  exact (ed_b_build_refines ops _ (ed_pwf_init ty code mid max Hm) Hops).
Qed.
Print Assumptions C04_start_built.

(* edits, then the wire, then the parser: the bytes after any edit list serialise (all three
   framings) and re-parse to the abstract result, provided that result is a message the parser
   accepts at all ... *)
Theorem C04_edits_then_wire : forall pr q es p' rs,
  ed_pwf q -> Forall ed_op_ok es ->
  ed_b_run (ed_of_pdu q) es = Some (rs, p') ->
  msg_wf (p_msg (snd (ed_run q es))) ->
  rs = fst (ed_run q es) /\
  ed_abs p' = Some (p_msg (snd (ed_run q es))) /\
  parse pr (header pr (p_msg (snd (ed_run q es))) ++ eb_buf p') =
    Some (norm_fields pr (p_msg (snd (ed_run q es)))).
Proof. exact ed_edits_then_wire. Qed.
Print Assumptions C04_edits_then_wire.

(* ... which it is when the starting message is and every edit respects the per-option length
   limits (code 0.00 excluded: an Empty message with content is not a message) *)
Theorem C04_edits_keep_parseable : forall es q,
  msg_wf (p_msg q) -> m_code (p_msg q) <> 0 -> Forall (ed_op_fine (m_code (p_msg q))) es ->
  msg_wf (p_msg (snd (ed_run q es))).
Proof.
  intros es q W Hc Hes.
  exact (proj1 (ed_run_inv _ _ (ed_msg_wf_apply _ Hc) es q (conj W eq_refl) Hes)).
Qed.
Print Assumptions C04_edits_keep_parseable.

(* coap_insert_option: the following option's delta drops from dold to dnew; the patched bytes
   are X ++ (header for dnew), X being the 0/1/2 bytes the header shrinks by *)
Theorem C04_hdr_patch_insert : forall dold dnew l R,
  0 < dnew <= dold -> dold <= 65535 -> 0 <= l <= 65804 ->
  exists X,
    ed_patch_insert dold dnew (opt_hdr dold l ++ R) =
      Some (X ++ opt_hdr dnew l ++ R, ext_size dold - ext_size dnew) /\
    len X = ext_size dold - ext_size dnew.
Proof. exact ed_patch_insert_ok. Qed.
Print Assumptions C04_hdr_patch_insert.

(* coap_remove_option: the following option's delta grows from dnext to dthis + dnext, re-using
   0/1/2 bytes at the end of the removed option E *)
Theorem C04_hdr_patch_remove : forall dthis dnext l (E R : bytes),
  0 <= dthis -> 0 <= dnext -> dthis + dnext <= 65535 -> 0 <= l <= 65804 ->
  1 <= len E -> (13 <= dthis -> 2 <= len E) ->
  exists X,
    ed_patch_remove dthis dnext (length E) (E ++ opt_hdr dnext l ++ R) =
      Some (X ++ opt_hdr (dthis + dnext) l ++ R, len X) /\
    len X = len E - (ext_size (dthis + dnext) - ext_size dnext).
Proof. exact ed_patch_remove_ok. Qed.
Print Assumptions C04_hdr_patch_remove.

(* insertion: the old options keep number, value and order; the new one sits after the last
   option numbered <= n *)
Theorem C04_insert_frame : forall q n v r q',
  ascending 0 (m_opts (p_msg q)) -> add_opt_raw q n v = (r, q') ->
  (r = false /\ q' = q) \/
  (r = true /\ exists l1 l2,
      m_opts (p_msg q) = l1 ++ l2 /\ q' = set_opts q (l1 ++ (n, v) :: l2) /\
      Forall (fun o => fst o <= n) l1 /\ Forall (fun o => n < fst o) l2).
Proof. exact ed_add_opt_raw_frame. Qed.
Print Assumptions C04_insert_frame.

Theorem C04_update_frame : forall q n v r q',
  ed_update q n v = (r, q') -> ed_find n (m_opts (p_msg q)) <> None ->
  (r = false /\ q' = q) \/
  (r = true /\ exists l1 w l2,
      m_opts (p_msg q) = l1 ++ (n, w) :: l2 /\ q' = set_opts q (l1 ++ (n, v) :: l2) /\
      Forall (fun o => fst o <> n) l1).
Proof. exact ed_update_frame. Qed.
Print Assumptions C04_update_frame.

(* removal removes exactly the first match, and fails iff there is none *)
Theorem C04_remove_frame : forall q n r q',
  ed_remove q n = (r, q') ->
  (r = false /\ q' = q /\ Forall (fun o => fst o <> n) (m_opts (p_msg q))) \/
  (r = true /\ exists l1 w l2,
      m_opts (p_msg q) = l1 ++ (n, w) :: l2 /\ q' = set_opts q (l1 ++ l2) /\
      Forall (fun o => fst o <> n) l1).
Proof. exact ed_remove_frame. Qed.
Print Assumptions C04_remove_frame.

Theorem C04_token_frame : forall q t r q',
  ed_token q t = (r, q') ->
  (r = false /\ q' = q) \/ (r = true /\ q' = ed_with_token q t /\ len t <= 65804).
Proof. exact ed_token_frame. Qed.
Print Assumptions C04_token_frame.

(* no edit touches type, code, message id, payload or max_size; option edits leave the token,
   the token edit leaves the options *)
Theorem C04_edit_keeps : forall q e,
  let q' := snd (ed_apply q e) in
  m_type (p_msg q') = m_type (p_msg q) /\ m_code (p_msg q') = m_code (p_msg q) /\
  m_mid (p_msg q') = m_mid (p_msg q) /\ m_payload (p_msg q') = m_payload (p_msg q) /\
  p_max q' = p_max q /\
  match e with
  | EdToken _ => m_opts (p_msg q') = m_opts (p_msg q)
  | _ => m_token (p_msg q') = m_token (p_msg q)
  end.
Proof. exact ed_apply_keeps. Qed.
Print Assumptions C04_edit_keeps.

(* a refused edit leaves the message as it was, the one exception being the implicit Hop-Limit
   that coap_add_option_internal puts in before it refuses Proxy-Uri / Proxy-Scheme *)
Theorem C04_refused_unchanged : forall q e,
  fst (ed_apply q e) = false ->
  snd (ed_apply q e) = q \/
  exists n v, (e = EdInsert n v \/ e = EdUpdate n v) /\ ed_hop_trigger (p_msg q) n = true /\
              snd (ed_apply q e) = snd (add_opt_raw q 16 [16]).
Proof. exact ed_apply_refused. Qed.
Print Assumptions C04_refused_unchanged.

Theorem C04_remove_succeeds_iff : forall q n,
  fst (ed_remove q n) = true <-> has_opt n (m_opts (p_msg q)) = true.
Proof. exact ed_remove_succeeds_iff. Qed.
Print Assumptions C04_remove_succeeds_iff.

Theorem C04_token_succeeds_iff : forall q t,
  fst (ed_token q t) = true <->
  len t <= 65804 /\
  (len (token_area t) <= len (token_area (m_token (p_msg q))) \/ p_max q = 0 \/
   used (p_msg (ed_with_token q t)) <= p_max q).
Proof. exact ed_token_succeeds_iff. Qed.
Print Assumptions C04_token_succeeds_iff.

(* max_size is respected: a message that fits (or has no limit) still does after any edit list *)
Theorem C04_max_size_respected : forall es q,
  ed_pwf q -> Forall ed_op_ok es -> ed_size_inv q -> ed_size_inv (snd (ed_run q es)).
Proof.
  intros es q [W _] Hes Hi.
  exact (proj2 (ed_run_inv _ _ ed_size_inv_apply es q (conj W Hi) Hes)).
Qed.
Print Assumptions C04_max_size_respected.

(* removal never makes the message longer, although the following header may grow by 2 bytes *)
Theorem C04_remove_not_longer : forall q n,
  ed_mwf (p_msg q) -> used (p_msg (snd (ed_remove q n))) <= used (p_msg q).
Proof. exact ed_remove_not_longer. Qed.
Print Assumptions C04_remove_not_longer.

(* an insertion is refused for lack of space only when the message with the option would exceed
   max_size - 2: coap_insert_option asks for used_size + shift before it knows how much the
   following header shrinks (0..2 bytes) *)
Theorem C04_insert_refusal_conservative : forall q n v,
  ed_mwf (p_msg q) -> 0 <= n ->
  fst (add_opt_raw q n v) = false ->
  (n =? last_num (m_opts (p_msg q))) && negb (repeatable n) = false ->
  p_max q <> 0 /\
  p_max q - 2 < used (p_msg (set_opts q (insert_opt n v (m_opts (p_msg q))))).
Proof. exact ed_add_opt_raw_refusal_conservative. Qed.
Print Assumptions C04_insert_refusal_conservative.

(* coap_pdu_duplicate_lkd *)
Theorem C04_dup_refines : forall q mid' smax t drop_,
  ed_pwf q -> 0 <= smax ->
  ed_b_dup (ed_of_pdu q) mid' smax t drop_ =
  Some (option_map ed_of_pdu (ed_dup q mid' smax t drop_)).
Proof. exact ed_b_dup_refines. Qed.
Print Assumptions C04_dup_refines.

(* coap_pdu_check_resize / coap_pdu_resize with alloc_size <= max_size (or max_size = 0), which
   coap_pdu_init establishes: the doubling loop terminates, the call succeeds exactly when
   [ed_fits] says (the only thing the byte-level model uses), at least [size] bytes are then
   available, and the invariant is kept *)
Theorem C04_check_resize_spec : forall alloc max size,
  0 <= alloc -> 0 <= max -> (max = 0 \/ alloc <= max) -> 0 <= size < 2 ^ 64 ->
  exists a',
    ed_check_resize alloc max size = Some (ed_fits max size, a') /\
    (ed_fits max size = true -> size <= a' /\ alloc <= a' /\ (max = 0 \/ a' <= max)) /\
    (ed_fits max size = false -> a' = alloc).
Proof. exact ed_check_resize_spec. Qed.
Print Assumptions C04_check_resize_spec.

(* the defect found: coap_update_token as pinned (8-bit cast of e_token_length) *)
Theorem C04_update_token_cast8_refuted :
  exists q t, len t <= 65804 /\ ed_abs (ed_of_pdu q) = Some (p_msg q) /\
              ~ ed_refines_step ed_b_token_cast8 q t.
Proof. exact ed_token_cast8_refuted. Qed.
Print Assumptions C04_update_token_cast8_refuted.

(* second defect found: on a PDU with a session and an encoded header, coap_update_token must leave
   the header in memory in step with the new token (retransmission sends it as it is).  Repaired
   code: *)
Theorem C04_token_header_in_step : forall q t,
  ed_pwf q ->
  ed_b_token_hdr UDP (header UDP (p_msg q)) (ed_of_pdu q) t =
  Some (fst (ed_token q t), ed_of_pdu (snd (ed_token q t)),
        header UDP (p_msg (snd (ed_token q t)))).
Proof. exact ed_b_token_hdr_in_step. Qed.
Print Assumptions C04_token_header_in_step.

(* pinned code (no fix-up on the used_size == 0 path): stale header *)
Theorem C04_token_header_prefix_refuted :
  exists q t, ed_pwf q /\
    match ed_b_token_hdr_gen false UDP (header UDP (p_msg q)) (ed_of_pdu q) t with
    | Some (r, p', h') => r = true /\ ed_abs p' = Some (p_msg (snd (ed_token q t))) /\
                          h' <> header UDP (p_msg (snd (ed_token q t)))
    | None => False
    end.
Proof. exact ed_b_token_hdr_prefix_refuted. Qed.
Print Assumptions C04_token_header_prefix_refuted.

(* non-vacuity: a concrete message and edit list meet all the hypotheses above *)
Theorem C04_nonvacuous :
  ed_pwf ed_ex_pdu /\ msg_wf (p_msg ed_ex_pdu) /\ m_code (p_msg ed_ex_pdu) <> 0 /\
  Forall (ed_op_fine (m_code (p_msg ed_ex_pdu))) ed_ex_edits /\
  fst (ed_run ed_ex_pdu ed_ex_edits) = [true; true; true; true; true; false] /\
  m_opts (p_msg (snd (ed_run ed_ex_pdu ed_ex_edits))) = [(300, []); (2000, repeat 0 13)] /\
  len (m_token (p_msg (snd (ed_run ed_ex_pdu ed_ex_edits)))) = 300.
Proof. exact ed_ex_nonvacuous. Qed.
Print Assumptions C04_nonvacuous.
