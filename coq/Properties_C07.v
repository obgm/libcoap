(* C07 - Each request concludes exactly once despite loss, duplication and delay.

   Objects (coq/Exchange/):
     Exchange.v   the client side of an exchange as libcoap implements it (handle_response,
                  the ACK/RST/NON/CON branches of coap_dispatch, the retransmission counter),
                  executable, run against the library on every check
     System.v     the closed system: that client + an abstract server with the response styles
                  of the quantifier (piggybacked; separate CON / NON at once; coap_register_async
                  with a CON / NON response; its own retransmission of CON responses) + a network
                  that loses, duplicates, delays, reorders.  A schedule is a list of ex_act.
     Spec.v       the property on observed client traces: ex_P_once, ex_P_token, ex_P_stops,
                  ex_P_conack, ex_P_dup, ex_P_non
     Accept.v     the acceptor accepts_c07 that judges the traces observed at the real library
   Statements only; proofs in Exchange/AcceptProofs.v, ClientProofs.v, SystemProofs.v,
   GuardProofs.v, Refute.v, LiveProofs.v. *)
From LibcoapV Require Import Base.Tactics Exchange.Exchange Exchange.Accept Exchange.Spec
  Exchange.AcceptProofs Exchange.System Exchange.SystemProofs Exchange.GuardProofs
  Exchange.Refute Exchange.LiveProofs Exchange.ClientProofs.
Local Open Scope Z_scope.

(* The acceptor is sound: whatever produced the trace (the model, the real library under the
   scripted network), acceptance implies all six clauses of the property. *)
Theorem C07_acceptor_sound : forall t, accepts_c07 t = true -> ex_property t.
Proof. exact ex_accepts_sound. Qed.
Print Assumptions C07_acceptor_sound.

(* Safety that needs no hypothesis: for EVERY configuration of the system (server that
   re-processes retransmitted requests or not, exchanges pipelined behind stale datagrams or
   not, impatient give-up or not), every initial message id and EVERY schedule:
   the handler sees the token of a request that was sent (for a piggybacked response: of the
   request with that mid) ... *)
Theorem C07_handler_token : forall cf cmid0 smid0 acts,
  ex_P_token (ex_sys_trace cf (ex_sys_init cmid0 smid0) acts).
Proof. intros. apply (ex_system_local cf cmid0 smid0 acts). Qed.
Print Assumptions C07_handler_token.

(* ... after a piggybacked, separate or Non-confirmable response for a token was handled (or
   its NACK given) no request with that token is transmitted again ... *)
Theorem C07_response_stops_rtx : forall cf cmid0 smid0 acts,
  ex_P_stops (ex_sys_trace cf (ex_sys_init cmid0 smid0) acts).
Proof. intros. apply (ex_system_local cf cmid0 smid0 acts). Qed.
Print Assumptions C07_response_stops_rtx.

(* ... every Confirmable response received is answered in the same step by exactly one ACK, or
   RST when the handler's verdict was FAIL, after the handler; a duplicate (the mid of the
   previously delivered response) is not delivered again and is answered as the first time ... *)
Theorem C07_con_acked : forall cf cmid0 smid0 acts,
  ex_P_conack (ex_sys_trace cf (ex_sys_init cmid0 smid0) acts) /\
  ex_P_dup (ex_sys_trace cf (ex_sys_init cmid0 smid0) acts).
Proof. intros. split; apply (ex_system_local cf cmid0 smid0 acts). Qed.
Print Assumptions C07_con_acked.

(* ... and a Non-confirmable response is delivered exactly once per datagram received. *)
Theorem C07_non_once : forall cf cmid0 smid0 acts,
  ex_P_non (ex_sys_trace cf (ex_sys_init cmid0 smid0) acts).
Proof. intros. apply (ex_system_local cf cmid0 smid0 acts). Qed.
Print Assumptions C07_non_once.

(* The same three clauses hold for the client against ANY peer - every client state, every
   input sequence, no honesty assumption on the datagrams (scripted-peer tier of the check). *)
Theorem C07_client_con_acked : forall maxr c ins,
  ex_P_conack (snd (ex_cli_run maxr c ins)).
Proof. exact ex_client_conack. Qed.
Print Assumptions C07_client_con_acked.

Theorem C07_client_dup : forall maxr c ins, ex_P_dup (snd (ex_cli_run maxr c ins)).
Proof. exact ex_client_dup. Qed.
Print Assumptions C07_client_dup.

Theorem C07_client_non_once : forall maxr c ins, ex_P_non (snd (ex_cli_run maxr c ins)).
Proof. exact ex_client_non. Qed.
Print Assumptions C07_client_non_once.

(* The duplicate filter, exactly (formal content of the signature of finding C07-F1): for every
   client state and every input sequence, a Confirmable response with the mid of one that was
   delivered is delivered again only if a Confirmable response with another mid was delivered in
   between; a piggybacked response only if a piggybacked response with another mid was delivered,
   or a new request took that mid, in between. *)
Theorem C07_client_con_filter : forall maxr c ins t1 s k ok st a t2 k' ok' outs' t3,
  snd (ex_cli_run maxr c ins) =
    t1 ++ (ExRx (ExConR s k) ok, [ExResp 0 s k st; ExTx a]) :: t2 ++
    (ExRx (ExConR s k') ok', outs') :: t3 ->
  (forall o, In o t2 -> ex_delivers_kind 0 o = false) ->
  ex_delivers_kind 0 (ExRx (ExConR s k') ok', outs') = false.
Proof. exact ex_client_con_filter. Qed.
Print Assumptions C07_client_con_filter.

Theorem C07_client_ack_filter : forall maxr c ins t1 s k ok st t2 k' ok' outs' t3,
  snd (ex_cli_run maxr c ins) =
    t1 ++ (ExRx (ExAckR s k) ok, [ExResp 2 s k st]) :: t2 ++ (ExRx (ExAckR s k') ok', outs') :: t3 ->
  (forall o, In o t2 -> ex_delivers_kind 2 o = false /\ ex_sends_mid s o = false) ->
  outs' = [].
Proof. exact ex_client_ack_filter. Qed.
Print Assumptions C07_client_ack_filter.

(* "Never both, never twice".  Full-strength statement (all configurations):
     forall cf cmid0 smid0 acts, ex_P_once (ex_sys_trace cf (ex_sys_init cmid0 smid0) acts)
   is FALSE for the faithful model - see the _at_most_once_refuted theorems below, each replayed
   on the real library (corpus/C07/f1_*.case, f2_*.case, f3_*.case; known findings C07-F1..F3).
   What holds, for every retransmission limit, all initial message ids and every schedule, is
   at-most-once under the three hypotheses of System.v: the server processes a request once,
   the application sends when no datagram of an earlier exchange is in flight, the give-up
   timer fires when nothing of the exchange is left.  Each hypothesis is necessary. *)
Theorem C07_at_most_once_under_hyps : forall maxr cmid0 smid0 acts,
  ex_P_once (ex_sys_trace (ex_cfg_guarded maxr) (ex_sys_init cmid0 smid0) acts).
Proof. intros. apply (ex_system_safe maxr cmid0 smid0 acts). Qed.
Print Assumptions C07_at_most_once_under_hyps.

(* the whole property under the hypotheses *)
Theorem C07_property_under_hyps : forall maxr cmid0 smid0 acts,
  ex_property (ex_sys_trace (ex_cfg_guarded maxr) (ex_sys_init cmid0 smid0) acts).
Proof. exact ex_system_safe. Qed.
Print Assumptions C07_property_under_hyps.

(* The hypothesis "the server's message ids do not wrap within the run" of C07_concludes (below)
   is necessary (finding C07-F5b): a separate Confirmable response with mid 7000 is delivered;
   65535 exchanges answered by separate Non-confirmable responses follow; the next separate
   Confirmable response carries mid 7000 again: it is discarded as a duplicate (and acknowledged),
   the request is gone from the send queue - neither handler nor NACK.  Client model with an
   honest echoing peer; replayed on the real client on every run (exw 65535 100 1). *)
Theorem C07_concludes_refuted_peer_mid_wrap :
  ex_wrap_summary (ex_wrap_inputs_con (Z.to_nat 65535)) =
  ((ExRx (ExConR 7000 131073) true, [ExTx (ExAckE 7000)]), None).
Proof. rewrite ex_wrap_peer_any, Z2Nat.id by lia. reflexivity. Qed.
Print Assumptions C07_concludes_refuted_peer_mid_wrap.

(* the client's own message ids may wrap (with the fix of finding C07-F5a no hypothesis on them
   is needed: C07_concludes has none on cmid0); the schedule that loses a request without the
   fix - a piggybacked exchange, 65535 exchanges answered separately, then the request that
   re-uses mid 101 - ends in the handler call *)
Theorem C07_own_mid_wrap_delivered :
  ex_wrap_summary (ex_wrap_inputs (Z.to_nat 65535)) =
  ((ExRx (ExAckR 101 131072) true, [ExResp 2 101 131072 131072]), None).
Proof. rewrite ex_wrap_own_any, Z2Nat.id by lia. reflexivity. Qed.
Print Assumptions C07_own_mid_wrap_delivered.

(* "forall schedule, accepts (run M schedule) = true": the acceptor that judges the real
   library's traces accepts every behaviour of the guarded model (it is not vacuous), and the
   same judge without clause 2 accepts every behaviour of every configuration *)
Theorem C07_model_accepted : forall maxr cmid0 smid0 acts,
  accepts_c07 (ex_sys_trace (ex_cfg_guarded maxr) (ex_sys_init cmid0 smid0) acts) = true.
Proof. exact ex_system_accepted. Qed.
Print Assumptions C07_model_accepted.

Theorem C07_model_accepted_lenient : forall cf cmid0 smid0 acts,
  ex_judge_lenient (ex_sys_trace cf (ex_sys_init cmid0 smid0) acts) = 0.
Proof. exact ex_system_lenient. Qed.
Print Assumptions C07_model_accepted_lenient.

(* without "the application sends when the network is quiet": a delayed duplicate of the
   previous exchange's response is delivered again after the next response overwrote the
   single-slot filter (last_ack_mid resp. last_con_mid) *)
Theorem C07_at_most_once_refuted_pipelined :
  exists acts k,
    ex_concl_count k (ex_sys_trace (Build_ex_cfg 4 true false true) (ex_sys_init 100 7000) acts) = 2%nat.
Proof. exact ex_once_refuted_quiet. Qed.
Print Assumptions C07_at_most_once_refuted_pipelined.

Theorem C07_at_most_once_refuted_pipelined_con :
  exists acts k,
    ex_concl_count k (ex_sys_trace (Build_ex_cfg 4 true false true) (ex_sys_init 100 7000) acts) = 2%nat.
Proof. exact ex_once_refuted_quiet_con. Qed.
Print Assumptions C07_at_most_once_refuted_pipelined_con.

(* without "the server processes a request once": a second separate response with a new mid *)
Theorem C07_at_most_once_refuted_reprocessing :
  exists acts k,
    ex_concl_count k (ex_sys_trace (Build_ex_cfg 4 false true true) (ex_sys_init 100 7000) acts) = 2%nat.
Proof. exact ex_once_refuted_dedup. Qed.
Print Assumptions C07_at_most_once_refuted_reprocessing.

(* without "give-up only when nothing is left": NACK, then the async response *)
Theorem C07_at_most_once_refuted_late_response :
  exists acts k,
    ex_concl_count k (ex_sys_trace (Build_ex_cfg 4 true true false) (ex_sys_init 100 7000) acts) = 2%nat.
Proof. exact ex_once_refuted_patient. Qed.
Print Assumptions C07_at_most_once_refuted_late_response.

(* "Never neither once the network is quiet".  Under the same three hypotheses and message ids
   of the server's session that do not wrap within the run (the client's own may), for every
   schedule: when the system is at rest (nothing in flight, no work at the server, empty send
   queue) every request the application sent was answered (response handler or NACK for its
   token), unless its response was irrecoverably lost - ex_lost_run collects the tokens whose
   Non-confirmable response the network dropped and those whose Confirmable response the server
   gave up on after max_retransmit + 1 transmissions.
   This is the property's fairness hypothesis ("not all MAX_RETRANSMIT+1 transmissions of one
   Confirmable lost"; a NON is sent once) made explicit; C07_concludes_needs_fairness shows it
   cannot be dropped. *)
Theorem C07_concludes : forall maxr cmid0 smid0 acts,
  0 <= smid0 -> smid0 + Z.of_nat (length acts) < 65536 ->
  let cf := ex_cfg_guarded maxr in
  let y0 := ex_sys_init cmid0 smid0 in
  let r := ex_sys_run cf y0 acts in
  ex_at_rest (fst r) = true ->
  forall mid k, ex_sent_req mid k (snd r) ->
    ex_answered k (snd r) \/ In k (ex_lost_run cf y0 acts).
Proof. exact ex_system_live. Qed.
Print Assumptions C07_concludes.

(* exactly once: with nothing irrecoverably lost, at rest every token was answered, and (by
   C07_at_most_once_under_hyps) concluded at most once *)
Theorem C07_exactly_once : forall maxr cmid0 smid0 acts,
  0 <= smid0 -> smid0 + Z.of_nat (length acts) < 65536 ->
  let cf := ex_cfg_guarded maxr in
  let y0 := ex_sys_init cmid0 smid0 in
  let r := ex_sys_run cf y0 acts in
  ex_at_rest (fst r) = true -> ex_lost_run cf y0 acts = [] ->
  forall mid k, ex_sent_req mid k (snd r) ->
    ex_answered k (snd r) /\ (ex_concl_count k (snd r) <= 1)%nat.
Proof. exact ex_system_exactly_once. Qed.
Print Assumptions C07_exactly_once.

(* the fairness hypothesis is needed: the NON response is lost, the empty ACK arrives, the
   system comes to rest and the token was never answered *)
Theorem C07_concludes_needs_fairness :
  exists acts,
    let r := ex_sys_run (ex_cfg_guarded 4) (ex_sys_init 100 7000) acts in
    ex_at_rest (fst r) = true /\ ex_sent_req 101 1 (snd r) /\
    ex_lost_run (ex_cfg_guarded 4) (ex_sys_init 100 7000) acts = [1] /\
    forall o out, In o (snd r) -> In out (snd o) -> ex_out_ends 1 out = false.
Proof. exact ex_live_needs_fairness. Qed.
Print Assumptions C07_concludes_needs_fairness.

(* without "give-up only when nothing is left", with loss only and a server that answers at
   once: its retransmission of the separate response outlives the client's give-up *)
Theorem C07_at_most_once_refuted_late_retransmission :
  exists acts k,
    ex_concl_count k (ex_sys_trace (Build_ex_cfg 4 true true false) (ex_sys_init 100 7000) acts) = 2%nat.
Proof. exact ex_once_refuted_patient_loss. Qed.
Print Assumptions C07_at_most_once_refuted_late_retransmission.

(* non-vacuity: under the hypotheses exchanges do take place - a concrete schedule with a lost
   empty ACK, a retransmission, a duplicated separate response and a FAIL verdict yields one
   handler call for the token, one RST, then an ACK-less duplicate answered by RST again *)
Theorem C07_nonvacuous :
  let t := ex_sys_trace (ex_cfg_guarded 4) (ex_sys_init 100 7000)
             [ExASend 1; ExADelS 0; ExADropC 1; ExATimer; ExADupC 0; ExADelC 0 false;
              ExADelC 0 true; ExADelS 0; ExADelS 0; ExADelS 0] in
  ex_concl_count 1 t = 1%nat /\
  In (ExRx (ExConR 7001 1) false, [ExResp 0 7001 1 (-1); ExTx (ExRst 7001)]) t /\
  In (ExRx (ExConR 7001 1) true, [ExTx (ExRst 7001)]) t /\
  accepts_c07 t = true.
Proof. exact ex_nonvacuous. Qed.
Print Assumptions C07_nonvacuous.
