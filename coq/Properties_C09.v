(* C09 - block-wise transfer delivers the sender's body intact, once, or fails explicitly.
   Statements only; the proofs live in Block/*Proofs.v.
   Layer 1: option codec and slicing.  Layer 2: received-block ranges and reassembly.
   Layer 3: the protocol around the reassembly cores (lg_srcv table, ETag check, closed loops
   without loss, expiry timers, table of stored responses). *)
From LibcoapV Require Import Base.Tactics Base.Bytes Block.BlockOpt Block.BlockOptProofs
  Block.Slices Block.SlicesProofs Block.RecBlocks Block.RecBlocksProofs Block.ReassemblyProofs
  Block.BlockProto Block.BlockProtoProofs.
Local Open Scope Z_scope.

(* every (NUM < 2^20, M, SZX <= 6) survives encode + decode *)
Theorem C09_opt_roundtrip : forall num m szx,
  0 <= num < 1048576 -> 0 <= m <= 1 -> 0 <= szx <= 6 ->
  blk_get_block (blk_opt_value num m szx) = Some (num, m, szx).
Proof. exact blk_opt_roundtrip. Qed.
Print Assumptions C09_opt_roundtrip.

Theorem C09_opt_value_fits : forall num m szx,
  0 <= num < 1048576 -> 0 <= m <= 1 -> 0 <= szx <= 6 ->
  len (blk_opt_value num m szx) <= 3 /\ wfb (blk_opt_value num m szx).
Proof. exact blk_opt_value_len. Qed.
Print Assumptions C09_opt_value_fits.

(* whatever bytes arrive, an accepted option has NUM < 2^20, one M bit, SZX <= 6 (no BERT) *)
Theorem C09_opt_decode_range : forall v num m szx,
  wfb v -> blk_get_block v = Some (num, m, szx) ->
  0 <= num < 1048576 /\ 0 <= m <= 1 /\ 0 <= szx <= 6.
Proof. exact blk_get_block_range. Qed.
Print Assumptions C09_opt_decode_range.

(* block size chosen from the space left: fits, and is the largest power of two that does *)
Theorem C09_blocksize_fits : forall avail, 16 <= avail < 2 ^ 63 ->
  let s := blk_szx_for_avail avail in
  0 <= s <= 6 /\ blk_chunk s <= avail /\ (s < 6 -> avail < blk_chunk (s + 1)).
Proof. exact blk_szx_for_avail_fits. Qed.
Print Assumptions C09_blocksize_fits.

Theorem C09_slices_tile : forall body szx, 0 <= szx ->
  concat (map (blk_slice body szx) (blk_range (blk_nblocks body szx))) = body.
Proof. exact blk_slices_concat. Qed.
Print Assumptions C09_slices_tile.

Theorem C09_slice_nonfinal_full : forall body szx k, 0 <= szx ->
  0 <= k < blk_nblocks body szx - 1 -> len (blk_slice body szx k) = blk_chunk szx.
Proof. exact blk_slice_len_nonfinal. Qed.
Print Assumptions C09_slice_nonfinal_full.

Theorem C09_slice_final : forall body szx, 0 <= szx -> 0 < len body ->
  1 <= len (blk_slice body szx (blk_nblocks body szx - 1)) <= blk_chunk szx /\
  (blk_nblocks body szx - 1) * blk_chunk szx + len (blk_slice body szx (blk_nblocks body szx - 1))
     = len body.
Proof. exact blk_slice_len_final. Qed.
Print Assumptions C09_slice_final.

Theorem C09_more_iff_not_final : forall body szx k, 0 <= szx -> 0 <= k < blk_nblocks body szx ->
  (blk_more body szx k = true <-> k < blk_nblocks body szx - 1).
Proof. exact blk_more_iff. Qed.
Print Assumptions C09_more_iff_not_final.

Theorem C09_slice_offset : forall body szx k i d, 0 <= szx -> 0 <= k -> 0 <= i < blk_chunk szx ->
  nth (Z.to_nat i) (blk_slice body szx k) d = nth (Z.to_nat (k * blk_chunk szx + i)) body d.
Proof. exact blk_slice_offset. Qed.
Print Assumptions C09_slice_offset.

(* SZX lowered by the peer: the recomputed number continues exactly where the old size stopped *)
Theorem C09_resize_offset : forall offset szx szx', 0 <= szx' -> 0 <= szx ->
  0 <= offset -> offset mod blk_chunk szx = 0 ->
  let '(num', s') := blk_resize offset szx szx' in
  (num' + 1) * blk_chunk s' = offset + blk_chunk szx /\ 0 <= num' /\
  (s' = szx' \/ (s' = szx /\ szx <= szx')).
Proof. exact blk_resize_offset. Qed.
Print Assumptions C09_resize_offset.

Theorem C09_resize_tiles : forall body szx szx' k, 0 <= szx' < szx ->
  0 <= k -> (k + 1) * blk_chunk szx <= len body ->
  let '(num', s') := blk_resize (k * blk_chunk szx) szx szx' in
  concat (map (blk_slice body szx) (blk_range (k + 1))) ++
  concat (map (blk_slice body s')
            (blk_range_from (num' + 1) (blk_nblocks body s' - (num' + 1)))) = body.
Proof. exact blk_resize_tiles. Qed.
Print Assumptions C09_resize_tiles.

Theorem C09_ranges_inv : forall r n, blk_inv r -> 0 <= n ->
  forall r', blk_update r n = Some r' -> blk_inv r'.
Proof. exact blk_update_inv. Qed.
Print Assumptions C09_ranges_inv.

Theorem C09_ranges_update : forall r n, blk_inv r -> 0 <= n ->
  forall r', blk_update r n = Some r' ->
  forall k, In k (blk_abs r') <-> k = n \/ In k (blk_abs r).
Proof. exact blk_update_mem. Qed.
Print Assumptions C09_ranges_update.

(* refused exactly when all usable ranges are taken and the block is isolated *)
Theorem C09_ranges_refusal : forall r n, blk_inv r -> 0 <= n ->
  (blk_update r n = None <->
   len r = blk_rblock_cnt - 1 /\ forall b e, In (b, e) r -> n + 1 < b \/ e + 1 < n).
Proof. exact blk_update_none_iff. Qed.
Print Assumptions C09_ranges_refusal.

Theorem C09_ranges_received : forall r n, blk_inv r ->
  (blk_check_received r n = true <-> In n (blk_abs r)).
Proof. exact blk_check_received_spec. Qed.
Print Assumptions C09_ranges_received.

Theorem C09_ranges_all_in : forall r total, blk_inv r -> r <> [] ->
  (forall k, In k (blk_abs r) -> k < total) ->
  (blk_check_all_in r total = true <-> forall k, 0 <= k < total -> In k (blk_abs r)).
Proof. exact blk_check_all_in_spec. Qed.
Print Assumptions C09_ranges_all_in.

(* Server (Block1), coap_handle_request_put_block as repaired by /repo commits 06a7cfe and
   e2e5ed9.  [u] is the unit in which the server counts blocks (lg_srcv->szx); an arrival is
   block k of the body cut at some size s >= u (s > u only for a first block that exceeds the
   server's configured maximum, blk_srv_init_szx).  For any sequence of such arrivals (any
   order, duplicates, gaps), any content of uninitialised storage, Size1 absent or exact:
   every delivery is the body, no block is rejected, and the number of deliveries is bounded,
   for every block j, by the number of arrivals whose payload covers block j. *)
Theorem C09_reassembly_server : forall body u (junk : Z -> Z) maxszx,
  0 <= u -> 0 < len body ->
  forall (size : option Z) (l : list blk_arr),
  size = None \/ size = Some (len body) ->
  Forall (fun a => exists s k, u <= s /\ 0 <= k < blk_nblocks body s /\
                               a = blk_arr_of body s size k /\
                               blk_srv_init_szx maxszx a = u) l ->
  Forall (fun o => match o with BoDeliver d => d = body | BoReject => False | _ => True end)
         (blk_run (blk_srv_step junk maxszx) None l) /\
  forall j, 0 <= j < blk_nblocks body u ->
    blk_count_deliveries (blk_run (blk_srv_step junk maxszx) None l) <= blk_count_cover u j l.
Proof. exact blk_srv_reassembly. Qed.
Print Assumptions C09_reassembly_server.

(* Client (Block2): same; the Size2 option may be absent or exact *)
Theorem C09_reassembly_client : forall body szx (junk : Z -> Z),
  0 <= szx -> 0 < len body ->
  forall (size : option Z) (l : list blk_arr),
  size = None \/ size = Some (len body) ->
  Forall (fun a => exists k, 0 <= k < blk_nblocks body szx /\
                             a = blk_arr_of body szx size k) l ->
  Forall (fun o => match o with BoDeliver d => d = body | BoReject => False | _ => True end)
         (blk_run (blk_cli_step junk) None l) /\
  forall j, 0 <= j < blk_nblocks body szx ->
    blk_count_deliveries (blk_run (blk_cli_step junk) None l) <= blk_count_num j l.
Proof. exact blk_cli_reassembly. Qed.
Print Assumptions C09_reassembly_client.

(* every block once, in order: continuations, then exactly one delivery of the body *)
Theorem C09_inorder_server : forall body szx (junk : Z -> Z) maxszx,
  0 <= szx -> 0 < len body -> forall size, size = None \/ size = Some (len body) ->
  2 <= blk_nblocks body szx ->
  blk_srv_init_szx maxszx (blk_arr_of body szx size 0) = szx ->
  blk_run (blk_srv_step junk maxszx) None
    (map (blk_arr_of body szx size) (blk_range (blk_nblocks body szx)))
  = repeat BoContinue (Z.to_nat (blk_nblocks body szx - 1)) ++ [BoDeliver body].
Proof. exact blk_srv_inorder. Qed.
Print Assumptions C09_inorder_server.

(* size negotiation by the server (the case repaired by e2e5ed9): first block at the client's
   size s0, the rest at the server's smaller size u, no loss: exactly one delivery *)
Theorem C09_inorder_server_renegotiated : forall body u (junk : Z -> Z) maxszx,
  0 <= u -> 0 < len body -> forall size s0, size = None \/ size = Some (len body) ->
  u < s0 -> blk_srv_init_szx maxszx (blk_arr_of body s0 size 0) = u ->
  let q := 2 ^ (s0 - u) in q < blk_nblocks body u ->
  blk_run (blk_srv_step junk maxszx) None
    (blk_arr_of body s0 size 0 ::
     map (blk_arr_of body u size) (blk_range_from q (blk_nblocks body u - q)))
  = repeat BoContinue (Z.to_nat (blk_nblocks body u - q)) ++ [BoDeliver body].
Proof. exact blk_srv_inorder_renegotiated. Qed.
Print Assumptions C09_inorder_server_renegotiated.

Theorem C09_inorder_client : forall body szx (junk : Z -> Z),
  0 <= szx -> 0 < len body -> forall size, size = None \/ size = Some (len body) ->
  blk_run (blk_cli_step junk) None
    (map (blk_arr_of body szx size) (blk_range (blk_nblocks body szx)))
  = repeat BoContinue (Z.to_nat (blk_nblocks body szx - 1)) ++ [BoDeliver body].
Proof. exact blk_cli_inorder. Qed.
Print Assumptions C09_inorder_client.

(* Concurrent uploads on one session, told apart by (resource, Request-Tag): the outcomes
   seen by one transfer are exactly those of its own requests run alone (the lg_srcv list and
   its lookup never let another transfer's blocks in) ... *)
Theorem C09_proto_projection : forall junk maxszx l tab (t : blk_key), blk_tab_uniq tab ->
  map snd (filter (fun p => blk_key_match t (fst p)) (blk_srv_recv_run junk maxszx tab l)) =
  blk_run (blk_srv_step junk maxszx) (blk_tab_find tab t)
          (map rq_arr (filter (fun r => blk_key_match t (rq_key r)) l)).
Proof. exact blk_srv_recv_projection. Qed.
Print Assumptions C09_proto_projection.

(* ... hence, for every interleaving, loss, duplication and delay of the requests of any
   number of transfers: every body delivered for Request-Tag t is the body of transfer t, and
   it is delivered no more often than any of its blocks arrived *)
Theorem C09_proto_safety_block1 : forall (bodies : Z -> bytes) (sizes : Z -> option Z) u junk maxszx res l,
  0 <= u ->
  Forall (fun r => exists t s k, rq_rtag r = Some t /\ rq_res r = res /\
                    u <= s /\ 0 <= k < blk_nblocks (bodies t) s /\
                    rq_arr r = blk_arr_of (bodies t) s (sizes t) k /\
                    blk_srv_init_szx maxszx (rq_arr r) = u) l ->
  forall t, 0 < len (bodies t) -> sizes t = None \/ sizes t = Some (len (bodies t)) ->
  let outs := map snd (filter (fun p => blk_key_match (res, Some t) (fst p))
                         (blk_srv_recv_run junk maxszx [] l)) in
  Forall (fun o => match o with BoDeliver d => d = bodies t | BoReject => False | _ => True end) outs /\
  forall j, 0 <= j < blk_nblocks (bodies t) u ->
    blk_count_deliveries outs <=
    blk_count_cover u j (map rq_arr (filter (fun r => blk_key_match (res, Some t) (rq_key r)) l)).
Proof. exact blk_srv_no_mix. Qed.
Print Assumptions C09_proto_safety_block1.

(* the Request-Tag is what this rests on: without it two uploads to one resource mix *)
Theorem C09_proto_mix_without_rtag_refuted :
  let b1 := map (fun i => Z.of_nat i) (seq 0 40) in
  let b2 := map (fun i => 100 + Z.of_nat i) (seq 0 40) in
  let rq b k := {| rq_res := 1; rq_rtag := None; rq_arr := blk_arr_of b 0 (Some 40) k |} in
  exists d, In ((1, None), BoDeliver d)
              (blk_srv_recv_run (fun _ => 0) 0 [] [rq b1 0; rq b2 1; rq b1 2]) /\
            d <> b1 /\ d <> b2.
Proof. exact blk_srv_mix_without_rtag. Qed.
Print Assumptions C09_proto_mix_without_rtag_refuted.

(* Block2: whatever mixture of blocks of different representations (ETags) reaches the
   client, in any order, with duplicates and gaps: a delivered body is one representation,
   complete and unmixed *)
Theorem C09_proto_safety_block2 : forall (bodies : Z -> bytes) (sizes : Z -> option Z) szx junk,
  0 <= szx -> forall l,
  Forall (fun r => exists e k, rs_etag r = Some e /\
              (0 < len (bodies e) /\ (sizes e = None \/ sizes e = Some (len (bodies e)))) /\
              0 <= k < blk_nblocks (bodies e) szx /\
              rs_arr r = blk_arr_of (bodies e) szx (sizes e) k) l ->
  Forall (fun o => match o with
                   | BoDeliver d => exists e, (0 < len (bodies e) /\
                        (sizes e = None \/ sizes e = Some (len (bodies e)))) /\ d = bodies e
                   | BoReject | BoPass => False
                   | _ => True
                   end)
         (blk_cli_recv_run junk {| cr_etag := None; cr_st := None; cr_restart := false |} l).
Proof.
  intros bodies sizes szx junk Hs l Hl.
  exact (blk_cli_epochs bodies sizes szx junk Hs l Hl {| cr_etag := None; cr_st := None; cr_restart := false |} I).
Qed.
Print Assumptions C09_proto_safety_block2.

(* no datagram lost or duplicated: exactly one delivery, of the body *)
Theorem C09_lossless_complete_block1 : forall body szx junk size,
  0 <= szx -> 0 < len body -> size = None \/ size = Some (len body) ->
  forall maxszx, 2 <= blk_nblocks body szx ->
  blk_srv_init_szx maxszx (blk_arr_of body szx size 0) = szx ->
  blk_b1_loop (Z.to_nat (blk_nblocks body szx)) junk maxszx body size
    {| sn_szx := szx; sn_last := -1; sn_off := 0 |} None 0 szx
  = repeat BoContinue (Z.to_nat (blk_nblocks body szx - 1)) ++ [BoDeliver body].
Proof. exact blk_b1_lossless. Qed.
Print Assumptions C09_lossless_complete_block1.

(* ... also when the server forces its smaller block size on the first block (the client's
   renumbering, coap_handle_response_send_block, against the server's unit conversion) *)
Theorem C09_lossless_complete_block1_renegotiated : forall body u junk size,
  0 <= u -> 0 < len body -> size = None \/ size = Some (len body) ->
  forall maxszx s0, u < s0 ->
  blk_srv_init_szx maxszx (blk_arr_of body s0 size 0) = u ->
  let q := 2 ^ (s0 - u) in q < blk_nblocks body u ->
  blk_b1_loop (Z.to_nat (blk_nblocks body u)) junk maxszx body size
    {| sn_szx := s0; sn_last := -1; sn_off := 0 |} None 0 s0
  = repeat BoContinue (Z.to_nat (blk_nblocks body u - q)) ++ [BoDeliver body].
Proof. exact blk_b1_lossless_renegotiated. Qed.
Print Assumptions C09_lossless_complete_block1_renegotiated.

Theorem C09_lossless_complete_block2 : forall body szx junk size,
  0 <= szx -> 0 < len body -> size = None \/ size = Some (len body) -> forall e,
  blk_b2_loop (Z.to_nat (blk_nblocks body szx)) junk body szx size (Some e)
    {| cr_etag := None; cr_st := None; cr_restart := false |} 0
  = repeat BoContinue (Z.to_nat (blk_nblocks body szx - 1)) ++ [BoDeliver body].
Proof. exact blk_b2_lossless. Qed.
Print Assumptions C09_lossless_complete_block2.

(* non-vacuity of the closed loops: a 100-byte body, 64-byte first block, 32-byte blocks at the
   server (a maximum of 16 cannot be configured: SZX 0 means "not set") *)
Theorem C09_lossless_example :
  let body := map (fun i => Z.of_nat i mod 251) (seq 0 100) in
  blk_b1_loop 8 (fun _ => 0) 1 body (Some 100) {| sn_szx := 2; sn_last := -1; sn_off := 0 |} None 0 2
    = [BoContinue; BoContinue; BoDeliver body] /\
  blk_b2_loop 8 (fun _ => 0) body 1 (Some 100) (Some 7) {| cr_etag := None; cr_st := None; cr_restart := false |} 0
    = [BoContinue; BoContinue; BoContinue; BoDeliver body].
Proof. vm_compute. split; reflexivity. Qed.
Print Assumptions C09_lossless_example.

(* the client-side transfer state (lg_xmit of an upload, lg_crcv of a download) is kept while
   the transfer makes progress, however long the whole transfer takes *)
Theorem C09_state_kept_while_progress : forall wait l last, blk_tev_paced wait last l ->
  fst (blk_timed_run wait true last l) = true.
Proof. exact blk_timed_kept. Qed.
Print Assumptions C09_state_kept_while_progress.

(* a timer that only counts from the creation of the state cuts a paced transfer off *)
Theorem C09_state_norefresh_refuted :
  exists l, blk_tev_paced 93 0 l /\ fst (blk_timed_run_norefresh 93 true 0 l) = false.
Proof. exact blk_timed_norefresh_refuted. Qed.
Print Assumptions C09_state_norefresh_refuted.

(* Block2, server side: stored large responses are kept per (resource, query, Request-Tag) key.
   Downloads that differ in the key, interleaved in any way, restarted, continued after the
   stored body is gone: every block sent in reply to a request is cut from the body of THAT
   request's key, and at the offset the request named (when the requested size is within the
   server's maximum). *)
Theorem C09_proto_safety_block2_server : forall bodies maxszx l t, blk_xtab_ok bodies t ->
  Forall (fun gr => match snd gr with
                    | GrError _ => True
                    | GrBlock num m szx data =>
                        exists s, data = blk_slice_c (bodies (gq_key (fst gr))) (blk_chunk s) num /\
                                  num = gq_num (fst gr) /\
                                  ((maxszx = 0 \/ gq_szx (fst gr) <= maxszx) -> gq_num (fst gr) <> 0 ->
                                   s = gq_szx (fst gr) /\ szx = gq_szx (fst gr))
                    end) (blk_srv2_run bodies maxszx t l).
Proof. exact blk_srv2_no_mix. Qed.
Print Assumptions C09_proto_safety_block2_server.
