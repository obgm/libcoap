From LibcoapV Require Import Base.Tactics Base.Bytes.
Local Open Scope Z_scope.

Lemma len_nonneg {A} (l : list A) : 0 <= len l.
Proof. unfold len; lia. Qed.

Lemma len_app {A} (a b : list A) : len (a ++ b) = len a + len b.
Proof. unfold len; rewrite app_length; lia. Qed.

Lemma len_cons {A} (x : A) l : len (x :: l) = 1 + len l.
Proof. unfold len; cbn [length]; lia. Qed.

Lemma len_nil {A} : len (@nil A) = 0.
Proof. reflexivity. Qed.

(* lia with lengths: [len] of a list of known shape becomes a number, and every [len] is seen
   to be non-negative *)
Ltac len_lia := unfold len in *; cbn [length] in *; lia.

Lemma take_app_exact {A} (a b : list A) : take (len a) (a ++ b) = a.
Proof.
  unfold take, len. rewrite Nat2Z.id.
  rewrite firstn_app, Nat.sub_diag, firstn_all. cbn [firstn]. apply app_nil_r.
Qed.

Lemma drop_app_exact {A} (a b : list A) : drop (len a) (a ++ b) = b.
Proof.
  unfold drop, len. rewrite Nat2Z.id.
  rewrite skipn_app, Nat.sub_diag, skipn_all. reflexivity.
Qed.

Lemma take_drop {A} n (l : list A) : take n l ++ drop n l = l.
Proof. unfold take, drop. apply firstn_skipn. Qed.

Lemma len_take_min {A} n (l : list A) : 0 <= n -> len (take n l) = Z.min n (len l).
Proof. unfold take, len. intros H. rewrite firstn_length. lia. Qed.

Lemma len_drop_max {A} n (l : list A) : 0 <= n -> len (drop n l) = Z.max 0 (len l - n).
Proof. unfold drop, len. intros H. rewrite skipn_length. lia. Qed.

Lemma len_take {A} n (l : list A) : 0 <= n <= len l -> len (take n l) = n.
Proof. intros H. rewrite len_take_min; lia. Qed.

Lemma len_drop {A} n (l : list A) : 0 <= n <= len l -> len (drop n l) = len l - n.
Proof. intros H. rewrite len_drop_max; lia. Qed.

Lemma take_nonpos {A} n (l : list A) : n <= 0 -> take n l = [].
Proof. intros H. unfold take. replace (Z.to_nat n) with 0%nat by lia. reflexivity. Qed.

Lemma drop_nonpos {A} n (l : list A) : n <= 0 -> drop n l = l.
Proof. intros H. unfold drop. replace (Z.to_nat n) with 0%nat by lia. reflexivity. Qed.

Lemma take_all {A} n (l : list A) : len l <= n -> take n l = l.
Proof. unfold take, len. intros H. apply firstn_all2. lia. Qed.

Lemma drop_all {A} n (l : list A) : len l <= n -> drop n l = [].
Proof. unfold drop, len. intros H. apply skipn_all2. lia. Qed.

(* reading at an index: the element there, and what follows it *)
Lemma drop_cons {A} (l : list A) d o b r :
  0 <= o -> drop o l = b :: r ->
  nth (Z.to_nat o) l d = b /\ o < len l /\ drop (o + 1) l = r.
Proof.
  intros Ho. unfold drop, len. replace (Z.to_nat (o + 1)) with (S (Z.to_nat o)) by lia.
  assert (E : o = Z.of_nat (Z.to_nat o)) by lia. revert E. generalize (Z.to_nat o) as n.
  intros n ->. clear Ho. revert l. induction n as [|n IH]; intros l H.
  - cbn [skipn] in H. subst l. cbn [nth skipn length]. repeat split; lia.
  - destruct l as [|x l]; [discriminate|]. cbn [skipn nth length] in *.
    destruct (IH l H) as (E & L & D). repeat split; [exact E | lia | exact D].
Qed.

Lemma drop_drop {A} (l : list A) a b : 0 <= a -> 0 <= b -> drop (a + b) l = drop b (drop a l).
Proof.
  intros Ha Hb. unfold drop. replace (Z.to_nat (a + b)) with (Z.to_nat a + Z.to_nat b)%nat by lia.
  generalize (Z.to_nat a) as n. intros n. revert l.
  induction n as [|n IH]; intros [|x l]; cbn [skipn Nat.add]; auto using skipn_nil.
Qed.

Lemma last_take {A} (l : list A) d n :
  1 <= n <= len l -> last (take n l) d = nth (Z.to_nat (n - 1)) l d.
Proof.
  unfold take, len. intros H. replace (Z.to_nat n) with (S (Z.to_nat (n - 1))) by lia.
  assert (L : (Z.to_nat (n - 1) < length l)%nat) by lia. revert L.
  generalize (Z.to_nat (n - 1)) as k. clear H n. intros k. revert l.
  induction k as [|k IH]; intros [|x l] L; cbn [length] in L.
  1, 3: lia.
  - reflexivity.
  - cbn [nth]. rewrite <- IH by lia. destruct l; [cbn [length] in L; lia | reflexivity].
Qed.

Lemma nth_take {A} n i (l : list A) d : (i < Z.to_nat n)%nat -> nth i (take n l) d = nth i l d.
Proof.
  unfold take. generalize (Z.to_nat n) as k. revert l.
  induction i as [|i IH]; intros [|x l] [|k] H; cbn [firstn nth]; try lia; try reflexivity.
  apply IH. lia.
Qed.

Lemma wfb_app a b : wfb (a ++ b) <-> wfb a /\ wfb b.
Proof. unfold wfb. apply Forall_app. Qed.

Lemma wfb_cons x l : wfb (x :: l) <-> is_byte x /\ wfb l.
Proof. unfold wfb. split; intros H. inversion H; auto. destruct H; constructor; auto. Qed.

Lemma wfb_take n l : wfb l -> wfb (take n l).
Proof.
  intros H. rewrite <- (take_drop n l) in H. apply wfb_app in H. tauto.
Qed.

Lemma wfb_drop n l : wfb l -> wfb (drop n l).
Proof.
  intros H. rewrite <- (take_drop n l) in H. apply wfb_app in H. tauto.
Qed.

Lemma wfbb_spec l : wfbb l = true <-> wfb l.
Proof.
  unfold wfbb, wfb. rewrite forallb_forall, Forall_forall.
  unfold is_byteb, is_byte. split; intros H x Hx; specialize (H x Hx); lia.
Qed.

Lemma is_byte_mod x : is_byte (x mod 256).
Proof. apply Z.mod_pos_bound. reflexivity. Qed.

Lemma be16_wfb x : wfb (be16 x).
Proof. repeat constructor; apply is_byte_mod. Qed.

Lemma be32_wfb x : wfb (be32 x).
Proof. repeat constructor; apply is_byte_mod. Qed.

(* lists with distinct keys *)
Lemma NoDup_snoc {A} (l : list A) x : NoDup l -> ~ In x l -> NoDup (l ++ [x]).
Proof.
  intros ND Hx. apply (NoDup_Add (Add_app x l [])). rewrite app_nil_r. auto.
Qed.

Lemma NoDup_map_inj {A B} (g : A -> B) l x y :
  NoDup (map g l) -> In x l -> In y l -> g x = g y -> x = y.
Proof.
  induction l as [|z r IH]; cbn [map In]; intros ND Hx Hy E; [tauto|].
  inversion ND as [|? ? Hz NDr]; subst.
  destruct Hx as [<-|Hx]; destruct Hy as [<-|Hy]; auto; exfalso; apply Hz.
  - rewrite E. apply in_map. exact Hy.
  - rewrite <- E. apply in_map. exact Hx.
Qed.

Lemma NoDup_map_filter {A B} (g : A -> B) q l : NoDup (map g l) -> NoDup (map g (filter q l)).
Proof.
  induction l as [|x r IH]; cbn [filter map]; intros ND; [exact ND|].
  inversion ND as [|? ? Hx NDr]; subst. destruct (q x); [|auto].
  cbn [map]. constructor; [|auto]. rewrite in_map_iff in *.
  intros (y & E & Hy). apply Hx. exists y. apply filter_In in Hy. tauto.
Qed.
