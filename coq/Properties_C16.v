(* C16 - URI text and CoAP options convert both ways without loss, confusion or overread.
   The proofs live in Uri/*Proofs.v; proved here are only one-line corollaries and the concrete
   examples and witnesses, by computation.
   Model: Uri/Uri.v (path, query, optlist, reconstruction), Uri/Split.v (coap_split_uri),
   Uri/Into.v (coap_uri_into_optlist, coap_host_is_unix_domain, coap_address_set_unix_domain), all
   with checked reads ([UOob] = a byte outside the length-delimited input was read).
   Spec:  Uri/Spec.v (RFC 3986 2.1 / 3 / 5.2.4, RFC 7252 6.4 / 6.5). *)
From LibcoapV Require Import Base.Tactics Base.Bytes Wire.OptCodec Uri.Uri Uri.Split Uri.Spec
  Uri.DotsProofs Uri.SegProofs Uri.PathProofs Uri.RebuildProofs Uri.SplitProofs Uri.Into
  Uri.IntoProofs Uri.BufProofs Uri.RfcProofs.
Local Open Scope Z_scope.

(* coap_split_path, for every byte string and every output buffer size: never reads outside the
   input ([UOk]), writes [used] <= buflen bytes = the options returned, and every option is a
   well-formed raw segment of the input decoded once, of a length an option header can carry,
   that is neither "." nor ".." *)
Theorem C16_no_overread_split_path : forall s buflen,
  0 <= buflen -> uri_buf_safe true (uri_raw_path_segs s) buflen (uri_split_path s buflen).
Proof. exact uri_split_path_safe. Qed.
Print Assumptions C16_no_overread_split_path.

Theorem C16_no_overread_split_query : forall s buflen,
  0 <= buflen -> uri_buf_safe false (uri_raw_query_items s) buflen (uri_split_query s buflen).
Proof. exact uri_split_query_safe. Qed.
Print Assumptions C16_no_overread_split_query.

(* coap_path_into_optlist, every byte string (malformed escapes included) and every chain: no
   overread, the options that were in the chain stay where they were, and no value added is
   "." or ".." *)
Theorem C16_no_overread_path_optlist : forall s optnum pre,
  exists added, uri_path_into_optlist s optnum pre = UOk (pre ++ uri_tag optnum added) /\
                Forall (fun v => uri_kind v = 0) added.
Proof. exact uri_path_into_optlist_safe. Qed.
Print Assumptions C16_no_overread_path_optlist.

Theorem C16_no_overread_query_optlist : forall s optnum pre,
  exists added, uri_query_into_optlist s optnum pre = UOk (pre ++ uri_tag optnum added).
Proof. exact uri_query_into_optlist_safe. Qed.
Print Assumptions C16_no_overread_query_optlist.

(* coap_split_uri / coap_split_proxy_uri never read outside the input; the parts returned are
   checked copies (uri_copy), so they lie inside it *)
Theorem C16_no_overread_split_uri : forall caps proxy s,
  uri_split caps proxy s <> UOob.
Proof. exact uri_split_no_oob. Qed.
Print Assumptions C16_no_overread_split_uri.

(* non-vacuity of the non-dot clause: dots() itself, on every byte string, is the table
   uri_dotkind_raw (Uri/DotsProofs.v) *)
Theorem C16_dots_table : forall seg rest,
  uri_dots (seg ++ rest) (len seg) = UOk (uri_dotkind_raw seg).
Proof. exact uri_dots_table. Qed.
Print Assumptions C16_dots_table.

(* for every path whose escapes are well-formed and whose decoded segments an option can carry
   (uri_fits: <= 65804 bytes), and every buffer that is large enough: the options are exactly
   split-on-'/', decode ONCE, resolve dot segments - both APIs *)
Theorem C16_path_options : forall s buflen opts,
  uri_spec_path s = Some opts -> uri_path_need s <= buflen ->
  uri_split_path s buflen = UOk (uri_encs opts, uri_sumlen (uri_encs opts)).
Proof. exact uri_split_path_spec. Qed.
Print Assumptions C16_path_options.

Theorem C16_path_options_optlist : forall s optnum pre opts,
  uri_spec_path s = Some opts ->
  uri_path_into_optlist s optnum pre = UOk (pre ++ uri_tag optnum opts).
Proof. exact uri_path_into_optlist_spec. Qed.
Print Assumptions C16_path_options_optlist.

(* decoded exactly once: "%2541" is the segment "%41" (not "A"), "%252e" is "%2e" (not a dot
   segment) - the spec side computed, the code side by the theorem above *)
Theorem C16_decode_once :
  uri_spec_path [37;50;53;52;49] = Some [[37;52;49]] /\
  uri_spec_path [97;47;37;50;53;50;101;47;98] = Some [[97]; [37;50;101]; [98]] /\
  uri_split_path [37;50;53;52;49] 64 = UOk ([[3;37;52;49]], 4).
Proof. repeat split; reflexivity. Qed.
Print Assumptions C16_decode_once.

(* relation to RFC 3986 5.2.4 taken literally: identical unless the LAST segment is a dot
   segment; then the RFC has one more, empty, segment *)
Theorem C16_path_rfc_agrees : forall ds,
  uri_ends_in_dot ds = false -> uri_rfc_resolve ds [] = uri_resolve ds [].
Proof. intros ds H. rewrite uri_rfc_resolve_eq, H. reflexivity. Qed.
Print Assumptions C16_path_rfc_agrees.

Theorem C16_path_rfc_trailing_dot : forall ds,
  uri_ends_in_dot ds = true -> uri_rfc_resolve ds [] = [] :: uri_resolve ds [].
Proof. intros ds H. rewrite uri_rfc_resolve_eq, H. reflexivity. Qed.
Print Assumptions C16_path_rfc_trailing_dot.

(* [uri_rfc_resolve] is RFC 3986 5.2.4: the algorithm transcribed literally on strings (input
   buffer / output buffer, rules 2A-2E) run on "/" ++ path equals the rendering of the resolved
   raw segments, for every byte string *)
Theorem C16_rfc3986_remove_dot_segments : forall p,
  uri_rfc_remove_dot_segments (47 :: p) =
  uri_render (rev (uri_rfc_resolve (uri_split_on uri_path_sep p) [])).
Proof. exact uri_rfc_remove_dot_segments_path. Qed.
Print Assumptions C16_rfc3986_remove_dot_segments.

(* the two examples of RFC 3986 5.2.4: "/a/b/c/./../../g" -> "/a/g", "mid/content=5/../6" -> "mid/6" *)
Theorem C16_rfc3986_examples :
  uri_rfc_remove_dot_segments [47;97;47;98;47;99;47;46;47;46;46;47;46;46;47;103] = [47;97;47;103] /\
  uri_rfc_remove_dot_segments [109;105;100;47;99;111;110;116;101;110;116;61;53;47;46;46;47;54]
    = [109;105;100;47;54].
Proof. split; reflexivity. Qed.
Print Assumptions C16_rfc3986_examples.

(* full statement "forall s, uri_spec_path s = uri_rfc_path s" does not hold (known finding
   F16-6; libcoap's unit tests t_parse_uri29/30 expect its result): *)
Theorem C16_path_rfc_trailing_dot_refuted :
  exists s, uri_spec_path s <> uri_rfc_path s /\
            uri_split_path s 64 = UOk ([[1; 97]], 2) /\ uri_rfc_path s = Some [[97]; []].
Proof. exists [97; 47; 46]. split; [vm_compute; discriminate|split; reflexivity]. Qed.
Print Assumptions C16_path_rfc_trailing_dot_refuted.

(* what is in the buffer reads back, with coap_opt_parse's model (Wire/OptCodec.v), as exactly the
   list of values: the buffer determines the options *)
Theorem C16_buffer_parses : forall l fuel,
  Forall (fun v => len v <= 65804) l -> (length l <= fuel)%nat ->
  opts_parse fuel 0 (concat (uri_encs l)) = Some (map (fun v => (0, v)) l, []).
Proof. exact uri_buffer_parses. Qed.
Print Assumptions C16_buffer_parses.

Theorem C16_buffer_injective : forall l1 l2,
  Forall (fun v => len v <= 65804) l1 -> Forall (fun v => len v <= 65804) l2 ->
  concat (uri_encs l1) = concat (uri_encs l2) -> l1 = l2.
Proof. exact uri_buffer_injective. Qed.
Print Assumptions C16_buffer_injective.

(* every result of coap_split_path / coap_split_query, for any input and any buffer size, is n
   options the parser reads back from exactly the [used] bytes written *)
Theorem C16_output_parses_path : forall s buflen,
  0 <= buflen ->
  exists vals used,
    uri_split_path s buflen = UOk (uri_encs vals, used) /\ 0 <= used <= buflen /\
    used = len (concat (uri_encs vals)) /\
    Forall (fun v => uri_kind v = 0) vals /\
    opts_parse (S (length vals)) 0 (concat (uri_encs vals)) = Some (map (fun v => (0, v)) vals, []).
Proof. exact uri_split_path_parses. Qed.
Print Assumptions C16_output_parses_path.

Theorem C16_output_parses_query : forall s buflen,
  0 <= buflen ->
  exists vals used,
    uri_split_query s buflen = UOk (uri_encs vals, used) /\ 0 <= used <= buflen /\
    used = len (concat (uri_encs vals)) /\
    opts_parse (S (length vals)) 0 (concat (uri_encs vals)) = Some (map (fun v => (0, v)) vals, []).
Proof. exact uri_split_query_parses. Qed.
Print Assumptions C16_output_parses_query.

(* the representability bound, explicitly: uri_OPT_MAX = 65804 = 269 + 65535.  A well-formed
   segment / item that decodes to more than 65804 bytes is refused by write_option
   (make_decoded_option returns -1, nothing is written, whatever the buffer size); one of at
   most 65804 bytes is written as exactly opt_enc 0 v when header + value fit.  65805 is the
   first length whose 16-bit extended field would wrap (to that of 269). *)
Theorem C16_option_length_bound : forall seg rest v st,
  uri_pct_decode seg = Some v ->
  (65804 < len v -> uri_write_opt uri_K (seg ++ rest) (len seg) st = UOk st) /\
  (len v <= 65804 -> len (opt_enc 0 v) <= uw_rem st ->
   uri_write_opt uri_K (seg ++ rest) (len seg) st =
   UOk {| uw_ropts := opt_enc 0 v :: uw_ropts st; uw_rem := uw_rem st - len (opt_enc 0 v) |}).
Proof. exact uri_write_opt_length_bound. Qed.
Print Assumptions C16_option_length_bound.

Theorem C16_option_length_bound_value :
  (uri_OPT_MAX = 269 + 65535 /\ uri_OPT_MAX = 65804) /\
  (opt_hdr 0 65805 = opt_hdr 0 269 /\ opt_hdr 0 65804 = [14; 255; 255]).
Proof. repeat split; reflexivity. Qed.
Print Assumptions C16_option_length_bound_value.

(* the same for the query: split on '&' up to '#', decode once, no dot handling *)
Theorem C16_query_options : forall s buflen opts,
  uri_spec_query s = Some opts -> uri_query_need s <= buflen ->
  uri_split_query s buflen = UOk (uri_encs opts, uri_sumlen (uri_encs opts)).
Proof. exact uri_split_query_spec. Qed.
Print Assumptions C16_query_options.

Theorem C16_query_options_optlist : forall s optnum pre opts,
  uri_spec_query s = Some opts ->
  uri_query_into_optlist s optnum pre = UOk (pre ++ uri_tag optnum opts).
Proof. exact uri_query_into_optlist_spec. Qed.
Print Assumptions C16_query_options_optlist.

(* coap_get_uri_path / coap_get_query: different segment lists never give the same string, a
   single empty segment counting as none; over the full byte alphabet *)
Theorem C16_rebuild_injective_path : forall l1 l2,
  Forall wfb l1 -> Forall wfb l2 -> uri_get_path l1 = uri_get_path l2 -> uri_norm l1 = uri_norm l2.
Proof. exact uri_get_path_injective. Qed.
Print Assumptions C16_rebuild_injective_path.

Theorem C16_rebuild_injective_query : forall l1 l2,
  Forall wfb l1 -> Forall wfb l2 -> uri_get_query l1 = uri_get_query l2 -> uri_norm l1 = uri_norm l2.
Proof. exact uri_get_query_injective. Qed.
Print Assumptions C16_rebuild_injective_query.

(* the string feeds back to the same options (for lists without the "." / ".." values that
   RFC 7252 5.10.1 forbids in Uri-Path; uri_fits: values an option can carry at all, <= 65804) *)
Theorem C16_rebuild_feeds_back_path : forall l buflen,
  Forall wfb l -> uri_fits l = true -> uri_no_dots l -> uri_path_need (uri_get_path l) <= buflen ->
  uri_path_to_opts (uri_get_path l) buflen = UOk (uri_encs (uri_norm l)).
Proof. exact uri_get_path_feeds_back. Qed.
Print Assumptions C16_rebuild_feeds_back_path.

Theorem C16_rebuild_feeds_back_query : forall l buflen,
  Forall wfb l -> uri_fits l = true -> uri_query_need (uri_get_query l) <= buflen ->
  uri_query_to_opts (uri_get_query l) buflen = UOk (uri_encs (uri_norm l)).
Proof. exact uri_get_query_feeds_back. Qed.
Print Assumptions C16_rebuild_feeds_back_query.

(* the length computed in the first pass of coap_get_uri_path / coap_get_query is the number of
   bytes the second pass writes *)
Theorem C16_rebuild_length : forall l,
  uri_join_len uri_unesc_path l = len (uri_get_path l) /\
  uri_join_len uri_unesc_query l = len (uri_get_query l).
Proof. intros l. split; apply uri_join_len_ok. Qed.
Print Assumptions C16_rebuild_length.

(* non-vacuity: a list with '/', '%', '&', '?', '#', an empty and a 0xff segment *)
Theorem C16_rebuild_example :
  let l := [[47; 37]; []; [38; 63; 35]; [255]] in
  Forall wfb l /\ uri_no_dots l /\
  uri_path_to_opts (uri_get_path l) 64 = UOk (uri_encs l) /\
  uri_query_to_opts (uri_get_query l) 64 = UOk (uri_encs l).
Proof.
  cbv zeta. split; [|split; [|split; reflexivity]].
  - repeat constructor; unfold is_byte; lia.
  - intros d [<-|[<-|[<-|[<-|[]]]]]; split; reflexivity.
Qed.
Print Assumptions C16_rebuild_example.

(* coap_split_uri accepts exactly the strings of the grammar and returns their parts: scheme
   table and build capabilities, host incl. IPv6 literal and Unix-domain names, port incl. default
   ports and the 65535 limit, path, query *)
Theorem C16_split_agrees : forall caps proxy s parts,
  uri_split caps proxy s = UOk (USplit parts) <-> uri_grammar caps proxy s parts.
Proof. exact uri_split_iff_grammar. Qed.
Print Assumptions C16_split_agrees.

(* non-vacuity / the cases of DESIGN.md section 7 #12 *)
Theorem C16_split_examples :
  let caps := {| ucap_dtls := true; ucap_tcp := true; ucap_tls := true; ucap_ws := true;
                 ucap_wss := true |} in
  (* coap://h?q *)
  uri_split caps false [99;111;97;112;58;47;47;104;63;113] =
    UOk (USplit {| up_scheme := 0; up_host := [104]; up_port := 5683; up_path := [];
                   up_query := [113] |}) /\
  (* coaps://[::1]:65535/a *)
  uri_split caps false [99;111;97;112;115;58;47;47;91;58;58;49;93;58;54;53;53;51;53;47;97] =
    UOk (USplit {| up_scheme := 1; up_host := [58;58;49]; up_port := 65535; up_path := [97];
                   up_query := [] |}) /\
  (* coap://h:65536 *)
  uri_split caps false [99;111;97;112;58;47;47;104;58;54;53;53;51;54] = UOk (UErr (-4)) /\
  (* http://h is for Proxy-Uri only *)
  uri_split caps false [104;116;116;112;58;47;47;104] = UOk (UErr (-1)) /\
  uri_split caps true [104;116;116;112;58;47;47;104] =
    UOk (USplit {| up_scheme := 4; up_host := [104]; up_port := 80; up_path := [];
                   up_query := [] |}).
Proof. cbv zeta. repeat split; reflexivity. Qed.
Print Assumptions C16_split_examples.

(* coap_uri_into_optlist on a split URI (RFC 7252 6.4 steps 5-9): whatever was in the chain,
   then the Uri-Host / Uri-Port decision, then the specified Uri-Path and Uri-Query values *)
Theorem C16_uri_into_optlist : forall u dst create chain po qo,
  uri_spec_path_opts (up_path u) = Some po -> uri_spec_query_opts (up_query u) = Some qo ->
  uri_into_optlist u dst create chain =
  UOk (chain ++ uri_hostport_opts u dst create ++ uri_tag 11 po ++ uri_tag 15 qo).
Proof. exact uri_into_optlist_spec. Qed.
Print Assumptions C16_uri_into_optlist.

(* ... and for every split URI, malformed escapes included: no overread, chain and host/port
   decision untouched by ".." segments, no "." / ".." among the Uri-Path values *)
Theorem C16_uri_into_optlist_safe : forall u dst create chain,
  exists pa qa,
    uri_into_optlist u dst create chain =
    UOk (chain ++ uri_hostport_opts u dst create ++ uri_tag 11 pa ++ uri_tag 15 qa) /\
    Forall (fun v => uri_kind v = 0) pa.
Proof. exact uri_into_optlist_safe. Qed.
Print Assumptions C16_uri_into_optlist_safe.

(* the two steps composed: a string of the grammar yields exactly these options, a string
   outside the grammar yields none *)
Theorem C16_uri_to_options : forall caps s u dst create chain po qo,
  uri_grammar caps false s u ->
  uri_spec_path_opts (up_path u) = Some po -> uri_spec_query_opts (up_query u) = Some qo ->
  uri_to_options caps s dst create chain =
  UOk (Some (chain ++ uri_hostport_opts u dst create ++ uri_tag 11 po ++ uri_tag 15 qo)).
Proof. exact uri_to_options_spec. Qed.
Print Assumptions C16_uri_to_options.

Theorem C16_uri_to_options_reject : forall caps s dst create chain,
  (forall u, ~ uri_grammar caps false s u) -> uri_to_options caps s dst create chain = UOk None.
Proof. exact uri_to_options_reject. Qed.
Print Assumptions C16_uri_to_options_reject.

(* coap_host_is_unix_domain (called by coap_uri_into_optlist on the length-delimited host) reads
   only the host->length bytes of the host, for every host; with the guard "length >= 2" the
   host "%2" would be read one byte past its end *)
Theorem C16_host_is_unix_no_overread : forall h,
  uri_host_is_unix_chk uri_UNIX_K h = UOk (uri_host_is_unix h).
Proof. exact uri_host_is_unix_chk_ok. Qed.
Print Assumptions C16_host_is_unix_no_overread.

Theorem C16_host_is_unix_k2_overreads : uri_host_is_unix_chk 2 [37; 50] = UOob.
Proof. exact uri_host_is_unix_k2_overreads. Qed.
Print Assumptions C16_host_is_unix_k2_overreads.

(* coap_address_set_unix_domain (src/coap_address.c, reached with the host of a split URI): reads
   only the host_len bytes of the host, for every host, and sun_path is the host with exactly the
   complete "%2F"/"%2f" escapes turned into '/', cut at COAP_UNIX_PATH_MAX - 1 and at a NUL *)
Theorem C16_unix_path_no_overread : forall pmax host,
  uri_unix_path pmax host =
  UOk (uri_upto (fun c => c =? 0) (take (pmax - 1) (uri_unix_pure host))).
Proof. exact uri_unix_path_ok. Qed.
Print Assumptions C16_unix_path_no_overread.

(* a guard that lets two remaining bytes pass reads past a host ending in "%2" *)
Theorem C16_unix_path_k2_overreads : uri_unix_path_k 2 26 [37; 50; 70; 120; 37; 50] = UOob.
Proof. reflexivity. Qed.
Print Assumptions C16_unix_path_k2_overreads.

(* the port coap_split_uri fills in when the URI has none is the one that needs no Uri-Port *)
Theorem C16_default_port_no_option : forall name dport ponly sch,
  In (name, dport, ponly, sch) uri_schemes -> uri_scheme_default_port sch = dport.
Proof. exact uri_default_port_no_option. Qed.
Print Assumptions C16_default_port_no_option.

(* The faithful model of the code as it was violates the statements above; the witnesses were
   replayed on the implementation (corpus/C16/fixed.case) and the code was repaired. *)

(* DESIGN.md section 7 #10: check_segment tested "length < 2": overread on a segment ending in
   "%X" *)
Theorem C16_check_segment_k2_overreads :
  uri_check_seg 2 [37; 97] 2 0 = UOob /\ uri_check_seg 2 [37; 97; 98; 120; 121] 2 0 = UOob.
Proof. split; reflexivity. Qed.
Print Assumptions C16_check_segment_k2_overreads.

(* DESIGN.md section 7 #11: '&' left unescaped inside a query item: reconstruction not
   injective *)
Theorem C16_query_old_not_injective :
  uri_get_query_g uri_unesc_query_old [[97; 38; 98]] = uri_get_query_g uri_unesc_query_old [[97]; [98]]
  /\ uri_norm [[97; 38; 98]] <> uri_norm [[97]; [98]].
Proof. split; [reflexivity|discriminate]. Qed.
Print Assumptions C16_query_old_not_injective.

(* ".." deleted options that were in the chain before the call (all but the first) *)
Theorem C16_optlist_old_loses_option :
  uri_path_into_optlist_g true (@uri_start_first_only opt) [46; 46; 47; 97] 11
                          [(3, [104]); (7, [112])] = UOk [(3, [104]); (11, [97])].
Proof. reflexivity. Qed.
Print Assumptions C16_optlist_old_loses_option.

(* coap_replace_percents without hex validation emitted "." for "%2." *)
Theorem C16_replace_percents_unchecked_emits_dot :
  uri_replace_pct_g false [37; 50; 46] = [46] /\ uri_dots_p [37; 50; 46] = 0.
Proof. split; reflexivity. Qed.
Print Assumptions C16_replace_percents_unchecked_emits_dot.
