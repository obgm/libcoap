(* Proofs about the compressed COSE object (OSCORE option value), the Partial IV encoding, the
   AEAD nonce and the AAD: round trip of the option value, injectivity of nonce and AAD. *)
From LibcoapV Require Import Base.Tactics Base.Bytes Base.BytesProofs Oscore.CcmProofs Oscore.Cbor
  Oscore.OscOption.
Local Open Scope Z_scope.

(* the initial byte splits into major type and additional information *)
Lemma osc_cbor_initial mt ai :
  0 <= mt < 8 -> 0 <= ai < 32 -> (32 * mt + ai) / 32 = mt /\ (32 * mt + ai) mod 32 = ai.
Proof. lia. Qed.

Lemma osc_be16_val v : 0 <= v < 65536 -> (v / 256) mod 256 * 256 + v mod 256 = v.
Proof. lia. Qed.

Lemma osc_be32_val v :
  0 <= v < 4294967296 ->
  (v / 16777216) mod 256 * 16777216 + (v / 65536) mod 256 * 65536 + (v / 256) mod 256 * 256 + v mod 256 = v.
Proof. lia. Qed.

Lemma osc_cbor_get_head_enc mt v r :
  0 <= mt < 8 -> 0 <= v < 4294967296 ->
  osc_cbor_get_head (osc_cbor_head mt v ++ r) = Some (mt, v, r).
Proof.
  intros Hmt Hv. unfold osc_cbor_head, be16, be32.
  destruct (v <? 24) eqn:E1; [|destruct (v <? 256); [|destruct (v <? 65536) eqn:E3;
    [|replace (v <? 4294967296) with true by lia]]]; cbn [app]; unfold osc_cbor_get_head.
  - destruct (osc_cbor_initial mt v) as [-> ->]; [lia|lia|]. rewrite E1. reflexivity.
  - destruct (osc_cbor_initial mt 24) as [-> ->]; [lia|lia|]. reflexivity.
  - destruct (osc_cbor_initial mt 25) as [-> ->]; [lia|lia|]. rewrite osc_be16_val by lia. reflexivity.
  - destruct (osc_cbor_initial mt 26) as [-> ->]; [lia|lia|]. rewrite osc_be32_val by lia. reflexivity.
Qed.

Lemma osc_cbor_get_bstr_enc b r :
  len b < 4294967296 -> osc_cbor_get_bstr (osc_cbor_bstr b ++ r) = Some (b, r).
Proof.
  intros H. unfold osc_cbor_get_bstr, osc_cbor_bstr. rewrite <- app_assoc.
  pose proof (len_nonneg b).
  rewrite osc_cbor_get_head_enc by lia.
  rewrite Z.eqb_refl. rewrite len_app. pose proof (len_nonneg r).
  replace (len b <=? len b + len r) with true by lia. cbn [andb].
  rewrite take_app_exact, drop_app_exact. reflexivity.
Qed.

Lemma osc_cbor_bstr_inj a b r r' :
  len a < 4294967296 -> len b < 4294967296 ->
  osc_cbor_bstr a ++ r = osc_cbor_bstr b ++ r' -> a = b /\ r = r'.
Proof.
  intros Ha Hb H. pose proof (osc_cbor_get_bstr_enc a r Ha) as E1.
  rewrite H, osc_cbor_get_bstr_enc in E1 by assumption. inversion E1. split; reflexivity.
Qed.

Lemma osc_cbor_get_int_enc v r :
  -4294967296 <= v < 4294967296 -> osc_cbor_get_int (osc_cbor_int v ++ r) = Some (v, r).
Proof.
  intros H. unfold osc_cbor_get_int, osc_cbor_int. destruct (v <? 0) eqn:E.
  - rewrite osc_cbor_get_head_enc by lia. change (1 =? 0) with false. change (1 =? 1) with true.
    cbv iota. replace (-1 - (-1 - v)) with v by lia. reflexivity.
  - rewrite osc_cbor_get_head_enc by lia. reflexivity.
Qed.

Lemma osc_cbor_int_inj a b r r' :
  -4294967296 <= a < 4294967296 -> -4294967296 <= b < 4294967296 ->
  osc_cbor_int a ++ r = osc_cbor_int b ++ r' -> a = b /\ r = r'.
Proof.
  intros Ha Hb H. pose proof (osc_cbor_get_int_enc a r Ha) as E1.
  rewrite H, osc_cbor_get_int_enc in E1 by assumption. inversion E1. split; reflexivity.
Qed.

Lemma osc_cbor_head_len mt v : 1 <= len (osc_cbor_head mt v) <= 9.
Proof.
  unfold osc_cbor_head, osc_cbor_be64, be16, be32.
  repeat case_if; clear; unfold len; cbn [length app]; lia.
Qed.

Lemma osc_external_aad_len alg kid piv :
  len (osc_external_aad alg kid piv) <= 70 + len kid + len piv.
Proof.
  unfold osc_external_aad, osc_cbor_array, osc_cbor_uint, osc_cbor_int, osc_cbor_bstr.
  rewrite !len_app.
  pose proof (osc_cbor_head_len 4 5). pose proof (osc_cbor_head_len 0 1).
  pose proof (osc_cbor_head_len 4 1). pose proof (osc_cbor_head_len 1 (-1 - alg)).
  pose proof (osc_cbor_head_len 0 alg). pose proof (osc_cbor_head_len 2 (len kid)).
  pose proof (osc_cbor_head_len 2 (len piv)).
  pose proof (osc_cbor_head_len 2 (len (@nil Z))).
  change (len (@nil Z)) with 0 in *.
  destruct (alg <? 0); lia.
Qed.

Theorem osc_external_aad_inj alg kid piv alg' kid' piv' :
  -4294967296 <= alg < 4294967296 -> -4294967296 <= alg' < 4294967296 ->
  len kid < 65536 -> len kid' < 65536 -> len piv < 65536 -> len piv' < 65536 ->
  osc_external_aad alg kid piv = osc_external_aad alg' kid' piv' ->
  alg = alg' /\ kid = kid' /\ piv = piv'.
Proof.
  intros Ha Ha' Hk Hk' Hp Hp' H. unfold osc_external_aad in H.
  do 3 apply app_inv_head in H.
  apply osc_cbor_int_inj in H; try assumption. destruct H as [-> H].
  apply osc_cbor_bstr_inj in H; try lia. destruct H as [-> H].
  apply osc_cbor_bstr_inj in H; try lia. destruct H as [-> _].
  repeat split.
Qed.

Theorem osc_aad_inj alg kid piv alg' kid' piv' :
  -4294967296 <= alg < 4294967296 -> -4294967296 <= alg' < 4294967296 ->
  len kid < 65536 -> len kid' < 65536 -> len piv < 65536 -> len piv' < 65536 ->
  osc_aad alg kid piv = osc_aad alg' kid' piv' ->
  alg = alg' /\ kid = kid' /\ piv = piv'.
Proof.
  intros Ha Ha' Hk Hk' Hp Hp' H. unfold osc_aad in H.
  do 3 apply app_inv_head in H.
  pose proof (osc_external_aad_len alg kid piv). pose proof (osc_external_aad_len alg' kid' piv').
  rewrite <- (app_nil_r (osc_cbor_bstr (osc_external_aad alg kid piv))) in H.
  rewrite <- (app_nil_r (osc_cbor_bstr (osc_external_aad alg' kid' piv'))) in H.
  apply osc_cbor_bstr_inj in H; try lia. destruct H as [H _].
  apply osc_external_aad_inj in H; assumption.
Qed.

Lemma osc_piv_bytes_len x : 0 <= x < 1099511627776 -> 1 <= len (osc_piv_bytes x) <= 5.
Proof.
  intros _. unfold osc_piv_bytes, be16, be32. repeat case_if; clear; unfold len; cbn [length]; lia.
Qed.

Lemma osc_piv_bytes_wfb x : 0 <= x < 1099511627776 -> wfb (osc_piv_bytes x).
Proof.
  intros H. unfold osc_piv_bytes, be16, be32.
  repeat case_if; repeat (apply Forall_cons; [try apply is_byte_mod|]); try apply Forall_nil;
    unfold is_byte; lia.
Qed.

Lemma osc_fold_be32 a v :
  fold_left (fun a b => a * 256 + b) (be32 v) a =
  a * 4294967296 +
  ((v / 16777216) mod 256 * 16777216 + (v / 65536) mod 256 * 65536 + (v / 256) mod 256 * 256 + v mod 256).
Proof. cbn [be32 fold_left]. ring. Qed.

Lemma osc_piv_bytes_val x : 0 <= x < 1099511627776 -> osc_be_val (osc_piv_bytes x) = x.
Proof.
  intros H. unfold osc_piv_bytes, osc_be_val. repeat case_if.
  1-3: unfold be16; cbn [fold_left]; lia.
  - rewrite osc_fold_be32, osc_be32_val; lia.
  - (* five bytes: the leading byte, then the rest as a 32-bit value *)
    cbn [fold_left]. rewrite osc_fold_be32, osc_be32_val; lia.
Qed.

Theorem osc_piv_bytes_inj x y :
  0 <= x < 1099511627776 -> 0 <= y < 1099511627776 -> osc_piv_bytes x = osc_piv_bytes y -> x = y.
Proof.
  intros Hx Hy H. rewrite <- (osc_piv_bytes_val x Hx), <- (osc_piv_bytes_val y Hy), H. reflexivity.
Qed.

(* the flag byte gives back the Partial IV length and the h and k bits *)
Lemma osc_flag_fields n h k :
  0 <= n <= 5 -> h = 0 \/ h = 16 -> k = 0 \/ k = 8 ->
  (n + h + k) mod 8 = n /\ ((n + h + k) / 16) mod 2 = h / 16 /\ ((n + h + k) / 8) mod 2 = k / 8.
Proof. lia. Qed.

Theorem osc_opt_decode_encode piv (kidctx kid : option bytes) :
  len piv <= 5 ->
  match kidctx with Some c => len c <= 255 | None => True end ->
  osc_opt_decode (osc_opt_encode piv kidctx kid) = Some (piv, kidctx, kid).
Proof.
  intros Hp Hc. pose proof (len_nonneg piv) as Hp0. unfold osc_opt_encode. cbv zeta.
  set (h := match kidctx with Some _ => 16 | None => 0 end).
  set (k := match kid with Some _ => 8 | None => 0 end).
  assert (Hh : h = 0 \/ h = 16) by (destruct kidctx; auto).
  assert (Hk : k = 0 \/ k = 8) by (destruct kid; auto).
  destruct (len piv + h + k =? 0) eqn:E0.
  { destruct piv; [destruct kidctx, kid; (reflexivity || discriminate E0)|].
    unfold len in E0. cbn [length] in E0. lia. }
  destruct (osc_flag_fields (len piv) h k) as (Fn & Fh & Fk); try assumption; [lia|].
  unfold osc_opt_decode. cbv zeta. rewrite Fn, Fh, Fk. clear Fn Fh Fk.
  replace ((len piv + h + k <? 1) || (32 <=? len piv + h + k)) with false by lia.
  replace (5 <? len piv) with false by lia.
  rewrite len_app. match goal with |- context [len piv + len ?l <? len piv] =>
    pose proof (len_nonneg l); replace (len piv + len l <? len piv) with false by lia end.
  rewrite take_app_exact, drop_app_exact.
  (* the kid context field; what is left is the kid *)
  destruct kidctx as [c|]; [|destruct kid; reflexivity].
  change (h / 16 =? 1) with true. cbn [app]. rewrite len_app.
  match goal with |- context [len c + len ?l <? len c] =>
    pose proof (len_nonneg l); replace (len c + len l <? len c) with false by lia end.
  rewrite take_app_exact, drop_app_exact. destruct kid; reflexivity.
Qed.

Lemma osc_lpad_length n l : (length l <= n)%nat -> length (osc_lpad n l) = n.
Proof. intros H. unfold osc_lpad. rewrite app_length, repeat_length. lia. Qed.

Lemma osc_be_val_zeros k l : osc_be_val (repeat 0 k ++ l) = osc_be_val l.
Proof.
  unfold osc_be_val. rewrite fold_left_app.
  replace (fold_left (fun a b => a * 256 + b) (repeat 0 k) 0) with 0; [reflexivity|].
  induction k as [|k IH]; cbn [repeat fold_left]; [reflexivity|]. exact IH.
Qed.

(* equal nonces from ids of at most 7 bytes force equal ids and equal zero-extended Partial IVs
   (the byte-level form, used for received options) *)
Lemma osc_nonce_inj_bytes id piv id' piv' iv :
  len id <= 7 -> len id' <= 7 -> len piv <= 5 -> len piv' <= 5 ->
  osc_nonce id piv iv = osc_nonce id' piv' iv ->
  id = id' /\ osc_lpad 5 piv = osc_lpad 5 piv'.
Proof.
  intros Hi Hi' Hp Hp' H. unfold osc_nonce in H. apply osc_xor_inj in H.
  unfold osc_nonce_plain in H. inversion H as [[Hlen Hrest]]. clear H.
  unfold len in *.
  apply osc_app_inj_len in Hrest.
  2:{ rewrite !osc_lpad_length by lia. reflexivity. }
  destruct Hrest as [Hid Hpiv]. split; [|exact Hpiv].
  unfold osc_lpad in Hid. replace (length id') with (length id) in Hid by lia.
  apply app_inv_head in Hid. exact Hid.
Qed.

Theorem osc_nonce_inj id seq id' seq' iv :
  len id <= 7 -> len id' <= 7 ->
  0 <= seq < 1099511627776 -> 0 <= seq' < 1099511627776 ->
  osc_nonce id (osc_piv_bytes seq) iv = osc_nonce id' (osc_piv_bytes seq') iv ->
  id = id' /\ seq = seq'.
Proof.
  intros Hi Hi' Hs Hs' H.
  destruct (osc_nonce_inj_bytes _ _ _ _ _ Hi Hi' (proj2 (osc_piv_bytes_len _ Hs))
              (proj2 (osc_piv_bytes_len _ Hs')) H) as [Hid Hpiv].
  split; [exact Hid|]. apply (f_equal osc_be_val) in Hpiv. unfold osc_lpad in Hpiv.
  rewrite !osc_be_val_zeros, !osc_piv_bytes_val in Hpiv by assumption. exact Hpiv.
Qed.

Lemma osc_take_drop_len n (r : bytes) : 0 <= n <= len r -> len (take n r) = n.
Proof. apply len_take. Qed.

(* the strict decoder accepts only canonical encodings: whatever decodes is the encoding of what
   it decodes to (no second spelling of the same content) *)
Theorem osc_opt_encode_decode v piv kc kid :
  wfb v -> osc_opt_decode v = Some (piv, kc, kid) -> osc_opt_encode piv kc kid = v.
Proof.
  intros Hw H. unfold osc_opt_decode in H. destruct v as [|f r].
  { inversion H. reflexivity. }
  apply wfb_cons in Hw. destruct Hw as [_ Hr]. cbv zeta in H.
  destruct ((f <? 1) || (32 <=? f)) eqn:E1; [discriminate|].
  (* the flag byte is made of its three fields; from here on they are opaque *)
  assert (A : f = f mod 8 + 16 * ((f / 16) mod 2) + 8 * ((f / 8) mod 2) /\ 0 <= f mod 8 /\
              0 <= (f / 16) mod 2 < 2 /\ 0 <= (f / 8) mod 2 < 2 /\ 1 <= f) by lia.
  clear E1. revert A H.
  generalize (f mod 8) as n, ((f / 16) mod 2) as h, ((f / 8) mod 2) as k. intros n h k A H.
  destruct (5 <? n) eqn:E5; [discriminate|].
  destruct (len r <? n) eqn:El; [discriminate|].
  assert (Hn : len (take n r) = n) by (apply len_take; lia).
  destruct (h =? 1) eqn:Eh.
  - (* kid context present *)
    destruct (drop n r) as [|s r2] eqn:Ed; [discriminate|].
    destruct (len r2 <? s) eqn:Es; [discriminate|].
    assert (Hs : is_byte s).
    { assert (W : wfb (drop n r)) by (apply wfb_drop; exact Hr).
      rewrite Ed in W. apply wfb_cons in W. apply W. }
    assert (Hc : len (take s r2) = s) by (apply len_take; unfold is_byte in Hs; lia).
    destruct (k =? 1) eqn:Ek.
    + inversion H; subst piv kc kid. clear H. unfold osc_opt_encode.
      rewrite Hn, Hc. replace (n + 16 + 8 =? 0) with false by lia.
      replace (n + 16 + 8) with f by lia.
      f_equal. cbn [app]. rewrite take_drop, <- Ed. apply take_drop.
    + destruct (drop s r2) as [|x tl] eqn:Ed2; [|discriminate].
      inversion H; subst piv kc kid. clear H. unfold osc_opt_encode.
      rewrite Hn, Hc. replace (n + 16 + 0 =? 0) with false by lia.
      replace (n + 16 + 0) with f by lia.
      f_equal. rewrite app_nil_r.
      assert (E2 : take s r2 = r2) by (rewrite <- (take_drop s r2) at 2; rewrite Ed2, app_nil_r; reflexivity).
      rewrite E2, <- Ed. apply take_drop.
  - destruct (k =? 1) eqn:Ek.
    + inversion H; subst piv kc kid. clear H. unfold osc_opt_encode.
      rewrite Hn. replace (n + 0 + 8 =? 0) with false by lia.
      replace (n + 0 + 8) with f by lia.
      f_equal. cbn [app]. apply take_drop.
    + destruct (drop n r) as [|x tl] eqn:Ed; [|discriminate].
      inversion H; subst piv kc kid. clear H. unfold osc_opt_encode.
      rewrite Hn. replace (n + 0 + 0 =? 0) with false by lia.
      replace (n + 0 + 0) with f by lia.
      f_equal. cbn [app]. rewrite app_nil_r.
      rewrite <- (take_drop n r) at 2. rewrite Ed, app_nil_r. reflexivity.
Qed.
