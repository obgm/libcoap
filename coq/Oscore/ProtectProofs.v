(* Proofs about the OSCORE reference of Oscore/Protect.v: class E/U split and merge, plaintext
   round trip, verification inverts protection for requests and responses, and what acceptance
   implies (tamper rejection, stated for an ideal AEAD in a Section). *)
From LibcoapV Require Import Base.Tactics Base.Bytes Base.BytesProofs Wire.OptCodec Wire.Pdu
  Wire.PduProofs Wire.BuildProofs Oscore.Ccm Oscore.CcmProofs Oscore.OscOption
  Oscore.OscOptionProofs Oscore.Protect Oscore.Vectors.
Local Open Scope Z_scope.

Lemma osc_ascending_filter f l : forall p, ascending p l -> ascending p (filter f l).
Proof.
  induction l as [|o tl IH]; intros p H; cbn [filter]; [exact I|].
  cbn [ascending] in H. destruct H as [H1 H2]. destruct (f o).
  - cbn [ascending]. split; [exact H1|]. apply IH. exact H2.
  - apply IH. apply (ascending_weaken tl (fst o)); assumption.
Qed.

Lemma osc_ascending_map g l :
  (forall o, fst (g o) = fst o) -> forall p, ascending p l -> ascending p (map g l).
Proof.
  intros Hg. induction l as [|o tl IH]; intros p H; cbn [map]; [exact I|].
  cbn [ascending] in *. rewrite Hg. destruct H as [H1 H2]. split; [exact H1|]. apply IH. exact H2.
Qed.

Lemma osc_ascending_snoc l : forall p x,
  ascending p (l ++ [x]) -> ascending p l /\ (forall o, In o l -> fst o <= fst x) /\ p <= fst x.
Proof.
  induction l as [|a tl IH]; intros p x H.
  - cbn [app ascending] in H. cbn [ascending]. repeat split; [intros o []|tauto].
  - cbn [app ascending] in H. destruct H as [H1 H2]. destruct (IH _ _ H2) as (A & B & C).
    cbn [ascending]. repeat split; try assumption; [|lia].
    intros o [<-|Ho]; [exact C|]. apply B. exact Ho.
Qed.

Lemma osc_insert_all_le n v l :
  (forall o, In o l -> fst o <= n) -> insert_opt n v l = l ++ [(n, v)].
Proof.
  induction l as [|[k w] tl IH]; intros H; cbn [insert_opt app]; [reflexivity|].
  assert (k <= n) by (apply (H (k, w)); left; reflexivity).
  replace (k <=? n) with true by lia. rewrite IH; [reflexivity|].
  intros o Ho. apply H. right. exact Ho.
Qed.

Lemma osc_insert_snoc_lt n v l x :
  n < fst x -> insert_opt n v (l ++ [x]) = insert_opt n v l ++ [x].
Proof.
  intros Hn. induction l as [|[k w] tl IH]; cbn [insert_opt app].
  - destruct x as [kx wx]. cbn [fst] in Hn. replace (kx <=? n) with false by lia. reflexivity.
  - destruct (k <=? n); [rewrite IH|]; reflexivity.
Qed.

Lemma osc_merge_snoc_lt inner : forall outer x,
  (forall i, In i inner -> fst i < fst x) ->
  osc_merge (outer ++ [x]) inner = osc_merge outer inner ++ [x].
Proof.
  unfold osc_merge. induction inner as [|i tl IH]; intros outer x H; cbn [fold_left]; [reflexivity|].
  rewrite osc_insert_snoc_lt by (apply H; left; reflexivity).
  apply IH. intros j Hj. apply H. right. exact Hj.
Qed.

Lemma osc_filter_insert_out f n v l :
  f (n, v) = false -> filter f (insert_opt n v l) = filter f l.
Proof.
  intros Hf. induction l as [|[k w] tl IH]; cbn [insert_opt filter].
  - rewrite Hf. reflexivity.
  - destruct (k <=? n); cbn [filter]; [rewrite IH; reflexivity|rewrite Hf; reflexivity].
Qed.

Lemma osc_find_insert n v l :
  osc_has n l = false -> osc_find_opt n (insert_opt n v l) = Some (n, v).
Proof.
  unfold osc_has, osc_find_opt. induction l as [|[k w] tl IH]; intros H; cbn [insert_opt find fst].
  - rewrite Z.eqb_refl. reflexivity.
  - cbn [existsb fst] in H. apply orb_false_iff in H. destruct H as [H1 H2].
    destruct (k <=? n); cbn [find fst].
    + rewrite H1. apply IH. exact H2.
    + rewrite Z.eqb_refl. reflexivity.
Qed.

Lemma osc_has_filter n f l : osc_has n l = false -> osc_has n (filter f l) = false.
Proof.
  unfold osc_has. induction l as [|o tl IH]; intros H; cbn [filter existsb]; [reflexivity|].
  cbn [existsb] in H. apply orb_false_iff in H. destruct H as [H1 H2].
  destruct (f o); cbn [existsb]; [rewrite H1|]; apply IH; exact H2.
Qed.

Lemma osc_merge_app (outer a b : list opt) :
  osc_merge outer (a ++ b) = osc_merge (osc_merge outer a) b.
Proof. unfold osc_merge. apply fold_left_app. Qed.

Lemma osc_merge_one (outer : list opt) (x : opt) :
  osc_merge outer [x] = insert_opt (fst x) (snd x) outer.
Proof. reflexivity. Qed.

(* the options of a message, cut into two classes by any predicate on the option number and
   merged again by sorted insertion, are the original list *)
Theorem osc_split_merge (P : Z -> bool) (l : list opt) :
  ascending 0 l ->
  osc_merge (filter (fun o : opt => P (fst o)) l) (filter (fun o : opt => negb (P (fst o))) l) = l.
Proof.
  induction l as [|x l IH] using rev_ind; intros Hasc; [reflexivity|].
  destruct (osc_ascending_snoc _ _ _ Hasc) as (Hl & Hle & _).
  rewrite !filter_app. cbn [filter]. destruct (P (fst x)) eqn:Px; cbn [negb].
  - rewrite app_nil_r. rewrite osc_merge_snoc_lt.
    + f_equal. apply IH. exact Hl.
    + intros i Hi. apply filter_In in Hi. destruct Hi as [Hi Hp].
      specialize (Hle i Hi). destruct (Z.eq_dec (fst i) (fst x)) as [E|E]; [|lia].
      rewrite E, Px in Hp. discriminate.
  - rewrite app_nil_r, osc_merge_app, osc_merge_one. pose proof (IH Hl) as E. rewrite E.
    rewrite osc_insert_all_le by exact Hle. destruct x; reflexivity.
Qed.

(* what a recipient keeps of the outer options a sender produced = the class U options *)
Lemma osc_kept_outer_spec n :
  negb (osc_outer_discard n) && (osc_is_outer n || (n =? OSC_OBSERVE)) = osc_is_outer n.
Proof.
  unfold osc_outer_discard, osc_is_outer, OSC_OBSERVE. cbn [existsb].
  destruct (n =? 3) eqn:E3; [replace n with 3 by lia; reflexivity|].
  destruct (n =? 7) eqn:E7; [replace n with 7 by lia; reflexivity|].
  destruct (n =? 16) eqn:E16; [replace n with 16 by lia; reflexivity|].
  destruct (n =? 39) eqn:E39; [replace n with 39 by lia; reflexivity|].
  cbn [orb]. destruct (n =? 6); [|rewrite andb_false_r; reflexivity].
  rewrite andb_true_r. destruct (n =? 1), (n =? 4), (n =? 5); reflexivity.
Qed.

Lemma osc_filter_filter {A} (f g : A -> bool) l :
  filter f (filter g l) = filter (fun x => f x && g x) l.
Proof.
  induction l as [|x l IH]; cbn [filter]; [reflexivity|].
  destruct (g x) eqn:G; cbn [filter]; rewrite ?andb_true_r, ?andb_false_r;
    destruct (f x); rewrite IH; reflexivity.
Qed.

Lemma osc_kept_of_sent ov l :
  osc_kept_outer (insert_opt OSC_OPT ov (osc_outer_opts l)) = filter (fun o => osc_is_outer (fst o)) l.
Proof.
  unfold osc_kept_outer. rewrite osc_filter_insert_out by reflexivity.
  unfold osc_outer_opts. rewrite osc_filter_filter. apply filter_ext.
  intros o. apply osc_kept_outer_spec.
Qed.

Theorem osc_parse_plaintext_enc code inner payload :
  ascending 0 inner -> Forall opt_wf inner ->
  osc_parse_plaintext (osc_plaintext code inner payload) = Some (code, inner, payload).
Proof.
  intros Hasc Hwf. unfold osc_parse_plaintext, osc_plaintext.
  rewrite opts_parse_enc; try assumption; try lia.
  - destruct payload as [|x p]; reflexivity.
  - destruct payload as [|x p]; [left; reflexivity|right; eexists; reflexivity].
  - rewrite app_length. pose proof (opts_enc_length inner 0). lia.
Qed.

Definition osc_paired (c s : osc_sec) : Prop :=
  sc_sid c = sc_rid s /\ sc_rid c = sc_sid s /\ sc_skey c = sc_rkey s /\ sc_rkey c = sc_skey s /\
  sc_iv c = sc_iv s /\ sc_idctx c = sc_idctx s.

(* the two endpoints that derive from the same master secret, salt and id context with swapped
   ids are paired *)
Lemma osc_derive_paired secret salt idctx a b :
  osc_paired (osc_derive secret salt idctx a b) (osc_derive secret salt idctx b a).
Proof. unfold osc_paired, osc_derive. cbn [sc_sid sc_rid sc_skey sc_rkey sc_iv sc_idctx]. repeat split. Qed.

Lemma osc_paired_sym c s : osc_paired c s -> osc_paired s c.
Proof. unfold osc_paired. intros (A & B & C & D & E & F). repeat split; congruence. Qed.

(* messages OSCORE can protect: options in wire order and encodable, no OSCORE option yet,
   Proxy-Uri already split *)
Definition osc_msg_ok (m : msg) : Prop :=
  Forall opt_wf (m_opts m) /\ ascending 0 (m_opts m) /\
  osc_has OSC_OPT (m_opts m) = false /\ osc_has 35 (m_opts m) = false.

Definition osc_ctx_ok (c : osc_sec) : Prop :=
  match sc_idctx c with Some x => len x <= 255 | None => True end.

Lemma osc_inner_req (l : list opt) :
  osc_inner_opts true l = filter (fun o : opt => negb (osc_is_outer (fst o))) l.
Proof.
  unfold osc_inner_opts.
  transitivity (map (fun o : opt => o) (filter (fun o : opt => negb (osc_is_outer (fst o))) l)).
  - apply map_ext. intros o. cbn [negb]. rewrite andb_false_r. reflexivity.
  - apply map_id.
Qed.

Lemma osc_filter_map_fst (Q : Z -> bool) (g : opt -> opt) (l : list opt) :
  (forall o, fst (g o) = fst o) ->
  filter (fun o : opt => Q (fst o)) (map g l) = map g (filter (fun o : opt => Q (fst o)) l).
Proof.
  intros Hg. induction l as [|o l IH]; cbn [map filter]; [reflexivity|].
  rewrite Hg. destruct (Q (fst o)); cbn [map]; rewrite IH; reflexivity.
Qed.

Lemma osc_filter_map_id (Q : Z -> bool) (g : opt -> opt) (l : list opt) :
  (forall o, fst (g o) = fst o) -> (forall o, Q (fst o) = true -> g o = o) ->
  filter (fun o : opt => Q (fst o)) (map g l) = filter (fun o : opt => Q (fst o)) l.
Proof.
  intros Hg Hid. induction l as [|o l IH]; cbn [map filter]; [reflexivity|].
  rewrite Hg. destruct (Q (fst o)) eqn:E; rewrite IH; [rewrite (Hid o E)|]; reflexivity.
Qed.

Lemma osc_fix_fst piv (o : opt) :
  fst (if fst o =? OSC_OBSERVE then (OSC_OBSERVE, osc_obs_of_piv piv) else o) = fst o.
Proof. destruct (fst o =? OSC_OBSERVE) eqn:E; cbn [fst]; [lia|reflexivity]. Qed.

(* what the recipient of a response merges = the original options with Observe re-valued *)
Lemma osc_resp_merge piv (l : list opt) :
  ascending 0 l ->
  osc_merge (filter (fun o : opt => osc_is_outer (fst o)) l)
            (osc_fix_observe piv (osc_inner_opts false l)) = osc_fix_observe piv l.
Proof.
  intros Hasc. unfold osc_fix_observe at 1, osc_inner_opts. rewrite map_map.
  set (g := fun o : opt => if fst o =? OSC_OBSERVE then (OSC_OBSERVE, osc_obs_of_piv piv) else o).
  rewrite (map_ext _ g).
  2:{ intros [n v]. unfold g. cbn [negb fst]. rewrite andb_true_r.
      destruct (n =? OSC_OBSERVE) eqn:E; cbn [fst]; rewrite ?E; reflexivity. }
  rewrite <- (osc_filter_map_fst (fun n => negb (osc_is_outer n)) g) by (apply osc_fix_fst).
  rewrite <- (osc_filter_map_id osc_is_outer g l).
  - fold (osc_fix_observe piv l). apply osc_split_merge.
    apply osc_ascending_map; [apply osc_fix_fst|exact Hasc].
  - apply osc_fix_fst.
  - intros o Ho. unfold g. destruct (fst o =? OSC_OBSERVE) eqn:E; [|reflexivity].
    replace (fst o) with 6 in Ho by (unfold OSC_OBSERVE in E; lia). discriminate.
Qed.

Lemma osc_inner_wf req (l : list opt) :
  Forall opt_wf l -> ascending 0 l ->
  Forall opt_wf (osc_inner_opts req l) /\ ascending 0 (osc_inner_opts req l).
Proof.
  intros Hwf Hasc. unfold osc_inner_opts. split.
  - apply Forall_map. apply Forall_forall. intros o Ho. apply filter_In in Ho. destruct Ho as [Ho _].
    rewrite Forall_forall in Hwf. specialize (Hwf o Ho). destruct o as [n v]. cbn [fst] in *.
    destruct ((n =? OSC_OBSERVE) && negb req); [|exact Hwf].
    unfold opt_wf, OSC_OBSERVE. cbn [fst snd]. repeat split; try lia; [unfold len; cbn; lia|constructor].
  - apply osc_ascending_map.
    + intros [n v]. cbn [fst]. destruct ((n =? OSC_OBSERVE) && negb req) eqn:E; cbn [fst]; [|reflexivity].
      apply andb_true_iff in E. unfold OSC_OBSERVE in *. lia.
    + apply osc_ascending_filter. exact Hasc.
Qed.

Lemma osc_msg_eta (m : msg) :
  mkMsg (m_type m) (m_code m) (m_mid m) (m_token m) (m_opts m) (m_payload m) = m.
Proof. destruct m; reflexivity. Qed.

(* RFC 8613 8.2 on what 8.1 produced: verification of a protected request, with any AEAD
   decryption and any payload in place of the ciphertext, comes down to the kid and kid context
   checks, the decryption and the parsing of the plaintext *)
Lemma osc_unprotect_req_of_protected dec c s m seq ty code mid tok p :
  osc_ctx_ok c -> 0 <= seq < 1099511627776 -> osc_has OSC_OPT (m_opts m) = false ->
  osc_unprotect_req_gen dec s
    (mkMsg ty code mid tok
       (insert_opt OSC_OPT (osc_opt_encode (osc_piv_bytes seq) (sc_idctx c) (Some (sc_sid c)))
          (osc_outer_opts (m_opts m))) p) =
  if negb (osc_bytes_eqb (sc_sid c) (sc_rid s)) then None else
  if negb (osc_ctx_match (sc_idctx c) (sc_idctx s)) then None else
  match dec (sc_rkey s) (osc_nonce (sc_sid c) (osc_piv_bytes seq) (sc_iv s))
            (osc_aad OSC_ALG (sc_sid c) (osc_piv_bytes seq)) p with
  | None => None
  | Some pt =>
      match osc_parse_plaintext pt with
      | None => None
      | Some (code', inner, pl) =>
          Some (mkMsg ty code' mid tok
                  (osc_merge (filter (fun o => osc_is_outer (fst o)) (m_opts m)) inner) pl)
      end
  end.
Proof.
  intros Hc Hseq H9. unfold osc_unprotect_req_gen. cbn [m_opts m_payload m_type m_mid m_token].
  rewrite osc_find_insert by (apply osc_has_filter; exact H9).
  pose proof (osc_piv_bytes_len seq Hseq) as Lp.
  rewrite osc_opt_decode_encode by (try exact Hc; lia).
  destruct (osc_piv_bytes seq) as [|p0 ps].
  { unfold len in Lp. cbn [length] in Lp. lia. }
  rewrite osc_kept_of_sent. reflexivity.
Qed.

(* 8.1 / 8.2: the recipient recovers exactly the request, with every AEAD decryption that opens
   the one ciphertext *)
Theorem osc_request_roundtrip_gen c s m seq :
  osc_paired c s -> osc_ctx_ok c -> osc_msg_ok m -> 0 <= seq < 1099511627776 ->
  let n := osc_nonce (sc_sid c) (osc_piv_bytes seq) (sc_iv c) in
  let a := osc_aad OSC_ALG (sc_sid c) (osc_piv_bytes seq) in
  let pt := osc_plaintext (m_code m) (osc_inner_opts true (m_opts m)) (m_payload m) in
  exists o, osc_protect_req c m seq = Some o /\
            m_payload o = osc_ccm_enc (sc_skey c) n a pt /\
            forall dec, dec (sc_rkey s) n a (m_payload o) = Some pt ->
                        osc_unprotect_req_gen dec s o = Some m.
Proof.
  intros (P1 & P2 & P3 & P4 & P5 & P6) Hc (Hwf & Hasc & H9 & H35) Hseq n a pt. subst n a pt.
  unfold osc_protect_req. rewrite H9, H35. cbn [orb].
  eexists. split; [reflexivity|]. split; [reflexivity|]. intros dec Hdec. cbn [m_payload] in Hdec.
  rewrite osc_unprotect_req_of_protected by assumption.
  rewrite <- P1, osc_bytes_eqb_refl. unfold osc_ctx_match. rewrite <- P6, osc_bytes_eqb_refl.
  cbn [negb]. rewrite <- P5, Hdec.
  destruct (osc_inner_wf true _ Hwf Hasc) as [Iw Ia].
  rewrite osc_parse_plaintext_enc by assumption.
  rewrite osc_inner_req, osc_split_merge by exact Hasc. rewrite osc_msg_eta. reflexivity.
Qed.

Theorem osc_request_roundtrip c s m seq :
  osc_paired c s -> osc_ctx_ok c -> osc_msg_ok m -> 0 <= seq < 1099511627776 ->
  exists o, osc_protect_req c m seq = Some o /\ osc_unprotect_req s o = Some m.
Proof.
  intros Hp Hc Hm Hseq.
  destruct (osc_request_roundtrip_gen c s m seq Hp Hc Hm Hseq) as (o & Ho & Hpl & Hu).
  exists o. split; [exact Ho|]. apply Hu. destruct Hp as (_ & _ & <- & _).
  rewrite Hpl. apply osc_ccm_dec_enc.
Qed.

(* 8.3 / 8.4: the recipient recovers the response; the Observe value of a notification is
   replaced by the low bytes of the notification's Partial IV (RFC 8613 4.1.3.5.2) *)
Definition osc_resp_piv (m : msg) (send_piv : bool) (seq : Z) : bytes :=
  if send_piv || osc_has OSC_OBSERVE (m_opts m) then osc_piv_bytes seq else [].

Definition osc_resp_view (m : msg) (piv : bytes) : msg :=
  mkMsg (m_type m) (m_code m) (m_mid m) (m_token m) (osc_fix_observe piv (m_opts m)) (m_payload m).

Theorem osc_response_roundtrip c s m req_piv send_piv seq :
  osc_paired c s -> osc_msg_ok m -> 0 <= seq < 1099511627776 ->
  exists o, osc_protect_resp s m req_piv send_piv seq = Some o /\
            osc_unprotect_resp c (m_token m) req_piv o =
            Some (osc_resp_view m (osc_resp_piv m send_piv seq)).
Proof.
  intros (P1 & P2 & P3 & P4 & P5 & P6) (Hwf & Hasc & H9 & H35) Hseq.
  unfold osc_protect_resp. rewrite H9, H35. cbn [orb].
  eexists. split; [reflexivity|].
  unfold osc_unprotect_resp, osc_unprotect_resp_gen. cbn [m_opts m_payload m_type m_mid m_token].
  rewrite osc_bytes_eqb_refl. cbn [negb].
  rewrite osc_find_insert by (apply osc_has_filter; exact H9).
  pose proof (osc_piv_bytes_len seq Hseq) as Lp.
  unfold osc_resp_view, osc_resp_piv.
  (* the recipient builds the nonce the sender used: from the Partial IV sent, else from the
     request's *)
  set (piv := if send_piv || osc_has OSC_OBSERVE (m_opts m) then osc_piv_bytes seq else []).
  assert (Hn : match piv with
               | [] => osc_nonce (sc_sid c) req_piv (sc_iv c)
               | _ => osc_nonce (sc_rid c) piv (sc_iv c)
               end =
               if send_piv || osc_has OSC_OBSERVE (m_opts m)
               then osc_nonce (sc_sid s) piv (sc_iv s) else osc_nonce (sc_rid s) req_piv (sc_iv s)).
  { rewrite P1, P2, P5. unfold piv. destruct (send_piv || osc_has OSC_OBSERVE (m_opts m)); [|reflexivity].
    destruct (osc_piv_bytes seq); [|reflexivity]. unfold len in Lp. cbn [length] in Lp. lia. }
  assert (Lpiv : len piv <= 5).
  { unfold piv. destruct (send_piv || _); [lia|unfold len; cbn [length]; lia]. }
  rewrite osc_opt_decode_encode by first [exact Lpiv|exact I].
  cbn [negb]. rewrite Hn, P1, P4, osc_ccm_dec_enc.
  destruct (osc_inner_wf false _ Hwf Hasc) as [Iw Ia].
  rewrite osc_parse_plaintext_enc by assumption.
  rewrite osc_kept_of_sent, osc_resp_merge by exact Hasc. reflexivity.
Qed.

(* without Observe the response comes back unchanged *)
Lemma osc_fix_observe_none piv (l : list opt) :
  osc_has OSC_OBSERVE l = false -> osc_fix_observe piv l = l.
Proof.
  unfold osc_has, osc_fix_observe. induction l as [|o l IH]; intros H; cbn [map]; [reflexivity|].
  cbn [existsb] in H. apply orb_false_iff in H. destruct H as [H1 H2].
  rewrite H1, IH by exact H2. reflexivity.
Qed.

Corollary osc_response_roundtrip_plain c s m req_piv send_piv seq :
  osc_paired c s -> osc_msg_ok m -> 0 <= seq < 1099511627776 ->
  osc_has OSC_OBSERVE (m_opts m) = false ->
  exists o, osc_protect_resp s m req_piv send_piv seq = Some o /\
            osc_unprotect_resp c (m_token m) req_piv o = Some m.
Proof.
  intros Hp Hm Hs Hobs. destruct (osc_response_roundtrip c s m req_piv send_piv seq Hp Hm Hs) as (o & A & B).
  exists o. split; [exact A|]. rewrite B. unfold osc_resp_view.
  rewrite osc_fix_observe_none by exact Hobs. rewrite osc_msg_eta. reflexivity.
Qed.

(* a request addressed to another recipient id is rejected, whatever the AEAD *)
Theorem osc_request_other_recipient dec c s m seq o0 :
  osc_ctx_ok c -> 0 <= seq < 1099511627776 -> osc_protect_req c m seq = Some o0 ->
  sc_rid s <> sc_sid c -> osc_unprotect_req_gen dec s o0 = None.
Proof.
  intros Hc Hseq Hp Hne. unfold osc_protect_req in Hp.
  destruct (osc_has OSC_OPT (m_opts m) || osc_has 35 (m_opts m)) eqn:E; [discriminate|].
  apply orb_false_iff in E. destruct E as [H9 _]. inversion Hp. subst o0. clear Hp.
  rewrite osc_unprotect_req_of_protected by assumption.
  rewrite osc_bytes_eqb_neq by congruence. reflexivity.
Qed.

(* the tag is verified: the genuine protected request with any other 8-byte tag is rejected *)
Theorem osc_request_tag_checked c s m seq o0 ct tag tag' :
  osc_paired c s -> osc_ctx_ok c -> osc_msg_ok m -> 0 <= seq < 1099511627776 ->
  osc_protect_req c m seq = Some o0 ->
  m_payload o0 = ct ++ tag -> len tag = 8 -> len tag' = 8 -> tag' <> tag ->
  osc_unprotect_req s (mkMsg (m_type o0) (m_code o0) (m_mid o0) (m_token o0) (m_opts o0) (ct ++ tag'))
  = None.
Proof.
  intros (P1 & P2 & P3 & P4 & P5 & P6) Hc (Hwf & Hasc & H9 & H35) Hseq Hp Hpl Ht Ht' Hne.
  unfold osc_protect_req in Hp. rewrite H9, H35 in Hp. cbn [orb] in Hp. inversion Hp. subst o0. clear Hp.
  cbn [m_opts m_payload m_type m_mid m_token m_code] in *.
  unfold osc_unprotect_req. rewrite osc_unprotect_req_of_protected by assumption.
  rewrite <- P1, osc_bytes_eqb_refl. unfold osc_ctx_match. rewrite <- P6, osc_bytes_eqb_refl.
  cbn [negb]. rewrite <- P3, <- P5.
  rewrite (osc_ccm_wrong_tag_rejected _ _ _ _ _ _ _ Hpl Ht Ht' Hne). reflexivity.
Qed.

(* the steps an accepted request went through (RFC 8613 8.2), whatever the AEAD *)
Lemma osc_unprotect_req_inv dec s o m' :
  osc_unprotect_req_gen dec s o = Some m' ->
  exists ov piv kc pt code inner pl,
    osc_find_opt OSC_OPT (m_opts o) = Some ov /\
    osc_opt_decode (snd ov) = Some (piv, kc, Some (sc_rid s)) /\
    osc_ctx_match kc (sc_idctx s) = true /\
    dec (sc_rkey s) (osc_nonce (sc_rid s) piv (sc_iv s)) (osc_aad OSC_ALG (sc_rid s) piv)
        (m_payload o) = Some pt /\
    osc_parse_plaintext pt = Some (code, inner, pl) /\
    m' = mkMsg (m_type o) code (m_mid o) (m_token o) (osc_merge (osc_kept_outer (m_opts o)) inner) pl.
Proof.
  intros H. unfold osc_unprotect_req_gen in H.
  destruct (osc_find_opt OSC_OPT (m_opts o)) as [[n9 ov]|] eqn:Ef; [|discriminate].
  destruct (osc_opt_decode ov) as [[[piv kc] kid]|] eqn:Ed; [|discriminate].
  destruct kid as [k|]; [|discriminate].
  destruct piv as [|p0 ps]; [discriminate|].
  destruct (osc_bytes_eqb k (sc_rid s)) eqn:Ek; cbn [negb] in H; [|discriminate].
  apply osc_bytes_eqb_eq in Ek. subst k.
  destruct (osc_ctx_match kc (sc_idctx s)) eqn:Ec; cbn [negb] in H; [|discriminate].
  destruct (dec (sc_rkey s) _ _ (m_payload o)) as [pt|] eqn:Edec; [|discriminate].
  destruct (osc_parse_plaintext pt) as [[[code inner] pl]|] eqn:Ep; [|discriminate].
  inversion H. exists (n9, ov), (p0 :: ps), kc, pt, code, inner, pl. repeat split; assumption.
Qed.

(* context lookup rule (RFC 8613 8.2 step 2): a request is only ever verified against the
   recipient context whose Recipient ID is the received kid AND whose ID Context is exactly the
   received kid context (none = empty); no prefix, no extension, no other value *)
Definition osc_ctx_bytes (x : option bytes) : bytes := match x with Some c => c | None => [] end.

Lemma osc_ctx_match_spec kc cfg :
  osc_ctx_match kc cfg = true <-> osc_ctx_bytes kc = osc_ctx_bytes cfg.
Proof.
  unfold osc_ctx_match, osc_ctx_bytes. split.
  - apply osc_bytes_eqb_eq.
  - intros ->. apply osc_bytes_eqb_refl.
Qed.

Theorem osc_request_lookup_rule dec s o m' :
  osc_unprotect_req_gen dec s o = Some m' ->
  exists ov piv kc,
    osc_find_opt OSC_OPT (m_opts o) = Some ov /\
    osc_opt_decode (snd ov) = Some (piv, kc, Some (sc_rid s)) /\
    osc_ctx_bytes kc = osc_ctx_bytes (sc_idctx s).
Proof.
  intros H. destruct (osc_unprotect_req_inv _ _ _ _ H) as (ov & piv & kc & _ & _ & _ & _ & Hf & Hd & Hc & _).
  exists ov, piv, kc. repeat split; try assumption. apply osc_ctx_match_spec. exact Hc.
Qed.

(* in particular: with a non-empty ID Context a request without kid context, or with any kid
   context of another length (a proper prefix, an extension), is rejected whatever the AEAD *)
Corollary osc_request_kid_context_length dec s o c ov piv kc kid :
  sc_idctx s = Some c ->
  osc_find_opt OSC_OPT (m_opts o) = Some ov ->
  osc_opt_decode (snd ov) = Some (piv, kc, kid) ->
  len (osc_ctx_bytes kc) <> len c ->
  osc_unprotect_req_gen dec s o = None.
Proof.
  intros Hc Hf Hd Hl. destruct (osc_unprotect_req_gen dec s o) as [m'|] eqn:E; [|reflexivity].
  destruct (osc_request_lookup_rule dec s o m' E) as (ov' & piv' & kc' & Hf' & Hd' & Hm).
  rewrite Hf in Hf'. inversion Hf'. subst ov'. rewrite Hd in Hd'. inversion Hd'. subst.
  rewrite Hc in Hm. change (osc_ctx_bytes (Some c)) with c in Hm. rewrite Hm in Hl. congruence.
Qed.

(* an OSCORE-only resource only ever sees verified requests *)
Theorem osc_only_gate dec s o m' :
  osc_server_deliver dec s true o = Some m' -> osc_unprotect_req_gen dec s o = Some m'.
Proof.
  unfold osc_server_deliver. destruct (osc_find_opt OSC_OPT (m_opts o)); [|discriminate].
  destruct (osc_is_request (m_code o)); [tauto|discriminate].
Qed.

Lemma osc_opt_decode_piv_len v piv kc kid :
  osc_opt_decode v = Some (piv, kc, kid) -> len piv <= 5.
Proof.
  unfold osc_opt_decode. destruct v as [|f r]; [intros H; inversion H; unfold len; cbn; lia|].
  destruct ((f <? 1) || (32 <=? f)); [discriminate|].
  destruct (5 <? f mod 8) eqn:E5; [discriminate|].
  destruct (len r <? f mod 8) eqn:El; [discriminate|].
  assert (Hp : len (take (f mod 8) r) <= 5).
  { rewrite len_take; lia. }
  destruct (if (f / 16) mod 2 =? 1 then _ else _) as [[kc' r3]|]; [|discriminate].
  destruct ((f / 8) mod 2 =? 1).
  - intros H. inversion H. subst. exact Hp.
  - destruct r3; [|discriminate]. intros H. inversion H. subst. exact Hp.
Qed.

(* tamper rejection for an ideal AEAD *)
Section IdealAead.
  (* an AEAD decryption function, a key, and the record of what the holder(s) of that key
     emitted under it: (nonce, aad, ciphertext) triples *)
  Variable dec : osc_aead_dec.
  Variable K : bytes.
  Variable sent : bytes -> bytes -> bytes -> Prop.

  (* ASSUMED, not proved for AES-CCM: ideal ciphertext integrity - under key K nothing decrypts
     except what was emitted under K.  (For the real AES-CCM with a 64-bit tag this holds only up
     to a forgery probability of 2^-64 per attempt; it is the idealisation of INT-CTXT.) *)
  Hypothesis aead_ideal_integrity : forall n a c p, dec K n a c = Some p -> sent n a c.

  Theorem osc_request_accept_implies_sent s o m' :
    sc_rkey s = K -> osc_unprotect_req_gen dec s o = Some m' ->
    exists ov piv kc,
      osc_find_opt OSC_OPT (m_opts o) = Some ov /\
      osc_opt_decode (snd ov) = Some (piv, kc, Some (sc_rid s)) /\
      sent (osc_nonce (sc_rid s) piv (sc_iv s)) (osc_aad OSC_ALG (sc_rid s) piv) (m_payload o).
  Proof.
    intros HK H.
    destruct (osc_unprotect_req_inv _ _ _ _ H) as (ov & piv & kc & pt & _ & _ & _ & Hf & Hd & _ & Hdec & _).
    exists ov, piv, kc. repeat split; try assumption.
    rewrite HK in Hdec. exact (aead_ideal_integrity _ _ _ _ Hdec).
  Qed.

  (* nothing was ever emitted under the recipient's key (e.g. the sender used a context derived
     from another master secret, salt or id context): every message is rejected *)
  Corollary osc_request_unknown_key_rejected s o :
    sc_rkey s = K -> (forall n a c, ~ sent n a c) -> osc_unprotect_req_gen dec s o = None.
  Proof.
    intros HK Hnone. destruct (osc_unprotect_req_gen dec s o) as [m'|] eqn:E; [|reflexivity].
    destruct (osc_request_accept_implies_sent s o m' HK E) as (ov & piv & kc & _ & _ & Hs).
    exfalso. exact (Hnone _ _ _ Hs).
  Qed.

  (* the key holder emitted exactly one message, the protection of [m] under sequence number
     [seq]: whatever is accepted carries the genuine ciphertext, and its OSCORE option decodes to
     the genuine Partial IV and kid.  So any change to the ciphertext, to the Partial IV or to the
     kid is rejected. *)
  Theorem osc_request_tamper_rejected c s m seq o0 o m' :
    osc_paired c s -> sc_rkey s = K -> len (sc_sid c) <= 7 -> 0 <= seq < 1099511627776 ->
    osc_protect_req c m seq = Some o0 ->
    (forall n a ct, sent n a ct ->
       n = osc_nonce (sc_sid c) (osc_piv_bytes seq) (sc_iv c) /\
       a = osc_aad OSC_ALG (sc_sid c) (osc_piv_bytes seq) /\ ct = m_payload o0) ->
    osc_unprotect_req_gen dec s o = Some m' ->
    m_payload o = m_payload o0 /\
    exists ov kc, osc_find_opt OSC_OPT (m_opts o) = Some ov /\
                  osc_opt_decode (snd ov) = Some (osc_piv_bytes seq, kc, Some (sc_sid c)).
  Proof.
    intros (P1 & P2 & P3 & P4 & P5 & P6) HK Hid Hseq Hp Hsent Hacc.
    destruct (osc_request_accept_implies_sent s o m' HK Hacc) as (ov & piv & kc & Hf & Hd & Hs).
    destruct (Hsent _ _ _ Hs) as (Hn & Ha & Hc). split; [exact Hc|].
    exists ov, kc. split; [exact Hf|]. rewrite <- P1 in *.
    pose proof (osc_opt_decode_piv_len _ _ _ _ Hd) as Lp.
    pose proof (osc_piv_bytes_len seq Hseq) as Lq.
    apply osc_aad_inj in Ha; try (unfold OSC_ALG; lia).
    destruct Ha as (_ & _ & Hpiv). rewrite <- Hpiv. exact Hd.
  Qed.

  (* ... and what is handed out is the genuine protected content (code, class E options,
     payload); only the fields OSCORE does not protect (type, message id, token, outer options)
     are taken from the received message *)
  Theorem osc_request_accepted_content c s m seq o0 o m' pt0 code inner pl :
    osc_paired c s -> sc_rkey s = K -> len (sc_sid c) <= 7 -> 0 <= seq < 1099511627776 ->
    osc_protect_req c m seq = Some o0 ->
    (forall n a ct, sent n a ct ->
       n = osc_nonce (sc_sid c) (osc_piv_bytes seq) (sc_iv c) /\
       a = osc_aad OSC_ALG (sc_sid c) (osc_piv_bytes seq) /\ ct = m_payload o0) ->
    dec K (osc_nonce (sc_sid c) (osc_piv_bytes seq) (sc_iv c))
          (osc_aad OSC_ALG (sc_sid c) (osc_piv_bytes seq)) (m_payload o0) = Some pt0 ->
    osc_parse_plaintext pt0 = Some (code, inner, pl) ->
    osc_unprotect_req_gen dec s o = Some m' ->
    m' = mkMsg (m_type o) code (m_mid o) (m_token o) (osc_merge (osc_kept_outer (m_opts o)) inner) pl.
  Proof.
    intros _ HK _ _ _ Hsent Hdec Hparse Hacc.
    destruct (osc_unprotect_req_inv _ _ _ _ Hacc)
      as (ov & piv & kc & pt & code' & inner' & pl' & _ & _ & _ & Hdec' & Hparse' & ->).
    rewrite HK in Hdec'. destruct (Hsent _ _ _ (aead_ideal_integrity _ _ _ _ Hdec')) as (Hn & Ha & Hc).
    rewrite Hn, Ha, Hc, Hdec in Hdec'. inversion Hdec'. subst pt.
    rewrite Hparse in Hparse'. inversion Hparse'. reflexivity.
  Qed.

  (* responses: acceptance implies that the (nonce, aad, ciphertext) computed from the received
     message was emitted under the key *)
  Theorem osc_response_accept_implies_sent c tok req_piv o m' :
    sc_rkey c = K -> osc_unprotect_resp_gen dec c tok req_piv o = Some m' ->
    m_token o = tok /\
    exists ov piv kc kid,
      osc_find_opt OSC_OPT (m_opts o) = Some ov /\
      osc_opt_decode (snd ov) = Some (piv, kc, kid) /\
      sent (match piv with
            | [] => osc_nonce (sc_sid c) req_piv (sc_iv c)
            | _ => osc_nonce (sc_rid c) piv (sc_iv c)
            end)
           (osc_aad OSC_ALG (sc_sid c) req_piv) (m_payload o).
  Proof.
    intros HK H. unfold osc_unprotect_resp_gen in H.
    destruct (osc_bytes_eqb (m_token o) tok) eqn:Et; cbn [negb] in H; [|discriminate].
    apply osc_bytes_eqb_eq in Et. split; [exact Et|].
    destruct (osc_find_opt OSC_OPT (m_opts o)) as [[n9 ov]|] eqn:Ef; [|discriminate].
    destruct (osc_opt_decode ov) as [[[piv kc] kid]|] eqn:Ed; [|discriminate].
    destruct (negb _); [discriminate|].
    destruct (dec (sc_rkey c) _ _ (m_payload o)) as [pt|] eqn:Edec; [|discriminate].
    exists (n9, ov), piv, kc, kid. cbn [snd]. repeat split; try assumption.
    rewrite HK in Edec. eapply aead_ideal_integrity. exact Edec.
  Qed.

  (* single emission: an accepted response carries the genuine ciphertext, the token of the
     request, and an OSCORE option that yields the genuine nonce *)
  Theorem osc_response_tamper_rejected c tok req_piv n0 a0 c0 o m' :
    sc_rkey c = K ->
    (forall n a ct, sent n a ct -> n = n0 /\ a = a0 /\ ct = c0) ->
    osc_unprotect_resp_gen dec c tok req_piv o = Some m' ->
    m_token o = tok /\ m_payload o = c0 /\
    exists ov piv kc kid,
      osc_find_opt OSC_OPT (m_opts o) = Some ov /\
      osc_opt_decode (snd ov) = Some (piv, kc, kid) /\
      n0 = match piv with
           | [] => osc_nonce (sc_sid c) req_piv (sc_iv c)
           | _ => osc_nonce (sc_rid c) piv (sc_iv c)
           end.
  Proof.
    intros HK Hsent Hacc.
    destruct (osc_response_accept_implies_sent c tok req_piv o m' HK Hacc)
      as (Ht & ov & piv & kc & kid & Hf & Hd & Hs).
    destruct (Hsent _ _ _ Hs) as (Hn & Ha & Hc).
    split; [exact Ht|]. split; [exact Hc|].
    exists ov, piv, kc, kid. repeat split; try assumption. symmetry. exact Hn.
  Qed.

  (* ... and what the client hands out is the genuine protected content of the response *)
  Theorem osc_response_accepted_content c tok req_piv n0 a0 c0 o m' pt0 code inner pl :
    sc_rkey c = K ->
    (forall n a ct, sent n a ct -> n = n0 /\ a = a0 /\ ct = c0) ->
    dec K n0 a0 c0 = Some pt0 ->
    osc_parse_plaintext pt0 = Some (code, inner, pl) ->
    osc_unprotect_resp_gen dec c tok req_piv o = Some m' ->
    exists piv,
      m' = mkMsg (m_type o) code (m_mid o) (m_token o)
             (osc_merge (osc_kept_outer (m_opts o)) (osc_fix_observe piv inner)) pl.
  Proof.
    intros HK Hsent Hdec Hparse Hacc.
    destruct (osc_response_accept_implies_sent c tok req_piv o m' HK Hacc)
      as (Ht & [n9 ov] & piv & kc & kid & Hf & Hd & Hs).
    destruct (Hsent _ _ _ Hs) as (Hn & Ha & Hc).
    unfold osc_unprotect_resp_gen in Hacc.
    destruct (negb (osc_bytes_eqb (m_token o) tok)); [discriminate|].
    rewrite Hf in Hacc. cbn [snd] in Hd. rewrite Hd in Hacc.
    destruct (negb _); [discriminate|].
    rewrite HK, Hn, Ha, Hc, Hdec, Hparse in Hacc. inversion Hacc. exists piv. reflexivity.
  Qed.

End IdealAead.

(* non-vacuity of the Section hypothesis: the ideal AEAD functionality "decrypt only what was
   emitted" (a table with one entry) satisfies it *)
Definition osc_ideal_dec (k0 n0 a0 c0 p0 : bytes) : osc_aead_dec :=
  fun k n a c =>
    if osc_bytes_eqb k k0 && osc_bytes_eqb n n0 && osc_bytes_eqb a a0 && osc_bytes_eqb c c0
    then Some p0 else None.

Lemma osc_ideal_dec_integrity k0 n0 a0 c0 p0 :
  forall n a c p, osc_ideal_dec k0 n0 a0 c0 p0 k0 n a c = Some p -> n = n0 /\ a = a0 /\ c = c0.
Proof.
  intros n a c p H. unfold osc_ideal_dec in H.
  destruct (osc_bytes_eqb k0 k0 && osc_bytes_eqb n n0 && osc_bytes_eqb a a0 && osc_bytes_eqb c c0) eqn:E;
    [|discriminate].
  repeat (apply andb_true_iff in E; destruct E as [E ?]).
  repeat split; apply osc_bytes_eqb_eq; assumption.
Qed.

(* the RFC 8613 appendix C request can be protected *)
Lemma osc_c_request_ok mid tok : osc_msg_ok (osc_c_request mid tok).
Proof.
  unfold osc_msg_ok, osc_c_request. cbn [m_opts]. split; [|split; [cbn; lia|split; reflexivity]].
  repeat constructor; unfold len; cbn; try lia; unfold is_byte; lia.
Qed.

(* ... and with it the genuine RFC 8613 C.4 request is accepted while everything else emitted
   under the key is not: the hypotheses of the Section are satisfiable together with acceptance *)
Example osc_ideal_dec_accepts_genuine :
  let m := osc_c_request 23839 [0; 0; 57; 116] in
  let piv := osc_piv_bytes 20 in
  let n0 := osc_nonce (sc_sid osc_c1_client) piv (sc_iv osc_c1_client) in
  let a0 := osc_aad OSC_ALG (sc_sid osc_c1_client) piv in
  match osc_protect_req osc_c1_client m 20 with
  | Some o0 =>
      osc_unprotect_req_gen
        (osc_ideal_dec (sc_rkey osc_c1_server) n0 a0 (m_payload o0)
           (osc_plaintext (m_code m) (osc_inner_opts true (m_opts m)) (m_payload m)))
        osc_c1_server o0 = Some m
  | None => False
  end.
Proof.
  intros m piv n0 a0.
  destruct (osc_request_roundtrip_gen osc_c1_client osc_c1_server m 20) as (o & Ho & _ & Hu);
    [apply osc_derive_paired|exact I|apply osc_c_request_ok|lia|].
  rewrite Ho. apply Hu. unfold osc_ideal_dec. rewrite !osc_bytes_eqb_refl. reflexivity.
Qed.
