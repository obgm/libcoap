(* Proofs about the SHA-256 / HMAC / HKDF reference: the outputs are byte strings; SHA-256 can be
   resumed after a first block, which gives HMAC and HKDF-Expand from the states a key leads to. *)
From LibcoapV Require Import Base.Tactics Base.Bytes Base.BytesProofs
  Oscore.Sha256 Oscore.Hkdf.
Local Open Scope Z_scope.

Lemma osc_sha256_wfb m : wfb (osc_sha256 m).
Proof.
  unfold osc_sha256, osc_st_bytes.
  destruct (fold_left osc_compress _ osc_h0) as [[[[[[[a b] c0] d] e] f] g] h].
  repeat (apply wfb_app; split; [apply be32_wfb|]). apply be32_wfb.
Qed.

Lemma osc_hmac_wfb k m : wfb (osc_hmac k m).
Proof. unfold osc_hmac. apply osc_sha256_wfb. Qed.

Lemma osc_hkdf_blocks_wfb n : forall prk info prev i, wfb (osc_hkdf_blocks n prk info prev i).
Proof.
  induction n as [|n IH]; intros; cbn [osc_hkdf_blocks]; [constructor|].
  apply wfb_app. split; [apply osc_hmac_wfb|apply IH].
Qed.

Lemma osc_hkdf_wfb salt ikm info l : wfb (osc_hkdf salt ikm info l).
Proof. unfold osc_hkdf, osc_hkdf_expand. apply wfb_take. apply osc_hkdf_blocks_wfb. Qed.

(* an absent salt equals the empty salt (HashLen zeros): both HMAC keys pad to 64 zeros *)
Lemma osc_hkdf_nosalt ikm info l : osc_hkdf None ikm info l = osc_hkdf (Some []) ikm info l.
Proof. reflexivity. Qed.

(* HMAC and HKDF under a fixed key: of each HMAC the first block of the inner and of the outer
   hash depends on the key only, so that the two states after it can be computed once. *)

Lemma osc_blocks64_app b l : forall room cur,
  length b = room -> (0 < room)%nat ->
  osc_blocks64 room cur (b ++ l) = (rev cur ++ b) :: osc_blocks64 64 [] l.
Proof.
  induction b as [|x b IH]; intros room cur Hb Hr; cbn [length] in Hb; [lia|].
  cbn [app osc_blocks64]. destruct room as [|[|r]]; [lia| |].
  - destruct b; [|discriminate Hb]. reflexivity.
  - rewrite IH by (cbn [length] in *; lia). cbn [rev]. rewrite <- app_assoc. reflexivity.
Qed.

(* SHA-256 resumed in state [s] after [n] bytes *)
Definition osc_sha256_from (s : osc_st) (n : Z) (m : bytes) : bytes :=
  osc_st_bytes (fold_left osc_compress
    (osc_blocks64 64 [] (m ++ 128 :: repeat 0 (Z.to_nat ((55 - len m) mod 64))
                           ++ osc_be64 (8 * (n + len m)))) s).

Lemma osc_fold_left_cons {A B} (f : A -> B -> A) x l a :
  fold_left f (x :: l) a = fold_left f l (f a x).
Proof. reflexivity. Qed.

(* the fold step is an explicit rewrite: left to conversion, the kernel tries to tell
   [osc_compress osc_h0 b] from [osc_h0] by evaluating both on the variable block, which does
   not end in reasonable time *)
Lemma osc_sha256_block b m :
  len b = 64 -> osc_sha256 (b ++ m) = osc_sha256_from (osc_compress osc_h0 b) 64 m.
Proof.
  intros Hb. unfold osc_sha256, osc_sha_pad, osc_sha256_from. cbv zeta.
  rewrite <- app_assoc, (osc_blocks64_app b), osc_fold_left_cons by (unfold len in Hb; lia).
  rewrite len_app, Hb. replace ((55 - (64 + len m)) mod 64) with ((55 - len m) mod 64) by lia.
  reflexivity.
Qed.

(* the block the key contributes to the inner (x = 0x36) and to the outer (x = 0x5c) hash *)
Definition osc_hmac_block (key : bytes) (x : Z) : bytes :=
  map (fun b => Z.lxor b x) (key ++ repeat 0 (Z.to_nat (64 - len key))).

(* HMAC from the states after the two key blocks *)
Definition osc_hmac_from (si so : osc_st) (msg : bytes) : bytes :=
  osc_sha256_from so 64 (osc_sha256_from si 64 msg).

Lemma osc_hmac_keyed key si so :
  len key <= 64 ->
  osc_compress osc_h0 (osc_hmac_block key 54) = si ->
  osc_compress osc_h0 (osc_hmac_block key 92) = so ->
  forall msg, osc_hmac key msg = osc_hmac_from si so msg.
Proof.
  intros Hk <- <- msg. unfold osc_hmac, osc_hmac_from. replace (64 <? len key) with false by lia.
  cbv zeta.
  assert (L : forall x, len (osc_hmac_block key x) = 64).
  { intros x. pose proof (len_nonneg key). unfold osc_hmac_block, len in *.
    rewrite map_length, app_length, repeat_length. lia. }
  fold (osc_hmac_block key 54). fold (osc_hmac_block key 92).
  rewrite !osc_sha256_block by apply L. reflexivity.
Qed.

(* osc_hkdf_blocks with [h] in the place of HMAC under the pseudorandom key *)
Fixpoint osc_hkdf_blocks_by (h : bytes -> bytes) (n : nat) (info prev : bytes) (i : Z) : bytes :=
  match n with
  | O => []
  | S n' =>
      let t := h (prev ++ info ++ [i]) in
      t ++ osc_hkdf_blocks_by h n' info t (i + 1)
  end.

Lemma osc_hkdf_blocks_by_hmac h prk :
  (forall m, osc_hmac prk m = h m) ->
  forall n info prev i, osc_hkdf_blocks n prk info prev i = osc_hkdf_blocks_by h n info prev i.
Proof.
  intros Hh n. induction n as [|n IH]; intros info prev i; cbn [osc_hkdf_blocks osc_hkdf_blocks_by];
    [reflexivity|].
  rewrite Hh, IH. reflexivity.
Qed.

Definition osc_hkdf_from (si so : osc_st) (info : bytes) (l : Z) : bytes :=
  take l (osc_hkdf_blocks_by (osc_hmac_from si so) (Z.to_nat ((l + 31) / 32)) info [] 1).

Lemma osc_hkdf_keyed salt ikm prk si so info l :
  osc_hkdf_extract salt ikm = prk -> len prk <= 64 ->
  osc_compress osc_h0 (osc_hmac_block prk 54) = si ->
  osc_compress osc_h0 (osc_hmac_block prk 92) = so ->
  osc_hkdf salt ikm info l = osc_hkdf_from si so info l.
Proof.
  intros <- Hk Hi Ho. unfold osc_hkdf, osc_hkdf_expand, osc_hkdf_from. f_equal.
  apply osc_hkdf_blocks_by_hmac. exact (osc_hmac_keyed _ _ _ Hk Hi Ho).
Qed.
