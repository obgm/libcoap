(* Datagram level: the protected message of the reference, serialised for UDP and parsed again by
   the PDU codec (theorem of C01), verifies to the original message.  Needs that everything the
   reference produces consists of bytes. *)
From LibcoapV Require Import Base.Tactics Base.Bytes Base.BytesProofs Wire.OptCodec
  Wire.OptCodecProofs Wire.Pdu Wire.PduProofs Wire.BuildProofs Oscore.Ccm Oscore.CcmProofs
  Oscore.RangeProofs Oscore.HkdfProofs Oscore.Cbor Oscore.OscOption Oscore.OscOptionProofs
  Oscore.Protect Oscore.Vectors Oscore.ProtectProofs.
Local Open Scope Z_scope.

Lemma osc_cbor_head_wfb mt v : 0 <= mt < 8 -> 0 <= v -> wfb (osc_cbor_head mt v).
Proof.
  intros Hm Hv. unfold osc_cbor_head, osc_cbor_be64.
  repeat case_if; apply wfb_cons; (split; [unfold is_byte; lia|]);
    [constructor|repeat constructor; lia|apply be16_wfb|apply be32_wfb|].
  apply wfb_app. split; apply be32_wfb.
Qed.

Lemma osc_cbor_bstr_wfb b : wfb b -> wfb (osc_cbor_bstr b).
Proof.
  intros H. unfold osc_cbor_bstr. apply wfb_app. split; [|exact H].
  apply osc_cbor_head_wfb; [lia|apply len_nonneg].
Qed.

Lemma osc_cbor_tstr_wfb b : wfb b -> wfb (osc_cbor_tstr b).
Proof.
  intros H. unfold osc_cbor_tstr. apply wfb_app. split; [|exact H].
  apply osc_cbor_head_wfb; [lia|apply len_nonneg].
Qed.

Lemma osc_external_aad_wfb kid piv : wfb kid -> wfb piv -> wfb (osc_external_aad OSC_ALG kid piv).
Proof.
  intros Hk Hp. unfold osc_external_aad, osc_cbor_array, osc_cbor_uint, osc_cbor_int, OSC_ALG.
  change (10 <? 0) with false. cbv iota.
  repeat (apply wfb_app; split;
          [first [apply osc_cbor_head_wfb; lia|apply osc_cbor_bstr_wfb; assumption]|]).
  apply osc_cbor_bstr_wfb. constructor.
Qed.

Lemma osc_aad_wfb kid piv : wfb kid -> wfb piv -> wfb (osc_aad OSC_ALG kid piv).
Proof.
  intros Hk Hp. unfold osc_aad, osc_cbor_array.
  apply wfb_app. split; [apply osc_cbor_head_wfb; lia|].
  apply wfb_app. split.
  { apply osc_cbor_tstr_wfb. unfold osc_str_encrypt0, wfb, is_byte. repeat constructor; lia. }
  apply wfb_app. split; [apply osc_cbor_bstr_wfb; constructor|].
  apply osc_cbor_bstr_wfb. apply osc_external_aad_wfb; assumption.
Qed.

Lemma osc_repeat0_wfb n : wfb (repeat 0 n).
Proof. induction n; cbn [repeat]; [constructor|]. apply wfb_cons. split; [unfold is_byte; lia|assumption]. Qed.

Lemma osc_nonce_wfb id piv iv :
  len id <= 255 -> wfb id -> wfb piv -> wfb iv -> wfb (osc_nonce id piv iv).
Proof.
  intros Hl Hi Hp Hv. unfold osc_nonce, osc_nonce_plain, osc_lpad. apply osc_xor_wfb; [|exact Hv].
  apply wfb_cons. split; [pose proof (len_nonneg id); unfold is_byte; lia|].
  repeat (apply wfb_app; split); try apply osc_repeat0_wfb; assumption.
Qed.

Lemma osc_plaintext_wfb code inner payload :
  is_byte code -> ascending 0 inner -> Forall opt_wf inner -> wfb payload ->
  wfb (osc_plaintext code inner payload).
Proof.
  intros Hc Ha Hw Hp. unfold osc_plaintext. apply wfb_cons. split; [exact Hc|].
  apply wfb_app. split; [apply opts_enc_wfb; try assumption; lia|].
  apply payload_area_wfb. exact Hp.
Qed.

Lemma osc_opt_encode_wfb piv kc kid :
  len piv <= 5 -> wfb piv ->
  match kc with Some c => wfb c /\ len c <= 255 | None => True end ->
  match kid with Some k => wfb k | None => True end ->
  wfb (osc_opt_encode piv kc kid).
Proof.
  intros Hl Hp Hc Hk. unfold osc_opt_encode. pose proof (len_nonneg piv).
  case_if; [constructor|]. apply wfb_cons. split.
  - unfold is_byte. destruct kc, kid; lia.
  - repeat (apply wfb_app; split); try assumption.
    + destruct kc as [c|]; [|constructor]. destruct Hc as [Hc1 Hc2].
      apply wfb_cons. split; [pose proof (len_nonneg c); unfold is_byte; lia|exact Hc1].
    + destruct kid; [exact Hk|constructor].
Qed.

Lemma osc_opt_encode_len piv kc kid :
  len (osc_opt_encode piv kc kid) <=
  1 + len piv + match kc with Some c => 1 + len c | None => 0 end
  + match kid with Some k => len k | None => 0 end.
Proof.
  unfold osc_opt_encode. pose proof (len_nonneg piv).
  destruct kc as [c|], kid as [k|]; try pose proof (len_nonneg c); try pose proof (len_nonneg k);
    case_if; rewrite ?len_cons, ?len_app, ?len_cons, ?len_nil; unfold len; cbn [length]; lia.
Qed.

Lemma osc_forall_filter {A} (Q : A -> Prop) f l : Forall Q l -> Forall Q (filter f l).
Proof. apply incl_Forall, incl_filter. Qed.

Lemma osc_limits_base code code' l :
  code < 224 -> code' < 224 -> limits_ok code l = true -> limits_ok code' l = true.
Proof.
  intros H1 H2. unfold limits_ok, limit_ok.
  replace (224 <=? code) with false by lia. replace (224 <=? code') with false by lia. tauto.
Qed.

Lemma osc_limits_forall code l :
  limits_ok code l = true <-> Forall (fun o => limit_ok code (fst o) (len (snd o)) = true) l.
Proof. unfold limits_ok. rewrite forallb_forall, Forall_forall. tauto. Qed.

Record osc_sec_bytes (c : osc_sec) : Prop := {
  sb_sid : wfb (sc_sid c) /\ len (sc_sid c) <= 7;
  sb_rid : wfb (sc_rid c) /\ len (sc_rid c) <= 7;
  sb_skey : wfb (sc_skey c);
  sb_iv : wfb (sc_iv c);
  sb_ctx : match sc_idctx c with Some x => wfb x /\ len x <= 240 | None => True end }.

Lemma osc_outer_wf (m : msg) code piv kc kid ct :
  msg_wf m -> 0 < m_code m < 224 -> 0 < code < 224 ->
  wfb piv -> len piv <= 5 ->
  match kc with Some c => wfb c /\ len c <= 240 | None => True end ->
  match kid with Some k => wfb k /\ len k <= 7 | None => True end ->
  wfb ct ->
  msg_wf (mkMsg (m_type m) code (m_mid m) (m_token m)
            (insert_opt OSC_OPT (osc_opt_encode piv kc kid) (osc_outer_opts (m_opts m))) ct).
Proof.
  intros [Wt Wc Wm Wk [Wo Wa] Wl Wp We] Hc Hcode Hpiv Lpiv Hkc Hkid Hct.
  set (ov := osc_opt_encode piv kc kid).
  assert (Hov : wfb ov).
  { apply osc_opt_encode_wfb; try assumption; [destruct kc|destruct kid]; intuition lia. }
  assert (Hol : len ov <= 255).
  { pose proof (osc_opt_encode_len piv kc kid) as L. fold ov in L. destruct kc, kid; lia. }
  constructor; cbn [m_type m_code m_mid m_token m_opts m_payload]; try assumption; try lia.
  - split.
    + apply insert_opt_forall; [|apply osc_forall_filter; exact Wo].
      unfold opt_wf, OSC_OPT. cbn [fst snd]. repeat split; try lia. exact Hov.
    + apply insert_opt_ascending; [unfold OSC_OPT; lia|]. apply osc_ascending_filter. exact Wa.
  - apply osc_limits_forall. apply insert_opt_forall.
    + cbn [fst snd]. unfold limit_ok, OSC_OPT. replace (224 <=? code) with false by lia.
      unfold base_limit, in_range. pose proof (len_nonneg ov). lia.
    + apply osc_forall_filter. apply osc_limits_forall.
      apply (osc_limits_base (m_code m)); try lia. exact Wl.
Qed.

Lemma osc_ciphertext_wfb key id piv iv kid rpiv req m :
  wfb key -> wfb id -> len id <= 7 -> wfb piv -> wfb iv -> wfb kid -> wfb rpiv ->
  msg_wf m ->
  wfb (osc_ccm_enc key (osc_nonce id piv iv) (osc_aad OSC_ALG kid rpiv)
         (osc_plaintext (m_code m) (osc_inner_opts req (m_opts m)) (m_payload m))).
Proof.
  intros Hk Hi Li Hp Hv Hkid Hr [_ Wc _ _ [Wo Wa] _ Wpl _].
  destruct (osc_inner_wf req _ Wo Wa) as [Iw Ia].
  apply osc_ccm_enc_wfb; try assumption.
  - apply osc_nonce_wfb; try assumption. lia.
  - apply osc_aad_wfb; assumption.
  - apply osc_plaintext_wfb; try assumption. unfold is_byte. lia.
Qed.

Theorem osc_request_datagram_roundtrip c s m seq :
  osc_paired c s -> osc_sec_bytes c -> msg_wf m -> osc_is_request (m_code m) = true ->
  osc_has OSC_OPT (m_opts m) = false -> osc_has 35 (m_opts m) = false ->
  0 <= seq < 1099511627776 ->
  exists o, osc_protect_req c m seq = Some o /\
            match parse UDP (serialize UDP o) with
            | Some o' => osc_unprotect_req s o'
            | None => None
            end = Some m.
Proof.
  intros Hpair [[Bs1 Bs2] [Br1 Br2] Bk Bi Bc] Hwf Hreq H9 H35 Hseq.
  assert (Hok : osc_msg_ok m).
  { destruct Hwf as [_ _ _ _ [Wo Wa] _ _ _]. repeat split; assumption. }
  assert (Hcok : osc_ctx_ok c).
  { unfold osc_ctx_ok. destruct (sc_idctx c); [destruct Bc; lia|exact I]. }
  destruct (osc_request_roundtrip c s m seq Hpair Hcok Hok Hseq) as (o & Hp & Hu).
  exists o. split; [exact Hp|].
  unfold osc_is_request in Hreq.
  assert (Hwo : msg_wf o).
  { unfold osc_protect_req in Hp. rewrite H9, H35 in Hp. cbn [orb] in Hp. inversion Hp. subst o. clear Hp.
    pose proof (osc_piv_bytes_len seq Hseq) as Lp. pose proof (osc_piv_bytes_wfb seq Hseq) as Wp.
    apply osc_outer_wf; try assumption; try lia.
    - destruct (osc_has OSC_OBSERVE (m_opts m)); lia.
    - split; assumption.
    - apply osc_ciphertext_wfb; assumption. }
  rewrite (parse_serialize UDP o Hwo). cbn [norm_fields]. exact Hu.
Qed.

Theorem osc_response_datagram_roundtrip c s m req_piv send_piv seq :
  osc_paired c s -> osc_sec_bytes s -> msg_wf m -> 64 <= m_code m < 224 ->
  osc_has OSC_OPT (m_opts m) = false -> osc_has 35 (m_opts m) = false ->
  wfb req_piv -> 0 <= seq < 1099511627776 ->
  exists o, osc_protect_resp s m req_piv send_piv seq = Some o /\
            match parse UDP (serialize UDP o) with
            | Some o' => osc_unprotect_resp c (m_token m) req_piv o'
            | None => None
            end = Some (osc_resp_view m (osc_resp_piv m send_piv seq)).
Proof.
  intros Hpair [[Bs1 Bs2] [Br1 Br2] Bk Bi Bc] Hwf Hcode H9 H35 Hrp Hseq.
  assert (Hok : osc_msg_ok m).
  { destruct Hwf as [_ _ _ _ [Wo Wa] _ _ _]. repeat split; assumption. }
  destruct (osc_response_roundtrip c s m req_piv send_piv seq Hpair Hok Hseq) as (o & Hp & Hu).
  exists o. split; [exact Hp|].
  assert (Hwo : msg_wf o).
  { unfold osc_protect_resp in Hp. rewrite H9, H35 in Hp. cbn [orb] in Hp. inversion Hp. subst o. clear Hp.
    pose proof (osc_piv_bytes_len seq Hseq) as Lp. pose proof (osc_piv_bytes_wfb seq Hseq) as Wp.
    set (use := send_piv || osc_has OSC_OBSERVE (m_opts m)).
    assert (Wpiv : wfb (if use then osc_piv_bytes seq else []) /\ len (if use then osc_piv_bytes seq else []) <= 5).
    { destruct use; [split; [exact Wp|lia]|split; [constructor|unfold len; cbn [length]; lia]]. }
    destruct Wpiv as [Wpiv Lpiv].
    apply osc_outer_wf; try assumption; try exact I; try lia.
    - destruct (osc_has OSC_OBSERVE (m_opts m)); lia.
    - destruct use; apply osc_ciphertext_wfb; assumption. }
  rewrite (parse_serialize UDP o Hwo). cbn [norm_fields]. exact Hu.
Qed.

Theorem osc_derive_bytes secret salt idctx a b :
  wfb a -> len a <= 7 -> wfb b -> len b <= 7 ->
  match idctx with Some x => wfb x /\ len x <= 240 | None => True end ->
  osc_sec_bytes (osc_derive secret salt idctx a b).
Proof.
  intros Ha La Hb Lb Hc. unfold osc_derive.
  constructor; cbn [sc_sid sc_rid sc_skey sc_iv sc_idctx]; try (split; assumption);
    try apply osc_hkdf_wfb. exact Hc.
Qed.

(* non-vacuity of the hypotheses of the round-trip theorems: the RFC 8613 appendix C contexts and
   request meet all of them *)
Example osc_roundtrip_hypotheses_met :
  osc_paired osc_c1_client osc_c1_server /\ osc_ctx_ok osc_c3_client /\
  osc_sec_bytes osc_c3_client /\
  osc_msg_ok (osc_c_request 23839 [0; 0; 57; 116]) /\
  msg_wf (osc_c_request 23839 [0; 0; 57; 116]) /\
  osc_is_request (m_code (osc_c_request 23839 [0; 0; 57; 116])) = true.
Proof.
  split; [apply osc_derive_paired|].
  split; [unfold osc_ctx_ok; cbn; lia|].
  split.
  { apply osc_derive_bytes; try (unfold len; cbn; lia); try (unfold wfb, is_byte; repeat constructor; lia).
    split; [unfold wfb, is_byte, osc_c_idctx; repeat constructor; lia|unfold len; cbn; lia]. }
  pose proof (osc_c_request_ok 23839 [0; 0; 57; 116]) as Hok.
  split; [exact Hok|]. destruct Hok as (Hw & Ha & _).
  split; [|reflexivity].
  constructor; cbn [osc_c_request m_type m_code m_mid m_token m_opts m_payload]; try lia.
  - split; [unfold len; cbn; lia|unfold wfb, is_byte; repeat constructor; lia].
  - split; assumption.
  - reflexivity.
  - constructor.
Qed.
