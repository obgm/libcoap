(* C15 - sender and recipient together: the messages a sender context puts on the wire (over any
   protect / crash-restart sequence) are delivered to a recipient context in any order, any
   number of times, interleaved with forgeries carrying any claimed Partial IV; every *message*
   (identified by its position in the sender's output, not by its Partial IV) reaches the
   handler at most once, because a Partial IV is accepted at most once
   (ReplayProofs.rp_at_most_once).  That the sender's Partial IVs increase
   (SenderSeqProofs.ss_pivs_increasing) makes delivery in the order of sending all accepted. *)
From Coq Require Import Sorted.
From LibcoapV Require Import Base.Tactics Oscore.Replay Oscore.ReplayProofs Oscore.SenderSeq
  Oscore.SenderSeqProofs.
Local Open Scope Z_scope.

(* what the network does: deliver the i-th message the sender produced (the application may have
   put any Echo option into it), or inject a forgery *)
Inductive e2e_delivery :=
| E2eDeliver (i : nat) (e : rp_echo)
| E2eForge (claimed_piv : Z).

Definition e2e_msg (pivs : list Z) (d : e2e_delivery) : rp_msg :=
  match d with
  | E2eDeliver i e => Build_rp_msg (nth i pivs 0) RpGenuine e RpRequest
  | E2eForge s => Build_rp_msg s RpForged RpEchoNone RpRequest
  end.

Definition e2e_valid (n : nat) (d : e2e_delivery) : Prop :=
  match d with E2eDeliver i _ => (i < n)%nat | E2eForge _ => True end.

(* positions (in the sender's output) of the messages that reached the handler *)
Fixpoint e2e_accepted_idx (sched : list e2e_delivery) (rs : list rp_verdict) : list nat :=
  match sched, rs with
  | d :: t, r :: rt =>
    match d with
    | E2eDeliver i _ => if rp_is_accept r then i :: e2e_accepted_idx t rt
                        else e2e_accepted_idx t rt
    | E2eForge _ => e2e_accepted_idx t rt
    end
  | _, _ => []
  end.

(* a forged message is never accepted, so the accepted positions are those of the accepted
   Partial IVs (in the specification, hence in the repaired code) *)
Lemma e2e_accepted_map : forall pivs W b12 sched a,
  let rs := fst (rp_abs_run W b12 a (map (e2e_msg pivs) sched)) in
  map (fun i => nth i pivs 0) (e2e_accepted_idx sched rs) =
  rp_accepted_of (map (e2e_msg pivs) sched) rs.
Proof.
  intros pivs W b12 sched. induction sched as [|d t IH]; intros a.
  - reflexivity.
  - cbn [map rp_abs_run].
    pose proof (rp_abs_recv_cases W b12 a (e2e_msg pivs d)) as Hc.
    destruct (rp_abs_recv W b12 a (e2e_msg pivs d)) as [r a1]. destruct Hc as (_ & _ & Hd).
    specialize (IH a1). destruct (rp_abs_run W b12 a1 (map (e2e_msg pivs) t)) as [rs a2].
    cbn [fst e2e_accepted_idx rp_accepted_of] in *.
    destruct d as [i e|s]; cbn [e2e_msg rp_m_seq rp_m_auth] in *.
    + destruct (rp_is_accept r); cbn [map]; rewrite IH; reflexivity.
    + rewrite rp_undelivered_not_accept by (apply Hd; discriminate). exact IH.
Qed.

Lemma e2e_idx_valid : forall n sched rs,
  Forall (e2e_valid n) sched -> Forall (fun i => (i < n)%nat) (e2e_accepted_idx sched rs).
Proof.
  intros n sched. induction sched as [|d t IH]; intros rs H.
  - constructor.
  - destruct rs as [|r rt]; [constructor|].
    inversion H as [|? ? Hd Ht]; subst. cbn [e2e_accepted_idx].
    destruct d as [i e|s].
    + destruct (rp_is_accept r); [constructor; [exact Hd|]|]; apply IH; exact Ht.
    + apply IH; exact Ht.
Qed.

(* whatever the sender did (pivs is any list), a message reaches the handler at most once;
   the validity of the positions is only there to keep the statement about real messages *)
Theorem e2e_message_at_most_once : forall pivs W b12 sched,
  Forall (e2e_valid (length pivs)) sched ->
  NoDup (e2e_accepted_idx sched
           (fst (rp_run rp_fixed W b12 rp_init (map (e2e_msg pivs) sched)))).
Proof.
  intros pivs W b12 sched Hv.
  (* a duplicate position would be a duplicate Partial IV *)
  apply (NoDup_map_inv (fun i => nth i pivs 0)).
  rewrite rp_window_exact, e2e_accepted_map. apply rp_abs_at_most_once.
Qed.

(* the halves fit: what a sender produces, delivered once each in the order of sending,
   is all accepted - no message is rejected because another one used its Partial IV.  (Each
   message carries a valid Echo so that B.1.2, when enabled, lets the first one arm the
   window; Echo is ignored otherwise.) *)
Definition e2e_in_order (pivs : list Z) : list rp_msg :=
  map (fun p => Build_rp_msg p RpGenuine RpEchoOk RpRequest) pivs.

Lemma e2e_abs_in_order : forall W b12 l a,
  StronglySorted Z.lt l ->
  Forall (fun p => p < rp_seq_max /\ (rp_a_armed a = true -> rp_a_hi a < p)) l ->
  fst (rp_abs_run W b12 a (e2e_in_order l)) = map (fun _ => RpAccept) l.
Proof.
  intros W b12 l. induction l as [|p t IH]; intros a Hs Hb.
  - reflexivity.
  - inversion Hs as [|? ? Hst Hlt]; subst. inversion Hb as [|? ? [Hp Hhi] Hbt]; subst.
    cbn [e2e_in_order map rp_abs_run].
    assert (Hf : rp_abs_fresh W a p = true).
    { unfold rp_abs_fresh. destruct (rp_a_armed a) eqn:Ha.
      - specialize (Hhi eq_refl). apply andb_true_intro. split; [lia|].
        apply orb_true_intro. left. lia.
      - rewrite andb_true_r. lia. }
    assert (Hstep : rp_abs_recv W b12 a (Build_rp_msg p RpGenuine RpEchoOk RpRequest) =
                    (RpAccept, rp_abs_accept a p)).
    { unfold rp_abs_recv, rp_abs_recv_req. cbn [rp_m_seq rp_m_auth rp_m_echo rp_m_kind].
      rewrite Hf. cbn [negb]. destruct (rp_a_armed a); [reflexivity|]. destruct b12; reflexivity. }
    rewrite Hstep.
    specialize (IH (rp_abs_accept a p) Hst).
    fold (e2e_in_order t).
    destruct (rp_abs_run W b12 (rp_abs_accept a p) (e2e_in_order t)) as [rs a2].
    cbn [fst] in *. f_equal. apply IH.
    rewrite Forall_forall in *. intros x Hx. split; [apply Hbt; exact Hx|].
    intros _. unfold rp_abs_accept. cbn [rp_a_hi].
    specialize (Hlt x Hx). destruct (rp_a_armed a) eqn:Ha.
    + destruct (Hbt x Hx) as [_ Hh]. specialize (Hh eq_refl). lia.
    + lia.
Qed.

Theorem e2e_in_order_all_accepted : forall freq start ops W b12,
  0 <= start <= 2 ^ 40 -> ss_freq_ok freq -> Forall ss_op_ok ops ->
  Z.of_nat (length ops) < 2 ^ 63 ->
  let pivs := ss_pivs (ss_boot freq start) ops in
  fst (rp_run rp_fixed W b12 rp_init (e2e_in_order pivs)) = map (fun _ => RpAccept) pivs.
Proof.
  intros freq start ops W b12 Hs Hf Hok Hlen pivs.
  destruct (ss_pivs_increasing freq start ops Hs Hf Hok Hlen) as [Hsort Hrange].
  rewrite rp_window_exact. apply e2e_abs_in_order; [exact Hsort|].
  eapply Forall_impl; [|exact Hrange]. intros p Hp. split.
  - unfold ss_seq_max, rp_seq_max in *. lia.
  - discriminate.
Qed.
