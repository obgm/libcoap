(* C15 - proofs about the sender model of Oscore/SenderSeq.v: the Partial IVs put on the wire
   over any sequence of protect / crash-and-restart steps are strictly increasing, hence pairwise
   distinct. *)
From Coq Require Import Sorted.
From LibcoapV Require Import Base.Tactics Oscore.SenderSeq.
Local Open Scope Z_scope.

(* every field stays below this bound (or below it plus the number of steps made): no
   uint64_t ever wraps *)
Definition ss_M : Z := 2 ^ 41.

Definition ss_freq_ok (f : Z) : Prop := 0 <= f < 2 ^ 32.

Definition ss_op_ok (o : ss_op) : Prop :=
  match o with SsProtect => True | SsCrash f => ss_freq_ok f end.

(* invariant after [d] steps.  The three cases: running at or below the watermark next_seq, which
   is the value on stable storage; just restarted from the stored value, with next_seq rounded
   down to a multiple of ssn_freq (the first protect then saves next_seq + ssn_freq); sequence
   numbers exhausted, nothing is sent any more *)
Definition ss_inv (y : ss_sys) (d : Z) : Prop :=
  let c := ss_cur y in
  1 <= ss_freq c < 2 ^ 32 /\ 0 <= ss_next c <= ss_M /\ 0 <= ss_saved y <= ss_M /\
  0 <= ss_seq c <= ss_M + d /\
  ((ss_seq c <= ss_next c /\ ss_next c = ss_saved y) \/
   (ss_seq c = ss_saved y /\ ss_next c <= ss_seq c < ss_next c + ss_freq c) \/
   ss_seq_max <= ss_seq c).

(* every Partial IV still to come is at least this *)
Definition ss_lb (y : ss_sys) : Z := Z.min (ss_seq (ss_cur y)) (ss_saved y).

Lemma ss_boot_inv : forall f start d,
  ss_freq_ok f -> 0 <= start <= ss_M -> 0 <= d -> ss_inv (ss_boot f start) d.
Proof.
  intros f start d Hf Hs Hd. unfold ss_freq_ok in Hf.
  unfold ss_inv, ss_boot, ss_init. cbn [ss_cur ss_saved ss_seq ss_next ss_freq].
  set (f' := if f >? 0 then f else 1).
  assert (Hf' : 1 <= f' < 2 ^ 32) by (subst f'; destruct (f >? 0) eqn:E; lia).
  pose proof (Z.mod_pos_bound start f' ltac:(lia)) as Hm.
  assert (start mod f' <= start) by (apply Z.mod_le; lia).
  repeat split; lia.
Qed.

Lemma ss_boot_lb : forall f start, ss_lb (ss_boot f start) = start.
Proof.
  intros. unfold ss_lb, ss_boot, ss_init. cbn. lia.
Qed.

(* one step keeps the invariant, never lowers the bound, and a Partial IV that is emitted
   lies between the old and the new bound *)
Lemma ss_step_inv : forall y d o,
  ss_inv y d -> 0 <= d -> ss_M + d + 1 < 2 ^ 64 -> ss_op_ok o ->
  let '(piv, _, y1) := ss_step y o in
  ss_inv y1 (d + 1) /\ ss_lb y <= ss_lb y1 /\
  match piv with Some p => ss_lb y <= p < ss_lb y1 /\ 0 <= p < ss_seq_max | None => True end.
Proof.
  intros [[q n fr] sv] d o Hinv Hd Hb Ho.
  destruct o as [|f].
  - (* SsProtect *)
    unfold ss_inv, ss_lb, ss_M in *. cbn [ss_cur ss_saved ss_seq ss_next ss_freq] in *.
    destruct Hinv as (Hf & Hn & Hs & Hq & Hcase).
    unfold ss_step, ss_protect, ss_two64, ss_seq_max in *.
    cbn [ss_cur ss_saved ss_seq ss_next ss_freq].
    rewrite (Z.mod_small (q + 1)) by lia.
    destruct (q + 1 >? 2 ^ 40 - 1) eqn:Emax.
    { (* exhausted: nothing is sent *)
      cbn [ss_cur ss_saved ss_seq ss_next ss_freq]. repeat split; lia. }
    destruct (q + 1 >? n) eqn:Egt; [rewrite (Z.mod_small (n + fr)) by lia|];
      cbn [ss_cur ss_saved ss_seq ss_next ss_freq]; repeat split; lia.
  - (* SsCrash: restart from what is on stable storage *)
    cbn [ss_step]. cbn [ss_op_ok] in Ho.
    destruct Hinv as (Hf & Hn & Hs & Hq & Hcase).
    split; [apply ss_boot_inv; try lia; exact Ho|].
    rewrite ss_boot_lb. unfold ss_lb. split; [lia | exact I].
Qed.

(* the Partial IVs on the wire are strictly increasing, also across restarts, and each is a
   sequence number a recipient accepts (below OSCORE_SEQ_MAX) *)
Lemma ss_pivs_sorted_gen : forall ops y d,
  ss_inv y d -> 0 <= d -> ss_M + d + Z.of_nat (length ops) < 2 ^ 64 ->
  Forall ss_op_ok ops ->
  StronglySorted Z.lt (ss_pivs y ops) /\
  Forall (fun p => ss_lb y <= p /\ 0 <= p < ss_seq_max) (ss_pivs y ops).
Proof.
  induction ops as [|o t IH]; intros y d Hinv Hd Hb Hok.
  - cbn. split; constructor.
  - cbn [ss_pivs]. inversion Hok as [|? ? Ho Hok']; subst.
    cbn [length] in Hb. rewrite Nat2Z.inj_succ in Hb.
    pose proof (ss_step_inv y d o Hinv Hd ltac:(lia) Ho) as Hs.
    destruct (ss_step y o) as [[piv sv] y1].
    destruct Hs as (Hinv1 & Hlb & Hp).
    destruct (IH y1 (d + 1) Hinv1 ltac:(lia) ltac:(lia) Hok') as [Hss Hall].
    assert (Hall' : Forall (fun p => ss_lb y <= p /\ 0 <= p < ss_seq_max) (ss_pivs y1 t))
      by (eapply Forall_impl; [|exact Hall]; intros a [Ha Hr]; lia).
    destruct piv as [p|]; [|split; assumption].
    destruct Hp as [Hp Hpr]. split.
    + constructor; [exact Hss|].
      eapply Forall_impl; [|exact Hall]. intros a [Ha _]. lia.
    + constructor; [lia | exact Hall'].
Qed.

(* start_seq_num is a sequence number (at most 2^40), ssn_freq a uint32_t; the bound on the
   number of steps only excludes a wrap of the 64-bit counter after the sequence number space
   is exhausted *)
Theorem ss_pivs_increasing : forall freq start ops,
  0 <= start <= 2 ^ 40 -> ss_freq_ok freq -> Forall ss_op_ok ops ->
  Z.of_nat (length ops) < 2 ^ 63 ->
  StronglySorted Z.lt (ss_pivs (ss_boot freq start) ops) /\
  Forall (fun p => 0 <= p < ss_seq_max) (ss_pivs (ss_boot freq start) ops).
Proof.
  intros freq start ops Hs Hf Hok Hlen.
  assert (Hi : ss_inv (ss_boot freq start) 0).
  { apply ss_boot_inv; unfold ss_M; try lia. exact Hf. }
  destruct (ss_pivs_sorted_gen ops _ 0 Hi) as [H1 H2]; unfold ss_M; try lia; [exact Hok|].
  split; [exact H1|]. eapply Forall_impl; [|exact H2]. intros a [_ Ha]. exact Ha.
Qed.

Lemma ss_sorted_nodup : forall l, StronglySorted Z.lt l -> NoDup l.
Proof.
  induction 1 as [|x l _ IH Hx]; constructor; [|exact IH].
  intro Hin. rewrite Forall_forall in Hx. apply Hx in Hin. lia.
Qed.

Theorem ss_piv_unique : forall freq start ops,
  0 <= start <= 2 ^ 40 -> ss_freq_ok freq -> Forall ss_op_ok ops ->
  Z.of_nat (length ops) < 2 ^ 63 ->
  NoDup (ss_pivs (ss_boot freq start) ops).
Proof.
  intros freq start ops Hs Hf Hok Hlen.
  apply ss_sorted_nodup, ss_pivs_increasing; assumption.
Qed.

(* every Partial IV on the wire is a valid sequence number (below OSCORE_SEQ_MAX) *)
Lemma ss_protect_piv_small : forall s p sv s1,
  0 <= ss_seq s -> ss_seq s + 1 < ss_two64 ->
  ss_protect s = (Some p, sv, s1) -> p = ss_seq s /\ p < ss_seq_max.
Proof.
  intros s p sv s1 H0 H1. unfold ss_protect.
  rewrite (Z.mod_small (ss_seq s + 1)) by lia.
  destruct (ss_seq s + 1 >? ss_seq_max) eqn:E; [discriminate|].
  destruct (ss_seq s + 1 >? ss_next s); intros H; inversion H; subst; lia.
Qed.
