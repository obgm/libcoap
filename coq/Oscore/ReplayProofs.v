(* C15 - proofs about the recipient model of Oscore/Replay.v.

   Main result: the repaired code ([rp_fixed]) refines the RFC 8613 7.4 sliding-window
   specification [rp_abs_recv] for every history, window size and B.1.2 setting
   ([rp_run_refines]).  At-most-once acceptance, "a forgery leaves no trace", "genuine messages
   are accepted exactly as without the forgeries" and "no shift by >= 64" follow.

   First the specification's own properties, then the window word as a representation of the
   accepted set ([rp_win_repr]), the refinement relation [rp_R] with one lemma per operation of
   the code, the properties of the repaired code, the value ranges of the C fields (any
   variant), and the nonces of the replies. *)
From LibcoapV Require Import Base.Tactics Oscore.Replay.
Local Open Scope Z_scope.

Lemma rp_mem_In : forall x l, rp_mem x l = true <-> In x l.
Proof.
  intros x l. unfold rp_mem. rewrite existsb_exists. split.
  - intros [y [Hy E]]. apply Z.eqb_eq in E. subst. exact Hy.
  - intros H. exists x. split; [exact H | apply Z.eqb_refl].
Qed.

Lemma rp_mem_false : forall x l, rp_mem x l = false <-> ~ In x l.
Proof.
  intros x l. rewrite <- rp_mem_In. destruct (rp_mem x l); split; congruence.
Qed.

Lemma rp_mem_cons : forall x y l, rp_mem x (y :: l) = (x =? y) || rp_mem x l.
Proof. reflexivity. Qed.

Definition rp_delivered (r : rp_verdict) : bool :=
  match r with RpAccept | RpAcceptUnchecked => true | _ => false end.

Lemma rp_undelivered_not_accept : forall r, rp_delivered r = false -> rp_is_accept r = false.
Proof. intros r H. destruct r; try reflexivity. discriminate H. Qed.

(* invariant of the accepted set *)
Definition rp_abs_ok (a : rp_abs) : Prop :=
  NoDup (rp_a_seen a) /\
  if rp_a_armed a
  then In (rp_a_hi a) (rp_a_seen a) /\ forall x, In x (rp_a_seen a) -> x <= rp_a_hi a
  else rp_a_seen a = [].

Lemma rp_abs_ok_init : rp_abs_ok rp_abs_init.
Proof. unfold rp_abs_ok; cbn. split; [constructor | reflexivity]. Qed.

Lemma rp_abs_fresh_lt : forall W a seq, rp_abs_fresh W a seq = true -> seq < rp_seq_max.
Proof. intros W a seq H. unfold rp_abs_fresh in H. apply andb_prop in H. lia. Qed.

Lemma rp_abs_fresh_unarmed : forall W a seq,
  rp_a_armed a = false -> rp_abs_fresh W a seq = (seq <? rp_seq_max).
Proof. intros W a seq Ha. unfold rp_abs_fresh. rewrite Ha. apply andb_true_r. Qed.

(* what the window test says about the set of accepted numbers: the number is above all of
   them, or not among them and less than the window size below the highest *)
Lemma rp_abs_fresh_armed : forall W a seq,
  rp_abs_ok a -> rp_a_armed a = true ->
  (rp_abs_fresh W a seq = true <->
   seq < rp_seq_max /\
   ((forall x, In x (rp_a_seen a) -> x < seq) \/
    (~ In seq (rp_a_seen a) /\ forall x, In x (rp_a_seen a) -> x - seq < rp_weff W))).
Proof.
  intros W a seq [_ Hok] Ha. rewrite Ha in Hok. destruct Hok as [Hhi Hle].
  unfold rp_abs_fresh.
  rewrite Ha, andb_true_iff, orb_true_iff, andb_true_iff, negb_true_iff, rp_mem_false.
  split.
  - intros [Hlt [Hgt|[Hw Hn]]]; (split; [lia|]).
    + left. intros x Hx. apply Hle in Hx. lia.
    + right. split; [exact Hn|]. intros x Hx. apply Hle in Hx. lia.
  - intros [Hlt [Hnew|[Hn Hd]]]; (split; [lia|]).
    + left. apply Hnew in Hhi. lia.
    + right. split; [|exact Hn]. apply Hd in Hhi. lia.
Qed.

Lemma rp_abs_fresh_notin : forall W a seq,
  rp_abs_ok a -> rp_abs_fresh W a seq = true -> ~ In seq (rp_a_seen a).
Proof.
  intros W a seq Hok Hf. destruct (rp_a_armed a) eqn:Ha.
  - apply rp_abs_fresh_armed in Hf; [|exact Hok | exact Ha].
    destruct Hf as [_ [Hnew|[Hn _]]]; [|exact Hn]. intro Hin. apply Hnew in Hin. lia.
  - destruct Hok as [_ Hok]. rewrite Ha in Hok. rewrite Hok. intros [].
Qed.

Lemma rp_abs_accept_ok : forall W a seq,
  rp_abs_ok a -> rp_abs_fresh W a seq = true -> rp_abs_ok (rp_abs_accept a seq).
Proof.
  intros W a seq Hok Hf. pose proof (rp_abs_fresh_notin W a seq Hok Hf) as Hn.
  destruct Hok as [Hnd Hrest]. unfold rp_abs_ok, rp_abs_accept. cbn.
  split; [constructor; assumption|].
  destruct (rp_a_armed a).
  - destruct Hrest as [Hin Hle]. split.
    + destruct (Z.max_spec (rp_a_hi a) seq) as [[_ ->]|[_ ->]]; auto.
    + intros x [Hx|Hx]; [lia|]. apply Hle in Hx. lia.
  - split; [left; reflexivity|]. intros x [Hx|Hx]; [lia|]. rewrite Hrest in Hx. destruct Hx.
Qed.

(* a step puts the number in front of the accepted set exactly when it accepts, which it does
   only for a fresh number; what is not genuine is never delivered *)
Lemma rp_abs_recv_cases : forall W b12 a m,
  let '(r, a1) := rp_abs_recv W b12 a m in
  a1 = (if rp_is_accept r then rp_abs_accept a (rp_m_seq m) else a) /\
  (rp_is_accept r = true -> rp_abs_fresh W a (rp_m_seq m) = true) /\
  (rp_m_auth m <> RpGenuine -> rp_delivered r = false).
Proof.
  intros W b12 a m. unfold rp_abs_recv, rp_abs_recv_req, rp_abs_recv_resp.
  destruct (rp_m_kind m), (rp_m_auth m), (rp_a_armed a), (rp_abs_fresh W a (rp_m_seq m));
    cbn [negb]; (destruct b12; [destruct (rp_m_echo m)|]);
    cbn [rp_is_accept rp_delivered]; repeat split; intros; congruence.
Qed.

Lemma rp_abs_recv_ok : forall W b12 a m,
  rp_abs_ok a -> rp_abs_ok (snd (rp_abs_recv W b12 a m)).
Proof.
  intros W b12 a m Hok. pose proof (rp_abs_recv_cases W b12 a m) as Hc.
  destruct (rp_abs_recv W b12 a m) as [r a1]. destruct Hc as (-> & Hf & _). cbn [snd].
  destruct (rp_is_accept r); [|exact Hok]. apply (rp_abs_accept_ok W); auto.
Qed.

(* in the armed state a fresh genuine message is accepted *)
Lemma rp_abs_recv_fresh : forall W b12 a m,
  rp_a_armed a = true -> rp_m_auth m = RpGenuine -> rp_abs_fresh W a (rp_m_seq m) = true ->
  fst (rp_abs_recv W b12 a m) = RpAccept.
Proof.
  intros W b12 a m Ha Hg Hf. unfold rp_abs_recv, rp_abs_recv_req, rp_abs_recv_resp.
  rewrite Hg, Ha, Hf. destruct (rp_m_kind m); reflexivity.
Qed.

(* the accepted set is the list of accepted numbers, newest first *)
Lemma rp_abs_run_seen : forall W b12 h a,
  rp_abs_ok a ->
  rp_abs_ok (snd (rp_abs_run W b12 a h)) /\
  rev (rp_a_seen (snd (rp_abs_run W b12 a h))) =
    rev (rp_a_seen a) ++ rp_accepted_of h (fst (rp_abs_run W b12 a h)).
Proof.
  intros W b12 h. induction h as [|m t IH]; intros a Hok.
  - cbn. rewrite app_nil_r. auto.
  - cbn [rp_abs_run].
    pose proof (rp_abs_recv_ok W b12 a m Hok) as Hok1.
    pose proof (rp_abs_recv_cases W b12 a m) as Hc.
    destruct (rp_abs_recv W b12 a m) as [r a1]. cbn [snd] in Hok1.
    specialize (IH a1 Hok1).
    destruct (rp_abs_run W b12 a1 t) as [rs a2]. cbn [fst snd] in *.
    destruct IH as [Hok2 Hseen]. split; [exact Hok2|].
    rewrite Hseen. cbn [rp_accepted_of]. destruct Hc as (-> & _ & _).
    destruct (rp_is_accept r); [|reflexivity].
    cbn [rp_abs_accept rp_a_seen rev]. rewrite <- app_assoc. reflexivity.
Qed.

Theorem rp_abs_at_most_once : forall W b12 h,
  NoDup (rp_accepted_of h (fst (rp_abs_run W b12 rp_abs_init h))).
Proof.
  intros W b12 h.
  destruct (rp_abs_run_seen W b12 h rp_abs_init rp_abs_ok_init) as [[Hnd _] Hseen].
  cbn [rp_abs_init rp_a_seen rev app] in Hseen. rewrite <- Hseen. apply NoDup_rev. exact Hnd.
Qed.

(* messages that are not genuine are invisible to the specification *)
Lemma rp_abs_filter_genuine : forall W b12 h a,
  rp_genuine_verdicts h (fst (rp_abs_run W b12 a h)) =
  fst (rp_abs_run W b12 a (filter rp_is_genuine h)).
Proof.
  intros W b12 h. induction h as [|m t IH]; intros a.
  - reflexivity.
  - cbn [rp_abs_run filter].
    pose proof (rp_abs_recv_cases W b12 a m) as Hc.
    destruct (rp_is_genuine m) eqn:Eg.
    + cbn [rp_abs_run]. destruct (rp_abs_recv W b12 a m) as [r a1]. specialize (IH a1).
      destruct (rp_abs_run W b12 a1 t) as [rs a2].
      destruct (rp_abs_run W b12 a1 (filter rp_is_genuine t)) as [rs' a2'].
      cbn [fst rp_genuine_verdicts] in *. rewrite Eg, IH. reflexivity.
    + destruct (rp_abs_recv W b12 a m) as [r a1]. destruct Hc as (-> & _ & Hd).
      rewrite rp_undelivered_not_accept.
      2: { apply Hd. intro Hg. unfold rp_is_genuine in Eg. rewrite Hg in Eg. discriminate. }
      specialize (IH a). destruct (rp_abs_run W b12 a t) as [rs a2].
      cbn [fst rp_genuine_verdicts] in *. rewrite Eg. exact IH.
Qed.

Lemma rp_land_pow2 : forall a n, 0 <= n ->
  (Z.land a (2 ^ n) =? 0) = negb (Z.testbit a n).
Proof.
  intros a n Hn.
  destruct (Z.testbit a n) eqn:E; cbn [negb].
  - apply Z.eqb_neq. intro H0.
    assert (Hb : Z.testbit (Z.land a (2 ^ n)) n = true).
    { rewrite Z.land_spec, E, Z.pow2_bits_true by lia. reflexivity. }
    rewrite H0, Z.bits_0 in Hb. discriminate.
  - apply Z.eqb_eq. apply Z.bits_inj'. intros m Hm.
    rewrite Z.land_spec, Z.bits_0.
    destruct (Z.eq_dec n m) as [->|Hne].
    + rewrite E. reflexivity.
    + rewrite Z.pow2_bits_false by lia. apply andb_false_r.
Qed.

Lemma rp_one_bits : forall k, 0 <= k -> Z.testbit 1 k = (k =? 0).
Proof.
  intros k Hk. change 1 with (2 ^ 0). rewrite Z.pow2_bits_eqb by lia.
  rewrite Z.eqb_sym. reflexivity.
Qed.

Lemma rp_shl64_small : forall w s, s < 64 -> rp_shl64 w s = ((Z.shiftl w s) mod 2 ^ 64, false).
Proof.
  intros w s H. unfold rp_shl64. destruct (s <? 64) eqn:E; [reflexivity | lia].
Qed.

(* 1ULL << k *)
Lemma rp_shl64_one : forall k, 0 <= k < 64 -> rp_shl64 1 k = (2 ^ k, false).
Proof.
  intros k Hk. rewrite rp_shl64_small, Z.shiftl_1_l by lia.
  rewrite Z.mod_small by (split; [apply Z.pow_nonneg; lia | apply Z.pow_lt_mono_r; lia]).
  reflexivity.
Qed.

(* shift < 64 ? window << shift : 0 *)
Lemma rp_slide_bits : forall w d k, 0 <= d -> 0 <= k < 64 ->
  Z.testbit (if d <? 64 then fst (rp_shl64 w d) else 0) k =
  if k <? d then false else Z.testbit w (k - d).
Proof.
  intros w d k Hd Hk. destruct (d <? 64) eqn:E.
  - rewrite rp_shl64_small by lia. cbn [fst].
    rewrite Z.mod_pow2_bits_low, Z.shiftl_spec by lia.
    destruct (k <? d) eqn:Ek; [apply Z.testbit_neg_r; lia | reflexivity].
  - rewrite Z.bits_0. destruct (k <? d) eqn:Ek; [reflexivity | lia].
Qed.

(* bit k of the window word stands for the number last - k *)
Definition rp_win_repr (last win : Z) (seen : list Z) : Prop :=
  forall k, 0 <= k < 64 -> Z.testbit win k = rp_mem (last - k) seen.

Lemma rp_win_repr_first : forall seq, rp_win_repr seq 1 [seq].
Proof.
  intros seq k Hk. rewrite rp_one_bits, rp_mem_cons by lia. cbn [rp_mem existsb].
  rewrite orb_false_r. lia.
Qed.

(* a newer number: the window moves up to it; what is shifted in was never seen *)
Lemma rp_win_repr_advance : forall last win seen seq,
  rp_win_repr last win seen -> (forall x, In x seen -> x <= last) -> last < seq ->
  rp_win_repr seq (Z.lor (if seq - last <? 64 then fst (rp_shl64 win (seq - last)) else 0) 1)
              (seq :: seen).
Proof.
  intros last win seen seq Hrep Hle Hlt k Hk.
  rewrite Z.lor_spec, rp_slide_bits, rp_one_bits, rp_mem_cons by lia.
  destruct (k =? 0) eqn:Ek.
  { assert (seq - k =? seq = true) as -> by lia. apply orb_true_r. }
  assert (seq - k =? seq = false) as -> by lia. rewrite orb_false_r. cbn [orb].
  destruct (k <? seq - last) eqn:Ek2.
  - symmetry. apply rp_mem_false. intro Hin. apply Hle in Hin. lia.
  - rewrite Hrep by lia. f_equal. lia.
Qed.

(* an older number inside the window: its bit is tested, then set *)
Lemma rp_win_repr_test : forall last win seen seq,
  rp_win_repr last win seen -> 0 <= last - seq < 64 ->
  (Z.land win (2 ^ (last - seq)) =? 0) = negb (rp_mem seq seen).
Proof.
  intros last win seen seq Hrep Hk. rewrite rp_land_pow2, Hrep by lia. do 2 f_equal. lia.
Qed.

Lemma rp_win_repr_mark : forall last win seen seq,
  rp_win_repr last win seen -> 0 <= last - seq < 64 ->
  rp_win_repr last (Z.lor win (2 ^ (last - seq))) (seq :: seen).
Proof.
  intros last win seen seq Hrep Hs k Hk.
  rewrite Z.lor_spec, Hrep, Z.pow2_bits_eqb, rp_mem_cons by lia.
  rewrite orb_comm. f_equal. lia.
Qed.

(* what a reachable concrete state has to do with the set of accepted numbers *)
Definition rp_R (s : rp_state) (a : rp_abs) : Prop :=
  rp_undef s = false /\ rp_initial s = negb (rp_a_armed a) /\
  if rp_a_armed a then
    rp_last s = rp_a_hi a /\ rp_win_repr (rp_last s) (rp_win s) (rp_a_seen a)
  else rp_rb_win s = 0.

Lemma rp_R_init : rp_R rp_init rp_abs_init.
Proof. unfold rp_R, rp_init, rp_abs_init; cbn. repeat split. Qed.

(* with the window armed the relation reads only what [rp_obs] shows *)
Lemma rp_R_obs : forall s s' a,
  rp_R s a -> rp_a_armed a = true -> rp_obs s' = rp_obs s -> rp_undef s' = false -> rp_R s' a.
Proof.
  intros s s' a (_ & Hi & HR) Ha Hobs Hu. unfold rp_R. rewrite Ha in *.
  unfold rp_obs in Hobs. injection Hobs as -> -> ->. auto.
Qed.

(* oscore_roll_back_seq after a validation that saved last_seq and a window with bit 0 set *)
Lemma rp_rollback_saved : forall l w l0 w0 i u,
  w0 <> 0 -> rp_rollback rp_fixed (Build_rp_state l w l0 w0 i u) = Build_rp_state l0 w0 0 0 i u.
Proof.
  intros l w l0 w0 i u H. unfold rp_rollback. cbn [rp_v_rbflag rp_fixed rp_rb_win].
  destruct (w0 =? 0) eqn:E; [lia | reflexivity].
Qed.

(* and with nothing saved *)
Lemma rp_rollback_idle : forall s, rp_rb_win s = 0 -> rp_rollback rp_fixed s = s.
Proof. intros s H. unfold rp_rollback. cbn [rp_v_rbflag rp_fixed]. rewrite H. reflexivity. Qed.

(* the relation after a number has been accepted *)
Lemma rp_R_accept : forall s a seq,
  rp_undef s = false -> rp_initial s = false ->
  rp_last s = (if rp_a_armed a then Z.max (rp_a_hi a) seq else seq) ->
  rp_win_repr (rp_last s) (rp_win s) (seq :: rp_a_seen a) ->
  rp_R s (rp_abs_accept a seq).
Proof.
  intros s a seq Hu Hi Hl Hrep. unfold rp_R, rp_abs_accept.
  cbn [rp_a_armed rp_a_hi rp_a_seen negb]. auto.
Qed.

(* the first validation of a context: arms the window *)
Lemma rp_validate_unarmed : forall W s a seq,
  rp_abs_ok a -> rp_R s a -> rp_a_armed a = false ->
  let '(ok, s1) := rp_validate rp_fixed W s seq in
  ok = rp_abs_fresh W a seq /\ if ok then rp_R s1 (rp_abs_accept a seq) else s1 = s.
Proof.
  intros W s a seq [_ Hseen] (Hu & Hi & _) Ha. rewrite Ha in *. cbn [negb] in Hi.
  rewrite rp_abs_fresh_unarmed by exact Ha. unfold rp_validate.
  destruct (seq >=? rp_seq_max) eqn:E.
  - split; [lia | reflexivity].
  - cbn [rp_initial]. rewrite Hi. split; [lia|].
    apply rp_R_accept; cbn [rp_undef rp_initial rp_last rp_win]; rewrite ?Ha, ?Hseen; auto.
    apply rp_win_repr_first.
Qed.

(* validation in the armed state: exactly the sliding-window test; what it changes besides the
   rollback fields, a rollback undoes *)
Lemma rp_validate_armed : forall W s a seq,
  rp_abs_ok a -> rp_R s a -> rp_a_armed a = true ->
  let '(ok, s1) := rp_validate rp_fixed W s seq in
  ok = rp_abs_fresh W a seq /\
  if ok then rp_initial s1 = false /\ rp_R s1 (rp_abs_accept a seq) /\
             rp_R (rp_rollback rp_fixed s1) a /\ rp_obs (rp_rollback rp_fixed s1) = rp_obs s
  else rp_R s1 a /\ rp_obs s1 = rp_obs s.
Proof.
  intros W s a seq [_ Hok] HR Ha.
  assert (Hsame : forall s', rp_obs s' = rp_obs s -> rp_undef s' = false ->
                             rp_R s' a /\ rp_obs s' = rp_obs s).
  { intros s' Ho Hu'. split; [exact (rp_R_obs s s' a HR Ha Ho Hu') | exact Ho]. }
  destruct HR as (Hu & Hi & HR). rewrite Ha in *. cbn [negb] in Hi.
  destruct Hok as [Hhi Hle], HR as [Hl Hrep]. rewrite <- Hl in *.
  destruct s as [l w rl rw i u]. cbn [rp_undef rp_initial rp_last rp_win] in *. subst i u.
  (* a successful validation has saved l and w; bit 0 of w stands for l itself, so the
     rollback finds a window that is not 0 and restores both *)
  assert (Hacc : forall l' w',
            l' = Z.max l seq -> rp_win_repr l' w' (seq :: rp_a_seen a) ->
            let s1 := Build_rp_state l' w' l w false false in
            rp_initial s1 = false /\ rp_R s1 (rp_abs_accept a seq) /\
            rp_R (rp_rollback rp_fixed s1) a /\
            rp_obs (rp_rollback rp_fixed s1) = rp_obs (Build_rp_state l w rl rw false false)).
  { intros l' w' Hl' Hrep' s1. split; [reflexivity|]. split.
    - apply rp_R_accept; cbn [rp_undef rp_initial rp_last rp_win]; rewrite ?Ha, <- ?Hl; auto.
    - subst s1. rewrite rp_rollback_saved; [apply Hsame; reflexivity|].
      intro. subst w. specialize (Hrep 0 ltac:(lia)). rewrite Z.bits_0, Z.sub_0_r in Hrep.
      apply rp_mem_In in Hhi. congruence. }
  unfold rp_validate, rp_abs_fresh, rp_set_window. rewrite Ha, <- Hl.
  cbn [rp_fixed rp_v_shguard rp_v_bitidx rp_undef rp_initial rp_last rp_win rp_rb_last rp_rb_win
       orb].
  destruct (seq >=? rp_seq_max) eqn:E.
  { split; [lia | apply Hsame; reflexivity]. }
  assert (seq <? rp_seq_max = true) as -> by lia. cbn [andb].
  destruct (seq >? l) eqn:Egt; cbn [orb].
  - (* newer than everything seen: the window moves *)
    split; [reflexivity|].
    apply Hacc; [lia | apply rp_win_repr_advance; [exact Hrep | exact Hle | lia]].
  - destruct (seq =? l) eqn:Eeq.
    { (* the newest number again *)
      assert (seq = l) by lia. subst seq. apply rp_mem_In in Hhi. rewrite Hhi, andb_false_r.
      split; [reflexivity | apply Hsame; reflexivity]. }
    (* older than the newest: inside or outside the window *)
    unfold rp_weff.
    destruct ((l - seq >=? W) || (l - seq >? 63)) eqn:Eout.
    { assert (l - seq <? Z.min W 64 = false) as -> by lia.
      split; [reflexivity | apply Hsame; reflexivity]. }
    assert (l - seq <? Z.min W 64 = true) as -> by lia. cbn [andb].
    rewrite rp_shl64_one by lia.
    rewrite (rp_win_repr_test l w _ seq Hrep) by lia. rewrite negb_involutive.
    destruct (rp_mem seq (rp_a_seen a)) eqn:Em; cbn [negb orb].
    { split; [reflexivity | apply Hsame; reflexivity]. }
    split; [reflexivity|].
    apply Hacc; [lia | apply rp_win_repr_mark; [exact Hrep | lia]].
Qed.

(* the validation after decryption that arms the window *)
Lemma rp_arm_refines : forall W s a seq,
  rp_abs_ok a -> rp_R s a -> rp_a_armed a = false ->
  let '(r, s1) := rp_arm rp_fixed W s seq in
  let '(r', a1) := if rp_abs_fresh W a seq then (RpAccept, rp_abs_accept a seq)
                   else (RpRejReplay, a) in
  r = r' /\ rp_R s1 a1.
Proof.
  intros W s a seq Hok HR Ha. unfold rp_arm.
  pose proof (rp_validate_unarmed W s a seq Hok HR Ha) as HV.
  destruct (rp_validate rp_fixed W s seq) as [ok s1]. destruct HV as [<- HV].
  destruct ok; [|subst s1]; auto.
Qed.

(* closes [r = r /\ rp_R s1 a1 /\ (rp_m_auth m <> RpGenuine -> rp_obs s1 = rp_obs s)] when the two
   facts are hypotheses *)
Ltac rp_step_done := split; [reflexivity | split; [assumption | intros; congruence]].

(* one request: the concrete step is the specification's step, and a request that is not
   genuine leaves no trace *)
Lemma rp_recv_req_refines : forall W b12 s a m,
  rp_abs_ok a -> rp_R s a ->
  let '(r, s1) := rp_recv_req rp_fixed W b12 s m in
  let '(r', a1) := rp_abs_recv_req W b12 a m in
  r = r' /\ rp_R s1 a1 /\ (rp_m_auth m <> RpGenuine -> rp_obs s1 = rp_obs s).
Proof.
  intros W b12 s a m Hok HR. pose proof HR as (_ & Hi & Hrb).
  unfold rp_recv_req, rp_abs_recv_req.
  cbn [rp_v_nooverwrite rp_v_abort_rb rp_v_arm rp_fixed].
  destruct (rp_a_armed a) eqn:Ha; cbn [negb] in Hi; rewrite Hi.
  - pose proof (rp_validate_armed W s a (rp_m_seq m) Hok HR Ha) as HV.
    destruct (rp_validate rp_fixed W s (rp_m_seq m)) as [ok s1].
    destruct HV as (<- & HV).
    destruct ok; cbn [negb andb].
    + destruct HV as (Hi1 & HR1 & HRb & Hobs). rewrite Hi1. destruct (rp_m_auth m); rp_step_done.
    + destruct HV as [HR1 Hobs]. destruct (rp_m_auth m); rp_step_done.
  - (* initial state: no check before decryption, nothing to roll back *)
    cbn [negb andb]. rewrite rp_rollback_idle by exact Hrb.
    destruct (rp_m_auth m); try rp_step_done.
    rewrite Hi. pose proof (rp_arm_refines W s a (rp_m_seq m) Hok HR Ha) as Harm.
    destruct b12; [destruct (rp_m_echo m)|]; try rp_step_done;
      destruct (rp_arm rp_fixed W s (rp_m_seq m)) as [r s1], (rp_abs_fresh W a (rp_m_seq m));
      destruct Harm as [-> HR1]; rp_step_done.
Qed.

(* one response with its own Partial IV *)
Lemma rp_recv_resp_refines : forall W s a m,
  rp_abs_ok a -> rp_R s a ->
  let '(r, s1) := rp_recv_resp rp_fixed W s m in
  let '(r', a1) := rp_abs_recv_resp W a m in
  r = r' /\ rp_R s1 a1 /\ (rp_m_auth m <> RpGenuine -> rp_obs s1 = rp_obs s).
Proof.
  intros W s a m Hok HR. pose proof HR as (_ & Hi & _).
  unfold rp_recv_resp, rp_abs_recv_resp.
  cbn [rp_v_resp_nowrite rp_v_resp_rb rp_v_abort_rb rp_fixed].
  destruct (rp_a_armed a) eqn:Ha; cbn [negb] in Hi; rewrite Hi.
  - pose proof (rp_validate_armed W s a (rp_m_seq m) Hok HR Ha) as HV.
    destruct (rp_validate rp_fixed W s (rp_m_seq m)) as [ok s1].
    destruct HV as (Hf & HV). rewrite <- Hf.
    destruct ok; cbn [negb andb].
    + assert (rp_m_seq m >=? rp_seq_max = false) as ->
        by (symmetry in Hf; apply rp_abs_fresh_lt in Hf; lia).
      destruct HV as (Hi1 & HR1 & HRb & Hobs). rewrite Hi1. destruct (rp_m_auth m); rp_step_done.
    + destruct HV as [HR1 Hobs]. destruct (rp_m_auth m); rp_step_done.
  - (* initial state: only the bound on the number is tested, nothing is recorded *)
    rewrite rp_abs_fresh_unarmed by exact Ha. cbn [negb andb].
    assert (rp_m_seq m >=? rp_seq_max = negb (rp_m_seq m <? rp_seq_max)) as -> by lia.
    destruct (rp_m_seq m <? rp_seq_max); cbn [negb]; rewrite ?Hi;
      destruct (rp_m_auth m); rp_step_done.
Qed.

Theorem rp_recv_refines : forall W b12 s a m,
  rp_abs_ok a -> rp_R s a ->
  let '(r, s1) := rp_recv rp_fixed W b12 s m in
  let '(r', a1) := rp_abs_recv W b12 a m in
  r = r' /\ rp_R s1 a1 /\ (rp_m_auth m <> RpGenuine -> rp_obs s1 = rp_obs s).
Proof.
  intros W b12 s a m Hok HR. unfold rp_recv, rp_abs_recv.
  destruct (rp_m_kind m); [apply rp_recv_req_refines | apply rp_recv_resp_refines]; assumption.
Qed.

Theorem rp_run_refines : forall W b12 h s a,
  rp_abs_ok a -> rp_R s a ->
  fst (rp_run rp_fixed W b12 s h) = fst (rp_abs_run W b12 a h) /\
  rp_R (snd (rp_run rp_fixed W b12 s h)) (snd (rp_abs_run W b12 a h)).
Proof.
  intros W b12 h. induction h as [|m t IH]; intros s a Hok HR.
  - cbn. split; [reflexivity | exact HR].
  - cbn [rp_run rp_abs_run].
    pose proof (rp_recv_refines W b12 s a m Hok HR) as Hs.
    pose proof (rp_abs_recv_ok W b12 a m Hok) as Hok1.
    destruct (rp_recv rp_fixed W b12 s m) as [r s1].
    destruct (rp_abs_recv W b12 a m) as [r' a1].
    destruct Hs as (-> & HR1 & _).
    specialize (IH s1 a1 Hok1 HR1).
    destruct (rp_run rp_fixed W b12 s1 t) as [rs s2].
    destruct (rp_abs_run W b12 a1 t) as [rs' a2].
    cbn [fst snd] in *. destruct IH as [-> HR2]. split; [reflexivity | exact HR2].
Qed.

(* the verdicts of the repaired code are those of the RFC 8613 7.4 window, for every history *)
Theorem rp_window_exact : forall W b12 h,
  fst (rp_run rp_fixed W b12 rp_init h) = fst (rp_abs_run W b12 rp_abs_init h).
Proof.
  intros W b12 h. apply rp_run_refines; [exact rp_abs_ok_init | exact rp_R_init].
Qed.

Theorem rp_at_most_once : forall W b12 h,
  NoDup (rp_accepted rp_fixed W b12 rp_init h).
Proof.
  intros W b12 h. unfold rp_accepted. rewrite rp_window_exact. apply rp_abs_at_most_once.
Qed.

(* after any history the state stands for the numbers accepted in it *)
Lemma rp_run_init : forall W b12 h,
  exists a, rp_R (snd (rp_run rp_fixed W b12 rp_init h)) a /\ rp_abs_ok a /\
            rev (rp_a_seen a) = rp_accepted rp_fixed W b12 rp_init h.
Proof.
  intros W b12 h. exists (snd (rp_abs_run W b12 rp_abs_init h)).
  destruct (rp_abs_run_seen W b12 h rp_abs_init rp_abs_ok_init) as [Hok Hseen].
  unfold rp_accepted. rewrite rp_window_exact.
  split; [apply rp_run_refines; [exact rp_abs_ok_init | exact rp_R_init] | auto].
Qed.

Definition rp_reachable (W : Z) (b12 : bool) (s : rp_state) : Prop :=
  exists h, s = snd (rp_run rp_fixed W b12 rp_init h).

Lemma rp_reachable_R : forall W b12 s, rp_reachable W b12 s -> exists a, rp_R s a /\ rp_abs_ok a.
Proof.
  intros W b12 s [h ->]. destruct (rp_run_init W b12 h) as (a & HR & Hok & _). eauto.
Qed.

(* every message that is not genuine: fails authentication, is turned away even earlier, or its
   processing stops between the replay check and the decryption verdict *)
Theorem rp_forgery_no_trace : forall W b12 s m,
  rp_reachable W b12 s -> rp_m_auth m <> RpGenuine ->
  rp_obs (snd (rp_recv rp_fixed W b12 s m)) = rp_obs s /\
  rp_delivered (fst (rp_recv rp_fixed W b12 s m)) = false.
Proof.
  intros W b12 s m Hr Hf. destruct (rp_reachable_R W b12 s Hr) as [a [HR Hok]].
  pose proof (rp_recv_refines W b12 s a m Hok HR) as Hs.
  pose proof (rp_abs_recv_cases W b12 a m) as Hc.
  destruct (rp_recv rp_fixed W b12 s m) as [r s1], (rp_abs_recv W b12 a m) as [r' a1].
  destruct Hs as (-> & _ & Hobs), Hc as (_ & _ & Hd). split; [apply Hobs | apply Hd]; exact Hf.
Qed.

Theorem rp_genuine_still_accepted : forall W b12 h,
  rp_genuine_verdicts h (fst (rp_run rp_fixed W b12 rp_init h)) =
  fst (rp_run rp_fixed W b12 rp_init (filter rp_is_genuine h)).
Proof. intros W b12 h. rewrite !rp_window_exact. apply rp_abs_filter_genuine. Qed.

Theorem rp_no_undef : forall W b12 h,
  rp_undef (snd (rp_run rp_fixed W b12 rp_init h)) = false.
Proof. intros W b12 h. destruct (rp_run_init W b12 h) as (a & HR & _). exact (proj1 HR). Qed.

(* liveness side of the window: once the context is armed, a genuine number that passes the
   window test of the specification is accepted *)
Theorem rp_recv_fresh : forall W b12 s a m,
  rp_abs_ok a -> rp_R s a -> rp_a_armed a = true ->
  rp_m_auth m = RpGenuine -> rp_abs_fresh W a (rp_m_seq m) = true ->
  fst (rp_recv rp_fixed W b12 s m) = RpAccept.
Proof.
  intros W b12 s a m Hok HR Ha Hg Hf.
  pose proof (rp_recv_refines W b12 s a m Hok HR) as Hs.
  pose proof (rp_abs_recv_fresh W b12 a m Ha Hg Hf) as Hacc.
  destruct (rp_recv rp_fixed W b12 s m) as [r s1], (rp_abs_recv W b12 a m) as [r' a1].
  destruct Hs as (-> & _). exact Hacc.
Qed.

(* in terms of the numbers accepted so far: newer than all of them, or inside the window and
   not among them *)
Theorem rp_fresh_accepted : forall W b12 h m,
  let acc := rp_accepted rp_fixed W b12 rp_init h in
  let s := snd (rp_run rp_fixed W b12 rp_init h) in
  rp_initial s = false ->
  rp_m_auth m = RpGenuine -> rp_m_seq m < rp_seq_max ->
  ((forall x, In x acc -> x < rp_m_seq m) \/
   (~ In (rp_m_seq m) acc /\ forall x, In x acc -> x - rp_m_seq m < rp_weff W)) ->
  fst (rp_recv rp_fixed W b12 s m) = RpAccept.
Proof.
  intros W b12 h m acc s Hini Hg Hlt Hcase. subst acc s.
  destruct (rp_run_init W b12 h) as (a & HR & Hok & Hseen). rewrite <- Hseen in Hcase.
  assert (Ha : rp_a_armed a = true).
  { destruct HR as (_ & Hi & _). rewrite Hini in Hi.
    destruct (rp_a_armed a); [reflexivity | discriminate]. }
  apply (rp_recv_fresh W b12 _ a m Hok HR Ha Hg).
  apply rp_abs_fresh_armed; [exact Hok | exact Ha |]. split; [exact Hlt|].
  assert (Hin : forall x, In x (rp_a_seen a) -> In x (rev (rp_a_seen a)))
    by (intro x; apply in_rev).
  destruct Hcase as [Hnew|[Hn Hd]]; [left | right; split]; auto.
Qed.

Lemma rp_lor_range : forall a b n, 0 <= n -> 0 <= a < 2 ^ n -> 0 <= b < 2 ^ n ->
  0 <= Z.lor a b < 2 ^ n.
Proof.
  intros a b n Hn Ha Hb.
  rewrite <- (Z.mod_small a (2 ^ n)), <- (Z.mod_small b (2 ^ n)) by assumption.
  rewrite <- !Z.land_ones, <- Z.land_lor_distr_l, Z.land_ones by exact Hn.
  apply Z.mod_pos_bound. lia.
Qed.

Lemma rp_shl64_range : forall w s, 0 <= fst (rp_shl64 w s) < 2 ^ 64.
Proof.
  intros w s. unfold rp_shl64, rp_two64. destruct (s <? 64); cbn [fst]; apply Z.mod_pos_bound; lia.
Qed.

Definition rp_in_range (s : rp_state) : Prop :=
  0 <= rp_win s < 2 ^ 64 /\ 0 <= rp_last s < 2 ^ 64 /\
  0 <= rp_rb_win s < 2 ^ 64 /\ 0 <= rp_rb_last s < 2 ^ 64.

Lemma rp_init_range : rp_in_range rp_init.
Proof. unfold rp_in_range, rp_init; cbn [rp_win rp_last rp_rb_win rp_rb_last]. lia. Qed.

Lemma rp_in_range_build : forall l w rl rw i u,
  0 <= w < 2 ^ 64 -> 0 <= l < 2 ^ 64 -> 0 <= rw < 2 ^ 64 -> 0 <= rl < 2 ^ 64 ->
  rp_in_range (Build_rp_state l w rl rw i u).
Proof. intros. unfold rp_in_range. cbn [rp_win rp_last rp_rb_win rp_rb_last]. auto. Qed.

Lemma rp_validate_range : forall v W s seq,
  0 <= seq -> rp_in_range s -> rp_in_range (snd (rp_validate v W s seq)).
Proof.
  intros v W [l w rl rw i u] seq Hseq Hr. pose proof Hr as (Hw & Hl & Hrw & Hrl).
  cbn [rp_win rp_last rp_rb_win rp_rb_last] in Hw, Hl, Hrw, Hrl.
  pose proof (rp_shl64_range w (seq - l)) as Hsh.
  assert (Hlor : forall x y, 0 <= x < 2 ^ 64 -> 0 <= y < 2 ^ 64 -> 0 <= Z.lor x y < 2 ^ 64)
    by (intros; apply rp_lor_range; lia).
  unfold rp_validate, rp_set_window.
  cbn [rp_win rp_last rp_rb_win rp_rb_last rp_initial rp_undef].
  destruct (seq >=? rp_seq_max) eqn:E; [exact Hr|].
  assert (seq < 2 ^ 64) by (unfold rp_seq_max in E; lia).
  destruct i; [apply rp_in_range_build; lia|].
  destruct (seq >? l).
  { destruct (rp_v_shguard v).
    - apply rp_in_range_build; try lia. apply Hlor; [|lia].
      destruct (seq - l <? 64); [exact Hsh | lia].
    - destruct (rp_shl64 w (seq - l)) as [w' ub].
      apply rp_in_range_build; try lia. apply Hlor; [exact Hsh | lia]. }
  destruct (seq =? l); [apply rp_in_range_build; lia|].
  set (shift := if rp_v_bitidx v then l - seq else l - seq - 1).
  destruct ((if rp_v_bitidx v then shift >=? W else shift >? W) || (shift >? 63));
    [apply rp_in_range_build; lia|].
  pose proof (rp_shl64_range 1 shift) as Hp. destruct (rp_shl64 1 shift) as [pat ub].
  destruct (negb (Z.land w pat =? 0)); apply rp_in_range_build; try lia.
  apply Hlor; [lia | exact Hp].
Qed.

Lemma rp_rollback_range : forall v s, rp_in_range s -> rp_in_range (rp_rollback v s).
Proof.
  intros v [l w rl rw i u] Hr. pose proof Hr as (Hw & Hl & Hrw & Hrl).
  cbn [rp_win rp_last rp_rb_win rp_rb_last] in Hw, Hl, Hrw, Hrl.
  unfold rp_rollback. cbn [rp_win rp_last rp_rb_win rp_rb_last rp_initial rp_undef].
  destruct (rp_v_rbflag v), (rw =? 0);
    cbn [rp_win rp_last rp_rb_win rp_rb_last rp_initial rp_undef];
    try destruct (rl =? 0); try exact Hr; apply rp_in_range_build; lia.
Qed.

Lemma rp_arm_range : forall v W s seq,
  0 <= seq -> rp_in_range s -> rp_in_range (snd (rp_arm v W s seq)).
Proof.
  intros v W s seq Hseq Hr. unfold rp_arm.
  pose proof (rp_validate_range v W s seq Hseq Hr) as H.
  destruct (rp_validate v W s seq) as [ok s1]. destruct ok; exact H.
Qed.

(* the replay check of both branches: if (initial_state == 0 && !oscore_validate_sender_seq()) *)
Lemma rp_gate_range : forall v W s seq,
  0 <= seq -> rp_in_range s ->
  rp_in_range (snd (if rp_initial s then (true, s) else rp_validate v W s seq)).
Proof.
  intros v W s seq Hseq Hr.
  destruct (rp_initial s); [exact Hr | apply rp_validate_range; assumption].
Qed.

(* last_seq = the received number *)
Lemma rp_set_last_range : forall s seq,
  0 <= seq < 2 ^ 64 -> rp_in_range s ->
  rp_in_range
    (Build_rp_state seq (rp_win s) (rp_rb_last s) (rp_rb_win s) (rp_initial s) (rp_undef s)).
Proof. intros s seq Hseq (Hw & Hl & Hrw & Hrl). apply rp_in_range_build; assumption. Qed.

Lemma rp_recv_req_range : forall v W b12 s m,
  0 <= rp_m_seq m < 2 ^ 64 -> rp_in_range s -> rp_in_range (snd (rp_recv_req v W b12 s m)).
Proof.
  intros v W b12 s m Hseq Hr. unfold rp_recv_req.
  pose proof (rp_gate_range v W s (rp_m_seq m) (proj1 Hseq) Hr) as H1.
  destruct (if rp_initial s then (true, s) else rp_validate v W s (rp_m_seq m)) as [ok s1].
  cbn [snd] in H1.
  set (s2 := if rp_v_nooverwrite v then s1 else _).
  assert (H2 : rp_in_range s2).
  { subst s2. destruct (rp_v_nooverwrite v); [exact H1 | apply rp_set_last_range; assumption]. }
  clearbody s2.
  destruct (rp_m_auth m), ok; cbn [negb snd]; try assumption.
  - destruct (rp_initial s2); [|exact H2].
    destruct b12; [destruct (rp_m_echo m)|destruct (rp_v_arm v)];
      try exact H2; (apply rp_arm_range; [lia | exact H2]).
  - apply rp_rollback_range. exact H2.
  - destruct (rp_v_abort_rb v && negb (rp_initial s)); [apply rp_rollback_range|]; exact H2.
Qed.

Lemma rp_recv_resp_range : forall v W s m,
  0 <= rp_m_seq m < 2 ^ 64 -> rp_in_range s -> rp_in_range (snd (rp_recv_resp v W s m)).
Proof.
  intros v W s m Hseq Hr. unfold rp_recv_resp.
  pose proof (rp_gate_range v W s (rp_m_seq m) (proj1 Hseq) Hr) as H1.
  destruct (if rp_initial s then (true, s) else rp_validate v W s (rp_m_seq m)) as [ok s1].
  cbn [snd] in H1.
  set (p := if rp_v_resp_nowrite v then _ else _).
  assert (H2 : rp_in_range (snd p)).
  { subst p. destruct (rp_v_resp_nowrite v); cbn [snd]; [exact H1|].
    destruct (rp_m_seq m >? rp_last s1); [apply rp_set_last_range; assumption | exact H1]. }
  destruct p as [toobig s2]. cbn [snd] in H2.
  destruct (rp_m_auth m), ok, toobig; cbn [negb snd]; try assumption.
  - destruct (rp_initial s2); exact H2.
  - destruct (rp_v_resp_rb v && negb (rp_initial s)); [apply rp_rollback_range|]; exact H2.
  - destruct (rp_v_abort_rb v && negb (rp_initial s)); [apply rp_rollback_range|]; exact H2.
Qed.

Lemma rp_recv_range : forall v W b12 s m,
  0 <= rp_m_seq m < 2 ^ 64 -> rp_in_range s -> rp_in_range (snd (rp_recv v W b12 s m)).
Proof.
  intros v W b12 s m Hseq Hr. unfold rp_recv.
  destruct (rp_m_kind m); [apply rp_recv_req_range | apply rp_recv_resp_range]; assumption.
Qed.

(* whatever the variant, the model never leaves the value range of the C fields: the
   arithmetic of the model is the arithmetic of the uint64_t fields *)
Theorem rp_run_range : forall v W b12 h s,
  Forall (fun m => 0 <= rp_m_seq m < 2 ^ 64) h -> rp_in_range s ->
  rp_in_range (snd (rp_run v W b12 s h)).
Proof.
  intros v W b12 h. induction h as [|m t IH]; intros s Hh Hr.
  - exact Hr.
  - inversion Hh as [|? ? Hm Ht]; subst. cbn [rp_run].
    pose proof (rp_recv_range v W b12 s m Hm Hr) as H1.
    destruct (rp_recv v W b12 s m) as [r s1]. cbn [snd] in H1.
    specialize (IH s1 Ht H1).
    destruct (rp_run v W b12 s1 t) as [rs s2]. exact IH.
Qed.

Lemma rp_reply_nonces_own_lb : forall h rs c n,
  In (RpNonceOwn n) (rp_reply_nonces true c h rs) -> c <= n.
Proof.
  induction h as [|m t IH]; intros rs c n Hin; [destruct Hin|].
  destruct rs as [|r rt]; [destruct Hin|]. cbn [rp_reply_nonces] in Hin.
  destruct (rp_m_kind m); [|apply IH in Hin; exact Hin].
  destruct (rp_reply_own_piv true r) as [[|]|].
  - destruct Hin as [Hn|Hin]; [inversion Hn; lia | apply IH in Hin; lia].
  - destruct Hin as [Hn|Hin]; [discriminate | apply IH in Hin; exact Hin].
  - apply IH in Hin; exact Hin.
Qed.

Lemma rp_reply_nonces_req_accepted : forall h rs c p,
  In (RpNonceReq p) (rp_reply_nonces true c h rs) -> In p (rp_accepted_of h rs).
Proof.
  induction h as [|m t IH]; intros rs c p Hin; [destruct Hin|].
  destruct rs as [|r rt]; [destruct Hin|]. cbn [rp_reply_nonces rp_accepted_of] in *.
  destruct (rp_m_kind m).
  - destruct r; cbn [rp_reply_own_piv rp_is_accept] in *;
      try (apply IH in Hin; exact Hin).
    + destruct Hin as [Hn|Hin]; [inversion Hn; left; reflexivity|].
      right; apply IH in Hin; exact Hin.
    + destruct Hin as [Hn|Hin]; [discriminate | apply IH in Hin; exact Hin].
  - destruct (rp_is_accept r); [right|]; apply IH in Hin; exact Hin.
Qed.

Lemma rp_reply_nonces_nodup : forall h rs c,
  NoDup (rp_accepted_of h rs) -> NoDup (rp_reply_nonces true c h rs).
Proof.
  induction h as [|m t IH]; intros rs c Hnd; [constructor|].
  destruct rs as [|r rt]; [constructor|]. cbn [rp_reply_nonces rp_accepted_of] in *.
  destruct (rp_m_kind m).
  - destruct r; cbn [rp_reply_own_piv rp_is_accept] in *; try (apply IH; exact Hnd).
    + inversion Hnd as [|? ? Hnot Hnd']; subst. constructor; [|apply IH; exact Hnd'].
      intro Hin. apply rp_reply_nonces_req_accepted in Hin. contradiction.
    + constructor; [|apply IH; exact Hnd].
      intro Hin. apply rp_reply_nonces_own_lb in Hin. lia.
  - apply IH. destruct (rp_is_accept r); [inversion Hnd; assumption | exact Hnd].
Qed.

(* the recipient's Sender Key is never used twice with the same nonce for its replies: the
   request's nonce only for a request that is accepted (at most once), everything that can be
   sent again (the Echo challenge) under a fresh Partial IV of its own *)
Theorem rp_reply_nonces_unique : forall W b12 h c,
  NoDup (rp_reply_nonces true c h (fst (rp_run rp_fixed W b12 rp_init h))).
Proof.
  intros W b12 h c. apply rp_reply_nonces_nodup. exact (rp_at_most_once W b12 h).
Qed.
