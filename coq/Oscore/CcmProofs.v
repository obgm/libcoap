(* Proofs about the Gallina AES-CCM of Oscore/Ccm.v: decryption inverts encryption (this needs
   only the involution of xor and the CTR/CBC-MAC structure, not the invertibility of AES), the
   tag is compared (a changed tag is rejected), the key stream always covers the message. *)
From LibcoapV Require Import Base.Tactics Base.Bytes Base.BytesProofs Oscore.Aes128 Oscore.Ccm.
Local Open Scope Z_scope.

Lemma osc_xor_length a : forall b, length (osc_xor a b) = length a.
Proof.
  induction a as [|x a IH]; intros b; cbn [osc_xor length]; [reflexivity|].
  destruct b; cbn [length]; rewrite IH; reflexivity.
Qed.

Lemma osc_xor_len a b : len (osc_xor a b) = len a.
Proof. unfold len. rewrite osc_xor_length. reflexivity. Qed.

Lemma osc_xor_nil_r a : osc_xor a [] = a.
Proof. induction a as [|x a IH]; cbn [osc_xor]; [reflexivity|]. rewrite IH. reflexivity. Qed.

Lemma osc_xor_involutive a : forall b, osc_xor (osc_xor a b) b = a.
Proof.
  induction a as [|x a IH]; intros b; cbn [osc_xor]; [reflexivity|].
  destruct b as [|y b]; cbn [osc_xor].
  - rewrite !osc_xor_nil_r. reflexivity.
  - rewrite IH. f_equal. rewrite Z.lxor_assoc, Z.lxor_nilpotent, Z.lxor_0_r. reflexivity.
Qed.

Lemma osc_xor_inj a b c : osc_xor a c = osc_xor b c -> a = b.
Proof.
  intros H. rewrite <- (osc_xor_involutive a c), <- (osc_xor_involutive b c), H. reflexivity.
Qed.

Lemma osc_bytes_eqb_refl a : osc_bytes_eqb a a = true.
Proof. induction a as [|x a IH]; cbn [osc_bytes_eqb]; [reflexivity|]. rewrite IH, Z.eqb_refl. reflexivity. Qed.

Lemma osc_bytes_eqb_eq a : forall b, osc_bytes_eqb a b = true -> a = b.
Proof.
  induction a as [|x a IH]; intros [|y b] H; cbn [osc_bytes_eqb] in H; try discriminate; [reflexivity|].
  apply andb_true_iff in H. destruct H as [H1 H2]. apply Z.eqb_eq in H1. subst.
  f_equal. apply IH. exact H2.
Qed.

Lemma osc_bytes_eqb_neq a b : a <> b -> osc_bytes_eqb a b = false.
Proof.
  intros H. destruct (osc_bytes_eqb a b) eqn:E; [|reflexivity].
  exfalso. apply H. apply osc_bytes_eqb_eq. exact E.
Qed.

Lemma osc_ccm_tag_length t s0 : length (osc_ccm_tag t s0) = 8%nat.
Proof. unfold osc_ccm_tag. rewrite map_length, seq_length. reflexivity. Qed.

Lemma osc_ccm_tag_len t s0 : len (osc_ccm_tag t s0) = 8.
Proof. unfold len. rewrite osc_ccm_tag_length. reflexivity. Qed.

Lemma osc_ccm_dec_rk_body rks nonce aad msg u :
  len u = 8 ->
  osc_ccm_dec_rk rks nonce aad (osc_xor msg (osc_ccm_stream rks nonce (len msg)) ++ u) =
  if osc_bytes_eqb (osc_ccm_tag (osc_ccm_mac rks nonce aad msg) (osc_ccm_ctr rks nonce 0)) u
  then Some msg else None.
Proof.
  intros Hu. unfold osc_ccm_dec_rk, OSC_TAG_LEN.
  set (ks := osc_ccm_stream rks nonce (len msg)).
  rewrite len_app, Hu, osc_xor_len. pose proof (len_nonneg msg) as Hm.
  replace (len msg + 8 <? 8) with false by lia.
  replace (len msg + 8 - 8) with (len (osc_xor msg ks)) by (rewrite osc_xor_len; lia).
  rewrite take_app_exact, drop_app_exact, osc_xor_len. fold ks.
  rewrite osc_xor_involutive. reflexivity.
Qed.

Theorem osc_ccm_dec_enc key nonce aad msg :
  osc_ccm_dec key nonce aad (osc_ccm_enc key nonce aad msg) = Some msg.
Proof.
  unfold osc_ccm_dec, osc_ccm_enc, osc_ccm_enc_rk.
  rewrite osc_ccm_dec_rk_body by apply osc_ccm_tag_len. rewrite osc_bytes_eqb_refl. reflexivity.
Qed.

Lemma osc_ccm_enc_len key nonce aad msg : len (osc_ccm_enc key nonce aad msg) = len msg + 8.
Proof.
  unfold osc_ccm_enc, osc_ccm_enc_rk. rewrite len_app, osc_ccm_tag_len, osc_xor_len. reflexivity.
Qed.

Lemma osc_ccm_dec_short key nonce aad c : len c < 8 -> osc_ccm_dec key nonce aad c = None.
Proof.
  intros H. unfold osc_ccm_dec, osc_ccm_dec_rk, OSC_TAG_LEN. replace (len c <? 8) with true by lia.
  reflexivity.
Qed.

Lemma osc_app_inj_len {A} (a c b d : list A) :
  a ++ b = c ++ d -> length b = length d -> a = c /\ b = d.
Proof.
  intros H Hl.
  assert (Hac : len a = len c).
  { apply (f_equal (@length A)) in H. rewrite !app_length in H. unfold len. lia. }
  split.
  - rewrite <- (take_app_exact a b), H, Hac. apply take_app_exact.
  - rewrite <- (drop_app_exact a b), H, Hac. apply drop_app_exact.
Qed.

(* the tag is compared: the genuine ciphertext body with any other 8-byte tag is rejected
   (no hypothesis) *)
Theorem osc_ccm_wrong_tag_rejected key nonce aad msg ct tag tag' :
  osc_ccm_enc key nonce aad msg = ct ++ tag -> len tag = 8 -> len tag' = 8 -> tag' <> tag ->
  osc_ccm_dec key nonce aad (ct ++ tag') = None.
Proof.
  intros He Hl Hl' Hne. unfold osc_ccm_enc, osc_ccm_enc_rk in He.
  apply osc_app_inj_len in He.
  2:{ rewrite osc_ccm_tag_length. unfold len in Hl. lia. }
  destruct He as [<- <-]. unfold osc_ccm_dec. rewrite osc_ccm_dec_rk_body by exact Hl'.
  rewrite osc_bytes_eqb_neq; [reflexivity|]. intros E. apply Hne. symmetry. exact E.
Qed.

(* whatever is accepted re-encrypts to the received bytes: acceptance means the received string
   IS the encryption of the returned plaintext (no hypothesis) *)
Theorem osc_ccm_dec_sound key nonce aad c msg :
  osc_ccm_dec key nonce aad c = Some msg -> c = osc_ccm_enc key nonce aad msg.
Proof.
  unfold osc_ccm_dec, osc_ccm_enc, osc_ccm_dec_rk, osc_ccm_enc_rk, OSC_TAG_LEN.
  set (rks := osc_key_schedule key).
  destruct (len c <? 8) eqn:E; [discriminate|].
  set (n := len c - 8).
  set (ct := take n c). set (u := drop n c).
  set (m' := osc_xor ct (osc_ccm_stream rks nonce (len ct))).
  destruct (osc_bytes_eqb _ u) eqn:Et; [|discriminate].
  intros H. inversion H; subst msg. clear H.
  apply osc_bytes_eqb_eq in Et. rewrite Et.
  unfold m'. rewrite osc_xor_len, osc_xor_involutive.
  unfold ct, u. rewrite take_drop. reflexivity.
Qed.

Lemma osc_shift_rows_length s : length (osc_shift_rows s) = 16%nat.
Proof. unfold osc_shift_rows. rewrite map_length. reflexivity. Qed.

(* a round that is not the last *)
Lemma osc_rounds_cons2 s rk rk2 tl :
  osc_rounds s (rk :: rk2 :: tl) =
  osc_rounds (osc_xor (osc_mix_columns (osc_shift_rows (osc_sub_bytes s))) rk) (rk2 :: tl).
Proof. reflexivity. Qed.

Lemma osc_rounds_length rks : forall s, rks <> [] -> length (osc_rounds s rks) = 16%nat.
Proof.
  induction rks as [|rk tl IH]; intros s Hne; [congruence|].
  destruct tl as [|rk2 tl].
  - cbn [osc_rounds]. rewrite osc_xor_length. apply osc_shift_rows_length.
  - rewrite osc_rounds_cons2. apply IH. discriminate.
Qed.

Lemma osc_aes_rk_length rks blk :
  (2 <= length rks)%nat -> length (osc_aes_rk rks blk) = 16%nat.
Proof.
  destruct rks as [|rk0 tl]; cbn [length]; [lia|]. intros H.
  cbn [osc_aes_rk]. apply osc_rounds_length. destruct tl; cbn [length] in H; [lia|discriminate].
Qed.

Lemma osc_key_schedule_length key : length (osc_key_schedule key) = 11%nat.
Proof. reflexivity. Qed.

Lemma osc_flat_map_const_length {A} (f : A -> bytes) k l :
  (forall x, length (f x) = k) -> length (flat_map f l) = (k * length l)%nat.
Proof.
  intros H. induction l as [|x l IH]; cbn [flat_map length]; [lia|].
  rewrite app_length, H, IH. lia.
Qed.

(* the zero-extension of osc_xor is never used for the CTR part *)
Theorem osc_ccm_stream_covers key nonce n :
  0 <= n -> n <= len (osc_ccm_stream (osc_key_schedule key) nonce n).
Proof.
  intros Hn. unfold osc_ccm_stream, len.
  rewrite (osc_flat_map_const_length _ 16%nat).
  - rewrite seq_length. rewrite Nat2Z.inj_mul, Z2Nat.id by lia. lia.
  - intros i. apply osc_aes_rk_length. rewrite osc_key_schedule_length. lia.
Qed.
