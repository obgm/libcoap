(* Tests of the reference (not theorems about libcoap): the Gallina primitives and the OSCORE
   reference reproduce the published vectors - FIPS-197 C.1, RFC 3610 packet vectors 1-3,
   FIPS 180-4 / RFC 4231 / RFC 5869 test cases, RFC 8613 appendix C.1, C.2, C.3 (key derivation),
   C.4, C.6 (requests), C.7, C.8 (responses).  All by evaluation.  Checking the file evaluates
   again, slowly (a SHA-256 block costs it about 0.2 s): a value that several vectors need is
   evaluated in one of them and taken from there by the others. *)
From LibcoapV Require Import Base.Tactics Base.Bytes Wire.Pdu Oscore.Aes128 Oscore.Ccm
  Oscore.CcmProofs Oscore.Sha256 Oscore.Hkdf Oscore.HkdfProofs Oscore.OscOption Oscore.Protect.
Local Open Scope Z_scope.

Definition osc_rng (a : Z) (n : nat) : bytes := map (fun i => a + Z.of_nat i) (seq 0 n).

Example osc_vec_fips197 :
  osc_aes128 (osc_rng 0 16) [0; 17; 34; 51; 68; 85; 102; 119; 136; 153; 170; 187; 204; 221; 238; 255] = [105; 196; 224; 216; 106; 123; 4; 48; 216; 205; 183; 128; 112; 180; 197; 90].
Proof. vm_compute. reflexivity. Qed.

Example osc_vec_rfc3610_1 :
  osc_ccm_enc (osc_rng 192 16) [0; 0; 0; 3; 2; 1; 0; 160; 161; 162; 163; 164; 165] (osc_rng 0 8) (osc_rng 8 23) = [88; 140; 151; 154; 97; 198; 99; 210; 240; 102; 208; 194; 192; 249; 137; 128; 109; 95; 107; 97; 218; 195; 132; 23; 232; 209; 44; 253; 249; 38; 224].
Proof. vm_compute. reflexivity. Qed.
Example osc_vec_rfc3610_2 :
  osc_ccm_enc (osc_rng 192 16) [0; 0; 0; 4; 3; 2; 1; 160; 161; 162; 163; 164; 165] (osc_rng 0 8) (osc_rng 8 24) = [114; 201; 26; 54; 225; 53; 248; 207; 41; 28; 168; 148; 8; 92; 135; 227; 204; 21; 196; 57; 201; 228; 58; 59; 160; 145; 213; 110; 16; 64; 9; 22].
Proof. vm_compute. reflexivity. Qed.
Example osc_vec_rfc3610_3 :
  osc_ccm_enc (osc_rng 192 16) [0; 0; 0; 5; 4; 3; 2; 160; 161; 162; 163; 164; 165] (osc_rng 0 8) (osc_rng 8 25) = [81; 177; 229; 244; 74; 25; 125; 29; 164; 107; 15; 142; 45; 40; 42; 232; 113; 232; 56; 187; 100; 218; 133; 150; 87; 74; 218; 167; 111; 189; 159; 176; 197].
Proof. vm_compute. reflexivity. Qed.
Example osc_vec_rfc3610_1_dec :
  osc_ccm_dec (osc_rng 192 16) [0; 0; 0; 3; 2; 1; 0; 160; 161; 162; 163; 164; 165] (osc_rng 0 8) [88; 140; 151; 154; 97; 198; 99; 210; 240; 102; 208; 194; 192; 249; 137; 128; 109; 95; 107; 97; 218; 195; 132; 23; 232; 209; 44; 253; 249; 38; 224] = Some (osc_rng 8 23).
Proof. rewrite <- osc_vec_rfc3610_1. apply osc_ccm_dec_enc. Qed.

Example osc_vec_sha256_abc : osc_sha256 [97; 98; 99] = [186; 120; 22; 191; 143; 1; 207; 234; 65; 65; 64; 222; 93; 174; 34; 35; 176; 3; 97; 163; 150; 23; 122; 156; 180; 16; 255; 97; 242; 0; 21; 173].
Proof. vm_compute. reflexivity. Qed.
Example osc_vec_sha256_empty : osc_sha256 [] = [227; 176; 196; 66; 152; 252; 28; 20; 154; 251; 244; 200; 153; 111; 185; 36; 39; 174; 65; 228; 100; 155; 147; 76; 164; 149; 153; 27; 120; 82; 184; 85].
Proof. vm_compute. reflexivity. Qed.
(* 56-byte message: padding spills into a second block *)
Example osc_vec_sha256_two_blocks :
  osc_sha256 [97; 98; 99; 100; 98; 99; 100; 101; 99; 100; 101; 102; 100; 101; 102; 103; 101; 102; 103; 104; 102; 103; 104; 105; 103; 104; 105; 106; 104; 105; 106; 107; 105; 106; 107; 108; 106; 107; 108; 109; 107; 108; 109; 110; 108; 109; 110; 111; 109; 110; 111; 112; 110; 111; 112; 113] = [36; 141; 106; 97; 210; 6; 56; 184; 229; 192; 38; 147; 12; 62; 96; 57; 163; 60; 228; 89; 100; 255; 33; 103; 246; 236; 237; 212; 25; 219; 6; 193].
Proof. vm_compute. reflexivity. Qed.

Example osc_vec_rfc4231_1 :
  osc_hmac (repeat 11 20) [72; 105; 32; 84; 104; 101; 114; 101] = [176; 52; 76; 97; 216; 219; 56; 83; 92; 168; 175; 206; 175; 11; 241; 43; 136; 29; 194; 0; 201; 131; 61; 167; 38; 233; 55; 108; 46; 50; 207; 247].
Proof. vm_compute. reflexivity. Qed.
Example osc_vec_rfc4231_2 :
  osc_hmac [74; 101; 102; 101] [119; 104; 97; 116; 32; 100; 111; 32; 121; 97; 32; 119; 97; 110; 116; 32; 102; 111; 114; 32; 110; 111; 116; 104; 105; 110; 103; 63] = [91; 220; 193; 70; 191; 96; 117; 78; 106; 4; 36; 38; 8; 149; 117; 199; 90; 0; 63; 8; 157; 39; 57; 131; 157; 236; 88; 185; 100; 236; 56; 67].
Proof. vm_compute. reflexivity. Qed.
(* key longer than the block size *)
Example osc_vec_rfc4231_6 :
  osc_hmac (repeat 170 131) [84; 101; 115; 116; 32; 85; 115; 105; 110; 103; 32; 76; 97; 114; 103; 101; 114; 32; 84; 104; 97; 110; 32; 66; 108; 111; 99; 107; 45; 83; 105; 122; 101; 32; 75; 101; 121; 32; 45; 32; 72; 97; 115; 104; 32; 75; 101; 121; 32; 70; 105; 114; 115; 116] = [96; 228; 49; 89; 30; 224; 182; 127; 13; 138; 38; 170; 203; 245; 183; 127; 142; 11; 198; 33; 55; 40; 197; 20; 5; 70; 4; 15; 14; 227; 127; 84].
Proof. vm_compute. reflexivity. Qed.

Example osc_vec_rfc5869_1 :
  osc_hkdf (Some (osc_rng 0 13)) (repeat 11 22) (osc_rng 240 10) 42 = [60; 178; 95; 37; 250; 172; 213; 122; 144; 67; 79; 100; 208; 54; 47; 42; 45; 45; 10; 144; 207; 26; 90; 76; 93; 176; 45; 86; 236; 196; 197; 191; 52; 0; 114; 8; 213; 184; 135; 24; 88; 101].
Proof.
  (* the pseudorandom key, the states after its two blocks, then the two blocks of output *)
  erewrite osc_hkdf_keyed; cycle 1.
  - vm_compute. reflexivity.
  - vm_compute. discriminate.
  - vm_compute. reflexivity.
  - vm_compute. reflexivity.
  - vm_compute. reflexivity.
Qed.

(* HKDF-Extract without salt runs HMAC under a key block of 64 zeros, like the empty key: RFC 5869
   test case 3 and appendix C.2 of RFC 8613 below start from the same two states. *)
Definition osc_nokey_ipad := Eval vm_compute in osc_compress osc_h0 (osc_hmac_block [] 54).
Definition osc_nokey_opad := Eval vm_compute in osc_compress osc_h0 (osc_hmac_block [] 92).
Lemma osc_hmac_nokey msg : osc_hmac [] msg = osc_hmac_from osc_nokey_ipad osc_nokey_opad msg.
Proof. apply osc_hmac_keyed; vm_compute; (reflexivity || discriminate). Qed.

Example osc_vec_rfc5869_3 :
  osc_hkdf (Some []) (repeat 11 22) [] 42 = [141; 164; 231; 117; 165; 99; 193; 143; 113; 95; 128; 42; 6; 60; 90; 49; 184; 161; 31; 92; 94; 225; 135; 158; 195; 69; 78; 95; 60; 115; 141; 45; 157; 32; 19; 149; 250; 164; 182; 26; 150; 200].
Proof.
  erewrite osc_hkdf_keyed; cycle 1.
  - unfold osc_hkdf_extract. rewrite osc_hmac_nokey. vm_compute. reflexivity.
  - vm_compute. discriminate.
  - vm_compute. reflexivity.
  - vm_compute. reflexivity.
  - vm_compute. reflexivity.
Qed.
Example osc_vec_rfc5869_3_nosalt :
  osc_hkdf None (repeat 11 22) [] 42 = [141; 164; 231; 117; 165; 99; 193; 143; 113; 95; 128; 42; 6; 60; 90; 49; 184; 161; 31; 92; 94; 225; 135; 158; 195; 69; 78; 95; 60; 115; 141; 45; 157; 32; 19; 149; 250; 164; 182; 26; 150; 200].
Proof. rewrite osc_hkdf_nosalt. exact osc_vec_rfc5869_3. Qed.

(* RFC 8613 appendix C: master secret, master salt and ID context; the contexts of C.1, C.2 (no
   salt) and C.3 (ID context) *)
Definition osc_c_secret : bytes := [1; 2; 3; 4; 5; 6; 7; 8; 9; 10; 11; 12; 13; 14; 15; 16].
Definition osc_c_salt : bytes := [158; 124; 169; 34; 35; 120; 99; 64].
Definition osc_c_idctx : bytes := [55; 203; 243; 33; 0; 23; 162; 211].
Definition osc_c1_client := osc_derive osc_c_secret (Some osc_c_salt) None [] [1].
Definition osc_c1_server := osc_derive osc_c_secret (Some osc_c_salt) None [1] [].
Definition osc_c2_client := osc_derive osc_c_secret None None [0] [1].
Definition osc_c3_client := osc_derive osc_c_secret (Some osc_c_salt) (Some osc_c_idctx) [] [1].
Definition osc_c3_server := osc_derive osc_c_secret (Some osc_c_salt) (Some osc_c_idctx) [1] [].

(* All keys of a context family come from one pseudorandom key (HKDF-Extract depends on master
   secret and salt only), and under it from the states after the key's two blocks
   (Oscore/HkdfProofs.v): these are evaluated once per family; what is left of one derived key
   are two SHA-256 blocks.  C.1 and C.3 share master secret and salt; C.2 has no salt. *)
Definition osc_c_prk : bytes := Eval vm_compute in osc_hkdf_extract (Some osc_c_salt) osc_c_secret.
Definition osc_c_ipad := Eval vm_compute in osc_compress osc_h0 (osc_hmac_block osc_c_prk 54).
Definition osc_c_opad := Eval vm_compute in osc_compress osc_h0 (osc_hmac_block osc_c_prk 92).
Definition osc_c2_prk : bytes := Eval vm_compute in osc_hkdf_extract None osc_c_secret.
Definition osc_c2_ipad := Eval vm_compute in osc_compress osc_h0 (osc_hmac_block osc_c2_prk 54).
Definition osc_c2_opad := Eval vm_compute in osc_compress osc_h0 (osc_hmac_block osc_c2_prk 92).

Lemma osc_c_hkdf info l :
  osc_hkdf (Some osc_c_salt) osc_c_secret info l = osc_hkdf_from osc_c_ipad osc_c_opad info l.
Proof. apply (osc_hkdf_keyed _ _ osc_c_prk); vm_compute; (reflexivity || discriminate). Qed.
Lemma osc_c2_hkdf info l :
  osc_hkdf None osc_c_secret info l = osc_hkdf_from osc_c2_ipad osc_c2_opad info l.
Proof.
  rewrite osc_hkdf_nosalt. apply (osc_hkdf_keyed _ _ osc_c2_prk); [|vm_compute; (reflexivity || discriminate)..].
  unfold osc_hkdf_extract. rewrite osc_hmac_nokey. vm_compute. reflexivity.
Qed.

Example osc_vec_c1_keys :
  (sc_skey osc_c1_client, sc_rkey osc_c1_client, sc_iv osc_c1_client) =
  ([240; 145; 14; 215; 41; 94; 106; 212; 181; 79; 199; 147; 21; 67; 2; 255], [255; 177; 78; 9; 60; 148; 201; 202; 201; 71; 22; 72; 180; 249; 135; 16], [70; 34; 212; 221; 109; 148; 65; 104; 238; 251; 84; 152; 124]).
Proof. unfold osc_c1_client, osc_derive. cbn [sc_skey sc_rkey sc_iv]. rewrite !osc_c_hkdf. vm_compute. reflexivity. Qed.

(* a derived context and its peer's, as records of the three derived values *)
Lemma osc_derive_keys {secret salt idctx a b k1 k2 iv} :
  let c := osc_derive secret salt idctx a b in
  (sc_skey c, sc_rkey c, sc_iv c) = (k1, k2, iv) -> c = mkSec a b k1 k2 iv idctx.
Proof. unfold osc_derive. cbn [sc_skey sc_rkey sc_iv]. intros H. inversion H. reflexivity. Qed.

Lemma osc_derive_peer_keys {secret salt idctx a b k1 k2 iv} :
  let c := osc_derive secret salt idctx a b in
  (sc_skey c, sc_rkey c, sc_iv c) = (k1, k2, iv) ->
  osc_derive secret salt idctx b a = mkSec b a k2 k1 iv idctx.
Proof. unfold osc_derive. cbn [sc_skey sc_rkey sc_iv]. intros H. inversion H. reflexivity. Qed.

Definition osc_c1_client_val : osc_c1_client = _ := osc_derive_keys osc_vec_c1_keys.
Definition osc_c1_server_val : osc_c1_server = _ := osc_derive_peer_keys osc_vec_c1_keys.

Example osc_vec_c1_nonces :
  (osc_nonce [] [] (sc_iv osc_c1_client), osc_nonce [1] [] (sc_iv osc_c1_client)) =
  ([70; 34; 212; 221; 109; 148; 65; 104; 238; 251; 84; 152; 124], [71; 34; 212; 221; 109; 148; 65; 105; 238; 251; 84; 152; 124]).
Proof. rewrite osc_c1_client_val. vm_compute. reflexivity. Qed.
Example osc_vec_c2_keys :
  (sc_skey osc_c2_client, sc_rkey osc_c2_client, sc_iv osc_c2_client) =
  ([50; 27; 38; 148; 50; 83; 199; 255; 182; 0; 59; 11; 100; 215; 64; 65], [229; 123; 86; 53; 129; 81; 119; 205; 103; 154; 180; 188; 236; 157; 125; 218], [190; 53; 174; 41; 125; 45; 172; 233; 16; 197; 46; 153; 249]).
Proof. unfold osc_c2_client, osc_derive. cbn [sc_skey sc_rkey sc_iv]. rewrite !osc_c2_hkdf. vm_compute. reflexivity. Qed.
Example osc_vec_c3_keys :
  (sc_skey osc_c3_client, sc_rkey osc_c3_client, sc_iv osc_c3_client) =
  ([175; 42; 19; 0; 165; 233; 87; 136; 179; 86; 51; 110; 238; 205; 43; 146], [227; 154; 12; 124; 119; 180; 63; 3; 180; 179; 154; 185; 162; 104; 105; 159], [44; 165; 143; 184; 95; 241; 184; 28; 11; 113; 129; 184; 94]).
Proof. unfold osc_c3_client, osc_derive. cbn [sc_skey sc_rkey sc_iv]. rewrite !osc_c_hkdf. vm_compute. reflexivity. Qed.

Definition osc_c3_client_val : osc_c3_client = _ := osc_derive_keys osc_vec_c3_keys.
Definition osc_c3_server_val : osc_c3_server = _ := osc_derive_peer_keys osc_vec_c3_keys.

Definition osc_c_request (mid : Z) (tok : bytes) : msg :=
  mkMsg 0 1 mid tok [(3, [108; 111; 99; 97; 108; 104; 111; 115; 116]); (11, [116; 118; 49])] [].
Definition osc_c_response : msg :=
  mkMsg 2 69 23839 [0; 0; 57; 116] [] [72; 101; 108; 108; 111; 32; 87; 111; 114; 108; 100; 33].

(* C.4: request, sequence number 20, no ID context *)
Example osc_vec_c4 :
  option_map (serialize UDP) (osc_protect_req osc_c1_client (osc_c_request 23839 [0; 0; 57; 116]) 20)
  = Some [68; 2; 93; 31; 0; 0; 57; 116; 57; 108; 111; 99; 97; 108; 104; 111; 115; 116; 98; 9; 20; 255; 97; 47; 16; 146; 241; 119; 111; 28; 22; 104; 179; 130; 94].
Proof. rewrite osc_c1_client_val. vm_compute. reflexivity. Qed.
Example osc_vec_c4_verify :
  match parse UDP [68; 2; 93; 31; 0; 0; 57; 116; 57; 108; 111; 99; 97; 108; 104; 111; 115; 116; 98; 9; 20; 255; 97; 47; 16; 146; 241; 119; 111; 28; 22; 104; 179; 130; 94] with
  | Some o => osc_unprotect_req osc_c1_server o
  | None => None
  end = Some (osc_c_request 23839 [0; 0; 57; 116]).
Proof. rewrite osc_c1_server_val. vm_compute. reflexivity. Qed.
(* C.6: request with ID context *)
Example osc_vec_c6 :
  option_map (serialize UDP) (osc_protect_req osc_c3_client (osc_c_request 12174 [239; 155; 191; 122]) 20)
  = Some [68; 2; 47; 142; 239; 155; 191; 122; 57; 108; 111; 99; 97; 108; 104; 111; 115; 116; 107; 25; 20; 8; 55; 203; 243; 33; 0; 23; 162; 211; 255; 114; 205; 114; 115; 253; 51; 26; 196; 92; 255; 190; 85; 195].
Proof. rewrite osc_c3_client_val. vm_compute. reflexivity. Qed.
Example osc_vec_c6_verify :
  match parse UDP [68; 2; 47; 142; 239; 155; 191; 122; 57; 108; 111; 99; 97; 108; 104; 111; 115; 116; 107; 25; 20; 8; 55; 203; 243; 33; 0; 23; 162; 211; 255; 114; 205; 114; 115; 253; 51; 26; 196; 92; 255; 190; 85; 195] with
  | Some o => osc_unprotect_req osc_c3_server o
  | None => None
  end = Some (osc_c_request 12174 [239; 155; 191; 122]).
Proof. rewrite osc_c3_server_val. vm_compute. reflexivity. Qed.
(* C.7: response without Partial IV *)
Example osc_vec_c7 :
  option_map (serialize UDP) (osc_protect_resp osc_c1_server osc_c_response [20] false 0)
  = Some [100; 68; 93; 31; 0; 0; 57; 116; 144; 255; 219; 170; 209; 233; 167; 231; 178; 168; 19; 211; 195; 21; 36; 55; 131; 3; 205; 175; 174; 17; 145; 6].
Proof. rewrite osc_c1_server_val. vm_compute. reflexivity. Qed.
Example osc_vec_c7_verify :
  match parse UDP [100; 68; 93; 31; 0; 0; 57; 116; 144; 255; 219; 170; 209; 233; 167; 231; 178; 168; 19; 211; 195; 21; 36; 55; 131; 3; 205; 175; 174; 17; 145; 6] with
  | Some o => osc_unprotect_resp osc_c1_client [0; 0; 57; 116] [20] o
  | None => None
  end = Some osc_c_response.
Proof. rewrite osc_c1_client_val. vm_compute. reflexivity. Qed.
(* C.8: response with Partial IV 0 *)
Example osc_vec_c8 :
  option_map (serialize UDP) (osc_protect_resp osc_c1_server osc_c_response [20] true 0)
  = Some [100; 68; 93; 31; 0; 0; 57; 116; 146; 1; 0; 255; 77; 76; 19; 102; 147; 132; 182; 115; 84; 178; 182; 23; 95; 244; 184; 101; 140; 102; 106; 108; 248; 142].
Proof. rewrite osc_c1_server_val. vm_compute. reflexivity. Qed.
Example osc_vec_c8_verify :
  match parse UDP [100; 68; 93; 31; 0; 0; 57; 116; 146; 1; 0; 255; 77; 76; 19; 102; 147; 132; 182; 115; 84; 178; 182; 23; 95; 244; 184; 101; 140; 102; 106; 108; 248; 142] with
  | Some o => osc_unprotect_resp osc_c1_client [0; 0; 57; 116] [20] o
  | None => None
  end = Some osc_c_response.
Proof. rewrite osc_c1_client_val. vm_compute. reflexivity. Qed.
