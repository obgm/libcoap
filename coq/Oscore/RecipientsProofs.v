(* C15 - proofs about the recipient chain (Oscore/Recipients.v). *)
From LibcoapV Require Import Base.Tactics Oscore.Replay Oscore.ReplayProofs Oscore.Recipients.
Local Open Scope Z_scope.

Definition rl_ids (c : rl_chain) : list Z := map fst c.

Lemma rl_find_In : forall c id, rl_find c id <> None <-> In id (rl_ids c).
Proof.
  induction c as [|[i s] t IH]; intros id; cbn [rl_find rl_ids map fst].
  - split; [congruence | intros []].
  - destruct (i =? id) eqn:E.
    + split; [intros _; left; lia | intros _; discriminate].
    + rewrite IH. split; [intros H; right; exact H | intros [H|H]; [lia | exact H]].
Qed.

(* an id that is already in the chain is refused and nothing changes: no second window *)
Theorem rl_add_duplicate_refused : forall v W b12 c id,
  In id (rl_ids c) -> rl_step v W b12 c (RlAdd id) = (RlRet false, c).
Proof.
  intros v W b12 c id Hin. cbn [rl_step]. apply rl_find_In in Hin.
  destruct (rl_find c id); [reflexivity | congruence].
Qed.

Lemma rl_set_ids : forall c id s, rl_ids (rl_set c id s) = rl_ids c.
Proof.
  induction c as [|[i s0] t IH]; intros id s; cbn [rl_set rl_ids map fst]; [reflexivity|].
  destruct (i =? id); cbn [map fst]; [reflexivity|]. f_equal. apply IH.
Qed.

Lemma rl_remove_ids_incl : forall c id x, In x (rl_ids (rl_remove c id)) -> In x (rl_ids c).
Proof.
  induction c as [|[i s0] t IH]; intros id x H; cbn [rl_remove rl_ids map fst] in *; [exact H|].
  destruct (i =? id); cbn [map fst] in *; [right; exact H|].
  destruct H as [H|H]; [left; exact H | right; eapply IH; exact H].
Qed.

Lemma rl_remove_nodup : forall c id, NoDup (rl_ids c) -> NoDup (rl_ids (rl_remove c id)).
Proof.
  induction c as [|[i s0] t IH]; intros id H; cbn [rl_remove rl_ids map fst] in *; [exact H|].
  inversion H as [|? ? Hn Ht]; subst.
  destruct (i =? id); cbn [map fst]; [exact Ht|].
  constructor; [|apply IH; exact Ht]. intro Hin. apply Hn. eapply rl_remove_ids_incl; exact Hin.
Qed.

(* the ids of the chain stay pairwise distinct: a lookup never has a choice *)
Lemma rl_step_nodup : forall v W b12 c o,
  NoDup (rl_ids c) -> NoDup (rl_ids (snd (rl_step v W b12 c o))).
Proof.
  intros v W b12 c o H. destruct o as [id|id|id m]; cbn [rl_step].
  - destruct (rl_find c id) eqn:E; cbn [snd]; [exact H|].
    cbn [rl_ids map fst]. constructor; [|exact H].
    intro Hin. apply rl_find_In in Hin. congruence.
  - destruct (rl_find c id); cbn [snd]; [apply rl_remove_nodup; exact H | exact H].
  - destruct (rl_find c id) as [s|]; cbn [snd]; [|exact H].
    destruct (rp_recv v W b12 s m) as [r s1]. cbn [snd]. rewrite rl_set_ids. exact H.
Qed.

Theorem rl_run_nodup : forall v W b12 ops c,
  NoDup (rl_ids c) -> NoDup (rl_ids (snd (rl_run v W b12 c ops))).
Proof.
  intros v W b12 ops. induction ops as [|o t IH]; intros c H; [exact H|].
  cbn [rl_run]. pose proof (rl_step_nodup v W b12 c o H) as H1.
  destruct (rl_step v W b12 c o) as [r c1]. cbn [snd] in H1.
  specialize (IH c1 H1). destruct (rl_run v W b12 c1 t) as [rs c2]. exact IH.
Qed.

Lemma rl_find_set_same : forall c id s s1,
  rl_find c id = Some s -> rl_find (rl_set c id s1) id = Some s1.
Proof.
  induction c as [|[i s0] t IH]; intros id s s1 H; cbn [rl_find rl_set] in *; [discriminate|].
  destruct (i =? id) eqn:E; cbn [rl_find]; rewrite E; [reflexivity | eapply IH; exact H].
Qed.

Lemma rl_find_set_other : forall c id j s1, j <> id -> rl_find (rl_set c id s1) j = rl_find c j.
Proof.
  induction c as [|[i s0] t IH]; intros id j s1 H; cbn [rl_find rl_set]; [reflexivity|].
  destruct (i =? id) eqn:E; cbn [rl_find].
  - assert (i =? j = false) as -> by lia. reflexivity.
  - destruct (i =? j); [reflexivity | apply IH; exact H].
Qed.

Lemma rl_find_remove_other : forall c id j, j <> id -> rl_find (rl_remove c id) j = rl_find c j.
Proof.
  induction c as [|[i s0] t IH]; intros id j H; cbn [rl_find rl_remove]; [reflexivity|].
  destruct (i =? id) eqn:E; cbn [rl_find].
  - assert (i =? j = false) as -> by lia. reflexivity.
  - destruct (i =? j); [reflexivity | apply IH; exact H].
Qed.

(* the replay state that speaks for [id]: that of its entry, the initial state before there is
   one *)
Definition rl_entry (c : rl_chain) (id : Z) : rp_state :=
  match rl_find c id with Some s => s | None => rp_init end.

(* one step, seen from the entry for [id] (which is not deleted): a message delivered to it when
   it exists is a step of the per-context model; everything else - another id, adding [id] for
   the first time or again, a message before the entry exists - leaves its replay state alone
   and accepts nothing for it *)
Lemma rl_step_entry : forall v W b12 id c o,
  rl_is_del id o = false ->
  let '(r, c1) := rl_step v W b12 c o in
  (exists m, o = RlDeliver id m /\
             (r, rl_entry c1 id) =
             let '(r', s1) := rp_recv v W b12 (rl_entry c id) m in (RlVerdict r', s1)) \/
  (rl_entry c1 id = rl_entry c id /\
   forall t rt, rl_accepted id (o :: t) (r :: rt) = rl_accepted id t rt).
Proof.
  intros v W b12 id c o Hd. unfold rl_entry.
  destruct o as [j|j|j m]; cbn [rl_step rl_is_del] in *.
  - destruct (rl_find c j) eqn:Ej; right; (split; [|reflexivity]); [reflexivity|].
    cbn [rl_find]. destruct (j =? id) eqn:E; [|reflexivity].
    assert (j = id) by lia. subst j. rewrite Ej. reflexivity.
  - destruct (rl_find c j); right; (split; [|reflexivity]); [|reflexivity].
    rewrite rl_find_remove_other by lia. reflexivity.
  - destruct (rl_find c j) as [sj|] eqn:Ej; [|right; split; reflexivity].
    destruct (rp_recv v W b12 sj m) as [r s1] eqn:Er.
    destruct (Z.eq_dec j id) as [->|Hne].
    + left. exists m. split; [reflexivity|].
      rewrite Ej, Er, (rl_find_set_same c id sj s1 Ej). reflexivity.
    + right. rewrite rl_find_set_other by congruence. split; [reflexivity|].
      intros t rt. cbn [rl_accepted]. assert (j =? id = false) as -> by lia.
      destruct r; reflexivity.
Qed.

(* so the numbers accepted for [id] are those of some per-context history *)
Lemma rl_run_entry : forall v W b12 id ops c,
  existsb (rl_is_del id) ops = false ->
  exists h, rl_accepted id ops (fst (rl_run v W b12 c ops)) =
            rp_accepted_of h (fst (rp_run v W b12 (rl_entry c id) h)).
Proof.
  intros v W b12 id ops. induction ops as [|o t IH]; intros c Hd.
  - exists []. reflexivity.
  - cbn [existsb] in Hd. apply orb_false_elim in Hd. destruct Hd as [Hd0 Hd].
    cbn [rl_run]. pose proof (rl_step_entry v W b12 id c o Hd0) as Hs.
    destruct (rl_step v W b12 c o) as [r c1].
    destruct (IH c1 Hd) as [h Hh]. destruct (rl_run v W b12 c1 t) as [rs c2]. cbn [fst] in *.
    destruct Hs as [(m & -> & Hr) | [He Hacc]].
    + exists (m :: h). cbn [rp_run].
      destruct (rp_recv v W b12 (rl_entry c id) m) as [r' s1]. injection Hr as -> He.
      rewrite He in Hh. destruct (rp_run v W b12 s1 h) as [vs s2].
      cbn [fst rl_accepted rp_accepted_of] in *. rewrite Z.eqb_refl, Hh.
      destruct r'; reflexivity.
    + exists h. rewrite Hacc, Hh, He. reflexivity.
Qed.

(* per lifetime of a recipient context: whatever management calls and deliveries for any ids are
   interleaved (adding the id again included), as long as the id is not deleted, no sequence
   number is accepted twice for it.  The chain starts empty (the configuration's recipient_id
   lines are RlAdd steps of [ops]). *)
Theorem rl_at_most_once : forall W b12 id ops,
  existsb (rl_is_del id) ops = false ->
  NoDup (rl_accepted id ops (fst (rl_run rp_fixed W b12 [] ops))).
Proof.
  intros W b12 id ops Hd. destruct (rl_run_entry rp_fixed W b12 id ops [] Hd) as [h ->].
  exact (rp_at_most_once W b12 h).
Qed.

(* a refused add leaves the replay state of the existing entry exactly as it was *)
Theorem rl_add_existing_keeps_window : forall v W b12 c id s,
  rl_find c id = Some s ->
  rl_find (snd (rl_step v W b12 c (RlAdd id))) id = Some s /\
  fst (rl_step v W b12 c (RlAdd id)) = RlRet false.
Proof.
  intros v W b12 c id s H. cbn [rl_step]. rewrite H. cbn. auto.
Qed.

(* with distinct ids, deleting leaves no entry for the id behind *)
Lemma rl_find_remove_same : forall c id,
  NoDup (rl_ids c) -> rl_find (rl_remove c id) id = None.
Proof.
  induction c as [|[i s0] t IH]; intros id Hnd; cbn [rl_remove rl_find]; [reflexivity|].
  cbn [rl_ids map fst] in Hnd. inversion Hnd as [|? ? Hn Ht]; subst.
  destruct (i =? id) eqn:E.
  - destruct (rl_find t id) eqn:Et; [|reflexivity].
    exfalso. apply Hn. assert (i = id) by lia. subst i. apply rl_find_In. congruence.
  - cbn [rl_find]. rewrite E. apply IH. exact Ht.
Qed.

(* delete, then add: a new recipient context in its initial state *)
Theorem rl_del_add_is_new_context : forall v W b12 c id s,
  NoDup (rl_ids c) -> rl_find c id = Some s ->
  let c1 := snd (rl_step v W b12 c (RlDel id)) in
  rl_find c1 id = None /\
  rl_find (snd (rl_step v W b12 c1 (RlAdd id))) id = Some rp_init.
Proof.
  intros v W b12 c id s Hnd Hf. cbn [rl_step]. rewrite Hf. cbn [snd].
  rewrite (rl_find_remove_same c id Hnd). cbn [snd rl_find]. rewrite Z.eqb_refl. auto.
Qed.
