(* C15 - the code as found ([rp_orig], /repo 74963ff) does not have the property, and each of
   the eight repairs is needed: witnesses, checked by computation.  The histories are replayed
   on the real code by tools/checks/c15.py (corpus/C15/found.case). *)
From LibcoapV Require Import Base.Tactics Oscore.Replay Oscore.ReplayProofs.
Local Open Scope Z_scope.

Lemma rp_nodupb_spec : forall l, rp_nodupb l = true <-> NoDup l.
Proof.
  induction l as [|x t IH]; cbn [rp_nodupb].
  - split; [constructor | reflexivity].
  - change (existsb (Z.eqb x) t) with (rp_mem x t).
    rewrite andb_true_iff, negb_true_iff, rp_mem_false, IH, NoDup_cons_iff. reflexivity.
Qed.

Lemma rp_dup_by_computation : forall l, rp_nodupb l = false -> ~ NoDup l.
Proof. intros l H Hn. apply rp_nodupb_spec in Hn. congruence. Qed.

Definition rp_g (n : Z) : rp_msg := Build_rp_msg n RpGenuine RpEchoNone RpRequest. (* genuine *)
Definition rp_ge (n : Z) : rp_msg := Build_rp_msg n RpGenuine RpEchoOk RpRequest.  (* genuine, valid Echo *)
Definition rp_f (n : Z) : rp_msg := Build_rp_msg n RpForged RpEchoNone RpRequest.  (* forged, claims PIV n *)
(* responses carrying a Partial IV (notifications): genuine / forged *)
Definition rp_n (n : Z) : rp_msg := Build_rp_msg n RpGenuine RpEchoNone RpResponse.
Definition rp_nf (n : Z) : rp_msg := Build_rp_msg n RpForged RpEchoNone RpResponse.
(* a request whose processing stops between the replay check and decryption *)
Definition rp_ab (n : Z) : rp_msg := Build_rp_msg n RpAbort RpEchoNone RpRequest.

(* the variants with exactly one repair missing *)
Definition rp_no_bitidx : rp_variant := Build_rp_variant false true true true true true true true.
Definition rp_no_shguard : rp_variant := Build_rp_variant true false true true true true true true.
Definition rp_no_nooverwrite : rp_variant := Build_rp_variant true true false true true true true true.
Definition rp_no_rbflag : rp_variant := Build_rp_variant true true true false true true true true.
Definition rp_no_arm : rp_variant := Build_rp_variant true true true true false true true true.
Definition rp_no_resp_rb : rp_variant := Build_rp_variant true true true true true false true true.
Definition rp_no_resp_nowrite : rp_variant := Build_rp_variant true true true true true true false true.
Definition rp_no_abort_rb : rp_variant := Build_rp_variant true true true true true true true false.

(* B.1.2 enabled (the default of a parsed configuration): 5 (with Echo, arms the window), 7,
   then the replay of 5 is accepted *)
Theorem rp_orig_replay_accepted_refuted :
  exists h, ~ NoDup (rp_accepted rp_orig 32 true rp_init h).
Proof. exists [rp_ge 5; rp_g 7; rp_g 5]. apply rp_dup_by_computation. vm_compute. reflexivity. Qed.

(* B.1.2 disabled: the window is never armed, every replay is accepted *)
Theorem rp_orig_never_armed_refuted :
  exists h, ~ NoDup (rp_accepted rp_orig 32 false rp_init h).
Proof. exists [rp_g 5; rp_g 5]. apply rp_dup_by_computation. vm_compute. reflexivity. Qed.

(* an older in-window number lowers last_seq: 10, 8, replay of 10 accepted *)
Theorem rp_orig_last_seq_lowered_refuted :
  exists h, ~ NoDup (rp_accepted rp_orig 32 true rp_init h).
Proof. exists [rp_ge 10; rp_g 8; rp_g 10]. apply rp_dup_by_computation. vm_compute. reflexivity. Qed.

(* a forged message while the highest number seen is 0 moves the window for good; the genuine
   message 1 that follows is rejected *)
Theorem rp_orig_forgery_leaves_trace_refuted :
  exists h m g,
    let s := snd (rp_run rp_orig 32 true rp_init h) in
    rp_m_auth m = RpForged /\ rp_m_auth g = RpGenuine /\
    fst (rp_recv rp_orig 32 true s g) = RpAccept /\
    rp_obs (snd (rp_recv rp_orig 32 true s m)) <> rp_obs s /\
    fst (rp_recv rp_orig 32 true (snd (rp_recv rp_orig 32 true s m)) g) = RpRejReplay.
Proof.
  exists [rp_ge 0], (rp_f 50), (rp_g 1). vm_compute.
  repeat split; try reflexivity. intro H; discriminate H.
Qed.

(* a jump of 64 or more shifts a 64-bit word by at least its width *)
Theorem rp_orig_shift_by_width_refuted :
  exists h, rp_undef (snd (rp_run rp_orig 32 true rp_init h)) = true.
Proof. exists [rp_ge 1; rp_g 100]. vm_compute. reflexivity. Qed.

(* window bit: 5, 7, replay of 5 accepted; the never-seen 6 is rejected *)
Theorem rp_no_bitidx_refuted :
  exists h, ~ NoDup (rp_accepted rp_no_bitidx 32 false rp_init h) /\
            fst (rp_run rp_no_bitidx 32 false rp_init (h ++ [rp_g 6])) =
              [RpAccept; RpAccept; RpAccept; RpRejReplay].
Proof.
  exists [rp_g 5; rp_g 7; rp_g 5]. split.
  - apply rp_dup_by_computation. vm_compute. reflexivity.
  - vm_compute. reflexivity.
Qed.

(* shift guard: undefined shift; with the x86-64 result (count mod 64) the stale bits make the
   never-seen 65 look replayed after 1, 2, 66 *)
Theorem rp_no_shguard_refuted :
  exists h, rp_undef (snd (rp_run rp_no_shguard 32 false rp_init h)) = true /\
            fst (rp_run rp_no_shguard 32 false rp_init h) = [RpAccept; RpAccept; RpAccept; RpRejReplay].
Proof. exists [rp_g 1; rp_g 2; rp_g 66; rp_g 65]. vm_compute. split; reflexivity. Qed.

Theorem rp_no_nooverwrite_refuted :
  exists h, ~ NoDup (rp_accepted rp_no_nooverwrite 32 false rp_init h).
Proof. exists [rp_g 10; rp_g 8; rp_g 10]. apply rp_dup_by_computation. vm_compute. reflexivity. Qed.

Theorem rp_no_rbflag_refuted :
  exists h,
    rp_genuine_verdicts h (fst (rp_run rp_no_rbflag 32 false rp_init h)) <>
    fst (rp_run rp_no_rbflag 32 false rp_init (filter rp_is_genuine h)).
Proof. exists [rp_g 0; rp_f 50; rp_g 1]. vm_compute. intro H; discriminate H. Qed.

Theorem rp_no_arm_refuted :
  exists h, ~ NoDup (rp_accepted rp_no_arm 32 false rp_init h).
Proof. exists [rp_g 5; rp_g 5]. apply rp_dup_by_computation. vm_compute. reflexivity. Qed.

(* an endpoint that also serves the peer's requests: a forged response (right token, any
   claimed Partial IV) marks that number as seen; the peer's genuine request 9 is then rejected *)
Theorem rp_no_resp_rb_refuted :
  exists h,
    rp_genuine_verdicts h (fst (rp_run rp_no_resp_rb 32 false rp_init h)) <>
    fst (rp_run rp_no_resp_rb 32 false rp_init (filter rp_is_genuine h)).
Proof. exists [rp_g 5; rp_nf 9; rp_g 9]. vm_compute. intro H; discriminate H. Qed.

(* a plain client (context in its initial state): one forged response claiming the Partial IV
   2^40-1 leaves that number in last_seq, and every later genuine notification is dropped *)
Theorem rp_no_resp_nowrite_refuted :
  exists h,
    rp_genuine_verdicts h (fst (rp_run rp_no_resp_nowrite 32 true rp_init h)) <>
    fst (rp_run rp_no_resp_nowrite 32 true rp_init (filter rp_is_genuine h)).
Proof. exists [rp_nf (2 ^ 40 - 1); rp_n 7]. vm_compute. intro H; discriminate H. Qed.

(* an exit between the replay check and decryption (as found: only reachable when memory runs
   out) keeps the claimed number in the window: the genuine request 50 is rejected afterwards *)
Theorem rp_no_abort_rb_refuted :
  exists h,
    rp_genuine_verdicts h (fst (rp_run rp_no_abort_rb 32 false rp_init h)) <>
    fst (rp_run rp_no_abort_rb 32 false rp_init (filter rp_is_genuine h)).
Proof. exists [rp_g 5; rp_ab 50; rp_g 50]. vm_compute. intro H; discriminate H. Qed.

(* the forged-response histories of rp_no_resp_rb_refuted and rp_no_resp_nowrite_refuted on the
   code as found *)
Theorem rp_orig_forged_response_refuted :
  exists h1 h2,
    rp_genuine_verdicts h1 (fst (rp_run rp_orig 32 true rp_init h1)) <>
      fst (rp_run rp_orig 32 true rp_init (filter rp_is_genuine h1)) /\
    rp_genuine_verdicts h2 (fst (rp_run rp_orig 32 true rp_init h2)) <>
      fst (rp_run rp_orig 32 true rp_init (filter rp_is_genuine h2)).
Proof.
  exists [rp_ge 5; rp_nf 9; rp_g 9], [rp_nf (2 ^ 40 - 1); rp_n 7]. vm_compute.
  split; intro H; discriminate H.
Qed.

(* non-vacuity of the positive theorems: histories of these kinds on the repaired code *)
Example rp_fixed_example :
  fst (rp_run rp_fixed 32 false rp_init
         [rp_g 5; rp_g 7; rp_g 5; rp_g 6; rp_g 6; rp_f 9; rp_g 8; rp_g 100; rp_g 37; rp_g 36]) =
  [RpAccept; RpAccept; RpRejReplay; RpAccept; RpRejReplay; RpRejDecrypt; RpAccept; RpAccept; RpRejReplay; RpRejReplay].
Proof. vm_compute. reflexivity. Qed.

Example rp_fixed_example_b12 :
  fst (rp_run rp_fixed 4 true rp_init
         [rp_g 3; rp_f 4; rp_ge 5; rp_ge 5; rp_g 3; rp_g 2; rp_g 1; rp_g 0; rp_g 70; rp_g 69]) =
  [RpRejChallenge; RpRejDecrypt; RpAccept; RpRejReplay; RpAccept; RpAccept; RpRejReplay; RpRejReplay; RpAccept;
   RpAccept].
Proof. vm_compute. reflexivity. Qed.

(* were the Echo challenge protected with the request's nonce, the same first request arriving
   twice would make the server use one nonce for two different messages *)
Theorem rp_challenge_request_nonce_refuted :
  exists h, ~ NoDup (rp_reply_nonces false 0 h (fst (rp_run rp_fixed 32 true rp_init h))).
Proof.
  exists [rp_g 5; rp_g 5]. vm_compute. intro H. inversion H as [|? ? Hn _]. apply Hn. left. reflexivity.
Qed.
