(* Byte-range lemmas for the Gallina AES-CCM: with byte-valued key, nonce, AAD and message the
   ciphertext consists of bytes.  Needed to compose the message-level theorems with the
   datagram codec theorem of C01 (whose well-formedness asks for a byte-valued payload). *)
From LibcoapV Require Import Base.Tactics Base.Bytes Base.BytesProofs Oscore.Aes128 Oscore.Ccm
  Oscore.CcmProofs.
Local Open Scope Z_scope.

Lemma osc_lxor_byte a b : is_byte a -> is_byte b -> is_byte (Z.lxor a b).
Proof.
  unfold is_byte. intros [Ha0 Ha] [Hb0 Hb].
  assert (Hx : 0 <= Z.lxor a b) by (apply Z.lxor_nonneg; lia).
  split; [exact Hx|]. destruct (Z.eq_dec (Z.lxor a b) 0) as [->|E]; [lia|].
  apply (Z.log2_lt_pow2 _ 8); [lia|]. pose proof (Z.log2_lxor a b Ha0 Hb0).
  assert (L : forall x, 0 <= x < 256 -> Z.log2 x < 8).
  { intros x Hr. destruct (Z.eq_dec x 0) as [->|]; [reflexivity|]. apply Z.log2_lt_pow2; lia. }
  pose proof (L a). pose proof (L b). lia.
Qed.

(* S-box on bytes: checked on the 256 values *)
Lemma osc_sbox_table_bytes :
  forallb (fun i => is_byteb (osc_sbox (Z.of_nat i))) (seq 0 256) = true.
Proof. vm_compute. reflexivity. Qed.

Lemma osc_sbox_byte x : is_byte x -> is_byte (osc_sbox x).
Proof.
  intros [H0 H1]. pose proof osc_sbox_table_bytes as T. rewrite forallb_forall in T.
  specialize (T (Z.to_nat x)). rewrite Z2Nat.id in T by lia.
  assert (Hin : In (Z.to_nat x) (seq 0 256)) by (apply in_seq; lia).
  specialize (T Hin). unfold is_byteb in T. unfold is_byte. lia.
Qed.

Lemma osc_xtime_byte x : is_byte x -> is_byte (osc_xtime x).
Proof.
  intros H. unfold osc_xtime. destruct (x <? 128) eqn:E.
  - unfold is_byte in *. lia.
  - apply osc_lxor_byte; unfold is_byte in *; lia.
Qed.

Lemma osc_xor_wfb a : forall b, wfb a -> wfb b -> wfb (osc_xor a b).
Proof.
  induction a as [|x a IH]; intros b Ha Hb; cbn [osc_xor]; [constructor|].
  apply wfb_cons in Ha. destruct Ha as [Hx Ha].
  destruct b as [|y b].
  - apply wfb_cons. split; [exact Hx|]. apply IH; [exact Ha|constructor].
  - apply wfb_cons in Hb. destruct Hb as [Hy Hb]. apply wfb_cons. split.
    + apply osc_lxor_byte; assumption.
    + apply IH; assumption.
Qed.

Lemma osc_nth_byte i s : wfb s -> is_byte (nth i s 0).
Proof.
  intros H. destruct (nth_in_or_default i s 0) as [Hin | E]; [|rewrite E; unfold is_byte; lia].
  unfold wfb in H. rewrite Forall_forall in H. apply H. exact Hin.
Qed.

Lemma osc_sub_bytes_wfb s : wfb s -> wfb (osc_sub_bytes s).
Proof.
  intros H. unfold osc_sub_bytes, wfb in *. apply Forall_map.
  eapply Forall_impl; [|exact H]. intros x Hx. apply osc_sbox_byte. exact Hx.
Qed.

Lemma osc_shift_rows_wfb s : wfb s -> wfb (osc_shift_rows s).
Proof.
  intros H. unfold osc_shift_rows, wfb. apply Forall_map. apply Forall_forall.
  intros i _. apply osc_nth_byte. exact H.
Qed.

Lemma osc_mix_columns_wfb : forall n s, (length s <= n)%nat -> wfb s -> wfb (osc_mix_columns s).
Proof.
  induction n as [|n IH]; intros s Hn H.
  - destruct s; [constructor|cbn [length] in Hn; lia].
  - destruct s as [|a0 [|a1 [|a2 [|a3 tl]]]]; try solve [cbn [osc_mix_columns]; constructor].
    cbn [osc_mix_columns]. repeat (apply wfb_cons in H; destruct H as [? H]).
    cbv zeta. repeat (apply Forall_cons;
                      [repeat first [apply osc_lxor_byte|apply osc_xtime_byte]; assumption|]).
    apply IH; [cbn [length] in Hn; lia|exact H].
Qed.

Lemma osc_next_rk_wfb rk rc : wfb rk -> is_byte rc -> wfb (osc_next_rk rk rc).
Proof.
  intros H Hrc. unfold osc_next_rk.
  destruct rk as [|k0 [|k1 [|k2 [|k3 [|k4 [|k5 [|k6 [|k7 [|k8 [|k9 [|k10 [|k11 [|k12 [|k13 [|k14
    [|k15 [|k16 tl]]]]]]]]]]]]]]]]]; try exact H.
  repeat (apply wfb_cons in H; destruct H as [? H]).
  cbv zeta. repeat constructor; repeat first [apply osc_lxor_byte|apply osc_sbox_byte]; assumption.
Qed.

Lemma osc_expand_wfb rcs : forall rk,
  wfb rk -> Forall is_byte rcs -> Forall wfb (osc_expand rk rcs).
Proof.
  induction rcs as [|rc tl IH]; intros rk H Hr; cbn [osc_expand]; [constructor|].
  inversion Hr; subst. constructor.
  - apply osc_next_rk_wfb; assumption.
  - apply IH; [apply osc_next_rk_wfb; assumption|assumption].
Qed.

Lemma osc_key_schedule_wfb key : wfb key -> Forall wfb (osc_key_schedule key).
Proof.
  intros H. unfold osc_key_schedule. constructor; [exact H|].
  apply osc_expand_wfb; [exact H|]. unfold osc_rcons, is_byte. repeat constructor; lia.
Qed.

Lemma osc_rounds_wfb rks : forall s, Forall wfb rks -> wfb s -> wfb (osc_rounds s rks).
Proof.
  induction rks as [|rk tl IH]; intros s Hr Hs; [exact Hs|].
  inversion Hr as [|? ? Hrk Htl]; subst.
  destruct tl as [|rk2 tl].
  - cbn [osc_rounds]. apply osc_xor_wfb; [|exact Hrk].
    apply osc_shift_rows_wfb, osc_sub_bytes_wfb. exact Hs.
  - rewrite osc_rounds_cons2. apply IH; [exact Htl|]. apply osc_xor_wfb; [|exact Hrk].
    apply (osc_mix_columns_wfb 16).
    + rewrite osc_shift_rows_length. lia.
    + apply osc_shift_rows_wfb, osc_sub_bytes_wfb. exact Hs.
Qed.

Lemma osc_aes_rk_wfb rks blk : Forall wfb rks -> wfb blk -> wfb (osc_aes_rk rks blk).
Proof.
  intros Hr Hb. destruct rks as [|rk0 tl]; [exact Hb|]. cbn [osc_aes_rk].
  inversion Hr; subst. apply osc_rounds_wfb; [assumption|]. apply osc_xor_wfb; assumption.
Qed.

Lemma osc_chunks_aux_wfb l : forall room cur,
  wfb cur -> wfb l -> Forall wfb (osc_chunks_aux room cur l).
Proof.
  induction l as [|x tl IH]; intros room cur Hc Hl; cbn [osc_chunks_aux].
  - destruct cur; [constructor|]. constructor; [|constructor]. unfold wfb. apply Forall_rev. exact Hc.
  - apply wfb_cons in Hl. destruct Hl as [Hx Hl].
    assert (Hxc : wfb (x :: cur)) by (apply wfb_cons; split; assumption).
    destruct room as [|[|r]].
    + constructor; [unfold wfb; apply Forall_rev; exact Hxc|]. apply IH; [constructor|exact Hl].
    + constructor; [unfold wfb; apply Forall_rev; exact Hxc|]. apply IH; [constructor|exact Hl].
    + apply IH; assumption.
Qed.

Lemma osc_cbc_wfb rks data : forall x,
  Forall wfb rks -> wfb x -> wfb data -> wfb (osc_cbc rks x data).
Proof.
  intros x Hr Hx Hd. unfold osc_cbc.
  assert (Hc : Forall wfb (osc_chunks data)) by (apply osc_chunks_aux_wfb; [constructor|exact Hd]).
  revert x Hx. induction (osc_chunks data) as [|c tl IH]; intros x Hx; cbn [fold_left]; [exact Hx|].
  inversion Hc; subst. apply IH; [assumption|].
  apply osc_aes_rk_wfb; [exact Hr|]. apply osc_xor_wfb; assumption.
Qed.

Lemma osc_ccm_ctr_wfb rks nonce i : Forall wfb rks -> wfb nonce -> wfb (osc_ccm_ctr rks nonce i).
Proof.
  intros Hr Hn. unfold osc_ccm_ctr. apply osc_aes_rk_wfb; [exact Hr|].
  apply wfb_cons. split; [unfold is_byte; lia|]. apply wfb_app. split; [exact Hn|apply be16_wfb].
Qed.

Lemma osc_ccm_stream_wfb rks nonce n : Forall wfb rks -> wfb nonce -> wfb (osc_ccm_stream rks nonce n).
Proof.
  intros Hr Hn. unfold osc_ccm_stream.
  induction (seq 1 (Z.to_nat ((n + 15) / 16))) as [|i tl IH]; cbn [flat_map]; [constructor|].
  apply wfb_app. split; [apply osc_ccm_ctr_wfb; assumption|exact IH].
Qed.

Lemma osc_ccm_tag_wfb t s0 : wfb t -> wfb s0 -> wfb (osc_ccm_tag t s0).
Proof.
  intros Ht Hs. unfold osc_ccm_tag, wfb. apply Forall_map. apply Forall_forall. intros i _.
  apply osc_lxor_byte; apply osc_nth_byte; assumption.
Qed.

Lemma osc_ccm_mac_wfb rks nonce aad msg :
  Forall wfb rks -> wfb nonce -> wfb aad -> wfb msg -> wfb (osc_ccm_mac rks nonce aad msg).
Proof.
  intros Hr Hn Ha Hm. unfold osc_ccm_mac.
  apply osc_cbc_wfb; [exact Hr| |exact Hm].
  apply osc_cbc_wfb; [exact Hr| |].
  - apply osc_aes_rk_wfb; [exact Hr|]. unfold osc_ccm_b0. apply wfb_cons. split.
    + unfold is_byte. destruct (len aad =? 0); lia.
    + apply wfb_app. split; [exact Hn|apply be16_wfb].
  - unfold osc_ccm_aad_enc. destruct (len aad =? 0); [constructor|].
    destruct (len aad <? 65280).
    + apply wfb_app. split; [apply be16_wfb|exact Ha].
    + apply wfb_cons. split; [unfold is_byte; lia|]. apply wfb_cons. split; [unfold is_byte; lia|].
      apply wfb_app. split; [apply be32_wfb|exact Ha].
Qed.

Theorem osc_ccm_enc_wfb key nonce aad msg :
  wfb key -> wfb nonce -> wfb aad -> wfb msg -> wfb (osc_ccm_enc key nonce aad msg).
Proof.
  intros Hk Hn Ha Hm. unfold osc_ccm_enc, osc_ccm_enc_rk.
  pose proof (osc_key_schedule_wfb key Hk) as Hr.
  apply wfb_app. split.
  - apply osc_xor_wfb; [exact Hm|]. apply osc_ccm_stream_wfb; assumption.
  - apply osc_ccm_tag_wfb; [apply osc_ccm_mac_wfb; assumption|apply osc_ccm_ctr_wfb; assumption].
Qed.
