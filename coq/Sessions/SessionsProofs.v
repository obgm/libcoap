(* Sessions/SessionsProofs.v - invariants of the session-table model and what they imply.

   The event-log monitor runs in lock step with the model: after every history its state is a
   function of the model state ([se_abs]), so acceptance of the model's log needs no separate
   argument.  What acceptance means is proved for arbitrary logs: the monitor state is also
   determined by the accepted prefix ([se_hist]), and [se_log_ok_sound] reads the guarantees
   off it. *)
From LibcoapV Require Import Base.Tactics Base.BytesProofs Sessions.Sessions.
Local Open Scope Z_scope.

Definition se_pair (s : se_sess) : Z * Z := (ss_id s, ss_key s).

(* split conjunctions only (never introduces hypotheses) *)
Ltac splits := repeat match goal with |- _ /\ _ => split end.

Lemma se_find_eqb_some : forall (A : Type) (g : A -> Z) k l x,
  find (fun y => g y =? k) l = Some x -> In x l /\ g x = k.
Proof. intros A g k l x H. apply find_some in H. rewrite Z.eqb_eq in H. exact H. Qed.

Lemma se_find_eqb_none : forall (A : Type) (g : A -> Z) k l,
  find (fun y => g y =? k) l = None -> forall x, In x l -> g x <> k.
Proof. intros A g k l H x Hx. apply Z.eqb_neq. exact (find_none _ _ H x Hx). Qed.

Lemma se_find_eqb_In : forall (A : Type) (g : A -> Z) l x,
  NoDup (map g l) -> In x l -> find (fun y => g y =? g x) l = Some x.
Proof.
  intros A g l x ND Hx. destruct (find (fun y => g y =? g x) l) as [x'|] eqn:F.
  - apply se_find_eqb_some in F. f_equal. apply (NoDup_map_inj g l); tauto.
  - exfalso. exact (se_find_eqb_none _ _ _ _ F x Hx eq_refl).
Qed.

(* Deleting the first element with key [k] from a list with distinct keys is a filter; stated
   for any function with the defining equations of se_del (sec_del, se_mon_del). *)
Lemma se_del_first_filter : forall (A : Type) (g : A -> Z) (del : Z -> list A -> list A),
  (forall k, del k [] = []) ->
  (forall k x r, del k (x :: r) = if g x =? k then r else x :: del k r) ->
  forall k l, NoDup (map g l) -> del k l = filter (fun x => negb (g x =? k)) l.
Proof.
  intros A g del Hnil Hcons k. induction l as [|x r IH]; intros ND; [apply Hnil|].
  inversion ND as [|? ? Hx NDr]; subst. rewrite Hcons. cbn [filter].
  destruct (Z.eqb_spec (g x) k) as [<-|Hne]; cbn [negb]; [|rewrite IH; auto].
  clear - Hx. induction r as [|y r IH]; cbn [filter map In] in *; [reflexivity|].
  destruct (Z.eqb_spec (g y) (g x)); cbn [negb]; [exfalso; auto | rewrite <- IH; auto].
Qed.

Lemma se_get_find : forall sid tbl, se_get sid tbl = find (fun s => ss_id s =? sid) tbl.
Proof. induction tbl as [|x r IH]; cbn [se_get find]; [|rewrite IH]; reflexivity. Qed.

Lemma se_find_find : forall key tbl, se_find key tbl = find (fun s => ss_key s =? key) tbl.
Proof. induction tbl as [|x r IH]; cbn [se_find find]; [|rewrite IH]; reflexivity. Qed.

Lemma se_get_In : forall sid tbl s, se_get sid tbl = Some s -> In s tbl /\ ss_id s = sid.
Proof. intros sid tbl s. rewrite se_get_find. apply se_find_eqb_some. Qed.

Lemma se_get_none : forall sid tbl, se_get sid tbl = None -> forall s, In s tbl -> ss_id s <> sid.
Proof. intros sid tbl. rewrite se_get_find. apply se_find_eqb_none. Qed.

Lemma se_find_In : forall key tbl s, se_find key tbl = Some s -> In s tbl /\ ss_key s = key.
Proof. intros key tbl s. rewrite se_find_find. apply se_find_eqb_some. Qed.

Lemma se_find_none : forall key tbl, se_find key tbl = None -> forall s, In s tbl -> ss_key s <> key.
Proof. intros key tbl. rewrite se_find_find. apply se_find_eqb_none. Qed.

Lemma se_get_of_In : forall tbl s, NoDup (map ss_id tbl) -> In s tbl -> se_get (ss_id s) tbl = Some s.
Proof. intros tbl s. rewrite se_get_find. apply se_find_eqb_In. Qed.

Lemma se_find_of_In : forall tbl s, NoDup (map ss_key tbl) -> In s tbl -> se_find (ss_key s) tbl = Some s.
Proof. intros tbl s. rewrite se_find_find. apply se_find_eqb_In. Qed.

Lemma se_upd_map : forall (A : Type) (g : se_sess -> A) sid f tbl,
  (forall s, g (f s) = g s) -> map g (se_upd sid f tbl) = map g tbl.
Proof.
  intros A g sid f tbl Hg. induction tbl as [|x r IH]; cbn [se_upd map]; [reflexivity|].
  destruct (ss_id x =? sid); cbn [map]; [rewrite Hg | rewrite IH]; reflexivity.
Qed.

Lemma se_upd_forall : forall (P : se_sess -> Prop) sid f tbl,
  Forall P tbl ->
  (forall s, se_get sid tbl = Some s -> P s -> P (f s)) ->
  Forall P (se_upd sid f tbl).
Proof.
  intros P sid f tbl. induction tbl as [|x r IH]; cbn [se_upd se_get]; intros HF Hf; [constructor|].
  inversion HF; subst. destruct (ss_id x =? sid); constructor; auto.
Qed.

Lemma se_upd_In : forall sid f tbl s, In s (se_upd sid f tbl) ->
  In s tbl \/ exists s0, se_get sid tbl = Some s0 /\ s = f s0.
Proof.
  induction tbl as [|x r IH]; cbn [se_upd se_get In]; intros s H; [tauto|].
  destruct (ss_id x =? sid); cbn [In] in H.
  - destruct H as [E|H]; [right; eauto | left; auto].
  - destruct H as [E|H]; [left; auto|]. destruct (IH s H) as [H1|H1]; [left; auto | right; auto].
Qed.

Lemma se_del_filter : forall sid tbl, NoDup (map ss_id tbl) ->
  se_del sid tbl = filter (fun s => negb (ss_id s =? sid)) tbl.
Proof. apply (se_del_first_filter _ ss_id se_del); reflexivity. Qed.

Lemma se_has_In : forall h l, se_has h l = true <-> In h l.
Proof.
  induction l as [|x r IH]; cbn [se_has In]; [split; [discriminate|tauto]|].
  destruct (Z.eqb_spec x h); [split; auto|].
  rewrite IH. split; [auto | intros [E|E]; [congruence|auto]].
Qed.

Lemma se_remove1_length : forall h l, se_has h l = true ->
  Z.of_nat (length (se_remove1 h l)) = Z.of_nat (length l) - 1.
Proof.
  induction l as [|x r IH]; cbn [se_has se_remove1 length]; intros H; [discriminate|].
  destruct (Z.eqb_spec x h); [lia|]. cbn [length]. rewrite Nat2Z.inj_succ, IH; auto. lia.
Qed.

Lemma se_remove1_In : forall h x l, In x (se_remove1 h l) -> In x l.
Proof.
  induction l as [|y r IH]; cbn [se_remove1 In]; [tauto|].
  destruct (y =? h); cbn [In]; tauto.
Qed.

Lemma se_oldest_from_spec : forall tbl c o,
  se_idle c = true -> se_oldest_from (Some c) tbl = Some o ->
  In o (c :: tbl) /\ se_idle o = true /\
  (forall s, In s (c :: tbl) -> se_idle s = true -> ss_last o <= ss_last s).
Proof.
  induction tbl as [|x r IH]; cbn [se_oldest_from]; intros c o Ic H.
  - inversion H; subst. splits; [left; reflexivity | exact Ic |]. intros s [<-|[]] _. lia.
  - destruct (se_idle x) eqn:Ix; [destruct (Z.ltb_spec (ss_last x) (ss_last c))|].
    + destruct (IH x o Ix H) as (A & B & C). splits; [right; exact A | exact B |].
      intros s [<-|Hs] Is; [|exact (C s Hs Is)]. specialize (C x (or_introl eq_refl) Ix). lia.
    + destruct (IH c o Ic H) as (A & B & C). splits; [destruct A; [left | right; right]; auto | exact B |].
      intros s [<-|[<-|Hs]] Is; [apply C; [left|]; auto | | apply C; [right|]; auto].
      specialize (C c (or_introl eq_refl) Ic). lia.
    + destruct (IH c o Ic H) as (A & B & C). splits; [destruct A; [left | right; right]; auto | exact B |].
      intros s [<-|[<-|Hs]] Is; [apply C; [left|]; auto | congruence | apply C; [right|]; auto].
Qed.

Lemma se_oldest_spec : forall tbl o, se_oldest tbl = Some o ->
  In o tbl /\ se_idle o = true /\ (forall s, In s tbl -> se_idle s = true -> ss_last o <= ss_last s).
Proof.
  unfold se_oldest. induction tbl as [|x r IH]; cbn [se_oldest_from]; intros o H; [discriminate|].
  destruct (se_idle x) eqn:Ix; [exact (se_oldest_from_spec r x o Ix H)|].
  destruct (IH o H) as (A & B & C). splits; [right; exact A | exact B |].
  intros s [<-|Hs] Is; [congruence | exact (C s Hs Is)].
Qed.

Lemma se_oldest_from_some : forall tbl cur, cur <> None -> se_oldest_from cur tbl <> None.
Proof.
  induction tbl as [|x r IH]; cbn [se_oldest_from]; intros cur Hc; auto.
  destruct (se_idle x); [|auto]. destruct cur as [c|]; [|apply IH; discriminate].
  destruct (ss_last x <? ss_last c); apply IH; discriminate.
Qed.

Lemma se_oldest_exists : forall tbl, 0 < se_count_idle tbl -> exists o, se_oldest tbl = Some o.
Proof.
  unfold se_oldest. induction tbl as [|x r IH]; cbn [se_count_idle se_oldest_from]; intros H; [lia|].
  destruct (se_idle x).
  - destruct (se_oldest_from (Some x) r) eqn:E; [eauto|].
    exfalso. eapply se_oldest_from_some; [|exact E]. discriminate.
  - apply IH. lia.
Qed.

Lemma se_count_idle_nonneg : forall tbl, 0 <= se_count_idle tbl.
Proof. induction tbl as [|x r IH]; cbn [se_count_idle]; [lia|]. destruct (se_idle x); lia. Qed.

Lemma se_rx_evict_In : forall c tbl o, se_rx_evict c tbl = Some o -> In o tbl.
Proof.
  unfold se_rx_evict. intros c tbl o H.
  destruct ((0 <? cf_max_idle c) && (cf_max_idle c <=? se_count_idle tbl)); [|discriminate].
  apply se_oldest_spec in H. tauto.
Qed.

Lemma se_valid_victim_spec : forall c tbl o, se_valid_victim c tbl o = true ->
  0 < cf_max_idle c <= se_count_idle tbl /\ se_idle o = true /\
  (forall s, In s tbl -> se_idle s = true -> ss_last o <= ss_last s).
Proof.
  unfold se_valid_victim. intros c tbl o H. rewrite !andb_true_iff, forallb_forall in H.
  destruct H as [[[L1 L2] Io] Hall]. splits; [lia | lia | exact Io |].
  intros s Hs Is. specialize (Hall s Hs). rewrite Is in Hall. cbn [negb orb] in Hall. lia.
Qed.

(* the session the code evicts (first of the oldest idle ones in iteration order) is one of the
   victims the property allows *)
Theorem se_evict_is_valid : forall c tbl o,
  se_rx_evict c tbl = Some o -> se_valid_victim c tbl o = true.
Proof.
  intros c tbl o H. unfold se_rx_evict in H. unfold se_valid_victim.
  destruct ((0 <? cf_max_idle c) && (cf_max_idle c <=? se_count_idle tbl)) eqn:E; [|discriminate].
  apply se_oldest_spec in H. destruct H as (Hin & Hidle & Hmin).
  cbn [andb]. rewrite Hidle. cbn [andb]. apply forallb_forall. intros s Hs.
  destruct (se_idle s) eqn:Is; cbn [negb orb]; [|reflexivity].
  specialize (Hmin s Hs Is). lia.
Qed.

Fixpoint se_sweep_ev (p : se_sess -> bool) (tbl : list se_sess) : list se_ev :=
  match tbl with
  | [] => []
  | s :: r => if p s then SeDel (ss_id s) :: SeFree (ss_id s) :: se_sweep_ev p r
              else se_sweep_ev p r
  end.

Lemma se_scan_sweep : forall c now tbl,
  se_scan c now tbl = (filter (fun s => negb (se_expired c now s)) tbl,
                       se_sweep_ev (se_expired c now) tbl).
Proof.
  induction tbl as [|x r IH]; cbn [se_scan filter se_sweep_ev]; [reflexivity|].
  rewrite IH. destruct (se_expired c now x); reflexivity.
Qed.

Lemma se_teardown_sweep : forall tbl,
  se_teardown tbl = (filter (fun s => negb (ss_ref s =? 0)) tbl,
                     se_sweep_ev (fun s => ss_ref s =? 0) tbl).
Proof.
  induction tbl as [|x r IH]; cbn [se_teardown filter se_sweep_ev]; [reflexivity|].
  rewrite IH. destruct (ss_ref x =? 0); reflexivity.
Qed.

Lemma se_sweep_In : forall p tbl e,
  In e (se_sweep_ev p tbl) <->
  exists s, In s tbl /\ p s = true /\ (e = SeDel (ss_id s) \/ e = SeFree (ss_id s)).
Proof.
  induction tbl as [|x r IH]; cbn [se_sweep_ev In]; intros e.
  - split; [tauto | intros (s & [] & _)].
  - destruct (p x) eqn:Px; cbn [In]; rewrite IH; split.
    + intros [E|[E|(s & Hs & H)]]; [exists x | exists x | exists s]; auto.
    + intros (s & [<-|Hs] & Ps & E); [destruct E as [->| ->]; auto | right; right; eauto].
    + intros (s & Hs & H). eauto.
    + intros (s & [<-|Hs] & Ps & E); [congruence | eauto].
Qed.

(* evicting one session is the sweep that picks its identity *)
Lemma se_sweep_one : forall o tbl, NoDup (map ss_id tbl) -> In o tbl ->
  se_sweep_ev (fun s => ss_id s =? ss_id o) tbl = [SeDel (ss_id o); SeFree (ss_id o)].
Proof.
  induction tbl as [|x r IH]; cbn [se_sweep_ev map In]; intros ND Ho; [tauto|].
  inversion ND as [|? ? Hx NDr]; subst. destruct (Z.eqb_spec (ss_id x) (ss_id o)) as [E|E].
  - rewrite E. do 2 f_equal. rewrite E in Hx. clear - Hx.
    induction r as [|y r IH]; cbn [se_sweep_ev map In] in *; [reflexivity|].
    destruct (Z.eqb_spec (ss_id y) (ss_id o)); [exfalso; auto | auto].
  - destruct Ho as [<-|Ho]; [congruence | auto].
Qed.

Definition se_new_events (c : se_cfg) (st : se_st) (op : se_op) : list se_ev :=
  match op with
  | OpRx key now =>
      match se_find key (st_tbl st) with
      | Some s => [SeRx key (ss_id s)]
      | None =>
          (match se_rx_evict c (st_tbl st) with
           | Some o => [SeDel (ss_id o); SeFree (ss_id o)]
           | None => []
           end) ++ [SeNew (st_next st) key; SeRx key (st_next st)]
      end
  | OpRxV key now v =>
      match se_find key (st_tbl st) with
      | Some s => [SeRx key (ss_id s)]
      | None =>
          (match se_get v (st_tbl st) with
           | Some o => [SeDel (ss_id o); SeFree (ss_id o)]
           | None => []
           end) ++ [SeNew (st_next st) key; SeRx key (st_next st)]
      end
  | OpAccept key now => [SeNew (st_next st) key]
  | OpPrepare now => se_sweep_ev (se_expired c now) (st_tbl st)
  | OpFreeContext => se_sweep_ev (fun s => ss_ref s =? 0) (map se_drop_lib (st_tbl st))
  | _ => []
  end.

Lemma se_step_log : forall c st op,
  st_log (se_step c st op) = st_log st ++ se_new_events c st op.
Proof.
  intros c st op. destruct op; cbn [se_step se_new_events st_log]; try (rewrite app_nil_r; reflexivity).
  - unfold se_rx, se_rx_hit, se_rx_new. destruct (se_find key (st_tbl st)); cbn [st_log]; [reflexivity|].
    destruct (se_rx_evict c (st_tbl st)); reflexivity.
  - unfold se_rx_victim, se_rx_hit, se_rx_new. destruct (se_find key (st_tbl st)); cbn [st_log]; [reflexivity|].
    destruct (se_get victim (st_tbl st)); reflexivity.
  - reflexivity.
  - unfold se_prepare. rewrite se_scan_sweep. reflexivity.
  - unfold se_free_context. rewrite se_teardown_sweep. reflexivity.
Qed.

Lemma se_mon_has_iff : forall sid key l, se_mon_has sid key l = true <-> In (sid, key) l.
Proof.
  induction l as [|[s k] r IH]; cbn [se_mon_has In]; [split; [discriminate|tauto]|].
  destruct (Z.eqb_spec s sid); destruct (Z.eqb_spec k key); cbn [andb]; subst;
    [split; auto | | |]; rewrite IH; (split; [auto | intros [E|E]; [inversion E; congruence | auto]]).
Qed.

Lemma se_mon_has_sid_iff : forall sid l, se_mon_has_sid sid l = true <-> In sid (map fst l).
Proof.
  induction l as [|[s k] r IH]; cbn [se_mon_has_sid map In fst]; [split; [discriminate|tauto]|].
  destruct (Z.eqb_spec s sid); [split; auto|].
  rewrite IH. split; [auto | intros [E|E]; [congruence | auto]].
Qed.

Lemma se_mon_has_key_iff : forall key l, se_mon_has_key key l = true <-> In key (map snd l).
Proof.
  induction l as [|[s k] r IH]; cbn [se_mon_has_key map In snd]; [split; [discriminate|tauto]|].
  destruct (Z.eqb_spec k key); [split; auto|].
  rewrite IH. split; [auto | intros [E|E]; [congruence | auto]].
Qed.

Lemma se_mon_del_filter : forall sid l, NoDup (map fst l) ->
  se_mon_del sid l = filter (fun p => negb (fst p =? sid)) l.
Proof. apply (se_del_first_filter _ fst se_mon_del); [|intros k [s b] r]; reflexivity. Qed.

Lemma se_mon_del_mid : forall sid k l d, ~ In sid (map fst l) ->
  se_mon_del sid (l ++ (sid, k) :: d) = l ++ d.
Proof.
  induction l as [|[s b] r IH]; cbn [app se_mon_del map fst In]; intros d Hn.
  - rewrite Z.eqb_refl. reflexivity.
  - destruct (Z.eqb_spec s sid); [exfalso; auto | rewrite IH; auto].
Qed.

Lemma se_mon_run_app : forall l1 l2 m,
  se_mon_run m (l1 ++ l2) =
  match se_mon_run m l1 with Some m1 => se_mon_run m1 l2 | None => None end.
Proof.
  induction l1 as [|e r IH]; intros l2 m; cbn [app se_mon_run]; [reflexivity|].
  destruct (se_mon_step m e); [apply IH | reflexivity].
Qed.

Inductive se_mstep : se_mon -> se_ev -> se_mon -> Prop :=
| MsFree live mx p : se_mstep (mkMon live mx (Some p)) (SeFree p) (mkMon live mx None)
| MsNew live mx s k : mx < s -> ~ In k (map snd live) ->
    se_mstep (mkMon live mx None) (SeNew s k) (mkMon ((s, k) :: live) s None)
| MsDel live mx s : In s (map fst live) ->
    se_mstep (mkMon live mx None) (SeDel s) (mkMon (se_mon_del s live) mx (Some s))
| MsRx live mx s k : In (s, k) live ->
    se_mstep (mkMon live mx None) (SeRx k s) (mkMon live mx None).

Lemma se_mon_step_spec : forall m e m', se_mon_step m e = Some m' <-> se_mstep m e m'.
Proof.
  intros [live mx pend] e m'. unfold se_mon_step. cbn [mo_pending mo_live mo_max]. split.
  - intros H. destruct pend as [p|]; destruct e as [s k | s | s | k s]; try discriminate.
    + destruct (Z.eqb_spec s p); [|discriminate]. inversion H; subst. constructor.
    + destruct (Z.ltb_spec mx s); [|discriminate].
      destruct (se_mon_has_key k live) eqn:Hk; [discriminate|]. inversion H; subst.
      constructor; [assumption|]. rewrite <- se_mon_has_key_iff. congruence.
    + destruct (se_mon_has_sid s live) eqn:Hs; [|discriminate]. inversion H; subst.
      constructor. apply se_mon_has_sid_iff. exact Hs.
    + destruct (se_mon_has s k live) eqn:Hh; [|discriminate]. inversion H; subst.
      constructor. apply se_mon_has_iff. exact Hh.
  - intros S. inversion S as [? ? p | ? ? s k Hlt Hk | ? ? s Hs | ? ? s k Hin]; subst.
    + rewrite Z.eqb_refl. reflexivity.
    + apply Z.ltb_lt in Hlt. rewrite <- se_mon_has_key_iff in Hk. apply not_true_is_false in Hk.
      rewrite Hlt, Hk. reflexivity.
    + apply se_mon_has_sid_iff in Hs. rewrite Hs. reflexivity.
    + apply se_mon_has_iff in Hin. rewrite Hin. reflexivity.
Qed.

Definition se_twf (tbl : list se_sess) (next : Z) : Prop :=
  NoDup (map ss_key tbl) /\ NoDup (map ss_id tbl) /\
  Forall (fun s => ss_id s < next) tbl /\
  Forall (fun s => ss_ref s = Z.of_nat (length (ss_holders s))) tbl.

(* the monitor state that belongs to a table: it conses where the table appends *)
Definition se_abs (tbl : list se_sess) (next : Z) : se_mon :=
  mkMon (rev (map se_pair tbl)) (next - 1) None.

Definition se_inv (st : se_st) : Prop :=
  se_twf (st_tbl st) (st_next st) /\
  (st_alive st = true -> st_leaked st = []) /\
  se_mon_run se_mon_init (st_log st) = Some (se_abs (st_tbl st ++ st_leaked st) (st_next st)).

Lemma se_inv_init : se_inv se_init.
Proof. unfold se_inv, se_twf. cbn. splits; auto; constructor. Qed.

(* The operations have three shapes: the sessions that satisfy a predicate are swept out
   ([se_twf_filter], [se_abs_sweep]), a new session is appended ([se_twf_snoc], [se_abs_new]),
   one session is rewritten in place ([se_inv_upd]). *)
Lemma se_twf_filter : forall tbl next q, se_twf tbl next -> se_twf (filter q tbl) next.
Proof.
  intros tbl next q (Hk & Hi & Hr & Hh). unfold se_twf.
  splits; try apply NoDup_map_filter; auto; eapply incl_Forall; eauto; apply incl_filter.
Qed.

Lemma se_twf_snoc : forall tbl next s,
  se_twf tbl next -> (forall x, In x tbl -> ss_key x <> ss_key s) -> ss_id s = next ->
  ss_ref s = Z.of_nat (length (ss_holders s)) ->
  se_twf (tbl ++ [s]) (next + 1).
Proof.
  intros tbl next s (Hk & Hi & Hr & Hh) Hfresh Eid Eref. unfold se_twf.
  rewrite !map_app, !Forall_app. cbn [map]. rewrite Forall_forall in Hr. splits.
  - apply NoDup_snoc; auto. rewrite in_map_iff. intros (x & E & Hx). exact (Hfresh x Hx E).
  - apply NoDup_snoc; auto. rewrite in_map_iff. intros (x & E & Hx). specialize (Hr x Hx). lia.
  - apply Forall_forall. intros x Hx. specialize (Hr x Hx). lia.
  - constructor; [lia | constructor].
  - exact Hh.
  - constructor; [exact Eref | constructor].
Qed.

Lemma se_abs_upd : forall tbl next sid f, (forall s, se_pair (f s) = se_pair s) ->
  se_abs (se_upd sid f tbl) next = se_abs tbl next.
Proof. intros. unfold se_abs. rewrite (se_upd_map _ se_pair); auto. Qed.

Lemma se_abs_ids : forall tbl, map fst (rev (map se_pair tbl)) = rev (map ss_id tbl).
Proof. intros. rewrite map_rev, map_map. reflexivity. Qed.

Lemma se_mon_del_free : forall live mx s l, In s (map fst live) ->
  se_mon_run (mkMon live mx None) (SeDel s :: SeFree s :: l) =
  se_mon_run (mkMon (se_mon_del s live) mx None) l.
Proof.
  intros live mx s l H. cbn [se_mon_run].
  rewrite (proj2 (se_mon_step_spec _ _ _) (MsDel live mx s H)).
  rewrite (proj2 (se_mon_step_spec _ _ _) (MsFree _ mx s)). reflexivity.
Qed.

(* the monitor follows a sweep; [d] is what the sweep has passed and kept *)
Lemma se_sweep_mon : forall p mx tbl d, NoDup (map ss_id tbl) ->
  se_mon_run (mkMon (rev (map se_pair tbl) ++ d) mx None) (se_sweep_ev p tbl) =
  Some (mkMon (rev (map se_pair (filter (fun s => negb (p s)) tbl)) ++ d) mx None).
Proof.
  induction tbl as [|x r IH]; intros d ND; [reflexivity|].
  inversion ND as [|? ? Hx NDr]; subst.
  cbn [map rev se_sweep_ev filter]. rewrite <- app_assoc. cbn [app].
  destruct (p x); cbn [negb].
  - rewrite se_mon_del_free by exact (in_map fst _ (se_pair x) (in_elt _ _ _)).
    unfold se_pair at 2. rewrite se_mon_del_mid; [exact (IH d NDr)|].
    rewrite se_abs_ids, <- in_rev. exact Hx.
  - cbn [map rev]. rewrite <- app_assoc. exact (IH (se_pair x :: d) NDr).
Qed.

Lemma se_abs_sweep : forall p tbl next, NoDup (map ss_id tbl) ->
  se_mon_run (se_abs tbl next) (se_sweep_ev p tbl) =
  Some (se_abs (filter (fun s => negb (p s)) tbl) next).
Proof.
  intros p tbl next ND. unfold se_abs.
  rewrite <- (app_nil_r (rev (map se_pair tbl))), <- (app_nil_r (rev (map se_pair (filter _ tbl)))).
  apply se_sweep_mon. exact ND.
Qed.

Lemma se_abs_new : forall tbl next key s,
  (forall x, In x tbl -> ss_key x <> key) -> se_pair s = (next, key) ->
  se_mon_step (se_abs tbl next) (SeNew next key) = Some (se_abs (tbl ++ [s]) (next + 1)).
Proof.
  intros tbl next key s Hfresh Es. apply se_mon_step_spec. unfold se_abs.
  rewrite map_app. cbn [map]. rewrite rev_unit, Es, Z.add_simpl_r. constructor; [lia|].
  rewrite map_rev, <- in_rev, map_map, in_map_iff. intros (x & E & Hx). exact (Hfresh x Hx E).
Qed.

Lemma se_abs_rx : forall tbl next sid key, In (sid, key) (map se_pair tbl) ->
  se_mon_step (se_abs tbl next) (SeRx key sid) = Some (se_abs tbl next).
Proof.
  intros tbl next sid key Hs. apply se_mon_step_spec. constructor. rewrite <- in_rev. exact Hs.
Qed.

Lemma se_inv_events : forall tbl next log leaked tbl' next' ev,
  se_inv (mkSt tbl next log true leaked) -> se_twf tbl' next' ->
  se_mon_run (se_abs tbl next) ev = Some (se_abs tbl' next') ->
  se_inv (mkSt tbl' next' (log ++ ev) true leaked).
Proof.
  intros tbl next log leaked tbl' next' ev (_ & Hl & Hm) Hw Hev.
  unfold se_inv in *. cbn [st_tbl st_next st_log st_alive st_leaked] in *.
  rewrite (Hl eq_refl), app_nil_r in *. rewrite se_mon_run_app, Hm. auto.
Qed.

Lemma se_inv_upd : forall tbl next log alive leaked sid f,
  se_inv (mkSt tbl next log alive leaked) -> (forall s, se_pair (f s) = se_pair s) ->
  (forall s, se_get sid tbl = Some s ->
             ss_ref s = Z.of_nat (length (ss_holders s)) ->
             ss_ref (f s) = Z.of_nat (length (ss_holders (f s)))) ->
  se_inv (mkSt (se_upd sid f tbl) next log alive leaked).
Proof.
  intros tbl next log alive leaked sid f ((Hk & Hi & Hr & Hh) & Hl & Hm) Fp Fref.
  assert (Fid: forall s, ss_id (f s) = ss_id s) by (intros s; exact (f_equal fst (Fp s))).
  assert (Fkey: forall s, ss_key (f s) = ss_key s) by (intros s; exact (f_equal snd (Fp s))).
  unfold se_inv, se_twf, se_abs in *. cbn [st_tbl st_next st_log st_alive st_leaked] in *.
  rewrite map_app, (se_upd_map _ ss_key), (se_upd_map _ ss_id), (se_upd_map _ se_pair), <- map_app; auto.
  splits; auto.
  - apply se_upd_forall; auto. intros s _ H. rewrite Fid. exact H.
  - apply se_upd_forall; auto.
Qed.

Lemma se_inv_rx_hit : forall tbl next log leaked s key now,
  se_inv (mkSt tbl next log true leaked) -> se_find key tbl = Some s ->
  se_inv (se_rx_hit (mkSt tbl next log true leaked) s key now).
Proof.
  intros tbl next log leaked s key now Hinv Hf. apply se_find_In in Hf. destruct Hf as [Hs <-].
  unfold se_rx_hit. cbn [st_tbl st_next st_log st_alive st_leaked].
  assert (H1: se_inv (mkSt (se_upd (ss_id s) (se_set_last now) tbl) next log true leaked))
    by (apply se_inv_upd; auto).
  apply (se_inv_events _ next _ _ _ _ _ H1); [apply H1|].
  cbn [se_mon_run]. rewrite se_abs_upd, se_abs_rx; auto. exact (in_map se_pair _ _ Hs).
Qed.

Lemma se_inv_rx_new : forall tbl next log leaked key now ev,
  se_inv (mkSt tbl next log true leaked) -> se_find key tbl = None ->
  (forall o, ev = Some o -> In o tbl) ->
  se_inv (se_rx_new (mkSt tbl next log true leaked) key now ev).
Proof.
  intros tbl next log leaked key now ev Hinv Hf Hev. pose proof Hinv as (Hw & _).
  cbn [st_tbl st_next] in Hw. pose proof Hw as (_ & Hi & _).
  unfold se_rx_new. cbn [st_tbl st_next st_log st_alive st_leaked].
  set (tbl1 := match ev with Some o => se_del (ss_id o) tbl | None => tbl end).
  set (ev1 := match ev with Some o => [SeDel (ss_id o); SeFree (ss_id o)] | None => [] end).
  assert (H1: se_twf tbl1 next /\ (forall s, In s tbl1 -> In s tbl) /\
              se_mon_run (se_abs tbl next) ev1 = Some (se_abs tbl1 next)).
  { unfold tbl1, ev1. destruct ev as [o|]; [|auto]. rewrite se_del_filter by exact Hi. splits.
    - apply se_twf_filter. exact Hw.
    - apply incl_filter.
    - rewrite <- (se_sweep_one o tbl Hi (Hev o eq_refl)). apply se_abs_sweep. exact Hi. }
  destruct H1 as (Hw1 & Hsub & Hm1).
  assert (Hfresh: forall x, In x tbl1 -> ss_key x <> key).
  { intros x Hx. apply (se_find_none _ _ Hf). auto. }
  apply (se_inv_events tbl next); [exact Hinv | apply se_twf_snoc; auto |].
  rewrite se_mon_run_app, Hm1. cbn [se_mon_run].
  rewrite (se_abs_new tbl1 next key (se_new_sess next key now)) by auto.
  rewrite se_abs_rx; [reflexivity|]. rewrite map_app. apply in_or_app. right. left. reflexivity.
Qed.

Lemma se_drop_lib_pair : forall s, se_pair (se_drop_lib s) = se_pair s.
Proof. reflexivity. Qed.

Lemma se_step_inv : forall c st op,
  se_inv st -> se_op_ok c st op = true -> se_inv (se_step c st op).
Proof.
  intros c [tbl next log alive leaked] op Hinv Hok. unfold se_op_ok in Hok.
  cbn [st_alive st_tbl] in Hok. apply andb_true_iff in Hok. destruct Hok as [-> Hok].
  pose proof Hinv as (Hw & Hl & _). cbn [st_tbl st_next st_alive st_leaked] in Hw, Hl.
  destruct op; cbn [se_step st_tbl st_next st_log st_alive st_leaked].
  - unfold se_rx. cbn [st_tbl]. destruct (se_find key tbl) as [s|] eqn:Hf.
    + apply se_inv_rx_hit; auto.
    + apply se_inv_rx_new; auto. apply se_rx_evict_In.
  - unfold se_rx_victim. cbn [st_tbl]. destruct (se_find key tbl) as [s|] eqn:Hf; [discriminate|].
    apply se_inv_rx_new; auto. intros o Ho. apply se_get_In in Ho. tauto.
  - destruct (se_find key tbl) eqn:Hf; [discriminate|]. pose proof (se_find_none _ _ Hf) as Hfresh.
    unfold se_accept. cbn [st_tbl st_next st_log st_alive st_leaked].
    apply (se_inv_events tbl next); [exact Hinv | apply se_twf_snoc; auto |].
    cbn [se_mon_run]. rewrite (se_abs_new tbl next key (mkSess next key 0 [] now se_state_csm true)); auto.
  - apply se_inv_upd; auto.
    intros s _ E. cbn [se_add_holder ss_ref ss_holders length]. lia.
  - apply se_inv_upd; auto.
    intros s G E. rewrite G in Hok. cbn [se_rem_holder ss_ref ss_holders].
    rewrite (se_remove1_length _ _ Hok).
    destruct (ss_holders s); [discriminate|]. cbn [length] in *.
    destruct (Z.ltb_spec 0 (ss_ref s)); lia.
  - apply se_inv_upd; auto.
  - apply se_inv_upd; auto.
  - apply se_inv_upd; auto.
  - unfold se_prepare. cbn [st_tbl st_next st_log st_alive st_leaked]. rewrite se_scan_sweep.
    apply (se_inv_events tbl next); [exact Hinv | apply se_twf_filter; exact Hw |].
    apply se_abs_sweep. apply Hw.
  - unfold se_free_context. cbn [st_tbl st_next st_log st_alive st_leaked].
    rewrite se_teardown_sweep, (Hl eq_refl). destruct Hinv as (_ & _ & Hm).
    cbn [st_tbl st_next st_log st_leaked] in Hm. rewrite (Hl eq_refl), app_nil_r in Hm.
    unfold se_inv. cbn [st_tbl st_next st_log st_alive st_leaked app].
    splits; [unfold se_twf; cbn; splits; constructor | discriminate |].
    rewrite se_mon_run_app, Hm.
    replace (se_abs tbl next) with (se_abs (map se_drop_lib tbl) next)
      by (unfold se_abs; rewrite map_map, (map_ext _ _ se_drop_lib_pair); reflexivity).
    apply se_abs_sweep. rewrite map_map. apply Hw.
Qed.

Lemma se_run_inv : forall c ops st st', se_inv st -> se_run c st ops = Some st' -> se_inv st'.
Proof.
  induction ops as [|op r IH]; intros st st' Hinv H; cbn [se_run] in H.
  - inversion H; subst. exact Hinv.
  - destruct (se_op_ok c st op) eqn:Hok; [|discriminate].
    exact (IH _ _ (se_step_inv c st op Hinv Hok) H).
Qed.

Lemma se_reachable : forall c ops st, se_run c se_init ops = Some st -> se_inv st.
Proof. intros c ops st. apply se_run_inv. exact se_inv_init. Qed.

Lemma se_run_app : forall c ops1 ops2 st st',
  se_run c st (ops1 ++ ops2) = Some st' ->
  exists st1, se_run c st ops1 = Some st1 /\ se_run c st1 ops2 = Some st'.
Proof.
  induction ops1 as [|op r IH]; intros ops2 st st' H; cbn [app se_run] in *.
  - eauto.
  - destruct (se_op_ok c st op); [|discriminate]. apply IH; auto.
Qed.

Lemma se_mon_run_split : forall pre e post m m',
  se_mon_run m (pre ++ e :: post) = Some m' ->
  exists m0 m1, se_mon_run m pre = Some m0 /\ se_mstep m0 e m1 /\
                se_mon_run m1 post = Some m'.
Proof.
  intros pre e post m m' H. rewrite se_mon_run_app in H.
  destruct (se_mon_run m pre) as [m0|]; [|discriminate]. cbn [se_mon_run] in H.
  destruct (se_mon_step m0 e) as [m1|] eqn:S; [|discriminate].
  apply se_mon_step_spec in S. eauto.
Qed.

Lemma se_in_snoc : forall (A : Type) (l : list A) e x, In x (l ++ [e]) <-> In x l \/ e = x.
Proof. intros. rewrite in_app_iff. cbn [In]. tauto. Qed.

(* What the monitor knows after an accepted prefix.  Its live set is exactly the sessions that
   were announced and not deleted; identities it has seen are below [mo_max], so none is
   announced twice; a pending release means the prefix ends with that session's DEL. *)
Definition se_hist (pre : list se_ev) (m : se_mon) : Prop :=
  NoDup (map fst (mo_live m)) /\ NoDup (map snd (mo_live m)) /\
  (forall s k, In (s, k) (mo_live m) <-> In (SeNew s k) pre /\ ~ In (SeDel s) pre) /\
  (forall s k, In (SeNew s k) pre -> s <= mo_max m) /\
  (forall s, In (SeDel s) pre -> s <= mo_max m) /\
  (forall s k1 k2, In (SeNew s k1) pre -> In (SeNew s k2) pre -> k1 = k2) /\
  (forall p, mo_pending m = Some p -> exists pre', pre = pre' ++ [SeDel p]).

(* a release or a datagram changes nothing of this *)
Lemma se_hist_quiet : forall pre live mx pend e,
  (forall s k, e <> SeNew s k) -> (forall s, e <> SeDel s) ->
  se_hist pre (mkMon live mx pend) -> se_hist (pre ++ [e]) (mkMon live mx None).
Proof.
  intros pre live mx pend e Hn Hd (N1 & N2 & Hb & Hc & Hd' & He & _).
  unfold se_hist. cbn [mo_live mo_max mo_pending] in *. splits; auto; [| | | |discriminate].
  - intros s k. rewrite Hb, !se_in_snoc. specialize (Hn s k). specialize (Hd s). tauto.
  - intros s k. rewrite se_in_snoc. intros [H|H]; [eauto | destruct (Hn _ _ H)].
  - intros s. rewrite se_in_snoc. intros [H|H]; [eauto | destruct (Hd _ H)].
  - intros s k1 k2. rewrite !se_in_snoc. intros [H1|H1] [H2|H2];
      [eauto | destruct (Hn _ _ H2) | destruct (Hn _ _ H1) | destruct (Hn _ _ H1)].
Qed.

Lemma se_hist_step : forall pre m e m', se_hist pre m -> se_mstep m e m' -> se_hist (pre ++ [e]) m'.
Proof.
  intros pre m e m' Hm S.
  destruct S as [live mx p | live mx s0 k0 Hlt Hk | live mx s0 Hs | live mx s0 k0 Hin].
  - apply (se_hist_quiet _ _ _ (Some p)); [discriminate | discriminate | exact Hm].
  - (* SESSION_NEW: the identity is above everything seen *)
    destruct Hm as (N1 & N2 & Hb & Hc & Hd & He & _). unfold se_hist. cbn [mo_live mo_max mo_pending] in *.
    assert (Hf: forall k, ~ In (s0, k) live).
    { intros k H. apply Hb in H. destruct H as [H _]. apply Hc in H. lia. }
    splits; [| | | | | |discriminate].
    + cbn [map fst]. constructor; [|exact N1]. rewrite in_map_iff. intros ([a b] & <- & H). exact (Hf _ H).
    + cbn [map snd]. constructor; assumption.
    + intros s k. cbn [In]. rewrite Hb, !se_in_snoc. split.
      * intros [E|[H1 H2]]; [inversion E; subst|]; split; auto; intros [H|H]; try discriminate; auto.
        apply Hd in H. lia.
      * intros [[H1|H1] H2]; [right; split; auto | left; congruence].
    + intros s k. rewrite se_in_snoc. intros [H|H]; [apply Hc in H | inversion H]; lia.
    + intros s. rewrite se_in_snoc. intros [H|H]; [apply Hd in H; lia | discriminate].
    + intros s k1 k2. rewrite !se_in_snoc. intros [H1|H1] [H2|H2].
      * eauto.
      * inversion H2; subst. apply Hc in H1. lia.
      * inversion H1; subst. apply Hc in H2. lia.
      * congruence.
  - (* SESSION_DEL of a live session *)
    destruct Hm as (N1 & N2 & Hb & Hc & Hd & He & _). unfold se_hist. cbn [mo_live mo_max mo_pending] in *.
    assert (Hle: s0 <= mx).
    { rewrite in_map_iff in Hs. destruct Hs as ([a b] & <- & H). apply Hb in H. destruct H as [H _].
      exact (Hc _ _ H). }
    rewrite se_mon_del_filter by exact N1. splits; try apply NoDup_map_filter; auto.
    + intros s k. rewrite filter_In, Hb, !se_in_snoc. cbn [fst]. rewrite negb_true_iff, Z.eqb_neq. split.
      * intros [[H1 H2] H3]. split; auto. intros [H|H]; [auto | congruence].
      * intros [[H1|H1] H2]; [|discriminate]. split; [split; auto|]. intro E. apply H2. right. congruence.
    + intros s k. rewrite se_in_snoc. intros [H|H]; [eauto | discriminate].
    + intros s. rewrite se_in_snoc. intros [H|H]; [eauto | inversion H; subst; exact Hle].
    + intros s k1 k2. rewrite !se_in_snoc. intros [H1|H1] [H2|H2]; try discriminate. eauto.
    + intros p E. inversion E. eauto.
  - apply (se_hist_quiet _ _ _ None); [discriminate | discriminate | exact Hm].
Qed.

Lemma se_hist_run : forall pre m, se_mon_run se_mon_init pre = Some m -> se_hist pre m.
Proof.
  induction pre as [|e pre IH] using rev_ind; intros m R.
  - inversion R. unfold se_hist. cbn. splits; try constructor; try tauto; discriminate.
  - apply se_mon_run_split in R. destruct R as (m0 & m1 & R0 & S & R1). inversion R1; subst m1.
    exact (se_hist_step _ _ _ _ (IH _ R0) S).
Qed.

Lemma se_ev_eq_dec : forall a b : se_ev, {a = b} + {a <> b}.
Proof. decide equality; apply Z.eq_dec. Qed.

Section MonitorSound.
  Variable log : list se_ev.
  Hypothesis Hok : se_log_ok log = true.

  (* the accepted run, cut at an event *)
  Lemma se_ok_at : forall pre e post, log = pre ++ e :: post ->
    exists m0 m1 m, se_hist pre m0 /\ se_mstep m0 e m1 /\
                    se_mon_run m1 post = Some m /\ mo_pending m = None.
  Proof.
    intros pre e post E. unfold se_log_ok in Hok. rewrite E in Hok.
    destruct (se_mon_run se_mon_init (pre ++ e :: post)) as [m|] eqn:R; [|discriminate].
    apply se_mon_run_split in R. destruct R as (m0 & m1 & R0 & S & R1).
    exists m0, m1, m. splits; auto; [exact (se_hist_run _ _ R0)|].
    destruct (mo_pending m); [discriminate | reflexivity].
  Qed.

  Lemma se_ok_hist : exists m, se_hist log m.
  Proof.
    unfold se_log_ok in Hok. destruct (se_mon_run se_mon_init log) as [m|] eqn:R; [|discriminate].
    exists m. exact (se_hist_run _ _ R).
  Qed.

  Lemma se_ok_new_once : forall l1 s k1 l2 k2 l3,
    log = l1 ++ SeNew s k1 :: l2 ++ SeNew s k2 :: l3 -> False.
  Proof.
    intros l1 s k1 l2 k2 l3 E. rewrite app_comm_cons, app_assoc in E.
    destruct (se_ok_at _ _ _ E) as (m0 & m1 & m & (_ & _ & _ & Hc & _) & S & _).
    specialize (Hc s k1 (in_elt _ _ _)). inversion S; subst. cbn [mo_max] in Hc. lia.
  Qed.

  Lemma se_ok_del_once : forall l1 s l2 l3,
    log = l1 ++ SeDel s :: l2 ++ SeDel s :: l3 -> False.
  Proof.
    intros l1 s l2 l3 E. rewrite app_comm_cons, app_assoc in E.
    destruct (se_ok_at _ _ _ E) as (m0 & m1 & m & (_ & _ & Hb & _) & S & _).
    inversion S as [| | live mx s' Hs |]; subst. cbn [mo_live] in Hb.
    rewrite in_map_iff in Hs. destruct Hs as ([a k] & <- & Hin). apply Hb in Hin.
    destruct Hin as [_ Hn]. apply Hn, in_elt.
  Qed.

  Lemma se_ok_del_then_free : forall pre s rest,
    log = pre ++ SeDel s :: rest ->
    (exists rest', rest = SeFree s :: rest') /\ (exists k, In (SeNew s k) pre).
  Proof.
    intros pre s rest E.
    destruct (se_ok_at _ _ _ E) as (m0 & m1 & m & (_ & _ & Hb & _) & S & R1 & Pn).
    inversion S as [| | live mx s' Hs |]; subst. cbn [mo_live] in Hb. split.
    - destruct rest as [|e rest']; cbn [se_mon_run] in R1.
      + inversion R1; subst. discriminate.
      + destruct (se_mon_step _ e) as [m2|] eqn:S2; [|discriminate].
        apply se_mon_step_spec in S2. inversion S2; subst. eauto.
    - rewrite in_map_iff in Hs. destruct Hs as ([a k] & <- & Hin). apply Hb in Hin.
      exists k. tauto.
  Qed.

  Lemma se_ok_free_after_del : forall pre s rest,
    log = pre ++ SeFree s :: rest -> exists pre', pre = pre' ++ [SeDel s].
  Proof.
    intros pre s rest E.
    destruct (se_ok_at _ _ _ E) as (m0 & m1 & m & (_ & _ & _ & _ & _ & _ & Hp) & S & _).
    inversion S; subst. exact (Hp s eq_refl).
  Qed.

  Lemma se_ok_rx_live : forall pre k s post,
    log = pre ++ SeRx k s :: post -> In (SeNew s k) pre /\ ~ In (SeDel s) pre.
  Proof.
    intros pre k s post E. destruct (se_ok_at _ _ _ E) as (m0 & m1 & m & (_ & _ & Hb & _) & S & _).
    inversion S; subst. apply Hb. assumption.
  Qed.

  Lemma se_ok_rx_injective : forall k1 k2 s,
    In (SeRx k1 s) log -> In (SeRx k2 s) log -> k1 = k2.
  Proof.
    assert (Hnew: forall k s, In (SeRx k s) log -> In (SeNew s k) log).
    { intros k s H. apply in_split in H. destruct H as (a & b & E).
      destruct (se_ok_rx_live _ _ _ _ E) as [Hn _]. rewrite E. apply in_or_app. left. exact Hn. }
    intros k1 k2 s H1 H2. destruct se_ok_hist as (m & _ & _ & _ & _ & _ & He & _).
    exact (He s k1 k2 (Hnew _ _ H1) (Hnew _ _ H2)).
  Qed.

  Lemma se_ok_rx_functional : forall l1 k s1 l2 s2 l3,
    log = l1 ++ SeRx k s1 :: l2 ++ SeRx k s2 :: l3 -> ~ In (SeDel s1) l2 -> s1 = s2.
  Proof.
    intros l1 k s1 l2 s2 l3 E Hd. destruct (se_ok_rx_live _ _ _ _ E) as [Hn1 Hd1].
    rewrite app_comm_cons, app_assoc in E.
    destruct (se_ok_at _ _ _ E) as (m0 & m1 & m & (_ & N2 & Hb & _) & S & _).
    inversion S as [| | | live mx s' k' Hin]; subst. cbn [mo_live] in *.
    assert (H1: In (s1, k) live).
    { apply Hb. rewrite !in_app_iff. cbn [In]. split; [left; exact Hn1|].
      intros [H|[H|H]]; [auto | discriminate | auto]. }
    exact (f_equal fst (NoDup_map_inj snd _ _ _ N2 H1 Hin eq_refl)).
  Qed.
End MonitorSound.

(* what an accepted event log guarantees (any log: the model's or the implementation's) *)
Definition se_log_bracketed (log : list se_ev) : Prop :=
  (* never two SESSION_NEW for one session *)
  (forall l1 s k1 l2 k2 l3, log = l1 ++ SeNew s k1 :: l2 ++ SeNew s k2 :: l3 -> False) /\
  (* never two SESSION_DEL for one session *)
  (forall l1 s l2 l3, log = l1 ++ SeDel s :: l2 ++ SeDel s :: l3 -> False) /\
  (* SESSION_DEL comes after the session's SESSION_NEW and the release follows at once *)
  (forall pre s rest, log = pre ++ SeDel s :: rest ->
     (exists rest', rest = SeFree s :: rest') /\ (exists k, In (SeNew s k) pre)) /\
  (* a release happens only right after the SESSION_DEL of that session *)
  (forall pre s rest, log = pre ++ SeFree s :: rest -> exists pre', pre = pre' ++ [SeDel s]).

Definition se_log_injective (log : list se_ev) : Prop :=
  (* a datagram is handled by a session created for its peer that still exists *)
  (forall pre k s post, log = pre ++ SeRx k s :: post -> In (SeNew s k) pre /\ ~ In (SeDel s) pre) /\
  (* different peers -> different sessions *)
  (forall k1 k2 s, In (SeRx k1 s) log -> In (SeRx k2 s) log -> k1 = k2) /\
  (* same peer -> same session while that session exists *)
  (forall l1 k s1 l2 s2 l3, log = l1 ++ SeRx k s1 :: l2 ++ SeRx k s2 :: l3 ->
     ~ In (SeDel s1) l2 -> s1 = s2).

Theorem se_log_ok_sound : forall log,
  se_log_ok log = true -> se_log_bracketed log /\ se_log_injective log.
Proof.
  intros log Hok. split; [unfold se_log_bracketed | unfold se_log_injective]; splits.
  - apply se_ok_new_once; auto.
  - apply se_ok_del_once; auto.
  - apply se_ok_del_then_free; auto.
  - apply se_ok_free_after_del; auto.
  - apply se_ok_rx_live; auto.
  - apply se_ok_rx_injective; auto.
  - apply se_ok_rx_functional; auto.
Qed.

(* nothing is left: every session that was announced has been deleted (and released) *)
Lemma se_closed_all_deleted : forall log s k,
  se_log_closed log = true -> In (SeNew s k) log -> In (SeDel s) log /\ In (SeFree s) log.
Proof.
  intros log s k Hc Hin. unfold se_log_closed in Hc.
  destruct (se_mon_run se_mon_init log) as [m|] eqn:R; [|discriminate].
  destruct (mo_pending m) eqn:P; [discriminate|]. destruct (mo_live m) eqn:L; [|discriminate].
  destruct (se_hist_run _ _ R) as (_ & _ & Hb & _). rewrite L in Hb.
  assert (Hd: In (SeDel s) log).
  { destruct (in_dec se_ev_eq_dec (SeDel s) log) as [|Hn]; [assumption|].
    destruct (proj2 (Hb s k) (conj Hin Hn)). }
  split; [exact Hd|]. apply in_split in Hd. destruct Hd as (pre & rest & E).
  assert (Hok: se_log_ok log = true) by (unfold se_log_ok; rewrite R, P; reflexivity).
  destruct (se_ok_del_then_free log Hok pre s rest E) as [(rest' & ->) _].
  subst. apply in_or_app. right. right. left. reflexivity.
Qed.

(* the model's own event log is accepted by the monitor *)
Theorem se_run_log_ok : forall c ops st,
  se_run c se_init ops = Some st -> se_log_ok (st_log st) = true.
Proof.
  intros c ops st H. destruct (se_reachable c ops st H) as (_ & _ & Hm).
  unfold se_log_ok. rewrite Hm. reflexivity.
Qed.

(* ref = number of holders, in every reachable state *)
Theorem se_ref_counts_holders : forall c ops st s,
  se_run c se_init ops = Some st -> In s (st_tbl st) ->
  ss_ref s = Z.of_nat (length (ss_holders s)).
Proof.
  intros c ops st s H. destruct (se_reachable c ops st H) as ((_ & _ & _ & Hh) & _).
  rewrite Forall_forall in Hh. apply Hh.
Qed.

(* one session per peer, one peer per session, identities never reused *)
Theorem se_table_injective : forall c ops st s1 s2,
  se_run c se_init ops = Some st -> In s1 (st_tbl st) -> In s2 (st_tbl st) ->
  (ss_key s1 = ss_key s2 <-> s1 = s2) /\ (ss_id s1 = ss_id s2 <-> s1 = s2).
Proof.
  intros c ops st s1 s2 H H1 H2. destruct (se_reachable c ops st H) as ((Hk & Hi & _) & _).
  split; (split; [|intros; subst; reflexivity]); eapply NoDup_map_inj; eauto.
Qed.

Lemma se_idle_spec : forall s, ss_ref s = Z.of_nat (length (ss_holders s)) -> se_idle s = true ->
  ss_ref s = 0 /\ ss_holders s = [] /\ ss_dq s = true.
Proof.
  unfold se_idle. intros s E H. apply andb_true_iff in H. destruct H as [H1 H2].
  splits; [lia | | exact H2]. destruct (ss_holders s); [reflexivity | cbn [length] in E; lia].
Qed.

(* once the library's references are dropped, the count is zero unless the application holds one *)
Lemma se_drop_lib_ref : forall s, ss_ref s = Z.of_nat (length (ss_holders s)) ->
  (ss_ref (se_drop_lib s) = 0 <-> ~ In se_h_app (ss_holders s)).
Proof.
  intros s E. cbn [se_drop_lib ss_ref]. rewrite E.
  destruct (filter (fun h => h =? se_h_app) (ss_holders s)) as [|y r] eqn:F; cbn [length].
  - split; [|lia]. intros _ Hin.
    assert (H: In se_h_app []); [|inversion H]. rewrite <- F. apply filter_In. auto using Z.eqb_refl.
  - split; [lia|]. intros Hn. exfalso. apply Hn.
    assert (H: In y (y :: r)) by (left; reflexivity). rewrite <- F in H. apply filter_In in H.
    destruct H as [Hy Ey]. apply Z.eqb_eq in Ey. subst y. exact Hy.
Qed.

(* a release by a new arrival names the evicted session *)
Lemma se_evict_free : forall (ev : option se_sess) n key sid,
  In (SeFree sid)
     ((match ev with Some o => [SeDel (ss_id o); SeFree (ss_id o)] | None => [] end) ++
      [SeNew n key; SeRx key n]) ->
  exists o, ev = Some o /\ ss_id o = sid.
Proof.
  intros [o|] n key sid H; cbn [app In] in H.
  - destruct H as [H|[H|[H|[H|[]]]]]; try discriminate. inversion H. eauto.
  - destruct H as [H|[H|[]]]; discriminate.
Qed.

(* a session is released only when the reclaim rule says so; in particular never while it
   has a holder *)
Theorem se_reclaim_rule : forall c ops st op sid,
  se_run c se_init ops = Some st -> se_op_ok c st op = true ->
  In (SeFree sid) (se_new_events c st op) ->
  exists s, In s (st_tbl st) /\ ss_id s = sid /\
    match op with
    | OpPrepare now =>
        ss_ref s = 0 /\ ss_holders s = [] /\ ss_dq s = true /\
        (ss_last s + se_timeout_ticks c <= now \/ ss_state s = se_state_none)
    | OpRx key now =>
        se_find key (st_tbl st) = None /\
        0 < cf_max_idle c <= se_count_idle (st_tbl st) /\
        ss_ref s = 0 /\ ss_holders s = [] /\ ss_dq s = true /\
        (forall s', In s' (st_tbl st) -> se_idle s' = true -> ss_last s <= ss_last s')
    | OpRxV key now v =>
        v = sid /\ se_find key (st_tbl st) = None /\
        0 < cf_max_idle c <= se_count_idle (st_tbl st) /\
        ss_ref s = 0 /\ ss_holders s = [] /\ ss_dq s = true /\
        (forall s', In s' (st_tbl st) -> se_idle s' = true -> ss_last s <= ss_last s')
    | OpFreeContext => ~ In se_h_app (ss_holders s)
    | _ => False
    end.
Proof.
  intros c ops st op sid H Hok Hin.
  assert (Href: forall s, In s (st_tbl st) -> ss_ref s = Z.of_nat (length (ss_holders s))).
  { intros s Hs. eapply se_ref_counts_holders; eauto. }
  (* an allowed victim [o] of the idle limit *)
  assert (Hvictim: forall o, In o (st_tbl st) -> se_valid_victim c (st_tbl st) o = true ->
            0 < cf_max_idle c <= se_count_idle (st_tbl st) /\
            ss_ref o = 0 /\ ss_holders o = [] /\ ss_dq o = true /\
            (forall s', In s' (st_tbl st) -> se_idle s' = true -> ss_last o <= ss_last s')).
  { intros o Ho Hv. apply se_valid_victim_spec in Hv. destruct Hv as (L & Io & Hmin).
    destruct (se_idle_spec o (Href o Ho) Io) as (R0 & Hh & Dq). auto. }
  unfold se_op_ok in Hok. apply andb_true_iff in Hok. destruct Hok as [_ Hok].
  destruct op; cbn [se_new_events] in Hin; try (inversion Hin; fail).
  - destruct (se_find key (st_tbl st)) eqn:Hf; [destruct Hin as [E|[]]; discriminate|].
    apply se_evict_free in Hin. destruct Hin as (o & He & Eo).
    exists o. pose proof (se_rx_evict_In _ _ _ He). pose proof (se_evict_is_valid _ _ _ He). auto.
  - destruct (se_find key (st_tbl st)) eqn:Hf; [discriminate|].
    apply se_evict_free in Hin. destruct Hin as (o & He & Eo). rewrite He in Hok.
    apply se_get_In in He. destruct He as [Ho Ev]. exists o.
    split; [exact Ho|]. split; [exact Eo|]. split; [congruence|]. split; [reflexivity|]. auto.
  - destruct Hin as [E|[]]. discriminate.
  - apply se_sweep_In in Hin. destruct Hin as (s & Hs & Ex & [E|E]); [discriminate|]. inversion E.
    unfold se_expired in Ex. apply andb_true_iff in Ex. destruct Ex as [Is Et].
    destruct (se_idle_spec s (Href s Hs) Is) as (R0 & Hh & Dq). exists s. splits; auto.
    apply orb_true_iff in Et. rewrite Z.leb_le, Z.eqb_eq in Et. exact Et.
  - apply se_sweep_In in Hin. destruct Hin as (s' & Hs' & Ex & [E|E]); [discriminate|]. inversion E.
    rewrite in_map_iff in Hs'. destruct Hs' as (s & <- & Hs). exists s. splits; auto.
    apply (se_drop_lib_ref s (Href s Hs)). lia.
Qed.

(* the scan reclaims exactly the sessions the rule names *)
Theorem se_prepare_complete : forall c st now s,
  In s (st_tbl st) ->
  (se_expired c now s = true ->
     In (SeDel (ss_id s)) (se_new_events c st (OpPrepare now)) /\
     In (SeFree (ss_id s)) (se_new_events c st (OpPrepare now))) /\
  (se_expired c now s = false -> In s (st_tbl (se_step c st (OpPrepare now)))) /\
  (forall s', In s' (st_tbl (se_step c st (OpPrepare now))) ->
              In s' (st_tbl st) /\ se_expired c now s' = false).
Proof.
  intros c st now s Hs. cbn [se_new_events se_step]. unfold se_prepare. rewrite se_scan_sweep.
  cbn [st_tbl]. splits.
  - intros Ex. split; apply se_sweep_In; exists s; auto.
  - intros Ex. apply filter_In. rewrite Ex. auto.
  - intros s' Hs'. apply filter_In in Hs'. rewrite negb_true_iff in Hs'. exact Hs'.
Qed.

(* the idle limit: when it is reached a new peer pushes out the oldest idle session, and
   only then *)
Theorem se_evict_complete : forall c st key now,
  se_find key (st_tbl st) = None ->
  (0 < cf_max_idle c <= se_count_idle (st_tbl st) ->
     exists o, se_oldest (st_tbl st) = Some o /\
       se_new_events c st (OpRx key now) =
       [SeDel (ss_id o); SeFree (ss_id o); SeNew (st_next st) key; SeRx key (st_next st)]) /\
  (~ (0 < cf_max_idle c <= se_count_idle (st_tbl st)) ->
     se_new_events c st (OpRx key now) = [SeNew (st_next st) key; SeRx key (st_next st)]).
Proof.
  intros c st key now Hf. cbn [se_new_events]. rewrite Hf. unfold se_rx_evict. split.
  - intros [H1 H2]. destruct (se_oldest_exists (st_tbl st)) as (o & Ho); [lia|].
    exists o. split; auto.
    assert (0 <? cf_max_idle c = true) as -> by lia.
    assert (cf_max_idle c <=? se_count_idle (st_tbl st) = true) as -> by lia.
    cbn [andb]. rewrite Ho. reflexivity.
  - intros Hn.
    destruct (Z.ltb_spec 0 (cf_max_idle c)); cbn [andb]; [|reflexivity].
    destruct (Z.leb_spec (cf_max_idle c) (se_count_idle (st_tbl st))); [lia | reflexivity].
Qed.

(* same peer -> same session, as long as that session has not been released *)
Theorem se_rx_same_session : forall c ops st key sid now,
  se_run c se_init ops = Some st -> st_alive st = true ->
  In (SeRx key sid) (st_log st) -> ~ In (SeDel sid) (st_log st) ->
  se_new_events c st (OpRx key now) = [SeRx key sid].
Proof.
  intros c ops st key sid now H Ha Hrx Hnd.
  destruct (se_reachable c ops st H) as ((Hk & _) & Hl & Hm). rewrite (Hl Ha), app_nil_r in Hm.
  assert (Hok: se_log_ok (st_log st) = true) by (unfold se_log_ok; rewrite Hm; reflexivity).
  assert (Hnew: In (SeNew sid key) (st_log st)).
  { apply in_split in Hrx. destruct Hrx as (pre & post & E).
    destruct (se_ok_rx_live _ Hok _ _ _ _ E) as [Hn _]. rewrite E. apply in_or_app. left. exact Hn. }
  destruct (se_hist_run _ _ Hm) as (_ & _ & Hb & _).
  pose proof (proj2 (Hb sid key) (conj Hnew Hnd)) as Hlive. cbn [se_abs mo_live] in Hlive.
  rewrite <- in_rev, in_map_iff in Hlive. destruct Hlive as (s & E & Hs). inversion E; subst.
  cbn [se_new_events]. rewrite (se_find_of_In _ s Hk Hs). reflexivity.
Qed.

(* coap_free_context: nothing stays in the endpoint; with no application reference
   outstanding nothing is left behind at all and every session got its DEL + release *)
Theorem se_teardown_empty : forall c ops st,
  se_run c se_init ops = Some st -> se_op_ok c st OpFreeContext = true ->
  let st' := se_step c st OpFreeContext in
  st_tbl st' = [] /\ st_alive st' = false /\
  (forall s, In s (st_leaked st') ->
     exists s0, In s0 (st_tbl st) /\ ss_id s0 = ss_id s /\ In se_h_app (ss_holders s0)) /\
  ((forall s, In s (st_tbl st) -> ~ In se_h_app (ss_holders s)) ->
     st_leaked st' = [] /\ se_log_closed (st_log st') = true).
Proof.
  intros c ops st H Hok. cbn zeta. pose proof (se_reachable c ops st H) as Hinv.
  destruct (se_step_inv c st OpFreeContext Hinv Hok) as (_ & _ & Hm').
  destruct Hinv as ((_ & _ & _ & Hh) & Hl & _). rewrite Forall_forall in Hh.
  unfold se_op_ok in Hok. apply andb_true_iff in Hok. destruct Hok as [Ha _].
  cbn [se_step] in *. unfold se_free_context in *. rewrite se_teardown_sweep in *.
  cbn [st_tbl st_alive st_leaked st_log st_next] in *. rewrite (Hl Ha) in *. cbn [app] in *.
  assert (Hleft: forall s, In s (filter (fun s => negb (ss_ref s =? 0)) (map se_drop_lib (st_tbl st))) ->
            exists s0, In s0 (st_tbl st) /\ ss_id s0 = ss_id s /\ In se_h_app (ss_holders s0)).
  { intros s Hs. apply filter_In in Hs. destruct Hs as [Hs Hr]. rewrite in_map_iff in Hs.
    destruct Hs as (s0 & <- & Hs0). exists s0. splits; auto.
    destruct (in_dec Z.eq_dec se_h_app (ss_holders s0)) as [|Hn]; [assumption|].
    apply (se_drop_lib_ref s0 (Hh s0 Hs0)) in Hn. rewrite Hn in Hr. discriminate. }
  splits; auto. intros Hno.
  destruct (filter _ (map se_drop_lib (st_tbl st))) as [|y r].
  - split; [reflexivity|]. unfold se_log_closed. rewrite Hm'. reflexivity.
  - exfalso. destruct (Hleft y (or_introl eq_refl)) as (s0 & Hs0 & _ & Happ). exact (Hno s0 Hs0 Happ).
Qed.

Definition se_example_cfg : se_cfg := mkCfg 2 2.

(* three peers with an idle limit of two, an application reference, a queue node, a timeout
   and the teardown *)
Definition se_example_ops : list se_op :=
  [OpRx 10 1000; OpRx 11 1001; OpAdd 1 se_h_app; OpAdd 2 se_h_lib; OpRx 12 1002;
   OpRx 13 1003; OpRx 10 1500; OpRem 2 se_h_lib; OpPrepare 3002; OpPrepare 3003;
   OpRem 1 se_h_app; OpPrepare 9000; OpRx 11 9001; OpFreeContext].

Example se_example_run :
  match se_run se_example_cfg se_init se_example_ops with
  | Some st =>
      st_log st =
      [SeNew 1 10; SeRx 10 1; SeNew 2 11; SeRx 11 2; SeNew 3 12; SeRx 12 3;
       SeNew 4 13; SeRx 13 4; SeRx 10 1; SeDel 2; SeFree 2; SeDel 3; SeFree 3; SeDel 4; SeFree 4;
       SeDel 1; SeFree 1; SeNew 5 11; SeRx 11 5; SeDel 5; SeFree 5] /\
      st_leaked st = [] /\ se_log_closed (st_log st) = true
  | None => False
  end.
Proof. vm_compute. repeat split; reflexivity. Qed.

(* the idle limit pushes out the oldest idle session *)
Example se_example_evict :
  match se_run (mkCfg 300 2) se_init [OpRx 10 1000; OpRx 11 1001; OpRx 12 1002] with
  | Some st => st_log st = [SeNew 1 10; SeRx 10 1; SeNew 2 11; SeRx 11 2; SeDel 1; SeFree 1;
                            SeNew 3 12; SeRx 12 3]
  | None => False
  end.
Proof. vm_compute. reflexivity. Qed.

(* coap_free_context while the application holds a reference leaves the session behind:
   "everything is released" does not hold for that history (libcoap behaves like this) *)
Theorem se_teardown_with_app_reference_refuted :
  exists ops st, se_run se_example_cfg se_init ops = Some st /\ st_alive st = false /\
                 st_leaked st <> [] /\ se_log_closed (st_log st) = false.
Proof.
  exists [OpRx 10 1000; OpAdd 1 se_h_app; OpFreeContext].
  eexists. split; [vm_compute; reflexivity|]. cbn. repeat split; discriminate.
Qed.

(* naming the session the code would evict gives the same step *)
Theorem se_rx_victim_same : forall c st key now o,
  NoDup (map ss_id (st_tbl st)) ->
  se_find key (st_tbl st) = None -> se_rx_evict c (st_tbl st) = Some o ->
  se_step c st (OpRxV key now (ss_id o)) = se_step c st (OpRx key now).
Proof.
  intros c st key now o ND Hf He. cbn [se_step]. unfold se_rx_victim, se_rx.
  rewrite Hf, He, (se_get_of_In _ o ND (se_rx_evict_In _ _ _ He)). reflexivity.
Qed.
