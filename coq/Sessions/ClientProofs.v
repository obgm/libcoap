(* Sessions/ClientProofs.v - client sessions: released exactly when the last holder leaves. *)
From LibcoapV Require Import Base.Tactics Base.BytesProofs Sessions.Sessions Sessions.SessionsProofs Sessions.Client.
Local Open Scope Z_scope.

Fixpoint sec_news (log : list sec_ev) : list Z :=
  match log with
  | [] => []
  | CNew s :: r => s :: sec_news r
  | CFree _ :: r => sec_news r
  end.
Fixpoint sec_frees (log : list sec_ev) : list Z :=
  match log with
  | [] => []
  | CNew _ :: r => sec_frees r
  | CFree s :: r => s :: sec_frees r
  end.

Lemma sec_news_app : forall a b, sec_news (a ++ b) = sec_news a ++ sec_news b.
Proof. induction a as [|[s|s] r IH]; intros b; cbn; [reflexivity | rewrite IH; reflexivity | apply IH]. Qed.
Lemma sec_frees_app : forall a b, sec_frees (a ++ b) = sec_frees a ++ sec_frees b.
Proof. induction a as [|[s|s] r IH]; intros b; cbn; [reflexivity | apply IH | rewrite IH; reflexivity]. Qed.
Lemma sec_news_In : forall log s, In s (sec_news log) <-> In (CNew s) log.
Proof.
  induction log as [|[x|x] r IH]; intros s; cbn [sec_news In]; [tauto | |]; rewrite IH.
  - split; (intros [E|E]; [left; congruence | right; auto]).
  - split; [auto | intros [E|E]; [discriminate | auto]].
Qed.
Lemma sec_frees_In : forall log s, In s (sec_frees log) <-> In (CFree s) log.
Proof.
  induction log as [|[x|x] r IH]; intros s; cbn [sec_frees In]; [tauto | |]; rewrite IH.
  - split; [auto | intros [E|E]; [discriminate | auto]].
  - split; (intros [E|E]; [left; congruence | right; auto]).
Qed.

Lemma sec_get_find : forall sid tbl, sec_get sid tbl = find (fun s => cs_id s =? sid) tbl.
Proof. induction tbl as [|x r IH]; cbn [sec_get find]; [|rewrite IH]; reflexivity. Qed.
Lemma sec_get_In : forall sid tbl s, sec_get sid tbl = Some s -> In s tbl /\ cs_id s = sid.
Proof. intros sid tbl s. rewrite sec_get_find. apply se_find_eqb_some. Qed.
Lemma sec_get_none : forall sid tbl, sec_get sid tbl = None -> forall s, In s tbl -> cs_id s <> sid.
Proof. intros sid tbl. rewrite sec_get_find. apply se_find_eqb_none. Qed.
Lemma sec_upd_ids : forall sid f tbl, (forall s, cs_id (f s) = cs_id s) ->
  map cs_id (sec_upd sid f tbl) = map cs_id tbl.
Proof.
  intros sid f tbl Hf. induction tbl as [|x r IH]; cbn [sec_upd map]; [reflexivity|].
  destruct (cs_id x =? sid); cbn [map]; [rewrite Hf | rewrite IH]; reflexivity.
Qed.
Lemma sec_upd_forall : forall (P : sec_sess -> Prop) sid f tbl,
  Forall P tbl -> (forall s, sec_get sid tbl = Some s -> P s -> P (f s)) ->
  Forall P (sec_upd sid f tbl).
Proof.
  intros P sid f tbl. induction tbl as [|x r IH]; cbn [sec_upd sec_get]; intros HF Hf; [constructor|].
  inversion HF; subst. destruct (cs_id x =? sid); constructor; auto.
Qed.
Lemma sec_upd_get : forall sid f tbl s, sec_get sid tbl = Some s -> In (f s) (sec_upd sid f tbl).
Proof.
  induction tbl as [|x r IH]; cbn [sec_get sec_upd]; intros s G; [discriminate|].
  destruct (cs_id x =? sid); [inversion G; left; reflexivity | right; auto].
Qed.
Lemma sec_del_filter : forall sid tbl, NoDup (map cs_id tbl) ->
  sec_del sid tbl = filter (fun s => negb (cs_id s =? sid)) tbl.
Proof. apply (se_del_first_filter _ cs_id sec_del); reflexivity. Qed.

(* the references left on a session once its queue nodes are gone *)
Definition sec_ref1 (s : sec_sess) : Z :=
  cs_ref s - (Z.of_nat (length (cs_holders s)) - Z.of_nat (length (sec_keep_app s))).

Lemma sec_teardown_eq : forall tbl,
  sec_teardown tbl =
  (map (fun s => mkCSess (cs_id s) (sec_ref1 s - 1) (se_remove1 se_h_app (sec_keep_app s)))
       (filter (fun s => negb (sec_ref1 s <=? 1)) tbl),
   map (fun s => CFree (cs_id s)) (filter (fun s => sec_ref1 s <=? 1) tbl)).
Proof.
  induction tbl as [|x r IH]; cbn [sec_teardown filter map]; [reflexivity|].
  rewrite IH. fold (sec_ref1 x). destruct (sec_ref1 x <=? 1); reflexivity.
Qed.

Lemma sec_free_events : forall l : list sec_sess,
  sec_news (map (fun s => CFree (cs_id s)) l) = [] /\
  sec_frees (map (fun s => CFree (cs_id s)) l) = map cs_id l.
Proof. induction l as [|x r [A B]]; cbn [map sec_news sec_frees]; [|rewrite B]; auto. Qed.

Definition sec_good (s : sec_sess) : Prop :=
  cs_ref s = Z.of_nat (length (cs_holders s)) /\ 1 <= cs_ref s.

Lemma sec_good_ref1 : forall s, sec_good s -> sec_ref1 s = Z.of_nat (length (sec_keep_app s)).
Proof. intros s [E _]. unfold sec_ref1. lia. Qed.

(* holds in every reachable state; while the context is alive the table holds exactly the
   sessions that were created and not released *)
Definition sec_inv (st : sec_st) : Prop :=
  NoDup (map cs_id (ct_tbl st)) /\ Forall sec_good (ct_tbl st) /\
  NoDup (sec_news (ct_log st)) /\ NoDup (sec_frees (ct_log st)) /\
  (forall sid, In sid (sec_news (ct_log st)) -> sid < ct_next st) /\
  (forall sid, In sid (sec_frees (ct_log st)) -> In sid (sec_news (ct_log st))) /\
  (ct_alive st = true -> ct_left st = [] /\
     forall sid, In sid (map cs_id (ct_tbl st)) <->
                 In sid (sec_news (ct_log st)) /\ ~ In sid (sec_frees (ct_log st))).

Lemma sec_inv_init : sec_inv sec_init.
Proof.
  unfold sec_inv, sec_init. cbn. splits; try constructor; try tauto.
Qed.

Lemma sec_nodup_app : forall (A : Type) (l1 l2 : list A),
  NoDup l1 -> NoDup l2 -> (forall x, In x l1 -> ~ In x l2) -> NoDup (l1 ++ l2).
Proof.
  induction l1 as [|y l IH]; intros l2 N1 N2 Hd; cbn [app]; auto.
  inversion N1; subst. constructor.
  - rewrite in_app_iff. intros [H|H]; [auto | apply (Hd y); [left; auto | auto]].
  - apply IH; auto. intros x Hx. apply Hd. right; auto.
Qed.

Lemma sec_step_inv : forall st op, sec_inv st -> sec_op_ok st op = true -> sec_inv (sec_step st op).
Proof.
  intros st op (ND & HG & N1 & N2 & Hr & Hs & Hal) Hok.
  unfold sec_op_ok in Hok. apply andb_true_iff in Hok. destruct Hok as [Ha Hok].
  destruct (Hal Ha) as [Hl Hiff]. clear Hal.
  destruct op; cbn [sec_step].
  - (* new *)
    unfold sec_inv. cbn [ct_tbl ct_next ct_log ct_alive ct_left].
    rewrite map_app, sec_news_app, sec_frees_app. cbn [map cs_id sec_news sec_frees].
    rewrite app_nil_r.
    assert (Hfresh: ~ In (ct_next st) (sec_news (ct_log st))) by (intro H; apply Hr in H; lia).
    splits; auto.
    + apply NoDup_snoc; auto. intro H. apply Hiff in H. tauto.
    + apply Forall_app. split; auto. constructor; [|constructor]. unfold sec_good. cbn. lia.
    + apply NoDup_snoc; auto.
    + intros sid H. apply in_app_or in H. destruct H as [H|[<-|[]]]; [apply Hr in H|]; lia.
    + intros sid H. apply in_or_app. left. auto.
    + intros _. split; [exact Hl|]. intros sid. rewrite !in_app_iff. cbn [In]. rewrite Hiff. split.
      * intros [[H1 H2]|[<-|[]]]; [tauto|]. split; [auto|]. intro H. apply Hs in H. contradiction.
      * intros [[H|[E|[]]] H2]; [left; tauto | right; auto].
  - (* add *)
    unfold sec_inv. cbn [ct_tbl ct_next ct_log ct_alive ct_left].
    rewrite sec_upd_ids; [|reflexivity]. splits; auto.
    apply sec_upd_forall; auto. intros s _ [E1 E2]. unfold sec_good, sec_add_holder. cbn.
    rewrite Zpos_P_of_succ_nat. lia.
  - (* release *)
    unfold sec_release. destruct (sec_get sid (ct_tbl st)) as [s|] eqn:G; [|discriminate].
    destruct (sec_get_In _ _ _ G) as [Hin Eid].
    rewrite Forall_forall in HG. destruct (HG s Hin) as [Er Ep].
    assert (Hrm: cs_ref (sec_rem_holder h s) = cs_ref s - 1 /\
                 cs_ref s - 1 = Z.of_nat (length (cs_holders (sec_rem_holder h s)))).
    { unfold sec_rem_holder. cbn [cs_ref cs_holders]. rewrite (se_remove1_length _ _ Hok).
      destruct (Z.ltb_spec 0 (cs_ref s)); lia. }
    destruct (Z.eqb_spec (cs_ref (sec_rem_holder h s)) 0) as [E0|E0].
    + unfold sec_inv. cbn [ct_tbl ct_next ct_log ct_alive ct_left].
      rewrite sec_news_app, sec_frees_app, sec_del_filter by exact ND.
      cbn [sec_news sec_frees]. rewrite app_nil_r.
      assert (Hlive: In sid (map cs_id (ct_tbl st))) by (rewrite <- Eid; exact (in_map cs_id _ _ Hin)).
      apply Hiff in Hlive. destruct Hlive as [Hnew Hnf].
      splits; auto.
      * apply NoDup_map_filter. exact ND.
      * apply Forall_forall. intros x Hx. apply HG. apply filter_In in Hx. tauto.
      * apply NoDup_snoc; auto.
      * intros x H. apply in_app_or in H. destruct H as [H|[<-|[]]]; auto.
      * intros _. split; [exact Hl|]. intros x. rewrite in_app_iff, !in_map_iff. cbn [In]. split.
        -- intros (y & Ey & Hy). apply filter_In in Hy. destruct Hy as [Hy Hne].
           apply negb_true_iff, Z.eqb_neq in Hne.
           assert (Hx: In x (map cs_id (ct_tbl st))) by (rewrite <- Ey; exact (in_map cs_id _ _ Hy)).
           apply Hiff in Hx. destruct Hx as [H1 H2].
           split; [exact H1|]. intros [H3|[H3|[]]]; [auto | congruence].
        -- intros [H1 H2]. assert (Hx: In x (map cs_id (ct_tbl st))) by (apply Hiff; tauto).
           rewrite in_map_iff in Hx. destruct Hx as (y & Ey & Hy). exists y. split; [exact Ey|]. apply filter_In.
           split; [exact Hy|]. apply negb_true_iff, Z.eqb_neq. intro E. apply H2. right. left. congruence.
    + unfold sec_inv. cbn [ct_tbl ct_next ct_log ct_alive ct_left].
      rewrite sec_upd_ids; [|reflexivity]. splits; auto.
      apply sec_upd_forall; [rewrite Forall_forall; auto|].
      intros s' G' _. rewrite G in G'. inversion G'; subst s'. split; lia.
  - (* teardown: what it releases was still in the table *)
    rewrite sec_teardown_eq. unfold sec_inv. cbn [ct_tbl ct_next ct_log ct_alive ct_left map].
    rewrite sec_news_app, sec_frees_app.
    destruct (sec_free_events (filter (fun s => sec_ref1 s <=? 1) (ct_tbl st))) as [-> ->].
    rewrite app_nil_r.
    assert (Hsub: forall x, In x (map cs_id (filter (fun s => sec_ref1 s <=? 1) (ct_tbl st))) ->
                            In x (sec_news (ct_log st)) /\ ~ In x (sec_frees (ct_log st))).
    { intros x Hx. apply Hiff. rewrite in_map_iff in *. destruct Hx as (y & Ey & Hy).
      exists y. apply filter_In in Hy. tauto. }
    splits; [constructor | constructor | exact N1 | | exact Hr | | discriminate].
    + apply sec_nodup_app; [exact N2 | apply NoDup_map_filter; exact ND |].
      intros x H1 H2. apply Hsub in H2. tauto.
    + intros x H. apply in_app_or in H. destruct H as [H|H]; [auto | apply Hsub; exact H].
Qed.

Lemma sec_reachable : forall ops st st', sec_inv st -> sec_run st ops = Some st' -> sec_inv st'.
Proof.
  induction ops as [|op r IH]; intros st st' Hinv H; cbn [sec_run] in H.
  - inversion H; subst. exact Hinv.
  - destruct (sec_op_ok st op) eqn:Hok; [|discriminate].
    exact (IH _ _ (sec_step_inv st op Hinv Hok) H).
Qed.

(* the theorems below speak of [sec_new_events]: it is what a step appends to the log *)
Lemma sec_step_log : forall st op,
  ct_log (sec_step st op) = ct_log st ++ sec_new_events st op.
Proof.
  intros st op. destruct op; cbn [sec_step sec_new_events ct_log]; try (rewrite app_nil_r; reflexivity).
  - reflexivity.
  - unfold sec_release. destruct (sec_get sid (ct_tbl st)) as [s|]; [|rewrite app_nil_r; reflexivity].
    destruct (cs_ref (sec_rem_holder h s) =? 0); cbn [ct_log]; [reflexivity | rewrite app_nil_r; reflexivity].
  - destruct (sec_teardown (ct_tbl st)); reflexivity.
Qed.

(* in every reachable state a client session in the table is referenced, and ref = |holders| *)
Theorem sec_ref_counts_holders : forall ops st s,
  sec_run sec_init ops = Some st -> In s (ct_tbl st) ->
  cs_ref s = Z.of_nat (length (cs_holders s)) /\ 1 <= cs_ref s.
Proof.
  intros ops st s H. destruct (sec_reachable ops sec_init st sec_inv_init H) as (_ & HG & _).
  rewrite Forall_forall in HG. apply HG.
Qed.

(* a client session is released only when its last holder leaves (or, at teardown, when the
   application holds no reference beyond the one the context consumes): never while held *)
Theorem sec_free_rule : forall ops st op sid,
  sec_run sec_init ops = Some st -> sec_op_ok st op = true ->
  In (CFree sid) (sec_new_events st op) ->
  exists s, In s (ct_tbl st) /\ cs_id s = sid /\
    match op with
    | COpRem sid' h => sid' = sid /\ cs_holders s = [h]
    | COpFreeContext => (length (sec_keep_app s) <= 1)%nat
    | _ => False
    end.
Proof.
  intros ops st op sid H Hok Hin.
  assert (HG: forall s, In s (ct_tbl st) -> sec_good s).
  { intros s Hs. eapply sec_ref_counts_holders; eauto. }
  destruct op; cbn [sec_new_events] in Hin.
  - destruct Hin as [E|[]]. discriminate.
  - inversion Hin.
  - destruct (sec_get sid0 (ct_tbl st)) as [s|] eqn:G; [|inversion Hin].
    destruct (Z.eqb_spec (cs_ref (sec_rem_holder h s)) 0) as [E0|]; [|inversion Hin].
    destruct Hin as [E|[]]. inversion E; subst sid0.
    destruct (sec_get_In _ _ _ G) as [Hs Eid]. exists s. splits; auto.
    unfold sec_op_ok in Hok. apply andb_true_iff in Hok. destruct Hok as [_ Hok]. rewrite G in Hok.
    destruct (HG s Hs) as [Er Ep]. unfold sec_rem_holder in E0. cbn [cs_ref] in E0.
    assert (cs_ref s = 1) by (destruct (Z.ltb_spec 0 (cs_ref s)); lia).
    destruct (cs_holders s) as [|a [|b t]] eqn:Eh; cbn [length] in Er; try lia.
    cbn [se_has] in Hok. destruct (Z.eqb_spec a h); [subst; reflexivity | discriminate].
  - rewrite sec_teardown_eq in Hin. cbn [snd] in Hin. rewrite in_map_iff in Hin.
    destruct Hin as (s & E & Hs). inversion E. apply filter_In in Hs. destruct Hs as [Hs Ht].
    exists s. splits; auto. rewrite (sec_good_ref1 s (HG s Hs)) in Ht. lia.
Qed.

(* ... and it is released as soon as that happens: no idle client sessions *)
Theorem sec_freed_at_zero : forall st sid h s,
  sec_get sid (ct_tbl st) = Some s -> cs_ref s = Z.of_nat (length (cs_holders s)) ->
  NoDup (map cs_id (ct_tbl st)) ->
  (cs_holders s = [h] ->
     sec_new_events st (COpRem sid h) = [CFree sid] /\
     forall s', In s' (ct_tbl (sec_step st (COpRem sid h))) -> cs_id s' <> sid) /\
  (se_has h (cs_holders s) = true -> (2 <= length (cs_holders s))%nat ->
     sec_new_events st (COpRem sid h) = [] /\
     exists s', In s' (ct_tbl (sec_step st (COpRem sid h))) /\ cs_id s' = sid /\
                cs_ref s' = cs_ref s - 1).
Proof.
  intros st sid h s G Er ND. cbn [sec_new_events sec_step]. unfold sec_release. rewrite G. split.
  - intros Eh. unfold sec_rem_holder. cbn [cs_ref]. rewrite Er, Eh. cbn [length].
    cbn. split; [reflexivity|]. intros s' Hs'. rewrite sec_del_filter in Hs' by exact ND.
    apply filter_In in Hs'. apply Z.eqb_neq, negb_true_iff. tauto.
  - intros Hh Hlen.
    assert (E: cs_ref (sec_rem_holder h s) = cs_ref s - 1).
    { unfold sec_rem_holder. cbn [cs_ref]. destruct (Z.ltb_spec 0 (cs_ref s)); lia. }
    assert (cs_ref (sec_rem_holder h s) =? 0 = false) as -> by lia.
    split; [reflexivity|]. cbn [ct_tbl]. exists (sec_rem_holder h s).
    splits; [apply sec_upd_get; exact G | exact (proj2 (sec_get_In _ _ _ G)) | exact E].
Qed.

(* every session is announced once and released at most once, and only after it was created *)
Theorem sec_log_bracketed : forall ops st,
  sec_run sec_init ops = Some st ->
  NoDup (sec_news (ct_log st)) /\ NoDup (sec_frees (ct_log st)) /\
  (forall sid, In (CFree sid) (ct_log st) -> In (CNew sid) (ct_log st)).
Proof.
  intros ops st H.
  destruct (sec_reachable ops sec_init st sec_inv_init H) as (_ & _ & N1 & N2 & _ & Hs & _).
  splits; auto. intros sid Hf. apply sec_news_In, Hs, sec_frees_In, Hf.
Qed.

(* teardown: nothing stays in the context; what is left behind are sessions on which the
   application holds more than one reference; otherwise every session ever created is released *)
Theorem sec_teardown_empty : forall ops st,
  sec_run sec_init ops = Some st -> sec_op_ok st COpFreeContext = true ->
  let st' := sec_step st COpFreeContext in
  ct_tbl st' = [] /\ ct_alive st' = false /\
  (forall s, In s (ct_left st') ->
     exists s0, In s0 (ct_tbl st) /\ cs_id s0 = cs_id s /\ (2 <= length (sec_keep_app s0))%nat) /\
  ((forall s, In s (ct_tbl st) -> (length (sec_keep_app s) <= 1)%nat) ->
     ct_left st' = [] /\
     forall sid, In (CNew sid) (ct_log st') -> In (CFree sid) (ct_log st')).
Proof.
  intros ops st H Hok. cbn zeta.
  unfold sec_op_ok in Hok. apply andb_true_iff in Hok. destruct Hok as [Ha _].
  destruct (sec_reachable ops sec_init st sec_inv_init H) as (_ & HG & _ & _ & _ & _ & Hal).
  destruct (Hal Ha) as [Hl Hiff]. rewrite Forall_forall in HG.
  cbn [sec_step]. rewrite sec_teardown_eq. cbn [ct_tbl ct_alive ct_left ct_log]. rewrite Hl. cbn [app].
  assert (Hleft: forall s, In s (filter (fun s => negb (sec_ref1 s <=? 1)) (ct_tbl st)) ->
                           In s (ct_tbl st) /\ (2 <= length (sec_keep_app s))%nat).
  { intros s Hs. apply filter_In in Hs. destruct Hs as [Hs Ht]. split; [exact Hs|].
    rewrite (sec_good_ref1 s (HG s Hs)) in Ht. lia. }
  splits; auto.
  - intros s Hk. rewrite in_map_iff in Hk. destruct Hk as (s0 & <- & Hs0).
    exists s0. destruct (Hleft s0 Hs0). auto.
  - intros Hno. split.
    + destruct (filter _ (ct_tbl st)) as [|y r]; [reflexivity|]. exfalso.
      destruct (Hleft y (or_introl eq_refl)) as [Hy Hk]. specialize (Hno y Hy). lia.
    + intros sid Hn. apply sec_news_In in Hn. apply sec_frees_In.
      rewrite sec_news_app, sec_frees_app in *.
      destruct (sec_free_events (filter (fun s => sec_ref1 s <=? 1) (ct_tbl st))) as [En Ef].
      rewrite En, app_nil_r in Hn. rewrite Ef. apply in_or_app.
      destruct (in_dec Z.eq_dec sid (sec_frees (ct_log st))) as [Hf|Hf]; [left; exact Hf | right].
      pose proof (proj2 (Hiff sid) (conj Hn Hf)) as Ht. rewrite in_map_iff in *.
      destruct Ht as (s & Es & Hs). exists s. split; [exact Es|]. apply filter_In. split; [exact Hs|].
      specialize (Hno s Hs). rewrite (sec_good_ref1 s (HG s Hs)). lia.
Qed.

(* non-vacuity: request in flight while the application lets go; teardown with one reference *)
Example sec_example_run :
  match sec_run sec_init [COpNew; COpNew; COpAdd 1 se_h_lib; COpRem 1 se_h_app; COpAdd 2 se_h_app;
                          COpRem 1 se_h_lib; COpNew; COpRem 2 se_h_app; COpFreeContext] with
  | Some st => ct_log st = [CNew 1; CNew 2; CFree 1; CNew 3; CFree 2; CFree 3] /\ ct_left st = []
  | None => False
  end.
Proof. vm_compute. split; reflexivity. Qed.
