(* C11 - Observe: registered observers get fresh, ordered notifications until cancelled.
   Statements; the proofs are in Observe/ObserveProofs.v (model invariants), Observe/RefProofs.v
   (session references), Observe/SimProofs.v (every history of the model is accepted),
   Observe/AcceptProofs.v (what acceptance means), Observe/ModelCorollaries.v (the two combined,
   in the model's terms), Observe/Witness.v (concrete histories).

   Model: Observe/Observe.v, transcribed from coap_resource.c / coap_net.c / coap_cache.c.
   A history is a list of (op, outputs).  The acceptor Observe/Accept.v is extracted and judges
   the implementation's histories on every run; C11_model_accepted says that for ALL op
   sequences the model's history is accepted, the other theorems say what acceptance means.
   ac_go c st tr = Some st' : the acceptor runs tr from st without rejecting and ends in st';
   ac_entry st r s t        : the acceptor's record of observer (resource r, session s, token t);
   ac_keep c r s t st tr    : tr is accepted from st and (r, s, t) stays registered throughout;
                              the result carries the number of ObOpChange r in tr. *)
From LibcoapV Require Import Base.Tactics Observe.Observe Observe.Accept Observe.ObserveProofs
  Observe.SimProofs Observe.AcceptProofs Observe.Witness Observe.ModelCorollaries Observe.RefProofs.
Local Open Scope Z_scope.

(* a re-registration replaces rather than duplicates: in every reachable state of the model no
   two subscriptions of a resource share (session, token) or (session, cache key) *)
Theorem C11_reregister_replaces : forall p modes ops r,
  In r (obst_res (fst (ob_run p (ob_init modes) ops))) ->
  NoDup (map (fun x => (obsb_sess x, obsb_tok x)) (obrs_subs r)) /\
  NoDup (map (fun x => (obsb_sess x, obsb_key x)) (obrs_subs r)).
Proof. exact ob_no_duplicates. Qed.
Print Assumptions C11_reregister_replaces.

(* while a notification is held back the pending flags persist (dirty subscription =>
   partiallydirty resource => observe_pending), so the next coap_check_notify looks at it again *)
Theorem C11_pending_flags_persist : forall p modes ops st,
  st = fst (ob_run p (ob_init modes) ops) ->
  (forall r x, In r (obst_res st) -> In x (obrs_subs r) -> obsb_dirty x = true -> obrs_pdirty r = true) /\
  (forall r, In r (obst_res st) -> obrs_dirty r = true \/ obrs_pdirty r = true -> obst_pending st = true) /\
  (forall r, In r (obst_res st) -> 0 <= obrs_obs r < 16777216).
Proof. exact ob_pending_flags_persist. Qed.
Print Assumptions C11_pending_flags_persist.

(* for every op sequence (clients, application, network, NSTART accounting and initial counters
   all arbitrary) the history of the model passes the acceptor *)
Theorem C11_model_accepted : forall p modes ops,
  0 <= obpr_max_non p -> obpr_max_fail p <= 1 ->
  ac_accepts (ac_mk_cf (map fst modes) (obpr_nstart p) (obpr_max_non p) false)
             (snd (ob_run p (ob_init modes) ops)) = true.
Proof. exact ob_model_accepted. Qed.
Print Assumptions C11_model_accepted.

(* the session stays alive while it has observers: the references held through subscriptions
   (taken in coap_add_observer, released on every path that frees a subscription) equal the number
   of the session's subscriptions in every reachable state, so they are positive while it has one
   (coap_io_prepare_io reclaims only sessions with ref = 0; the tie compares session->ref) *)
Theorem C11_session_pinned : forall p modes ops s st,
  st = fst (ob_run p (ob_init modes) ops) ->
  (ob_ca_get (obst_ref st) s = ob_count_sess s (obst_res st)) /\
  (forall r x, In r (obst_res st) -> In x (obrs_subs r) -> obsb_sess x = s -> 0 < ob_ca_get (obst_ref st) s).
Proof. exact ob_session_pinned. Qed.
Print Assumptions C11_session_pinned.

(* in the model's own terms: after Observe:1 / session loss / resource deletion nothing (no
   notification, error response, 4.04) is sent to the observer until it registers again *)
Theorem C11_model_silent_after_cancel : forall p modes pre mid r s t o,
  0 <= obpr_max_non p -> obpr_max_fail p <= 1 ->
  (forall op, In op mid -> ~ ob_is_register r s t op) ->
  forall e out,
    In e (snd (ob_run p (fst (ob_run p (ob_init modes) (pre ++ [ObOpCancel r s t o]))) mid)) -> In out (snd e) ->
    ac_out_key out <> Some (r, s, t).
Proof.
  intros p modes pre mid r s t o Hmn Hmf. apply ob_silent_after; [assumption .. |].
  intros c st outs st'. apply ac_dereg_cancel.
Qed.
Print Assumptions C11_model_silent_after_cancel.

Theorem C11_model_silent_after_session_lost : forall p modes pre mid r s t,
  0 <= obpr_max_non p -> obpr_max_fail p <= 1 ->
  (forall op, In op mid -> ~ ob_is_register r s t op) ->
  forall e out,
    In e (snd (ob_run p (fst (ob_run p (ob_init modes) (pre ++ [ObOpSessionLost s]))) mid)) -> In out (snd e) ->
    ac_out_key out <> Some (r, s, t).
Proof.
  intros p modes pre mid r s t Hmn Hmf. apply ob_silent_after; [assumption .. |].
  intros c st outs st' _. apply ac_dereg_lost.
Qed.
Print Assumptions C11_model_silent_after_session_lost.

Theorem C11_model_silent_after_delete : forall p modes pre mid r s t ca,
  0 <= obpr_max_non p -> obpr_max_fail p <= 1 ->
  (forall op, In op mid -> ~ ob_is_register r s t op) ->
  forall e out,
    In e (snd (ob_run p (fst (ob_run p (ob_init modes) (pre ++ [ObOpDeleteResource r ca]))) mid)) -> In out (snd e) ->
    ac_out_key out <> Some (r, s, t).
Proof.
  intros p modes pre mid r s t ca Hmn Hmf. apply ob_silent_after; [assumption .. |].
  intros c st outs st'. apply ac_dereg_deleted.
Qed.
Print Assumptions C11_model_silent_after_delete.

(* how the theorems below apply to an accepted history (e.g. the model's, by C11_model_accepted):
   the acceptor runs through every prefix from its well-formed initial state and on through the rest *)
Theorem C11_accepted_runs : forall c t1 t2,
  ac_accepts c (t1 ++ t2) = true ->
  ac_wf (acas_res (ac_init c)) /\
  exists st1 st2, ac_go c (ac_init c) t1 = Some st1 /\ ac_wf (acas_res st1) /\ ac_go c st1 t2 = Some st2.
Proof. exact ac_accepts_go. Qed.
Print Assumptions C11_accepted_runs.

(* while (r, s, t) is not registered and does not register again, an accepted history sends it
   nothing: no notification, no error response, no 4.04 *)
Theorem C11_after_cancel_none : forall c r s t tr st st',
  ac_wf (acas_res st) -> ac_go c st tr = Some st' -> ac_reg st r s t = false ->
  (forall e, In e tr -> ~ ac_registers e r s t) ->
  (forall e out, In e tr -> In out (snd e) -> ac_out_key out <> Some (r, s, t)) /\
  ac_reg st' r s t = false.
Proof. exact ac_none_while_unregistered. Qed.
Print Assumptions C11_after_cancel_none.

(* what is sent always goes to somebody registered before that entry of the history *)
Theorem C11_outputs_to_registered : forall c st op outs st' out r s t,
  ac_step c st (op, outs) = AcOk st' -> In out outs -> ac_out_key out = Some (r, s, t) ->
  exists o, ac_entry st r s t = Some o.
Proof. exact ac_step_out_registered. Qed.
Print Assumptions C11_outputs_to_registered.

(* the de-registration events of the property, each leaving the observer unregistered *)
Theorem C11_dereg_observe1 : forall c st r s t o outs st',
  ac_wf (acas_res st) -> ac_step c st (ObOpCancel r s t o, outs) = AcOk st' -> ac_reg st' r s t = false.
Proof. exact ac_dereg_cancel. Qed.
Print Assumptions C11_dereg_observe1.

Theorem C11_dereg_rst_of_confirmable : forall c st s k outs st' f r,
  ac_wf (acas_res st) -> ac_step c st (ObOpRst s k, outs) = AcOk st' ->
  ob_fl_find s k (acas_fl st) = Some f -> ac_reg st' r s (obfl_tok f) = false.
Proof. exact ac_dereg_rst_inflight. Qed.
Print Assumptions C11_dereg_rst_of_confirmable.

Theorem C11_dereg_rst_of_latest : forall c st s k outs st' r t q,
  ac_wf (acas_res st) -> ac_step c st (ObOpRst s k, outs) = AcOk st' ->
  ob_fl_find s k (acas_fl st) = None -> ac_entry st r s t = Some q -> acao_lastk q = k ->
  (forall r' t' q', ac_entry st r' s t' = Some q' -> acao_lastk q' = k -> r' = r /\ t' = t) ->
  ac_reg st' r s t = false.
Proof. exact ac_dereg_rst_latest. Qed.
Print Assumptions C11_dereg_rst_of_latest.

Theorem C11_dereg_failed_confirmable : forall c st s k outs st' f r,
  ac_wf (acas_res st) -> ac_step c st (ObOpConFailed s k, outs) = AcOk st' ->
  ob_fl_find s k (acas_fl st) = Some f -> ac_reg st' r s (obfl_tok f) = false.
Proof. exact ac_dereg_giveup. Qed.
Print Assumptions C11_dereg_failed_confirmable.

Theorem C11_dereg_error_response : forall c st ca outs st' k r s t con,
  ac_wf (acas_res st) -> ac_step c st (ObOpIoStep ca, outs) = AcOk st' ->
  In (ObErr k r s t con) outs -> ac_reg st' r s t = false.
Proof. exact ac_dereg_error. Qed.
Print Assumptions C11_dereg_error_response.

Theorem C11_dereg_error_at_registration : forall c st r s t o st',
  ac_wf (acas_res st) -> ac_step c st (ObOpRegister r s t o, [ObRegResp r s t None]) = AcOk st' ->
  ac_reg st' r s t = false.
Proof. exact ac_dereg_failed_registration. Qed.
Print Assumptions C11_dereg_error_at_registration.

Theorem C11_dereg_session_lost : forall c st s outs st' r t,
  ac_step c st (ObOpSessionLost s, outs) = AcOk st' -> ac_reg st' r s t = false.
Proof. exact ac_dereg_lost. Qed.
Print Assumptions C11_dereg_session_lost.

Theorem C11_dereg_resource_deleted : forall c st r ca outs st' s t,
  ac_wf (acas_res st) -> ac_step c st (ObOpDeleteResource r ca, outs) = AcOk st' -> ac_reg st' r s t = false.
Proof. exact ac_dereg_deleted. Qed.
Print Assumptions C11_dereg_resource_deleted.

(* the property as stated ("Reset in reply to a notification"): with accf_strict an RST for ANY
   notification of the current registration de-registers ... *)
Theorem C11_dereg_rst_any_strict : forall c st s k outs st' n q,
  accf_strict c = true -> ac_wf (acas_res st) -> ac_step c st (ObOpRst s k, outs) = AcOk st' ->
  ac_sent_find k (acas_sent st) = Some n -> acsn_s n = s ->
  ac_entry st (acsn_r n) s (acsn_t n) = Some q -> acao_since q <= k ->
  ac_reg st' (acsn_r n) s (acsn_t n) = false.
Proof. exact ac_dereg_rst_strict. Qed.
Print Assumptions C11_dereg_rst_any_strict.

(* ... which the model (= libcoap) does not do for an RST that answers an older notification:
   a history of the model that the strict acceptor rejects (known finding F-C11-2) *)
Theorem C11_rst_stale_refuted :
  exists ops, ac_accepts (w_cfg true) (snd (ob_run w_p (ob_init [(0, 2)]) ops)) = false /\
              ac_accepts (w_cfg false) (snd (ob_run w_p (ob_init [(0, 2)]) ops)) = true.
Proof. exact w_stale_rst_refuted. Qed.
Print Assumptions C11_rst_stale_refuted.

(* an observer appears only through an accepted registration *)
Theorem C11_only_register_adds : forall c st op outs st' r s t,
  ac_wf (acas_res st) -> ac_step c st (op, outs) = AcOk st' ->
  ac_reg st r s t = false -> ac_reg st' r s t = true -> ac_registers (op, outs) r s t.
Proof. exact ac_step_adds. Qed.
Print Assumptions C11_only_register_adds.

(* two messages with an Observe value (notification or registration response) to one
   registration, n changes of the resource in between: v2 = v1 + n (mod 2^24) *)
Theorem C11_increasing : forall c st0 e1 st1 mid st2 n e2 st3 r s t v1 v2,
  ac_wf (acas_res st0) ->
  ac_step c st0 e1 = AcOk st1 -> ac_message e1 r s t v1 -> ac_reg st1 r s t = true ->
  ac_keep c r s t st1 mid = Some (st2, n) ->
  ac_step c st2 e2 = AcOk st3 -> ac_message e2 r s t v2 ->
  0 <= n /\ v2 = (v1 + n) mod ob_M.
Proof. exact ac_values_track_changes. Qed.
Print Assumptions C11_increasing.

(* hence RFC 7641 freshness ((v2 - v1) mod 2^24 in 1 .. 2^23-1) whenever between 1 and 2^23-1
   changes lie between them - the stated hypothesis on the number of changes *)
Theorem C11_fresh : forall v1 v2 n,
  0 <= v1 < ob_M -> v2 = (v1 + n) mod ob_M -> 1 <= n < 8388608 ->
  1 <= (v2 - v1) mod ob_M < 8388608.
Proof. exact ac_values_fresh. Qed.
Print Assumptions C11_fresh.

(* and between two consecutive notifications (no message to the observer in between) at least one
   change does lie: a notification never repeats the previous one's value *)
Theorem C11_strictly_increasing : forall c st0 ca1 outs1 st1 mid st2 n ca2 outs2 st3 r s t k1 v1 c1 k2 v2 c2,
  ac_wf (acas_res st0) ->
  ac_step c st0 (ObOpIoStep ca1, outs1) = AcOk st1 -> In (ObNotify k1 r s t v1 c1) outs1 ->
  ac_reg st1 r s t = true ->
  ac_keep c r s t st1 mid = Some (st2, n) ->
  (forall e, In e mid -> ac_msg_free (fst e) (snd e) r s t) ->
  ac_step c st2 (ObOpIoStep ca2, outs2) = AcOk st3 -> In (ObNotify k2 r s t v2 c2) outs2 ->
  1 <= n /\ v2 = (v1 + n) mod ob_M.
Proof. exact ac_notifications_differ. Qed.
Print Assumptions C11_strictly_increasing.

(* after every step of the I/O loop each registered observer has either been sent the current
   value (acao_chg = 0) or its session's NSTART window is full (con_active at the start of the step
   plus the confirmable messages of this step) or an unfinished large (Block2) transmission to its
   session is in progress (second input of the step, carried in the same list under the key
   session + ob_lg_off; the term ac_count_con (s + ob_lg_off) only matters for a session with that
   number); true after every step, so the first step with a free slot delivers the then-current value *)
Theorem C11_latest_eventually : forall c st ca outs st' r s t o',
  ac_step c st (ObOpIoStep ca, outs) = AcOk st' -> ac_entry st' r s t = Some o' ->
  acao_chg o' = 0 \/ accf_nstart c <= ob_ca_get ca s + ac_count_con s outs \/
  0 < ob_ca_get ca (s + ob_lg_off) + ac_count_con (s + ob_lg_off) outs.
Proof. exact ac_latest_after_step. Qed.
Print Assumptions C11_latest_eventually.

(* acao_chg is the number of changes of the resource since the observer's last message *)
Theorem C11_chg_counts_changes : forall c st0 e1 st1 mid st2 n r s t v1,
  ac_wf (acas_res st0) ->
  ac_step c st0 e1 = AcOk st1 -> ac_message e1 r s t v1 -> ac_reg st1 r s t = true ->
  ac_keep c r s t st1 mid = Some (st2, n) ->
  (forall e, In e mid -> ac_msg_free (fst e) (snd e) r s t) ->
  exists o2, ac_entry st2 r s t = Some o2 /\ acao_chg o2 = n /\ acao_val o2 = v1.
Proof. exact ac_chg_counts_changes. Qed.
Print Assumptions C11_chg_counts_changes.

(* in an accepted history a run of consecutive non-confirmable notifications to one observer
   (resource not NOTIFY_NON_ALWAYS) has at most COAP_OBS_MAX_NON members; the check asserts
   COAP_OBS_MAX_NON = 5 on the built library, so every sixth notification is confirmable *)
Theorem C11_con_every_6 : forall c pre st r s t o segs,
  0 <= accf_max_non c -> ac_mode c r <> 2 ->
  ac_go c (ac_init c) pre = Some st -> ac_entry st r s t = Some o ->
  ac_non_chain c r s t st segs ->
  Z.of_nat (length segs) <= accf_max_non c.
Proof. exact ac_con_every. Qed.
Print Assumptions C11_con_every_6.

(* 5 NON, 1 CON, NON again: a history of the model, its outputs, accepted *)
Theorem C11_witness_cadence :
  concat (map snd (snd (ob_run w_p (ob_init [(0, 2)]) w_ops_cadence))) =
  [ObRegResp 0 1 w_tok (Some 2);
   ObNotify 0 0 1 w_tok 3 false; ObNotify 1 0 1 w_tok 4 false; ObNotify 2 0 1 w_tok 5 false;
   ObNotify 3 0 1 w_tok 6 false; ObNotify 4 0 1 w_tok 7 false; ObNotify 5 0 1 w_tok 8 true;
   ObNotify 6 0 1 w_tok 9 false; ObNotify 7 0 1 w_tok 10 false] /\
  ac_accepts (w_cfg false) (snd (ob_run w_p (ob_init [(0, 2)]) w_ops_cadence)) = true.
Proof. exact (conj w_cadence_outputs w_cadence_accepted). Qed.
Print Assumptions C11_witness_cadence.

(* held back by NSTART, then ONE notification with the latest value *)
Theorem C11_witness_held_back :
  concat (map snd (snd (ob_run w_p (ob_init [(1, 2)]) w_ops_held))) =
  [ObRegResp 0 1 w_tok (Some 2); ObNotify 0 0 1 w_tok 3 true; ObNotify 1 0 1 w_tok 5 true].
Proof. exact w_held_outputs. Qed.
Print Assumptions C11_witness_held_back.

(* the acceptor rejects a notification after Observe:1 and a skipped observer (a seventh NON in a
   row: Witness.w_rejects_seven_non) *)
Theorem C11_acceptor_rejects :
  ac_accepts (w_cfg false)
    [(ObOpRegister 0 1 w_tok w_opts, [ObRegResp 0 1 w_tok (Some 2)]);
     (ObOpCancel 0 1 w_tok w_opts, []); (ObOpChange 0, []);
     (ObOpIoStep [], [ObNotify 0 0 1 w_tok 3 false])] = false /\
  ac_accepts (w_cfg false)
    [(ObOpRegister 0 1 w_tok w_opts, [ObRegResp 0 1 w_tok (Some 2)]);
     (ObOpChange 0, []); (ObOpIoStep [], [])] = false.
Proof. exact (conj w_rejects_notify_after_cancel w_rejects_skipped_observer). Qed.
Print Assumptions C11_acceptor_rejects.
