(* C17 - lemmas about the in-memory server state of Server.v (lookup, replace, remove, the
   subscriber lists) used by the restart theorems and the coherence invariant. *)
From LibcoapV Require Import Base.Tactics Base.Bytes Base.BytesProofs Persist.Records
  Persist.UpdatersProofs Persist.Server.
Local Open Scope Z_scope.

Lemma ps_bytes_dec : forall a b : bytes, {a = b} + {a <> b}.
Proof. apply list_eq_dec. apply Z.eq_dec. Qed.

Lemma ps_beq_false : forall a b, a <> b -> ps_beq a b = false.
Proof. intros a b H. destruct (ps_beq a b) eqn:E; [apply ps_beq_eq in E; contradiction|reflexivity]. Qed.

Lemma ps_find_in : forall name m r, ps_find name m = Some r -> In r m /\ psr_name r = name.
Proof.
  induction m as [|x m IH]; intros r H; [discriminate|]. cbn [ps_find] in H.
  destruct (ps_beq name (psr_name x)) eqn:E.
  - inversion H; subst. split; [left; reflexivity|]. symmetry. apply ps_beq_eq. exact E.
  - destruct (IH r H). split; [right; assumption|assumption].
Qed.

Lemma ps_find_name : forall n m r, ps_find n m = Some r -> psr_name r = n.
Proof. intros. eapply ps_find_in. eassumption. Qed.

Lemma ps_find_forall : forall (Q : ps_rsrc -> Prop) m n r, Forall Q m -> ps_find n m = Some r -> Q r.
Proof. intros Q m n r H Hf. rewrite Forall_forall in H. apply H. eapply ps_find_in. exact Hf. Qed.

Lemma ps_replace_forall : forall (Q : ps_rsrc -> Prop) new m,
  Forall Q m -> Q new -> Forall Q (ps_replace new m).
Proof.
  intros Q new m H Hn. induction H; cbn [ps_replace]; [constructor|].
  destruct (ps_beq (psr_name new) (psr_name x)); constructor; assumption.
Qed.

Lemma ps_find_app : forall name m x,
  ps_find name (m ++ [x]) = match ps_find name m with
                            | Some r => Some r
                            | None => if ps_beq name (psr_name x) then Some x else None
                            end.
Proof.
  induction m as [|y m IH]; intro x; cbn [List.app ps_find]; [reflexivity|].
  destruct (ps_beq name (psr_name y)); [reflexivity|apply IH].
Qed.

Lemma ps_find_replace_same : forall new m name rs,
  psr_name new = name -> ps_find name m = Some rs -> ps_find name (ps_replace new m) = Some new.
Proof.
  intros new m name rs Hn. induction m as [|x m IH]; intro Hf; [discriminate|].
  cbn [ps_find] in Hf. cbn [ps_replace]. rewrite Hn.
  destruct (ps_beq name (psr_name x)) eqn:E.
  - cbn [ps_find]. rewrite Hn, ps_beq_refl. reflexivity.
  - cbn [ps_find]. rewrite E. apply IH. exact Hf.
Qed.

Lemma ps_find_replace_other : forall new m n,
  n <> psr_name new -> ps_find n (ps_replace new m) = ps_find n m.
Proof.
  intros new m n Hn. apply ps_beq_false in Hn. induction m as [|x m IH]; [reflexivity|]. cbn [ps_replace].
  destruct (ps_beq (psr_name new) (psr_name x)) eqn:E.
  - apply ps_beq_eq in E. cbn [ps_find]. rewrite <- E, Hn. reflexivity.
  - cbn [ps_find]. destruct (ps_beq n (psr_name x)); [reflexivity|exact IH].
Qed.

Definition ps_insub (m : ps_mem) (n : bytes) (s : ps_sub) : Prop :=
  exists r, ps_find n m = Some r /\ In s (psr_subs r).

Lemma ps_insub_at : forall m n r s, ps_find n m = Some r -> (ps_insub m n s <-> In s (psr_subs r)).
Proof.
  intros m n r s Hf. unfold ps_insub. rewrite Hf. split.
  - intros (r' & E & Hin). inversion E; subst. exact Hin.
  - intro Hin. exists r. split; [reflexivity|exact Hin].
Qed.

Lemma ps_insub_replace : forall new m name rs n s,
  psr_name new = name -> ps_find name m = Some rs ->
  (ps_insub (ps_replace new m) n s <->
   (n = name /\ In s (psr_subs new)) \/ (n <> name /\ ps_insub m n s)).
Proof.
  intros new m name rs n s Hn Hf. unfold ps_insub. destruct (ps_bytes_dec n name) as [->|Hne].
  - rewrite (ps_find_replace_same new m name rs Hn Hf). split.
    + intros (r & E & Hin). inversion E; subst. left. split; [reflexivity|exact Hin].
    + intros [[_ Hin]|[Hc _]]; [exists new; split; [reflexivity|exact Hin]|congruence].
  - rewrite (ps_find_replace_other new m n) by (rewrite Hn; exact Hne). split.
    + intro H. right. split; [exact Hne|exact H].
    + intros [[Hc _]|[_ H]]; [contradiction|exact H].
Qed.

Lemma ps_find_replace_any : forall new m name rs n,
  psr_name new = name -> ps_find name m = Some rs ->
  ps_find n (ps_replace new m) = if ps_beq n name then Some new else ps_find n m.
Proof.
  intros new m name rs n Hn Hf. destruct (ps_bytes_dec n name) as [->|Hne].
  - rewrite ps_beq_refl. apply (ps_find_replace_same new m name rs Hn Hf).
  - rewrite (ps_beq_false n name Hne). apply ps_find_replace_other. rewrite Hn. exact Hne.
Qed.

Lemma ps_find_replace_inv : forall new m name rs n r,
  psr_name new = name -> ps_find name m = Some rs -> ps_find n (ps_replace new m) = Some r ->
  (n = name /\ r = new) \/ (n <> name /\ ps_find n m = Some r).
Proof.
  intros new m name rs n r Hn Hf H. rewrite (ps_find_replace_any new m name rs n Hn Hf) in H.
  destruct (ps_bytes_dec n name) as [->|Hne].
  - rewrite ps_beq_refl in H. inversion H. left. split; reflexivity.
  - rewrite (ps_beq_false n name Hne) in H. right. split; assumption.
Qed.

Lemma ps_replace_replace : forall a b m,
  psr_name a = psr_name b -> ps_replace a (ps_replace b m) = ps_replace a m.
Proof.
  intros a b m Hn. induction m as [|x m IH]; [reflexivity|]. cbn [ps_replace].
  destruct (ps_beq (psr_name b) (psr_name x)) eqn:Eb.
  - cbn [ps_replace]. rewrite Hn, ps_beq_refl, Eb. reflexivity.
  - cbn [ps_replace]. rewrite Hn, Eb. f_equal. exact IH.
Qed.

Lemma ps_remove_replace : forall new m name,
  psr_name new = name -> ps_remove name (ps_replace new m) = ps_remove name m.
Proof.
  intros new m name <-. induction m as [|x m IH]; [reflexivity|]. cbn [ps_replace ps_remove].
  destruct (ps_beq (psr_name new) (psr_name x)) eqn:E; cbn [ps_remove].
  - rewrite ps_beq_refl. reflexivity.
  - rewrite E, IH. reflexivity.
Qed.

Lemma ps_find_remove_other : forall name m n, n <> name -> ps_find n (ps_remove name m) = ps_find n m.
Proof.
  intros name m n Hne. apply ps_beq_false in Hne.
  induction m as [|x m IH]; [reflexivity|]. cbn [ps_remove].
  destruct (ps_beq name (psr_name x)) eqn:Ex.
  - apply ps_beq_eq in Ex. cbn [ps_find]. rewrite <- Ex, Hne. reflexivity.
  - cbn [ps_find]. destruct (ps_beq n (psr_name x)); [reflexivity|exact IH].
Qed.

Lemma ps_find_remove_same : forall name m,
  NoDup (map psr_name m) -> ps_find name (ps_remove name m) = None.
Proof.
  intros name m Hnd. induction m as [|x m IH]; [reflexivity|]. cbn [ps_remove].
  inversion Hnd as [|? ? Hx Hm]; subst. destruct (ps_beq name (psr_name x)) eqn:Ex.
  - apply ps_beq_eq in Ex. destruct (ps_find name m) as [r|] eqn:Ef; [|reflexivity].
    destruct (ps_find_in _ _ _ Ef) as [Hin Hnm]. exfalso. apply Hx. rewrite <- Ex, <- Hnm.
    apply in_map. exact Hin.
  - cbn [ps_find]. rewrite Ex. apply IH. exact Hm.
Qed.

Lemma ps_find_remove_inv : forall name m n r,
  NoDup (map psr_name m) -> ps_find n (ps_remove name m) = Some r -> n <> name /\ ps_find n m = Some r.
Proof.
  intros name m n r Hnd H. destruct (ps_bytes_dec n name) as [->|Hne].
  - rewrite (ps_find_remove_same name m Hnd) in H. discriminate.
  - rewrite (ps_find_remove_other name m n Hne) in H. split; assumption.
Qed.

Lemma ps_names_replace : forall new m name,
  psr_name new = name -> map psr_name (ps_replace new m) = map psr_name m.
Proof.
  intros new m name Hn. induction m as [|x m IH]; [reflexivity|]. cbn [ps_replace].
  destruct (ps_beq (psr_name new) (psr_name x)) eqn:E.
  - apply ps_beq_eq in E. cbn [map]. rewrite E. reflexivity.
  - cbn [map]. rewrite IH. reflexivity.
Qed.

Lemma ps_names_remove : forall name m, NoDup (map psr_name m) -> NoDup (map psr_name (ps_remove name m)).
Proof.
  intros name m H. induction m as [|x m IH]; [constructor|]. cbn [ps_remove].
  inversion H as [|? ? Hx Hm]; subst. destruct (ps_beq name (psr_name x)); [exact Hm|].
  cbn [map]. constructor; [|apply IH; exact Hm].
  intro Hin. apply Hx. clear -Hin. induction m as [|y m IH]; [contradiction|].
  cbn [ps_remove] in Hin. destruct (ps_beq name (psr_name y)); [right; exact Hin|].
  destruct Hin as [E|Hin]; [left; exact E|right; apply IH; exact Hin].
Qed.

Lemma ps_names_app : forall m x, NoDup (map psr_name m) -> ps_find (psr_name x) m = None ->
  NoDup (map psr_name (m ++ [x])).
Proof.
  intros m x Hnd Hf. rewrite map_app. apply NoDup_snoc; [exact Hnd|].
  intro Hin. apply in_map_iff in Hin. destruct Hin as (y & Ey & Hy).
  induction m as [|z m IH]; [contradiction|]. cbn [ps_find] in Hf. inversion Hnd; subst.
  destruct (ps_beq (psr_name x) (psr_name z)) eqn:E; [discriminate|].
  destruct Hy as [->|Hy]; [rewrite Ey, ps_beq_refl in E; discriminate|apply IH; assumption].
Qed.

Lemma ps_find_tok_some : forall tuple token l s,
  ps_find_tok tuple token l = Some s -> In s l /\ pss_tuple s = tuple /\ pss_token s = token.
Proof.
  induction l as [|x l IH]; intros s H; [discriminate|]. cbn [ps_find_tok] in H.
  destruct (ps_beq tuple (pss_tuple x) && ps_beq token (pss_token x)) eqn:E.
  - inversion H; subst. apply andb_true_iff in E. destruct E as [E1 E2].
    apply ps_beq_eq in E1. apply ps_beq_eq in E2. split; [left; reflexivity|split; congruence].
  - destruct (IH s H) as (A & B & C). split; [right; exact A|split; assumption].
Qed.

Lemma ps_find_ck_some : forall tuple ck l s,
  ps_find_ck tuple ck l = Some s -> In s l /\ pss_tuple s = tuple /\ pss_ck s = ck.
Proof.
  induction l as [|x l IH]; intros s H; [discriminate|]. cbn [ps_find_ck] in H.
  destruct (ps_beq tuple (pss_tuple x) && ps_beq ck (pss_ck x)) eqn:E.
  - inversion H; subst. apply andb_true_iff in E. destruct E as [E1 E2].
    apply ps_beq_eq in E1. apply ps_beq_eq in E2. split; [left; reflexivity|split; congruence].
  - destruct (IH s H) as (A & B & C). split; [right; exact A|split; assumption].
Qed.

Lemma ps_find_tok_none : forall tuple token l,
  ps_find_tok tuple token l = None <->
  forall s, In s l -> ~ (pss_tuple s = tuple /\ pss_token s = token).
Proof.
  induction l as [|x l IH]; cbn [ps_find_tok]; [split; [intros _ s []|reflexivity]|].
  destruct (ps_beq tuple (pss_tuple x) && ps_beq token (pss_token x)) eqn:E.
  - apply andb_true_iff in E. destruct E as [E1 E2]. apply ps_beq_eq in E1. apply ps_beq_eq in E2.
    split; [discriminate|]. intro H. destruct (H x (or_introl eq_refl)). split; congruence.
  - rewrite IH. split; [|intros H s Hs; apply H; right; exact Hs].
    intros H s [->|Hs] [E1 E2]; [|exact (H s Hs (conj E1 E2))].
    rewrite <- E1, <- E2, !ps_beq_refl in E. discriminate.
Qed.

Lemma ps_find_ck_none : forall tuple ck l,
  ps_find_ck tuple ck l = None <->
  forall s, In s l -> ~ (pss_tuple s = tuple /\ pss_ck s = ck).
Proof.
  induction l as [|x l IH]; cbn [ps_find_ck]; [split; [intros _ s []|reflexivity]|].
  destruct (ps_beq tuple (pss_tuple x) && ps_beq ck (pss_ck x)) eqn:E.
  - apply andb_true_iff in E. destruct E as [E1 E2]. apply ps_beq_eq in E1. apply ps_beq_eq in E2.
    split; [discriminate|]. intro H. destruct (H x (or_introl eq_refl)). split; congruence.
  - rewrite IH. split; [|intros H s Hs; apply H; right; exact Hs].
    intros H s [->|Hs] [E1 E2]; [|exact (H s Hs (conj E1 E2))].
    rewrite <- E1, <- E2, !ps_beq_refl in E. discriminate.
Qed.

Lemma ps_drop_key_in : forall key l s,
  NoDup (map pss_key l) -> (In s (ps_drop_key key l) <-> In s l /\ pss_key s <> key).
Proof.
  intros key l s Hnd. induction l as [|x l IH]; [cbn; tauto|]. cbn [ps_drop_key].
  inversion Hnd as [|? ? Hx Hl]; subst. destruct (ps_beq key (pss_key x)) eqn:E.
  - apply ps_beq_eq in E. split.
    + intro Hin. split; [right; exact Hin|]. intro Ek. apply Hx. rewrite <- E, <- Ek. apply in_map. exact Hin.
    + intros [[->|Hin] Hk]; [congruence|exact Hin].
  - cbn [In]. rewrite (IH Hl). split.
    + intros [->|[Hin Hk]]; [split; [left; reflexivity|]|split; [right; exact Hin|exact Hk]].
      intro Ek. rewrite Ek, ps_beq_refl in E. discriminate.
    + intros [[->|Hin] Hk]; [left; reflexivity|right; split; assumption].
Qed.

Lemma ps_drop_key_forall : forall (Q : ps_sub -> Prop) key l, Forall Q l -> Forall Q (ps_drop_key key l).
Proof.
  intros Q key l H. induction H; cbn [ps_drop_key]; [constructor|].
  destruct (ps_beq key (pss_key x)); [assumption|constructor; assumption].
Qed.

Lemma ps_drop_key_nodup : forall key l,
  NoDup (map pss_key l) -> NoDup (map pss_key (ps_drop_key key l)).
Proof.
  intros key l H. induction l as [|x l IH]; [constructor|]. cbn [ps_drop_key].
  inversion H as [|? ? Hx Hl]; subst. destruct (ps_beq key (pss_key x)); [exact Hl|].
  cbn [map]. constructor; [|apply IH; exact Hl].
  intro Hin. apply Hx. apply in_map_iff in Hin. destruct Hin as (y & Ey & Hy).
  apply in_map_iff. exists y. split; [exact Ey|].
  clear -Hy. induction l as [|z l IH]; [contradiction|]. cbn [ps_drop_key] in Hy.
  destruct (ps_beq key (pss_key z)); [right; exact Hy|].
  destruct Hy as [->|Hy]; [left; reflexivity|right; apply IH; exact Hy].
Qed.

Lemma ps_insub_live : forall m n s, ps_insub m n s -> In (pss_key s) (ps_live m).
Proof.
  intros m n s (r & Hf & Hin). destruct (ps_find_in _ _ _ Hf) as [Hr _].
  unfold ps_live. apply in_flat_map. exists r. split; [exact Hr|apply in_map; exact Hin].
Qed.

Lemma ps_nodup_map_transfer : forall (X Y Z : Type) (f : X -> Y) (g : X -> Z) (l : list X),
  NoDup (map g l) -> (forall a b, In a l -> In b l -> f a = f b -> g a = g b) -> NoDup (map f l).
Proof.
  intros X Y Z f g l Hnd Hinj. induction l as [|x l IH]; [constructor|]. cbn [map] in *.
  inversion Hnd as [|? ? Hx Hl]; subst. constructor.
  - intro Hin. apply in_map_iff in Hin. destruct Hin as (y & Ey & Hy). apply Hx.
    apply in_map_iff. exists y. split; [|exact Hy]. apply Hinj; [right; exact Hy|left; reflexivity|exact Ey].
  - apply IH; [exact Hl|]. intros a b Ha Hb. apply Hinj; right; assumption.
Qed.

Lemma ps_filter_id : forall (X : Type) (f : X -> bool) (l : list X),
  (forall x, In x l -> f x = true) -> filter f l = l.
Proof.
  intros X f l H. induction l as [|x l IH]; [reflexivity|]. cbn [filter].
  rewrite (H x (or_introl eq_refl)). f_equal. apply IH. intros y Hy. apply H. right. exact Hy.
Qed.
