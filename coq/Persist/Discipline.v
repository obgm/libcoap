(* C17 - syntactic facts about the programs of Updaters.v, whatever the calls return: which
   streams the record readers/writers and the loops use (ps_ro / ps_wo / ps_rw of Streams.v), and
   that every updater and loader follows the write-temporary-then-rename discipline of
   FsProofs.v: the only call that can touch a persistent file is rename("<f>.tmp", "<f>"), and an
   updater makes at most one.  With FsProofs.ps_atomic1 / ps_crash_view this gives atomicity
   at every kill point. *)
From LibcoapV Require Import Base.Tactics Base.Bytes Persist.Fs Persist.Records Persist.Updaters
  Persist.FsProofs Persist.Streams.
Local Open Scope Z_scope.

Lemma ps_rd_ro : forall A h sz (k : option bytes -> ps_prog A),
  (forall x, ps_ro h (k x)) -> ps_ro h (ps_rd h sz k).
Proof. intros A h sz k H. unfold ps_rd. constructor. intros [| |[|] d|]; apply H. Qed.

Lemma ps_wr_wo : forall A h d (k : bool -> ps_prog A),
  (forall b, ps_wo h (k b)) -> ps_wo h (ps_wr h d k).
Proof. intros A h d k H. unfold ps_wr. constructor. intros [| | |[|[| |]|]]; apply H. Qed.

(* one call, or one case distinction, of a reader or writer *)
Ltac ps_io_step :=
  cbv beta iota delta [negb];
  lazymatch goal with
  | |- _ (PsRet _) => constructor
  | |- _ (ps_rd _ _ _) => apply ps_rd_ro; intros [?|]
  | |- _ (ps_wr _ _ _) => apply ps_wr_wo; intros [|]
  | |- _ (PsDo _ _) => constructor; intro
  | |- _ (match ?x with _ => _ end) => destruct x
  | |- _ ((match ?x with _ => _ end) _) => destruct x
  end.

Lemma ps_obs_read_ro : forall la lt h, ps_ro h (ps_obs_read la lt h).
Proof. intros. unfold ps_obs_read. repeat ps_io_step. Qed.

Lemma ps_dyn_read_ro : forall h, ps_ro h (ps_dyn_read h).
Proof. intros. unfold ps_dyn_read. repeat ps_io_step. Qed.

Lemma ps_obs_write_wo : forall h r, ps_wo h (ps_obs_write h r).
Proof. intros. unfold ps_obs_write. repeat ps_io_step. Qed.

Lemma ps_dyn_write_wo : forall h r, ps_wo h (ps_dyn_write h r).
Proof. intros. unfold ps_dyn_write. repeat ps_io_step. Qed.

Lemma ps_cnt_put_wo : forall name v h, ps_wo h (ps_cnt_put name v h).
Proof. intros. unfold ps_cnt_put. repeat ps_io_step. Qed.

Lemma ps_no_tail_wo : forall h, ps_wo h (ps_no_tail h).
Proof. intros. constructor. Qed.

Lemma ps_obs_copy_rw : forall la lt fuel ho hn skip, ps_rw ho hn (ps_obs_copy la lt fuel ho hn skip).
Proof.
  induction fuel as [|f IH]; intros; cbn [ps_obs_copy]; [constructor|].
  apply ps_rw_bind; [apply ps_ro_rw, ps_obs_read_ro|]. intros [r|]; [|constructor].
  destruct (ps_beq (pso_key r) skip); [apply IH|].
  apply ps_rw_bind; [apply ps_wo_rw, ps_obs_write_wo|]. intros [|]; [apply IH|constructor].
Qed.

Lemma ps_dyn_copy_rw : forall fuel ho hn name, ps_rw ho hn (ps_dyn_copy fuel ho hn name).
Proof.
  induction fuel as [|f IH]; intros; cbn [ps_dyn_copy]; [constructor|].
  apply ps_rw_bind; [apply ps_ro_rw, ps_dyn_read_ro|]. intros [r|]; [|constructor].
  destruct (ps_beq name (psd_name r)); [apply IH|].
  apply ps_rw_bind; [apply ps_wo_rw, ps_dyn_write_wo|]. intros [|]; [apply IH|constructor].
Qed.

Lemma ps_cnt_copy_rw : forall fuel ho hn name, ps_rw ho hn (ps_cnt_copy fuel ho hn name).
Proof.
  induction fuel as [|f IH]; intros; cbn [ps_cnt_copy]; [constructor|].
  apply PsRwGets. intros [h| |ok d|n]; try constructor.
  destruct ok; [|constructor]. destruct (ps_cnt_parse d) as [[k v]|]; [|constructor].
  destruct (ps_beq name k); [apply IH|].
  apply PsRwPrintf. intros [h'| |ok' d'|n]; try constructor.
  destruct (n <? 0); [constructor|apply IH].
Qed.

Lemma ps_cnt_load_loop_ro : forall fuel freq h acc, ps_ro h (ps_cnt_load_loop fuel freq h acc).
Proof.
  induction fuel as [|f IH]; intros; cbn [ps_cnt_load_loop]; [constructor|].
  apply PsRoGets. intros [h'| |ok d|n]; try constructor.
  destruct ok; [|constructor]. destruct (ps_cnt_parse d) as [[k v]|]; [apply IH|constructor].
Qed.

Lemma ps_dyn_load_loop_ro : forall (S : Type) fuel h (step : ps_dyn -> S -> option S) st,
  ps_ro h (ps_dyn_load_loop fuel h step st).
Proof.
  induction fuel as [|f IH]; intros; cbn [ps_dyn_load_loop]; [constructor|].
  apply ps_ro_bind; [apply ps_dyn_read_ro|]. intros [r|]; [|constructor].
  destruct (step r st); [apply IH|constructor].
Qed.

(* reads and writes on open streams are quiet calls *)
Lemma ps_rw_d0 : forall ho hn A (p : ps_prog A), ps_rw ho hn p -> ps_disc0 p.
Proof. induction 1; constructor; auto. Qed.

Lemma ps_then_d0 : forall A op (k : ps_prog A),
  ps_quiet_op op = true -> ps_disc0 k -> ps_disc0 (ps_then op k).
Proof. intros. unfold ps_then. constructor; auto. Qed.

Lemma ps_close_opt_d0 : forall A h (k : ps_prog A), ps_disc0 k -> ps_disc0 (ps_close_opt h k).
Proof. intros A [h|] k Hk; [apply ps_then_d0; [reflexivity|exact Hk]|exact Hk]. Qed.

Lemma ps_fail_exit_d0 : forall hn ho i, ps_disc0 (ps_fail_exit hn ho (PsTmp i)).
Proof.
  intros. unfold ps_fail_exit. do 2 apply ps_close_opt_d0. apply ps_then_d0; [reflexivity|constructor].
Qed.

Lemma ps_commit_d1 : forall hn ho f, ps_disc1 (ps_commit hn ho f).
Proof.
  intros hn ho f. unfold ps_commit.
  apply PsDisc1Quiet; [reflexivity|]. intro r.
  assert (C : ps_disc1 (ps_then (PoClose hn) (ps_close_opt ho
                (ps_then (PoRename (PsTmp f) (PsBase f)) (PsRet 1))))).
  { unfold ps_then. apply PsDisc1Quiet; [reflexivity|]. intros _.
    assert (R : ps_disc1 (PsDo (PoRename (PsTmp f) (PsBase f)) (fun _ => PsRet 1)))
      by (apply PsDisc1Commit; [apply Z.eqb_refl|intros _; constructor]).
    destruct ho as [ho|]; [apply PsDisc1Quiet; [reflexivity|intros _]|]; exact R. }
  assert (F : ps_disc1 (ps_fail_exit (Some hn) ho (PsTmp f))) by apply ps_disc0_disc1, ps_fail_exit_d0.
  destruct r as [h| |ok d|n]; try exact F.
  destruct n; try exact F. exact C.
Qed.

(* the common shape: at most one commit, whatever the calls return *)
Theorem ps_txn_d1 : forall f must ret loop tail,
  (forall ho hn, ps_rw ho hn (loop ho hn)) -> (forall hn, ps_wo hn (tail hn)) ->
  ps_disc1 (ps_txn f must ret loop tail).
Proof.
  intros f must ret loop tail Hl Ht.
  assert (Fail : forall hn ho, ps_disc1 (ps_fail_exit hn ho (PsTmp f)))
    by (intros; apply ps_disc0_disc1, ps_fail_exit_d0).
  assert (Body : forall horig, ps_disc1 (ps_txn_body f loop tail horig)).
  { intro horig. unfold ps_txn_body, ps_open. apply PsDisc1Quiet; [reflexivity|].
    intros [hn| | |]; try apply Fail.
    apply ps_disc1_bind0; [destruct horig; [eapply ps_rw_d0, Hl|constructor]|].
    intros [[|]|]; [|apply Fail|constructor].
    apply ps_disc1_bind0; [eapply ps_rw_d0, (ps_wo_rw 0), Ht|].
    intros [|]; [apply ps_commit_d1|apply Fail]. }
  unfold ps_txn, ps_open. apply PsDisc1Quiet; [reflexivity|].
  intros [ho| | |]; destruct must; try apply Body; constructor.
Qed.

Theorem ps_obs_added_d1 : forall la lt fuel a, ps_disc1 (ps_obs_added la lt fuel a).
Proof. intros. apply ps_txn_d1; intros; [apply ps_obs_copy_rw|apply ps_obs_write_wo]. Qed.

Theorem ps_obs_deleted_d1 : forall la lt fuel key, ps_disc1 (ps_obs_deleted la lt fuel key).
Proof. intros. apply ps_txn_d1; intros; [apply ps_obs_copy_rw|apply ps_no_tail_wo]. Qed.

Theorem ps_cnt_track_d1 : forall fuel name v, ps_disc1 (ps_cnt_track fuel name v).
Proof. intros. apply ps_txn_d1; intros; [apply ps_cnt_copy_rw|apply ps_cnt_put_wo]. Qed.

Theorem ps_cnt_deleted_d1 : forall fuel name, ps_disc1 (ps_cnt_deleted fuel name).
Proof. intros. apply ps_txn_d1; intros; [apply ps_cnt_copy_rw|apply ps_no_tail_wo]. Qed.

Theorem ps_dyn_added_d1 : forall fuel a, ps_disc1 (ps_dyn_added fuel a).
Proof. intros. apply ps_txn_d1; intros; [apply ps_dyn_copy_rw|apply ps_dyn_write_wo]. Qed.

Theorem ps_dyn_deleted_d1 : forall fuel name, ps_disc1 (ps_dyn_deleted fuel name).
Proof. intros. apply ps_txn_d1; intros; [apply ps_dyn_copy_rw|apply ps_no_tail_wo]. Qed.

(* coap_op_resource_deleted: two updates in sequence *)
Theorem ps_res_deleted_d : forall fuel hd hc name, ps_disc (ps_res_deleted fuel hd hc name).
Proof.
  intros. unfold ps_res_deleted. apply ps_disc_bind.
  - destruct hd; [apply ps_disc1_disc; apply ps_dyn_deleted_d1|constructor].
  - intro d. destruct (d =? PS_FUEL); [constructor|]. destruct hc; [|constructor].
    apply ps_disc_bind; [apply ps_disc1_disc; apply ps_cnt_deleted_d1|].
    intro c0. destruct (c0 =? PS_FUEL); constructor.
Qed.

(* the loaders: the two that only read make no commit ... *)
Lemma ps_load_d0 : forall A n (loop : Z -> ps_prog (option A)) (dflt : option A),
  (forall h, ps_ro h (loop h)) ->
  ps_disc0 (ps_open n PsR (fun h => match h with
                                    | None => PsRet dflt
                                    | Some h => ps_bind (loop h) (fun r => ps_then (PoClose h) (PsRet r))
                                    end)).
Proof.
  intros A n loop dflt Hl. unfold ps_open. constructor; [reflexivity|].
  intros [h| | |]; try constructor.
  apply ps_disc0_bind; [eapply ps_rw_d0, (ps_ro_rw _ 0), Hl|].
  intro r. apply ps_then_d0; [reflexivity|constructor].
Qed.

Lemma ps_cnt_load_d0 : forall fuel freq, ps_disc0 (ps_cnt_load fuel freq).
Proof. intros. apply ps_load_d0. intro. apply ps_cnt_load_loop_ro. Qed.

Lemma ps_dyn_load_d0 : forall (S : Type) fuel (step : ps_dyn -> S -> option S) st,
  ps_disc0 (ps_dyn_load fuel step st).
Proof. intros. apply ps_load_d0. intro. apply ps_dyn_load_loop_ro. Qed.

(* ... the observe loader rewrites its file like an updater, around the caller's steps *)
Lemma ps_obs_load_d : forall (S : Type) la lt fuel
    (step : ps_obs -> S -> ps_prog (S * option bytes)) st,
  (forall r s, ps_disc (step r s)) -> ps_disc (ps_obs_load la lt fuel step st).
Proof.
  intros S la lt fuel step st Hstep. unfold ps_obs_load. unfold ps_open.
  apply PsDiscDo; [left; reflexivity|]. intros [ho| | |]; try apply PsDiscRet.
  apply PsDiscDo; [left; reflexivity|]. intros r.
  assert (F : forall (hn : option Z) (x : option S),
             ps_disc (ps_bind (ps_fail_exit hn (Some ho) (PsTmp PS_OBS)) (fun _ => PsRet x))).
  { intros. apply ps_disc_bind; [|constructor]. apply ps_disc0_disc, ps_fail_exit_d0. }
  destruct r as [hn| | |]; try apply F.
  apply ps_disc_bind.
  - revert st. induction fuel as [|f IH]; intro st; cbn [ps_obs_load_loop]; [constructor|].
    apply ps_disc_bind; [eapply ps_disc0_disc, ps_rw_d0, (ps_ro_rw _ 0), ps_obs_read_ro|].
    intros [r|]; [|constructor].
    apply ps_disc_bind; [apply Hstep|]. intros [st' [key|]]; cbn [fst snd]; [|apply IH].
    apply ps_disc_bind; [eapply ps_disc0_disc, ps_rw_d0, (ps_wo_rw 0), ps_obs_write_wo|].
    intros [|]; [apply IH|constructor].
  - intros [[st' [|]]|]; [| |constructor].
    + apply ps_disc_bind; [apply ps_disc1_disc; apply ps_commit_d1|]. constructor.
    + apply F.
Qed.
