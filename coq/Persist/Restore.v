(* C17 - coap_persist_startup_lkd on well-formed files (C17_restart_restores): what the server
   has in memory afterwards, as a function of the three files. *)
From LibcoapV Require Import Base.Tactics Base.Bytes Persist.Fs Persist.FsProofs Persist.Records
  Persist.RecordsProofs Persist.Updaters Persist.Streams Persist.UpdatersProofs
  Persist.LoadersProofs Persist.Server Persist.MemLemmas.
Local Open Scope Z_scope.

Section Restore.
  Variable pol : Z -> Z -> Z.
  Variable app : bytes -> option (bytes * bool).
  Variable req : bytes -> option (bytes * bytes * bytes).
  Variable alloc : list bytes -> bytes.
  Variable c : ps_cfg.
  Hypothesis la_pos : 0 < psc_la c.
  Hypothesis lt_pos : 0 < psc_lt c.
  Hypothesis alloc_len : forall live, len (alloc live) = PS_KEY.

  (* memory states whose resource names fit the counter file and whose keys are addresses *)
  Definition ps_mem_ok (m : ps_mem) : Prop :=
    Forall (fun r => ps_name_ok (psr_name r) /\ 0 <= psr_observe r < 4294967296 /\
                     Forall (fun s => len (pss_key s) = PS_KEY) (psr_subs r)) m.

  (* coap_persist_observe_add_lkd for one stored record, as a function *)
  Definition ps_obs_step_spec (r : ps_obs) (m : ps_mem) (C : list (bytes * Z))
    : ps_mem * option bytes * list (bytes * Z) :=
    if negb (ps_beq (pso_proto r) (psc_proto c)) then (m, None, C) else
    if negb (ps_beq (pso_listen r) (psc_listen c)) then (m, None, C) else
    match req (pso_pkt r) with
    | None => (m, None, C)
    | Some (name, token, ck) =>
        match ps_find name m with
        | None => (m, None, C)
        | Some rs =>
            if negb (psr_observable rs) then (m, None, C) else
            match ps_find_tok (pso_tuple r) token (psr_subs rs) with
            | Some s => (m, Some (pss_key s), C)
            | None =>
                let subs1 := match ps_find_ck (pso_tuple r) ck (psr_subs rs) with
                             | Some o => ps_drop_key (pss_key o) (psr_subs rs)
                             | None => psr_subs rs
                             end in
                let m1 := ps_replace (mkRsrc name true (psr_observe rs) subs1) m in
                let s := mkSub (alloc (ps_live m1)) (pso_tuple r) token ck (pso_pkt r) in
                let m2 := ps_replace (mkRsrc name true (psr_observe rs) (s :: subs1)) m in
                (m2, Some (pss_key s),
                 if psc_cnt c then ps_cnt_without name C ++ [(name, psr_observe rs)] else C)
            end
        end
    end.

  Lemma ps_cnt_without_wf : forall name C, Forall ps_cnt_wf C -> Forall ps_cnt_wf (ps_cnt_without name C).
  Proof. intros name C H. apply incl_Forall with (2 := H), incl_filter. Qed.

  Lemma ps_cnt_without_len : forall name C, (length (ps_cnt_without name C) <= length C)%nat.
  Proof. intros name C. apply ps_filter_len. Qed.

  Theorem ps_obs_step_ok : forall cmax,
    (cmax <= psc_fuel c)%nat ->
    ps_step_ok pol ps_mem (ps_obs_step req alloc c) ps_obs_step_spec ps_mem_ok cmax.
  Proof.
    intros cmax Hcm r m C s Hok HC Hlen Hcnt.
    (* the exits that change nothing *)
    assert (Same : forall key : option bytes, (forall k : bytes, key = Some k -> len k = PS_KEY) ->
              exists s', ps_run pol (PsRet (m, key)) s = ((m, key), s') /\ ps_mem_ok m /\
                Forall ps_cnt_wf C /\ (length C <= Datatypes.S (length C))%nat /\
                ps_holds ps_cnt_file (ps_view s' PS_CNT) C /\
                (forall k : bytes, key = Some k -> len k = PS_KEY) /\
                ps_keeps (ps_next s) PS_CNT s s').
    { intros key Hk. exists s. cbn [ps_run]. repeat split; try assumption; try lia; reflexivity. }
    unfold ps_obs_step, ps_obs_step_spec.
    destruct (negb (ps_beq (pso_proto r) (psc_proto c))); [apply Same; intros; discriminate|].
    destruct (negb (ps_beq (pso_listen r) (psc_listen c))); [apply Same; intros; discriminate|].
    destruct (req (pso_pkt r)) as [[[name token] ck]|]; [|apply Same; intros; discriminate].
    destruct (ps_find name m) as [rs|] eqn:Ef; [|apply Same; intros; discriminate].
    destruct (negb (psr_observable rs)); [apply Same; intros; discriminate|].
    destruct (ps_find_forall _ m name rs Hok Ef) as (Hnok & Hobs & Hkeys).
    rewrite (ps_find_name name m rs Ef) in Hnok.
    destruct (ps_find_tok (pso_tuple r) token (psr_subs rs)) as [s0|] eqn:Et.
    - cbn [fst snd]. apply Same. intros k E. inversion E; subst.
      rewrite Forall_forall in Hkeys. apply Hkeys. eapply ps_find_tok_some. exact Et.
    - set (subs1 := match ps_find_ck (pso_tuple r) ck (psr_subs rs) with
                    | Some o => ps_drop_key (pss_key o) (psr_subs rs)
                    | None => psr_subs rs
                    end).
      set (m1 := ps_replace (mkRsrc name true (psr_observe rs) subs1) m).
      set (sn := mkSub (alloc (ps_live m1)) (pso_tuple r) token ck (pso_pkt r)).
      set (m2 := ps_replace (mkRsrc name true (psr_observe rs) (sn :: subs1)) m).
      assert (Hsubs1 : Forall (fun s => len (pss_key s) = PS_KEY) subs1).
      { subst subs1. destruct (ps_find_ck (pso_tuple r) ck (psr_subs rs));
          [apply ps_drop_key_forall|]; exact Hkeys. }
      assert (Hok2 : ps_mem_ok m2).
      { apply (ps_replace_forall _ _ m Hok).
        cbn [psr_name psr_observe psr_subs]. split; [exact Hnok|]. split; [exact Hobs|].
        constructor; [apply alloc_len|exact Hsubs1]. }
      cbn [fst snd pss_key].
      assert (Hkey : forall k, Some (alloc (ps_live m1)) = Some k -> len k = PS_KEY)
        by (intros k E; inversion E; subst; apply alloc_len).
      destruct (psc_cnt c) eqn:Ecnt.
      + rewrite ps_run_bind.
        destruct (ps_cnt_track_run pol (psc_fuel c) name (psr_observe rs) C s HC ltac:(lia) Hcnt)
          as (s' & Hr & Hv & Hk).
        rewrite Hr. cbn [ps_run]. exists s'. split; [reflexivity|]. split; [exact Hok2|].
        split; [apply Forall_app; split; [apply ps_cnt_without_wf; exact HC|]|].
        { constructor; [|constructor]. split; [exact Hnok|exact Hobs]. }
        split; [rewrite app_length; cbn [length]; pose proof (ps_cnt_without_len name C); lia|].
        split; [left; rewrite Hv; f_equal; apply ps_cnt_track_entry; assumption|].
        split; [exact Hkey|exact Hk].
      + exists s. cbn [ps_run]. split; [reflexivity|]. split; [exact Hok2|].
        split; [exact HC|]. split; [lia|]. split; [exact Hcnt|].
        split; [exact Hkey|apply ps_keeps_refl].
  Qed.

  Lemma ps_obs_load_missing : forall (St : Type) fuel (step : ps_obs -> St -> ps_prog (St * option bytes)) st s,
    ps_view s PS_OBS = None ->
    ps_run pol (ps_obs_load (psc_la c) (psc_lt c) fuel step st) s = (Some st, s).
  Proof.
    intros St fuel step st s Hv. unfold ps_obs_load, ps_open. cbn [ps_run].
    rewrite (ps_open_r_none pol s (PsBase PS_OBS) Hv). reflexivity.
  Qed.

  (* the server state a fresh process has after coap_persist_startup, as a function of the
     records in the three files: resources re-created through the application's handler, counters
     rounded up, then one coap_persist_observe_add per stored observation *)
  Definition ps_restored_mem (m0 : ps_mem) (D : list ps_dyn) (O : list ps_obs) (C : list (bytes * Z))
    : ps_mem :=
    let m1 := ps_dyn_fold (ps_dyn_step app) D m0 in
    let m2 := ps_set_counts (ps_rounded (psc_freq c) C) m1 in
    fst (fst (ps_obs_fold ps_mem ps_obs_step_spec O m2 C)).

  Definition ps_restored_obs (m0 : ps_mem) (D : list ps_dyn) (O : list ps_obs) (C : list (bytes * Z))
    : list ps_obs :=
    let m1 := ps_dyn_fold (ps_dyn_step app) D m0 in
    let m2 := ps_set_counts (ps_rounded (psc_freq c) C) m1 in
    snd (fst (ps_obs_fold ps_mem ps_obs_step_spec O m2 C)).

  (* the first two loaders only read: what is left of coap_persist_startup is the observe
     loader, started on the same files with the resources re-created and the counters set *)
  Lemma ps_startup_loads : forall m0 D C fs,
    psc_dyn c = true -> psc_obs c = true -> psc_cnt c = true -> psc_unknown c = true ->
    Forall ps_dyn_wf D -> Forall ps_cnt_wf C ->
    (length D < psc_fuel c)%nat -> (length C < psc_fuel c)%nat ->
    ps_holds ps_dyn_file (ps_view (ps_boot fs) PS_DYN) D ->
    ps_holds ps_cnt_file (ps_view (ps_boot fs) PS_CNT) C ->
    exists s2, ps_fs s2 = fs /\
      ps_run pol (ps_startup app req alloc c m0) (ps_boot fs) =
      ps_run pol (ps_obs_load (psc_la c) (psc_lt c) (psc_fuel c) (ps_obs_step req alloc c)
                    (ps_set_counts (ps_rounded (psc_freq c) C) (ps_dyn_fold (ps_dyn_step app) D m0))) s2.
  Proof.
    intros m0 D C fs Hd Ho Hc Hu HD HC HlD HlC HvD HvC.
    unfold ps_startup. rewrite Hd, Hu, Hc, Ho. cbn [andb].
    rewrite ps_run_bind.
    destruct (ps_dyn_load_correct pol ps_mem (ps_dyn_step app) (psc_fuel c) D m0 (ps_boot fs) HD HlD HvD)
      as (s1 & Hr1 & Hf1 & _).
    rewrite Hr1, ps_run_bind.
    destruct (ps_cnt_load_correct pol (psc_fuel c) (psc_freq c) C s1 HC HlC) as (s2 & Hr2 & Hf2 & _).
    { unfold ps_view. rewrite Hf1. exact HvC. }
    rewrite Hr2. exists s2. split; [rewrite Hf2, Hf1|]; reflexivity.
  Qed.

  Theorem ps_startup_restores : forall m0 D O C fs,
    psc_dyn c = true -> psc_obs c = true -> psc_cnt c = true -> psc_unknown c = true ->
    Forall ps_dyn_wf D -> Forall (ps_obs_wf (psc_la c) (psc_lt c)) O -> Forall ps_cnt_wf C ->
    (length D < psc_fuel c)%nat -> (length O < psc_fuel c)%nat ->
    (length C + length O < psc_fuel c)%nat ->
    ps_holds ps_dyn_file (ps_view (ps_boot fs) PS_DYN) D ->
    ps_view (ps_boot fs) PS_OBS = Some (ps_obs_file O) ->
    ps_holds ps_cnt_file (ps_view (ps_boot fs) PS_CNT) C ->
    ps_mem_ok (ps_set_counts (ps_rounded (psc_freq c) C) (ps_dyn_fold (ps_dyn_step app) D m0)) ->
    exists s',
      ps_run pol (ps_startup app req alloc c m0) (ps_boot fs) = (Some (ps_restored_mem m0 D O C), s') /\
      ps_view s' PS_OBS = Some (ps_obs_file (ps_restored_obs m0 D O C)) /\
      ps_view s' PS_DYN = ps_view (ps_boot fs) PS_DYN.
  Proof.
    intros m0 D O C fs Hd Ho Hc Hu HD HO HC HlD HlO HlCO HvD HvO HvC Hok.
    destruct (ps_startup_loads m0 D C fs) as (s2 & Hf2 & ->); try assumption; [lia|].
    destruct (ps_obs_load_correct pol ps_mem (psc_la c) (psc_lt c) la_pos lt_pos
                (ps_obs_step req alloc c) ps_obs_step_spec ps_mem_ok (psc_fuel c)
                (ps_obs_step_ok (psc_fuel c) (le_n _)) (psc_fuel c) O C
                (ps_set_counts (ps_rounded (psc_freq c) C) (ps_dyn_fold (ps_dyn_step app) D m0)) s2)
      as (s3 & Hr3 & Hv3 & _ & Hd3); try assumption; try (unfold ps_view; rewrite Hf2; assumption).
    exists s3. split; [exact Hr3|]. split; [exact Hv3|]. rewrite Hd3. unfold ps_view. rewrite Hf2. reflexivity.
  Qed.

  (* the same with an observe file that may be absent: the memory state that comes out *)
  Theorem ps_startup_mem : forall m0 D O C fs,
    psc_dyn c = true -> psc_obs c = true -> psc_cnt c = true -> psc_unknown c = true ->
    Forall ps_dyn_wf D -> Forall (ps_obs_wf (psc_la c) (psc_lt c)) O -> Forall ps_cnt_wf C ->
    (length D < psc_fuel c)%nat -> (length O < psc_fuel c)%nat ->
    (length C + length O < psc_fuel c)%nat ->
    ps_holds ps_dyn_file (ps_view (ps_boot fs) PS_DYN) D ->
    ps_holds ps_obs_file (ps_view (ps_boot fs) PS_OBS) O ->
    ps_holds ps_cnt_file (ps_view (ps_boot fs) PS_CNT) C ->
    ps_mem_ok (ps_set_counts (ps_rounded (psc_freq c) C) (ps_dyn_fold (ps_dyn_step app) D m0)) ->
    fst (ps_run pol (ps_startup app req alloc c m0) (ps_boot fs)) = Some (ps_restored_mem m0 D O C).
  Proof.
    intros m0 D O C fs Hd Ho Hc Hu HD HO HC HlD HlO HlCO HvD HvO HvC Hok.
    destruct HvO as [HvO|[HvO ->]].
    - destruct (ps_startup_restores m0 D O C fs) as (s' & Hr & _); try assumption.
      rewrite Hr. reflexivity.
    - destruct (ps_startup_loads m0 D C fs) as (s2 & Hf2 & ->); try assumption; [lia|].
      rewrite ps_obs_load_missing by (unfold ps_view; rewrite Hf2; exact HvO). reflexivity.
  Qed.

  Definition ps_has (m : ps_mem) (name : bytes) : Prop := ps_find name m <> None.

  Lemma ps_dyn_step_has : forall d m m', ps_dyn_step app d m = Some m' ->
    forall n, ps_has m n -> ps_has m' n.
  Proof.
    intros d m m' H n Hn. unfold ps_dyn_step in H.
    destruct (ps_find (psd_name d) m); [inversion H; subst; exact Hn|].
    destruct (app (psd_pkt d)) as [[name o]|]; [|discriminate].
    destruct (ps_find name m); inversion H; subst; [exact Hn|].
    unfold ps_has in *. rewrite ps_find_app. destruct (ps_find n m); [discriminate|contradiction].
  Qed.

  Lemma ps_dyn_fold_has : forall D m n, ps_has m n -> ps_has (ps_dyn_fold (ps_dyn_step app) D m) n.
  Proof.
    induction D as [|d D IH]; intros m n H; cbn [ps_dyn_fold]; [exact H|].
    destruct (ps_dyn_step app d m) as [m'|] eqn:E; [|exact H].
    apply IH. eapply ps_dyn_step_has; eassumption.
  Qed.

  (* every dynamic resource in the file exists again (the application re-creates the resource
     a stored request names) *)
  Theorem ps_dyn_restored : forall D m0,
    (forall d, In d D -> exists o, app (psd_pkt d) = Some (psd_name d, o)) ->
    forall d, In d D -> ps_has (ps_dyn_fold (ps_dyn_step app) D m0) (psd_name d).
  Proof.
    induction D as [|d0 D IH]; intros m0 Happ d Hin; [contradiction|].
    cbn [ps_dyn_fold].
    destruct (Happ d0 (or_introl eq_refl)) as [o Ho].
    assert (Hstep : exists m', ps_dyn_step app d0 m0 = Some m' /\ ps_has m' (psd_name d0)).
    { unfold ps_dyn_step. destruct (ps_find (psd_name d0) m0) eqn:Ef.
      - eexists. split; [reflexivity|]. unfold ps_has. rewrite Ef. discriminate.
      - rewrite Ho, Ef. eexists. split; [reflexivity|]. unfold ps_has. rewrite ps_find_app, Ef.
        rewrite ps_beq_refl. discriminate. }
    destruct Hstep as (m' & Em & Hm). rewrite Em.
    destruct Hin as [->|Hin].
    - apply ps_dyn_fold_has. exact Hm.
    - apply IH; [intros x Hx; apply Happ; right; exact Hx|exact Hin].
  Qed.

  Lemma ps_has_replace : forall r m n,
    ps_has (ps_replace r m) n <-> ps_has m n.
  Proof.
    intros r m n. unfold ps_has. induction m as [|x m IH]; cbn [ps_replace ps_find]; [reflexivity|].
    destruct (ps_beq (psr_name r) (psr_name x)) eqn:E.
    - apply ps_beq_eq in E. cbn [ps_find]. rewrite E.
      destruct (ps_beq n (psr_name x)); [split; intros; discriminate|reflexivity].
    - cbn [ps_find]. destruct (ps_beq n (psr_name x)); [reflexivity|exact IH].
  Qed.

  Lemma ps_set_counts_has : forall l m n, ps_has (ps_set_counts l m) n <-> ps_has m n.
  Proof.
    induction l as [|[k v] l IH]; intros m n; cbn [ps_set_counts]; [reflexivity|].
    rewrite IH. destruct (ps_find k m); [apply ps_has_replace|reflexivity].
  Qed.

  Lemma ps_obs_step_spec_has : forall r m C n,
    ps_has (fst (fst (ps_obs_step_spec r m C))) n <-> ps_has m n.
  Proof.
    intros r m C n. unfold ps_obs_step_spec.
    destruct (negb (ps_beq (pso_proto r) (psc_proto c))); [reflexivity|].
    destruct (negb (ps_beq (pso_listen r) (psc_listen c))); [reflexivity|].
    destruct (req (pso_pkt r)) as [[[name token] ck]|]; [|reflexivity].
    destruct (ps_find name m) as [rs|]; [|reflexivity].
    destruct (negb (psr_observable rs)); [reflexivity|].
    destruct (ps_find_tok (pso_tuple r) token (psr_subs rs)); [reflexivity|apply ps_has_replace].
  Qed.

  Lemma ps_obs_fold_has : forall O m C n,
    ps_has (fst (fst (ps_obs_fold ps_mem ps_obs_step_spec O m C))) n <-> ps_has m n.
  Proof.
    induction O as [|r O IH]; intros m C n; cbn [ps_obs_fold fst snd]; [reflexivity|].
    rewrite IH. apply ps_obs_step_spec_has.
  Qed.

  (* C17_restart_restores, resources: *)
  Theorem ps_restored_has_dyn : forall m0 D O C,
    (forall d, In d D -> exists o, app (psd_pkt d) = Some (psd_name d, o)) ->
    forall d, In d D -> ps_has (ps_restored_mem m0 D O C) (psd_name d).
  Proof.
    intros m0 D O C Happ d Hin. unfold ps_restored_mem.
    apply ps_obs_fold_has. apply ps_set_counts_has. apply ps_dyn_restored; assumption.
  Qed.

  (* ... observations: a stored record is accepted exactly when its endpoint matches, its
     request parses and names an existing observable resource; then a subscription with its
     token and cache key heads that resource's list (or the one already there is kept) and the
     record is written back under the subscription's key *)
  Theorem ps_obs_step_accepts : forall r m C name token ck rs,
    ps_beq (pso_proto r) (psc_proto c) = true -> ps_beq (pso_listen r) (psc_listen c) = true ->
    req (pso_pkt r) = Some (name, token, ck) -> ps_find name m = Some rs -> psr_observable rs = true ->
    exists key, snd (fst (ps_obs_step_spec r m C)) = Some key /\
      exists rs' s, ps_find name (fst (fst (ps_obs_step_spec r m C))) = Some rs' /\
        In s (psr_subs rs') /\ pss_key s = key /\ pss_tuple s = pso_tuple r /\ pss_token s = token.
  Proof.
    intros r m C name token ck rs Hp Hl Hreq Hf Hobs. unfold ps_obs_step_spec.
    rewrite Hp, Hl, Hreq, Hf, Hobs. cbn [negb].
    destruct (ps_find_tok (pso_tuple r) token (psr_subs rs)) as [s0|] eqn:Et.
    - cbn [fst snd]. exists (pss_key s0). split; [reflexivity|]. exists rs, s0.
      destruct (ps_find_tok_some _ _ _ _ Et) as (Hin & Ht & Hk). repeat split; assumption.
    - cbn [fst snd pss_key]. eexists. split; [reflexivity|].
      match goal with |- context [ps_replace ?x m] => set (new := x) end.
      assert (Hfind : ps_find name (ps_replace new m) = Some new).
      { apply (ps_find_replace_same new m name rs); [reflexivity|exact Hf]. }
      exists new. eexists. split; [exact Hfind|].
      split; [left; reflexivity|]. cbn [pss_key pss_tuple pss_token]. repeat split; reflexivity.
  Qed.

  (* what a record asks for *)
  Definition ps_ktok (r : ps_obs) : option (bytes * bytes * bytes) :=
    match req (pso_pkt r) with Some (n, t, _) => Some (n, pso_tuple r, t) | None => None end.
  Definition ps_kck (r : ps_obs) : option (bytes * bytes * bytes) :=
    match req (pso_pkt r) with Some (n, _, k) => Some (n, pso_tuple r, k) | None => None end.

  Definition ps_acceptable (m : ps_mem) (r : ps_obs) : Prop :=
    ps_beq (pso_proto r) (psc_proto c) = true /\ ps_beq (pso_listen r) (psc_listen c) = true /\
    exists name token ck rs, req (pso_pkt r) = Some (name, token, ck) /\
      ps_find name m = Some rs /\ psr_observable rs = true.

  (* the observation of record r is established in m *)
  Definition ps_present (m : ps_mem) (r : ps_obs) : Prop :=
    exists name token ck rs s, req (pso_pkt r) = Some (name, token, ck) /\
      ps_find name m = Some rs /\ In s (psr_subs rs) /\
      pss_tuple s = pso_tuple r /\ pss_token s = token /\ pss_ck s = ck /\ pss_pkt s = pso_pkt r.

  (* every subscription in m was made for one of the records in [done] *)
  Definition ps_from (m : ps_mem) (done : list ps_obs) : Prop :=
    forall n rs s, ps_find n m = Some rs -> In s (psr_subs rs) ->
      exists r, In r done /\ ps_ktok r = Some (n, pss_tuple s, pss_token s) /\
                ps_kck r = Some (n, pss_tuple s, pss_ck s).

  (* one record whose (resource, session, token) and (resource, session, cache key) differ from
     everything established so far: a new subscription is put in front, nothing is dropped *)
  Lemma ps_obs_step_spec_new : forall r m C done,
    ps_acceptable m r -> ps_from m done ->
    (forall r', In r' done -> ps_ktok r' <> ps_ktok r /\ ps_kck r' <> ps_kck r) ->
    let m' := fst (fst (ps_obs_step_spec r m C)) in
    ps_present m' r /\ ps_from m' (r :: done) /\
    (forall r', ps_present m r' -> ps_present m' r') /\
    (forall r', ps_acceptable m r' -> ps_acceptable m' r').
  Proof.
    intros r m C done (Hp & Hl & name & token & ck & rs & Hreq & Hf & Hobs) Hfrom Hd.
    assert (Hkt : ps_ktok r = Some (name, pso_tuple r, token)) by (unfold ps_ktok; rewrite Hreq; reflexivity).
    assert (Hkc : ps_kck r = Some (name, pso_tuple r, ck)) by (unfold ps_kck; rewrite Hreq; reflexivity).
    assert (Ht : ps_find_tok (pso_tuple r) token (psr_subs rs) = None).
    { apply ps_find_tok_none. intros s Hs [E1 E2].
      destruct (Hfrom name rs s Hf Hs) as (r0 & Hin & Hk1 & _).
      destruct (Hd r0 Hin) as [Hne _]. apply Hne. rewrite Hk1, Hkt, E1, E2. reflexivity. }
    assert (Hc : ps_find_ck (pso_tuple r) ck (psr_subs rs) = None).
    { apply ps_find_ck_none. intros s Hs [E1 E2].
      destruct (Hfrom name rs s Hf Hs) as (r0 & Hin & _ & Hk2).
      destruct (Hd r0 Hin) as [_ Hne]. apply Hne. rewrite Hk2, Hkc, E1, E2. reflexivity. }
    unfold ps_obs_step_spec. rewrite Hp, Hl, Hreq, Hf, Hobs, Ht, Hc. cbn [negb fst snd].
    match goal with |- context [ps_replace ?x m] => set (new := x) end.
    set (sn := mkSub (alloc (ps_live (ps_replace (mkRsrc name true (psr_observe rs) (psr_subs rs)) m)))
                     (pso_tuple r) token ck (pso_pkt r)) in *.
    assert (Hnew : ps_find name (ps_replace new m) = Some new)
      by (apply (ps_find_replace_same new m name rs); [reflexivity|exact Hf]).
    assert (Hother : forall n, n <> name -> ps_find n (ps_replace new m) = ps_find n m)
      by (intros n Hn; apply ps_find_replace_other; exact Hn).
    split; [|split; [|split]].
    - exists name, token, ck, new, sn. split; [exact Hreq|]. split; [exact Hnew|].
      split; [left; reflexivity|]. repeat split; reflexivity.
    - intros n rs0 s Hf0 Hs. destruct (ps_bytes_dec n name) as [->|Hn].
      + rewrite Hnew in Hf0. inversion Hf0; subst rs0. destruct Hs as [<-|Hs].
        * exists r. split; [left; reflexivity|]. split; [exact Hkt|exact Hkc].
        * destruct (Hfrom name rs s Hf Hs) as (r0 & Hin & K1 & K2).
          exists r0. split; [right; exact Hin|]. split; assumption.
      + rewrite (Hother n Hn) in Hf0. destruct (Hfrom n rs0 s Hf0 Hs) as (r0 & Hin & K1 & K2).
        exists r0. split; [right; exact Hin|]. split; assumption.
    - intros r' (n' & t' & k' & rs' & s' & Hr' & Hf' & Hs' & Rest).
      destruct (ps_bytes_dec n' name) as [->|Hn].
      + rewrite Hf in Hf'. inversion Hf'; subst rs'.
        exists name, t', k', new, s'. split; [exact Hr'|]. split; [exact Hnew|].
        split; [right; exact Hs'|exact Rest].
      + exists n', t', k', rs', s'. split; [exact Hr'|]. split; [rewrite (Hother n' Hn); exact Hf'|].
        split; [exact Hs'|exact Rest].
    - intros r' (Hp' & Hl' & n' & t' & k' & rs' & Hr' & Hf' & Ho').
      split; [exact Hp'|]. split; [exact Hl'|].
      destruct (ps_bytes_dec n' name) as [->|Hn].
      + exists name, t', k', new. split; [exact Hr'|]. split; [exact Hnew|reflexivity].
      + exists n', t', k', rs'. split; [exact Hr'|]. split; [rewrite (Hother n' Hn); exact Hf'|exact Ho'].
  Qed.

  (* records that name a resource that does not exist are skipped *)
  Definition ps_absent (m : ps_mem) (r : ps_obs) : Prop :=
    exists name token ck, req (pso_pkt r) = Some (name, token, ck) /\ ps_find name m = None.

  Lemma ps_obs_step_spec_absent : forall r m C, ps_absent m r -> ps_obs_step_spec r m C = (m, None, C).
  Proof.
    intros r m C (name & token & ck & Hreq & Hf). unfold ps_obs_step_spec.
    destruct (negb (ps_beq (pso_proto r) (psc_proto c))); [reflexivity|].
    destruct (negb (ps_beq (pso_listen r) (psc_listen c))); [reflexivity|].
    rewrite Hreq, Hf. reflexivity.
  Qed.

  Theorem ps_obs_fold_present_g : forall O m C done,
    (forall r, In r O -> ps_acceptable m r \/ ps_absent m r) -> ps_from m done ->
    NoDup (map ps_ktok O) -> NoDup (map ps_kck O) ->
    (forall r r', In r done -> In r' O -> ps_ktok r <> ps_ktok r' /\ ps_kck r <> ps_kck r') ->
    let mf := fst (fst (ps_obs_fold ps_mem ps_obs_step_spec O m C)) in
    (forall r, In r O -> ps_acceptable m r -> ps_present mf r) /\
    (forall r, ps_present m r -> ps_present mf r).
  Proof.
    induction O as [|x O IH]; intros m C done Hacc Hfrom Hn1 Hn2 Hdone; cbn [ps_obs_fold fst snd].
    - split; [intros r []|intros r H; exact H].
    - inversion Hn1 as [|? ? Hx1 Hn1']; subst. inversion Hn2 as [|? ? Hx2 Hn2']; subst.
      destruct (Hacc x (or_introl eq_refl)) as [Hax|Habs].
      + destruct (ps_obs_step_spec_new x m C done Hax Hfrom) as (Hpx & Hfrom' & Hkeep & Hacc').
        { intros r' Hr'. apply (Hdone r' x Hr'). left; reflexivity. }
        destruct (IH (fst (fst (ps_obs_step_spec x m C))) (snd (ps_obs_step_spec x m C)) (x :: done))
          as [H1 H2].
        * intros r Hr. destruct (Hacc r (or_intror Hr)) as [Ha|(name & token & ck & Hreq & Hf)].
          -- left. apply Hacc'. exact Ha.
          -- right. exists name, token, ck. split; [exact Hreq|].
             destruct (ps_find name (fst (fst (ps_obs_step_spec x m C)))) eqn:E; [|reflexivity].
             exfalso. assert (Hh : ps_has (fst (fst (ps_obs_step_spec x m C))) name)
               by (unfold ps_has; rewrite E; discriminate).
             apply ps_obs_step_spec_has in Hh. unfold ps_has in Hh. contradiction.
        * exact Hfrom'.
        * exact Hn1'.
        * exact Hn2'.
        * intros r r' [<-|Hr] Hr'.
          -- split; intro E.
             ++ apply Hx1. rewrite E. apply in_map. exact Hr'.
             ++ apply Hx2. rewrite E. apply in_map. exact Hr'.
          -- apply Hdone; [exact Hr|right; exact Hr'].
        * split.
          -- intros r [<-|Hr] Har; [apply H2; exact Hpx|apply H1; [exact Hr|apply Hacc'; exact Har]].
          -- intros r Hr. apply H2. apply Hkeep. exact Hr.
      + rewrite (ps_obs_step_spec_absent x m C Habs). cbn [fst snd].
        destruct (IH m C done) as [H1 H2]; try assumption.
        * intros r Hr. apply Hacc. right. exact Hr.
        * intros r r' Hr Hr'. apply Hdone; [exact Hr|right; exact Hr'].
        * split; [|exact H2]. intros r [<-|Hr] Har; [|apply H1; assumption].
          exfalso. destruct Har as (_ & _ & n1 & t1 & k1 & rs & Hq & Hf1 & _).
          destruct Habs as (n2 & t2 & k2 & Hq2 & Hf2). rewrite Hq in Hq2. inversion Hq2; subst.
          rewrite Hf1 in Hf2. discriminate.
  Qed.

  (* C17_restart_restores, observations: in a fresh process (no subscriptions yet) every stored
     observation whose resource exists is re-established with its session, token, cache key and
     request, provided the stored observations are pairwise different in (resource, session,
     token) and in (resource, session, cache key) - which coap_add_observer guarantees for the
     subscriptions it keeps *)
  Theorem ps_restored_observations : forall m0 D O C,
    let m2 := ps_set_counts (ps_rounded (psc_freq c) C) (ps_dyn_fold (ps_dyn_step app) D m0) in
    (forall n rs, ps_find n m2 = Some rs -> psr_subs rs = []) ->
    (forall r, In r O -> ps_acceptable m2 r) ->
    NoDup (map ps_ktok O) -> NoDup (map ps_kck O) ->
    forall r, In r O -> ps_present (ps_restored_mem m0 D O C) r.
  Proof.
    intros m0 D O C m2 Hempty Hacc Hn1 Hn2 r Hr. unfold ps_restored_mem. fold m2.
    destruct (ps_obs_fold_present_g O m2 C []) as [H _]; try assumption.
    - intros r0 Hr0. left. apply Hacc. exact Hr0.
    - intros n rs s Hf Hs. rewrite (Hempty n rs Hf) in Hs. contradiction.
    - intros r0 r' [].
    - apply H; [exact Hr|apply Hacc; exact Hr].
  Qed.
End Restore.
