(* C17 - what each updater does to a well-formed file (C17_update_correct): the pure meaning of
   the record readers/writers and copy loops, the commit in the stdio model, and the resulting
   theorems - for every buffering policy. *)
From LibcoapV Require Import Base.Tactics Base.Bytes Base.BytesProofs Persist.Fs Persist.FsProofs
  Persist.Records Persist.RecordsProofs Persist.Updaters Persist.Streams Persist.Discipline.
Local Open Scope Z_scope.

Lemma ps_pure_rd : forall A h sz (k : option bytes -> ps_prog A) inp,
  ps_pure (ps_rd h sz k) inp =
  match ps_item sz inp with
  | Some (a, rest) => ps_pure (k (Some a)) rest
  | None => ps_pure (k None) (if 0 <? sz then [] else inp)
  end.
Proof. intros. unfold ps_rd. cbn [ps_pure]. destruct (ps_item sz inp) as [[a rest]|]; reflexivity. Qed.

(* fwrite of a non-empty piece appends it; a writer goes on when it succeeded *)
Lemma ps_pure_wr_then : forall h d (k : ps_prog bool) inp a out,
  0 < len d -> ps_pure k inp = (a, inp, out) ->
  ps_pure (ps_wr h d (fun ok => if negb ok then PsRet false else k)) inp = (a, inp, d ++ out).
Proof.
  intros h d k inp a out Hd Hk. unfold ps_wr. cbn [ps_pure].
  destruct d; [discriminate|]. cbn [negb]. rewrite Hk. reflexivity.
Qed.

Lemma ps_pure_wr_last : forall h d inp,
  0 < len d -> ps_pure (ps_wr h d (fun ok => PsRet ok)) inp = (true, inp, d).
Proof.
  intros h d inp Hd. unfold ps_wr. cbn [ps_pure].
  destruct d; [discriminate|]. rewrite app_nil_r. reflexivity.
Qed.

Lemma ps_beq_eq : forall a b, ps_beq a b = true <-> a = b.
Proof.
  induction a as [|x a IH]; intros [|y b]; cbn [ps_beq]; split; intro H; try discriminate;
    try reflexivity.
  - apply andb_true_iff in H. destruct H as [H1 H2]. apply Z.eqb_eq in H1. apply IH in H2.
    congruence.
  - inversion H; subst. apply andb_true_iff. split; [apply Z.eqb_refl|apply IH; reflexivity].
Qed.

Lemma ps_beq_refl : forall a, ps_beq a a = true.
Proof. intro. apply ps_beq_eq. reflexivity. Qed.

(* the stream readers take the same items in the same order and make the same tests as the
   decoders of Records.v: on every input they return what the decoder returns *)
Lemma ps_pure_obs_read_dec : forall la lt h inp r rest,
  ps_obs_dec la lt inp = Some (r, rest) -> ps_pure (ps_obs_read la lt h) inp = (Some r, rest, []).
Proof.
  intros la lt h inp r rest. unfold ps_obs_dec, ps_obs_read.
  rewrite ps_pure_rd. destruct (ps_item PS_KEY inp) as [[key l1]|]; [|discriminate].
  rewrite ps_pure_rd. destruct (ps_item PS_PROTO l1) as [[proto l2]|]; [|discriminate].
  rewrite ps_pure_rd. destruct (ps_item la l2) as [[listen l3]|]; [|discriminate].
  rewrite ps_pure_rd. destruct (ps_item lt l3) as [[tuple l4]|]; [|discriminate].
  rewrite ps_pure_rd. destruct (ps_item PS_LEN l4) as [[sz l5]|]; [|discriminate].
  destruct (negb (ps_size_ok (ps_dec_size sz))); [discriminate|].
  rewrite ps_pure_rd. destruct (ps_item (ps_dec_size sz) l5) as [[pkt l6]|]; [|discriminate].
  rewrite ps_pure_rd. destruct (ps_item PS_LEN l6) as [[sz2 l7]|]; [|discriminate].
  destruct (ps_dec_size sz2 =? -1); [intro E; inversion E; reflexivity|].
  destruct (negb (ps_size_ok (ps_dec_size sz2))); [discriminate|].
  rewrite ps_pure_rd. destruct (ps_item (ps_dec_size sz2) l7) as [[osc l8]|]; [|discriminate].
  intro E; inversion E; reflexivity.
Qed.

Lemma ps_pure_dyn_read_dec : forall h inp r rest,
  ps_dyn_dec inp = Some (r, rest) -> ps_pure (ps_dyn_read h) inp = (Some r, rest, []).
Proof.
  intros h inp r rest. unfold ps_dyn_dec, ps_dyn_read.
  rewrite ps_pure_rd. destruct (ps_item PS_PROTO inp) as [[proto l1]|]; [|discriminate].
  rewrite ps_pure_rd. destruct (ps_item PS_LEN l1) as [[sz l2]|]; [|discriminate].
  destruct (negb (ps_size_ok (ps_dec_size sz))); [discriminate|].
  destruct (ps_dec_size sz =? 0); cbv beta iota;
    [|rewrite ps_pure_rd; destruct (ps_item (ps_dec_size sz) l2) as [[name l3]|]; [|discriminate]];
    (rewrite ps_pure_rd; destruct (ps_item PS_LEN _) as [[sz2 l4]|]; [|discriminate];
     destruct (negb (ps_size_ok (ps_dec_size sz2))); [discriminate|];
     rewrite ps_pure_rd; destruct (ps_item (ps_dec_size sz2) l4) as [[pkt l5]|]; [|discriminate];
     intro E; inversion E; reflexivity).
Qed.

Lemma ps_pure_obs_read : forall la lt h r rest,
  0 < la -> 0 < lt -> ps_obs_wf la lt r ->
  ps_pure (ps_obs_read la lt h) (ps_obs_enc r ++ rest) = (Some r, rest, []).
Proof. intros. apply ps_pure_obs_read_dec, ps_obs_dec_enc; assumption. Qed.

Lemma ps_pure_obs_read_eof : forall la lt h, ps_pure (ps_obs_read la lt h) [] = (None, [], []).
Proof. intros. unfold ps_obs_read. rewrite ps_pure_rd, ps_item_nil. reflexivity. Qed.

Lemma ps_pure_dyn_read : forall h r rest,
  ps_dyn_wf r -> ps_pure (ps_dyn_read h) (ps_dyn_enc r ++ rest) = (Some r, rest, []).
Proof. intros. apply ps_pure_dyn_read_dec, ps_dyn_dec_enc; assumption. Qed.

Lemma ps_pure_dyn_read_eof : forall h, ps_pure (ps_dyn_read h) [] = (None, [], []).
Proof. intros. unfold ps_dyn_read. rewrite ps_pure_rd, ps_item_nil. reflexivity. Qed.

Lemma ps_pure_obs_write : forall la lt h r inp,
  0 < la -> 0 < lt -> ps_obs_wf la lt r ->
  ps_pure (ps_obs_write h r) inp = (true, inp, ps_obs_enc r).
Proof.
  intros la lt h [key proto listen tuple pkt osc] inp Hla Hlt (Hk & Hp & Hl & Ht & Hpk & Ho).
  unfold ps_obs_write, ps_obs_enc. cbn [pso_key pso_proto pso_listen pso_tuple pso_pkt pso_osc] in *.
  pose proof ps_len_enc_size as He. unfold PS_KEY, PS_PROTO, PS_LEN in *.
  destruct osc as [o|];
    repeat (apply ps_pure_wr_then; [rewrite ?He; lia|]); apply ps_pure_wr_last; rewrite ?He; lia.
Qed.

Lemma ps_pure_dyn_write : forall h r inp,
  ps_dyn_wf r -> ps_pure (ps_dyn_write h r) inp = (true, inp, ps_dyn_enc r).
Proof.
  intros h [proto name pkt] inp (Hp & Hn & Hk).
  unfold ps_dyn_write, ps_dyn_enc. cbn [psd_proto psd_name psd_pkt] in *.
  pose proof ps_len_enc_size as He. unfold PS_PROTO, PS_LEN in *.
  do 2 (apply ps_pure_wr_then; [rewrite ?He; lia|]).
  destruct name as [|b name]; [cbn [negb app]|apply ps_pure_wr_then; [rewrite len_cons; pose proof (len_nonneg name); lia|]];
    (apply ps_pure_wr_then; [rewrite ?He; lia|]); apply ps_pure_wr_last; lia.
Qed.

(* the specifications the copy loops are measured against *)
Definition ps_obs_without (key : bytes) (l : list ps_obs) : list ps_obs :=
  filter (fun r => negb (ps_beq (pso_key r) key)) l.
Definition ps_dyn_without (name : bytes) (l : list ps_dyn) : list ps_dyn :=
  filter (fun r => negb (ps_beq name (psd_name r))) l.
Definition ps_cnt_without (name : bytes) (l : list (bytes * Z)) : list (bytes * Z) :=
  filter (fun e => negb (ps_beq name (fst e))) l.

Lemma ps_filter_len : forall X (f : X -> bool) l, (length (filter f l) <= length l)%nat.
Proof. intros. induction l as [|x l IH]; cbn [filter length]; [lia|]. destruct (f x); cbn [length]; lia. Qed.

Lemma ps_pure_obs_copy : forall la lt ho hn skip l fuel,
  0 < la -> 0 < lt -> Forall (ps_obs_wf la lt) l -> (length l < fuel)%nat ->
  ps_pure (ps_obs_copy la lt fuel ho hn skip) (ps_obs_file l) =
  (Some true, [], ps_obs_file (ps_obs_without skip l)).
Proof.
  intros la lt ho hn skip l. induction l as [|r l IH]; intros fuel Hla Hlt Hwf Hf.
  - destruct fuel; [lia|]. cbn [ps_obs_copy ps_obs_file].
    rewrite ps_pure_bind, ps_pure_obs_read_eof. reflexivity.
  - destruct fuel; [cbn in Hf; lia|]. inversion Hwf; subst.
    cbn [ps_obs_copy ps_obs_file ps_obs_without filter].
    rewrite ps_pure_bind, ps_pure_obs_read by assumption.
    assert (Hl : (length l < fuel)%nat) by (cbn in Hf; lia).
    destruct (ps_beq (pso_key r) skip); cbn [negb].
    + rewrite (IH fuel) by assumption. reflexivity.
    + rewrite ps_pure_bind, (ps_pure_obs_write la lt) by assumption.
      rewrite (IH fuel) by assumption. cbn [app ps_obs_file]. reflexivity.
Qed.

Lemma ps_pure_dyn_copy : forall ho hn name l fuel,
  Forall ps_dyn_wf l -> (length l < fuel)%nat ->
  ps_pure (ps_dyn_copy fuel ho hn name) (ps_dyn_file l) =
  (Some true, [], ps_dyn_file (ps_dyn_without name l)).
Proof.
  intros ho hn name l. induction l as [|r l IH]; intros fuel Hwf Hf.
  - destruct fuel; [lia|]. cbn [ps_dyn_copy ps_dyn_file].
    rewrite ps_pure_bind, ps_pure_dyn_read_eof. reflexivity.
  - destruct fuel; [cbn in Hf; lia|]. inversion Hwf; subst.
    cbn [ps_dyn_copy ps_dyn_file ps_dyn_without filter].
    rewrite ps_pure_bind, ps_pure_dyn_read by assumption.
    assert (Hl : (length l < fuel)%nat) by (cbn in Hf; lia).
    destruct (ps_beq name (psd_name r)); cbn [negb].
    + rewrite (IH fuel) by assumption. reflexivity.
    + rewrite ps_pure_bind, ps_pure_dyn_write by assumption.
      rewrite (IH fuel) by assumption. cbn [app ps_dyn_file]. reflexivity.
Qed.

Lemma ps_cnt_file_app : forall a b, ps_cnt_file (a ++ b) = ps_cnt_file a ++ ps_cnt_file b.
Proof.
  induction a as [|[n v] a IH]; intro b; [reflexivity|].
  cbn [app ps_cnt_file]. rewrite IH, app_assoc. reflexivity.
Qed.
Lemma ps_obs_file_app : forall a b, ps_obs_file (a ++ b) = ps_obs_file a ++ ps_obs_file b.
Proof.
  induction a as [|r a IH]; intro b; [reflexivity|].
  cbn [app ps_obs_file]. rewrite IH, app_assoc. reflexivity.
Qed.
Lemma ps_dyn_file_app : forall a b, ps_dyn_file (a ++ b) = ps_dyn_file a ++ ps_dyn_file b.
Proof.
  induction a as [|r a IH]; intro b; [reflexivity|].
  cbn [app ps_dyn_file]. rewrite IH, app_assoc. reflexivity.
Qed.

Lemma ps_pure_gets_line : forall A h (k : ps_res -> ps_prog A) n v rest,
  ps_name_ok n -> 0 <= v < 4294967296 ->
  ps_pure (PsDo (PoGets h PS_LINE) k) (ps_cnt_line n v ++ rest) =
  ps_pure (k (PrData true (ps_cnt_line n v))) rest.
Proof.
  intros A h k n v rest Hn Hv. cbn [ps_pure]. rewrite ps_cnt_line_first by assumption.
  pose proof (ps_cnt_line_nonempty n v) as Hne.
  destruct (ps_cnt_line n v) as [|b0 tl0] eqn:El; [congruence|]. rewrite <- El, drop_app_exact.
  reflexivity.
Qed.

Lemma ps_pure_cnt_copy : forall ho hn name l fuel,
  Forall ps_cnt_wf l -> (length l < fuel)%nat ->
  ps_pure (ps_cnt_copy fuel ho hn name) (ps_cnt_file l) =
  (Some true, [], ps_cnt_file (ps_cnt_without name l)).
Proof.
  intros ho hn name l. induction l as [|[n v] l IH]; intros fuel Hwf Hf.
  - destruct fuel; [lia|]. reflexivity.
  - destruct fuel; [cbn in Hf; lia|]. inversion Hwf as [|? ? [Hn Hv] Hl]; subst.
    cbn [fst snd] in *.
    cbn [ps_cnt_copy ps_cnt_file ps_cnt_without filter fst].
    rewrite ps_pure_gets_line, ps_cnt_parse_line by assumption.
    assert (Hl' : (length l < fuel)%nat) by (cbn in Hf; lia).
    destruct (ps_beq name n); cbn [negb].
    + apply IH; assumption.
    + cbn [ps_pure].
      assert (Hlen : (len (ps_cnt_line n v) <? 0) = false).
      { pose proof (len_nonneg (ps_cnt_line n v)). lia. }
      rewrite Hlen, (IH fuel) by assumption. cbn [ps_cnt_file]. reflexivity.
Qed.

Section Txn.
  Variable pol : Z -> Z -> Z.

  (* fflush, fclose(new), [fclose(orig)], rename: the persistent file becomes exactly what
     was written *)
  Lemma ps_commit_run : forall s hn f W horig lim,
    ps_txw s hn f W -> lim <= hn ->
    match horig with
    | Some ho => ho <> hn /\ lim <= ho /\ exists F pos, ps_txr s ho F pos
    | None => True
    end ->
    exists s', ps_run pol (ps_commit hn horig f) s = (1, s') /\
      ps_view s' f = Some W /\ ps_keeps lim f s s'.
  Proof.
    intros s hn f W horig lim Hw Hl Ho. unfold ps_commit, ps_then. cbn [ps_run].
    destruct (ps_step_flush pol s hn f W Hw) as (s1 & E1 & Hw1 & K1). rewrite E1. cbn [ps_run].
    destruct (ps_step_close_w pol s1 hn f W Hw1) as (s2 & E2 & Hd2 & K2). rewrite E2.
    assert (K12 : ps_keeps lim f s s2)
      by (eapply ps_keeps_trans; eapply ps_wrote_keeps; eassumption).
    assert (Fin : forall s3, ps_get (PsTmp f) (ps_fs s3) = Some W -> ps_keeps lim f s s3 ->
              exists s', ps_run pol (PsDo (PoRename (PsTmp f) (PsBase f)) (fun _ => PsRet 1)) s3 = (1, s') /\
                         ps_view s' f = Some W /\ ps_keeps lim f s s').
    { intros s3 Hd Hk. destruct (ps_step_rename pol s3 f W Hd) as (s' & E & Hv & K).
      cbn [ps_run]. rewrite E. exists s'. split; [reflexivity|]. split; [exact Hv|].
      eapply ps_keeps_trans; [exact Hk|apply K]. }
    destruct horig as [ho|]; unfold ps_close_opt, ps_then; [|apply Fin; assumption].
    destruct Ho as (Hne & Hlo & F & pos & Hr).
    assert (Hr2 : ps_txr s2 ho F pos).
    { eapply ps_wrote_txr; [exact K2|congruence|]. eapply ps_wrote_txr; [exact K1|congruence|exact Hr]. }
    destruct (ps_close_read pol s2 ho F pos Hr2) as (r & s3 & E3 & M3). cbn [ps_run]. rewrite E3.
    apply Fin.
    - destruct M3 as (Fs & _). rewrite Fs. exact Hd2.
    - eapply ps_keeps_trans; [exact K12|].
      eapply ps_wrote_keeps; [apply ps_moved_wrote; exact M3|exact Hlo].
  Qed.

  (* the original exists and is open for reading: copy loop over its contents F, then the tail *)
  Lemma ps_txn_body_some : forall f loop tail s ho F out1 out2 lim,
    ps_txr s ho F 0 -> lim <= ho -> ho < ps_next s ->
    (forall hn, ps_rw ho hn (loop ho hn)) ->
    (forall hn, ps_wo hn (tail hn)) ->
    (forall hn, exists rest, ps_pure (loop ho hn) F = (Some true, rest, out1)) ->
    (forall hn inp, ps_pure (tail hn) inp = (true, inp, out2)) ->
    exists s', ps_run pol (ps_txn_body f loop tail (Some ho)) s = (1, s') /\
      ps_view s' f = Some (out1 ++ out2) /\ ps_keeps lim f s s'.
  Proof.
    intros f loop tail s ho F out1 out2 lim Hr Hlo Hlt Hlrw Htwo Hlp Htp.
    unfold ps_txn_body, ps_open. cbn [ps_run].
    destruct (ps_open_w pol s f) as (s2 & E2 & Hw2 & Hn2 & K2).
    rewrite E2. set (hn := ps_next s) in *.
    assert (Hne : ho <> hn) by lia. assert (Hln : lim <= hn) by lia.
    assert (Hr2 : ps_txr s2 ho F 0) by (eapply ps_wrote_txr; [exact K2|congruence|exact Hr]).
    rewrite ps_run_bind.
    destruct (ps_rw_run pol ho hn _ (loop ho hn) (Hlrw hn) s2 F 0 f [] lim Hne Hlo Hln Hr2 Hw2)
      as (s3 & pos3 & Hrun3 & Hr3 & _ & Hw3 & K3).
    destruct (Hlp hn) as [rest Hpl]. change (drop 0 F) with F in Hrun3, Hw3. rewrite Hpl in Hrun3, Hw3.
    cbn [fst snd app] in Hrun3, Hw3. rewrite Hrun3.
    rewrite ps_run_bind.
    destruct (ps_wo_run pol hn _ (tail hn) (Htwo hn) s3 f out1 [] Hw3) as (s4 & Hrun4 & Hw4 & K4).
    rewrite Htp in Hrun4, Hw4. cbn [fst snd] in Hrun4, Hw4. rewrite Hrun4.
    destruct (ps_commit_run s4 hn f (out1 ++ out2) (Some ho) lim Hw4 Hln) as (s5 & Hrun5 & Hv5 & K5).
    { split; [exact Hne|]. split; [exact Hlo|]. exists F, pos3.
      eapply ps_wrote_txr; [exact K4|congruence|exact Hr3]. }
    exists s5. split; [exact Hrun5|]. split; [exact Hv5|].
    eapply ps_keeps_trans; [eapply ps_wrote_keeps; eassumption|].
    eapply ps_keeps_trans; [exact K3|].
    eapply ps_keeps_trans; [eapply ps_wrote_keeps; eassumption|exact K5].
  Qed.

  (* no original: only the tail is written *)
  Lemma ps_txn_body_none : forall f loop tail s out2,
    (forall hn, ps_wo hn (tail hn)) ->
    (forall hn inp, ps_pure (tail hn) inp = (true, inp, out2)) ->
    exists s', ps_run pol (ps_txn_body f loop tail None) s = (1, s') /\
      ps_view s' f = Some out2 /\ ps_keeps (ps_next s) f s s'.
  Proof.
    intros f loop tail s out2 Htwo Htp.
    unfold ps_txn_body, ps_open. cbn [ps_run].
    destruct (ps_open_w pol s f) as (s2 & E2 & Hw2 & Hn2 & K2).
    rewrite E2. set (hn := ps_next s) in *.
    rewrite ps_run_bind. cbn [ps_run]. rewrite ps_run_bind.
    destruct (ps_wo_run pol hn _ (tail hn) (Htwo hn) s2 f [] [] Hw2) as (s4 & Hrun4 & Hw4 & K4).
    rewrite Htp in Hrun4, Hw4. cbn [fst snd app] in Hrun4, Hw4. rewrite Hrun4.
    destruct (ps_commit_run s4 hn f out2 None hn Hw4 (Z.le_refl hn) I) as (s5 & Hrun5 & Hv5 & K5).
    exists s5. split; [exact Hrun5|]. split; [exact Hv5|].
    eapply ps_keeps_trans; [eapply ps_wrote_keeps; [exact K2|apply Z.le_refl]|].
    eapply ps_keeps_trans; [eapply ps_wrote_keeps; [exact K4|apply Z.le_refl]|exact K5].
  Qed.

  Theorem ps_txn_run_some : forall f must ret loop tail s F out1 out2,
    ps_view s f = Some F ->
    (forall ho hn, ps_rw ho hn (loop ho hn)) ->
    (forall hn, ps_wo hn (tail hn)) ->
    (forall ho hn, exists rest, ps_pure (loop ho hn) F = (Some true, rest, out1)) ->
    (forall hn inp, ps_pure (tail hn) inp = (true, inp, out2)) ->
    exists s', ps_run pol (ps_txn f must ret loop tail) s = (1, s') /\
      ps_view s' f = Some (out1 ++ out2) /\ ps_keeps (ps_next s) f s s'.
  Proof.
    intros f must ret loop tail s F out1 out2 HF Hlrw Htwo Hlp Htp.
    unfold ps_txn, ps_open. cbn [ps_run].
    destruct (ps_open_r_some pol s (PsBase f) F HF) as (s1 & E1 & Hr1 & Hn1 & M1).
    rewrite E1.
    destruct (ps_txn_body_some f loop tail s1 (ps_next s) F out1 out2 (ps_next s) Hr1)
      as (s5 & Hrun & Hv & K); try assumption; try (intro; apply Hlrw); try (intro; apply Hlp);
      [lia|lia|].
    exists s5. split; [destruct must; exact Hrun|]. split; [exact Hv|].
    eapply ps_keeps_trans; [|exact K].
    eapply ps_wrote_keeps; [apply ps_moved_wrote; exact M1|apply Z.le_refl].
  Qed.

  Theorem ps_txn_run_none : forall f ret loop tail s out2,
    ps_view s f = None ->
    (forall hn, ps_wo hn (tail hn)) ->
    (forall hn inp, ps_pure (tail hn) inp = (true, inp, out2)) ->
    exists s', ps_run pol (ps_txn f false ret loop tail) s = (1, s') /\
      ps_view s' f = Some out2 /\ ps_keeps (ps_next s) f s s'.
  Proof.
    intros f ret loop tail s out2 HF Htwo Htp.
    unfold ps_txn, ps_open. cbn [ps_run].
    rewrite (ps_open_r_none pol s (PsBase f) HF).
    apply ps_txn_body_none; assumption.
  Qed.

  Theorem ps_txn_run_missing : forall f ret loop tail s,
    ps_view s f = None ->
    ps_run pol (ps_txn f true ret loop tail) s = (ret, s).
  Proof.
    intros f ret loop tail s HF. unfold ps_txn, ps_open. cbn [ps_run].
    rewrite (ps_open_r_none pol s (PsBase f) HF). reflexivity.
  Qed.

  (* the abstract content of a persistent file: the records, or nothing when it is absent *)
  Definition ps_holds {X} (file : list X -> bytes) (v : option bytes) (l : list X) : Prop :=
    v = Some (file l) \/ (v = None /\ l = []).

  (* an updater that goes on without the original: an absent file counts as one without records *)
  Theorem ps_txn_run_holds : forall X (file : list X -> bytes) (keep : list X -> list X)
      f ret loop tail s l out2,
    ps_holds file (ps_view s f) l -> file (keep []) = [] ->
    (forall ho hn, ps_rw ho hn (loop ho hn)) ->
    (forall hn, ps_wo hn (tail hn)) ->
    (forall ho hn, exists rest, ps_pure (loop ho hn) (file l) = (Some true, rest, file (keep l))) ->
    (forall hn inp, ps_pure (tail hn) inp = (true, inp, out2)) ->
    exists s', ps_run pol (ps_txn f false ret loop tail) s = (1, s') /\
      ps_view s' f = Some (file (keep l) ++ out2) /\ ps_keeps (ps_next s) f s s'.
  Proof.
    intros X file keep f ret loop tail s l out2 [Hv|[Hv ->]] H0 Hlrw Htwo Hlp Htp.
    - eapply ps_txn_run_some; eassumption.
    - rewrite H0. apply ps_txn_run_none; assumption.
  Qed.

  Theorem ps_obs_added_correct : forall la lt fuel a l s,
    0 < la -> 0 < lt -> Forall (ps_obs_wf la lt) l -> ps_obs_wf la lt a -> (length l < fuel)%nat ->
    ps_holds ps_obs_file (ps_view s PS_OBS) l ->
    exists s', ps_run pol (ps_obs_added la lt fuel a) s = (1, s') /\
      ps_view s' PS_OBS = Some (ps_obs_file (ps_obs_without (pso_key a) l ++ [a])) /\
      (forall j, j <> PS_OBS -> ps_view s' j = ps_view s j).
  Proof.
    intros la lt fuel a l s Hla Hlt Hwf Ha Hf Hh. unfold ps_obs_added.
    destruct (ps_txn_run_holds _ ps_obs_file (ps_obs_without (pso_key a)) PS_OBS 0
                (fun ho hn => ps_obs_copy la lt fuel ho hn (pso_key a)) (fun hn => ps_obs_write hn a)
                s l (ps_obs_enc a) Hh eq_refl) as (s' & Hr & Hv & Hk).
    - intros. apply ps_obs_copy_rw.
    - intros. apply ps_obs_write_wo.
    - intros. eexists. apply ps_pure_obs_copy; assumption.
    - intros. apply (ps_pure_obs_write la lt); assumption.
    - exists s'. split; [exact Hr|]. split; [|exact (fun j => ps_keeps_view _ _ _ _ j Hk)].
      rewrite Hv, ps_obs_file_app. cbn [ps_obs_file]. rewrite app_nil_r. reflexivity.
  Qed.

  Theorem ps_obs_deleted_correct : forall la lt fuel key l s,
    0 < la -> 0 < lt -> Forall (ps_obs_wf la lt) l -> (length l < fuel)%nat ->
    ps_view s PS_OBS = Some (ps_obs_file l) ->
    exists s', ps_run pol (ps_obs_deleted la lt fuel key) s = (1, s') /\
      ps_view s' PS_OBS = Some (ps_obs_file (ps_obs_without key l)) /\
      (forall j, j <> PS_OBS -> ps_view s' j = ps_view s j).
  Proof.
    intros la lt fuel key l s Hla Hlt Hwf Hf Hv. unfold ps_obs_deleted.
    destruct (ps_txn_run_some PS_OBS true 0
                (fun ho hn => ps_obs_copy la lt fuel ho hn key) ps_no_tail
                s (ps_obs_file l) (ps_obs_file (ps_obs_without key l)) [] Hv)
      as (s' & Hr & Hv' & Hk).
    - intros. apply ps_obs_copy_rw.
    - intros. apply ps_no_tail_wo.
    - intros. eexists. apply ps_pure_obs_copy; assumption.
    - intros. reflexivity.
    - exists s'. split; [exact Hr|]. split; [|exact (fun j => ps_keeps_view _ _ _ _ j Hk)].
      rewrite Hv', app_nil_r. reflexivity.
  Qed.

  Theorem ps_obs_deleted_missing : forall la lt fuel key s,
    ps_view s PS_OBS = None -> ps_run pol (ps_obs_deleted la lt fuel key) s = (0, s).
  Proof. intros. apply ps_txn_run_missing. assumption. Qed.

  Theorem ps_dyn_added_correct : forall fuel a l s,
    Forall ps_dyn_wf l -> ps_dyn_wf a -> (length l < fuel)%nat ->
    ps_holds ps_dyn_file (ps_view s PS_DYN) l ->
    exists s', ps_run pol (ps_dyn_added fuel a) s = (1, s') /\
      ps_view s' PS_DYN = Some (ps_dyn_file (ps_dyn_without (psd_name a) l ++ [a])) /\
      (forall j, j <> PS_DYN -> ps_view s' j = ps_view s j).
  Proof.
    intros fuel a l s Hwf Ha Hf Hh. unfold ps_dyn_added.
    destruct (ps_txn_run_holds _ ps_dyn_file (ps_dyn_without (psd_name a)) PS_DYN 0
                (fun ho hn => ps_dyn_copy fuel ho hn (psd_name a)) (fun hn => ps_dyn_write hn a)
                s l (ps_dyn_enc a) Hh eq_refl) as (s' & Hr & Hv & Hk).
    - intros. apply ps_dyn_copy_rw.
    - intros. apply ps_dyn_write_wo.
    - intros. eexists. apply ps_pure_dyn_copy; assumption.
    - intros. apply ps_pure_dyn_write; assumption.
    - exists s'. split; [exact Hr|]. split; [|exact (fun j => ps_keeps_view _ _ _ _ j Hk)].
      rewrite Hv, ps_dyn_file_app. cbn [ps_dyn_file]. rewrite app_nil_r. reflexivity.
  Qed.

  Theorem ps_dyn_deleted_correct : forall fuel name l s,
    Forall ps_dyn_wf l -> (length l < fuel)%nat ->
    ps_view s PS_DYN = Some (ps_dyn_file l) ->
    exists s', ps_run pol (ps_dyn_deleted fuel name) s = (1, s') /\
      ps_view s' PS_DYN = Some (ps_dyn_file (ps_dyn_without name l)) /\
      (forall j, j <> PS_DYN -> ps_view s' j = ps_view s j).
  Proof.
    intros fuel name l s Hwf Hf Hv. unfold ps_dyn_deleted.
    destruct (ps_txn_run_some PS_DYN true 1
                (fun ho hn => ps_dyn_copy fuel ho hn name) ps_no_tail
                s (ps_dyn_file l) (ps_dyn_file (ps_dyn_without name l)) [] Hv)
      as (s' & Hr & Hv' & Hk).
    - intros. apply ps_dyn_copy_rw.
    - intros. apply ps_no_tail_wo.
    - intros. eexists. apply ps_pure_dyn_copy; assumption.
    - intros. reflexivity.
    - exists s'. split; [exact Hr|]. split; [|exact (fun j => ps_keeps_view _ _ _ _ j Hk)].
      rewrite Hv', app_nil_r. reflexivity.
  Qed.

  Theorem ps_dyn_deleted_missing : forall fuel name s,
    ps_view s PS_DYN = None -> ps_run pol (ps_dyn_deleted fuel name) s = (1, s).
  Proof. intros. apply ps_txn_run_missing. assumption. Qed.

  Lemma ps_pure_cnt_put : forall name v hn inp,
    ps_pure (ps_cnt_put name v hn) inp = (true, inp, ps_cnt_line name v).
  Proof.
    intros. unfold ps_cnt_put. cbn [ps_pure].
    assert (H : (len (ps_cnt_line name v) <? 0) = false).
    { pose proof (len_nonneg (ps_cnt_line name v)). lia. }
    rewrite H. cbn [negb]. rewrite app_nil_r. reflexivity.
  Qed.

  (* the counter update also says what it leaves alone: it runs in the middle of the observe
     load, with two other streams open *)
  Theorem ps_cnt_track_run : forall fuel name v l s,
    Forall ps_cnt_wf l -> (length l < fuel)%nat ->
    ps_holds ps_cnt_file (ps_view s PS_CNT) l ->
    exists s', ps_run pol (ps_cnt_track fuel name v) s = (1, s') /\
      ps_view s' PS_CNT = Some (ps_cnt_file (ps_cnt_without name l) ++ ps_cnt_line name v) /\
      ps_keeps (ps_next s) PS_CNT s s'.
  Proof.
    intros fuel name v l s Hwf Hf Hh. unfold ps_cnt_track.
    apply (ps_txn_run_holds _ ps_cnt_file (ps_cnt_without name)); try assumption; try reflexivity.
    - intros. apply ps_cnt_copy_rw.
    - intros. apply ps_cnt_put_wo.
    - intros. eexists. apply ps_pure_cnt_copy; assumption.
    - intros. apply ps_pure_cnt_put.
  Qed.

  Theorem ps_cnt_track_correct : forall fuel name v l s,
    Forall ps_cnt_wf l -> (length l < fuel)%nat ->
    ps_holds ps_cnt_file (ps_view s PS_CNT) l ->
    exists s', ps_run pol (ps_cnt_track fuel name v) s = (1, s') /\
      ps_view s' PS_CNT = Some (ps_cnt_file (ps_cnt_without name l) ++ ps_cnt_line name v) /\
      (forall j, j <> PS_CNT -> ps_view s' j = ps_view s j).
  Proof.
    intros fuel name v l s Hwf Hf Hh.
    destruct (ps_cnt_track_run fuel name v l s Hwf Hf Hh) as (s' & Hr & Hv & Hk).
    exists s'. split; [exact Hr|]. split; [exact Hv|exact (fun j => ps_keeps_view _ _ _ _ j Hk)].
  Qed.

  (* with a name the text format can carry the new line is the entry (name, v) *)
  Corollary ps_cnt_track_entry : forall name v l,
    ps_name_ok name -> 0 <= v < 4294967296 ->
    ps_cnt_file (ps_cnt_without name l) ++ ps_cnt_line name v =
    ps_cnt_file (ps_cnt_without name l ++ [(name, v)]).
  Proof.
    intros. rewrite ps_cnt_file_app. cbn [ps_cnt_file]. rewrite app_nil_r. reflexivity.
  Qed.

  Theorem ps_cnt_deleted_correct : forall fuel name l s,
    Forall ps_cnt_wf l -> (length l < fuel)%nat ->
    ps_view s PS_CNT = Some (ps_cnt_file l) ->
    exists s', ps_run pol (ps_cnt_deleted fuel name) s = (1, s') /\
      ps_view s' PS_CNT = Some (ps_cnt_file (ps_cnt_without name l)) /\
      (forall j, j <> PS_CNT -> ps_view s' j = ps_view s j).
  Proof.
    intros fuel name l s Hwf Hf Hv. unfold ps_cnt_deleted.
    destruct (ps_txn_run_some PS_CNT true 0
                (fun ho hn => ps_cnt_copy fuel ho hn name) ps_no_tail
                s (ps_cnt_file l) (ps_cnt_file (ps_cnt_without name l)) [] Hv)
      as (s' & Hr & Hv' & Hk).
    - intros. apply ps_cnt_copy_rw.
    - intros. apply ps_no_tail_wo.
    - intros. eexists. apply ps_pure_cnt_copy; assumption.
    - intros. reflexivity.
    - exists s'. split; [exact Hr|]. split; [|exact (fun j => ps_keeps_view _ _ _ _ j Hk)].
      rewrite Hv', app_nil_r. reflexivity.
  Qed.

  Theorem ps_cnt_deleted_missing : forall fuel name s,
    ps_view s PS_CNT = None -> ps_run pol (ps_cnt_deleted fuel name) s = (0, s).
  Proof. intros. apply ps_txn_run_missing. assumption. Qed.
End Txn.
