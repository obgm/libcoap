(* C17 - the loaders (coap_op_obs_cnt_load_disk, coap_op_dyn_resource_load_disk,
   coap_op_observe_load_disk) on well-formed files: what they hand to the server and what they
   leave in the files. *)
From LibcoapV Require Import Base.Tactics Base.Bytes Persist.Fs Persist.FsProofs Persist.Records
  Persist.RecordsProofs Persist.Updaters Persist.Streams Persist.Discipline Persist.UpdatersProofs.
Local Open Scope Z_scope.

Section Ro.
  Variable pol : Z -> Z -> Z.

  (* fopen "r", a loop that only reads, fclose: the loop's pure result on the file; no file
     changes and no stream that was open *)
  Lemma ps_load_run : forall A n (loop : Z -> ps_prog (option A)) (dflt : option A) s F,
    ps_get n (ps_fs s) = Some F -> (forall h, ps_ro h (loop h)) ->
    exists s',
      ps_run pol (ps_open n PsR (fun h => match h with
                                          | None => PsRet dflt
                                          | Some h => ps_bind (loop h) (fun r => ps_then (PoClose h) (PsRet r))
                                          end)) s =
        (fst (fst (ps_pure (loop (ps_next s)) F)), s') /\ ps_moved (ps_next s) s s'.
  Proof.
    intros A n loop dflt s F HF Hl. unfold ps_open, ps_then. cbn [ps_run].
    destruct (ps_open_r_some pol s n F HF) as (s1 & E1 & Hr1 & _ & M1). rewrite E1, ps_run_bind.
    destruct (ps_ro_run pol _ _ _ (Hl (ps_next s)) s1 F 0 Hr1) as (s2 & pos2 & Hrun & Hr2 & _ & M2).
    change (drop 0 F) with F in Hrun. rewrite Hrun. cbn [ps_run].
    destruct (ps_close_read pol s2 _ F pos2 Hr2) as (r & s3 & E3 & M3). rewrite E3.
    exists s3. split; [reflexivity|].
    eapply ps_moved_trans; [exact M1|]. eapply ps_moved_trans; eassumption.
  Qed.

  Lemma ps_moved_below : forall s s',
    ps_moved (ps_next s) s s' ->
    ps_fs s' = ps_fs s /\ ps_next s <= ps_next s' /\
    (forall g, g < ps_next s -> ps_hget g (ps_hs s') = ps_hget g (ps_hs s)).
  Proof. intros s s' (F & N & G). split; [exact F|]. split; [exact N|]. intros g Hg. apply G. lia. Qed.

  Definition ps_rounded (freq : Z) (l : list (bytes * Z)) : list (bytes * Z) :=
    map (fun e => (fst e, ps_round freq (snd e))) l.

  Lemma ps_pure_cnt_load_loop : forall freq h l fuel acc,
    Forall ps_cnt_wf l -> (length l < fuel)%nat ->
    ps_pure (ps_cnt_load_loop fuel freq h acc) (ps_cnt_file l) =
    (Some (rev acc ++ ps_rounded freq l), [], []).
  Proof.
    intros freq h l. induction l as [|[n v] l IH]; intros fuel acc Hwf Hf.
    - destruct fuel; [lia|]. cbn [ps_cnt_load_loop ps_cnt_file ps_pure ps_line ps_rounded map].
      rewrite app_nil_r. reflexivity.
    - destruct fuel; [cbn in Hf; lia|]. inversion Hwf as [|? ? [Hn Hv] Hl]; subst.
      cbn [fst snd] in *. cbn [ps_cnt_load_loop ps_cnt_file].
      rewrite ps_pure_gets_line, ps_cnt_parse_line by assumption.
      rewrite IH by (assumption || (cbn in Hf; lia)).
      cbn [rev ps_rounded map fst snd]. rewrite <- app_assoc. reflexivity.
  Qed.

  (* coap_op_obs_cnt_load_disk hands over exactly the lines of the file, rounded *)
  Theorem ps_cnt_load_correct : forall fuel freq l s,
    Forall ps_cnt_wf l -> (length l < fuel)%nat ->
    ps_holds ps_cnt_file (ps_view s PS_CNT) l ->
    exists s', ps_run pol (ps_cnt_load fuel freq) s = (Some (ps_rounded freq l), s') /\
      ps_fs s' = ps_fs s /\ ps_next s <= ps_next s' /\
      (forall g, g < ps_next s -> ps_hget g (ps_hs s') = ps_hget g (ps_hs s)).
  Proof.
    intros fuel freq l s Hwf Hf [Hv|[Hv ->]]; unfold ps_cnt_load.
    - destruct (ps_load_run _ _ (fun h => ps_cnt_load_loop fuel freq h []) (Some []) s _ Hv)
        as (s' & Hrun & M); [intro; apply ps_cnt_load_loop_ro|].
      rewrite ps_pure_cnt_load_loop in Hrun by assumption.
      exists s'. split; [exact Hrun|apply ps_moved_below, M].
    - unfold ps_open. cbn [ps_run]. rewrite (ps_open_r_none pol s _ Hv).
      exists s. split; [reflexivity|apply ps_moved_below, ps_moved_refl].
  Qed.

  (* the records are handed to the caller's step in file order, until a step gives up *)
  Fixpoint ps_dyn_fold {S : Type} (step : ps_dyn -> S -> option S) (l : list ps_dyn) (st : S) : S :=
    match l with
    | [] => st
    | r :: tl => match step r st with Some st' => ps_dyn_fold step tl st' | None => st end
    end.

  Lemma ps_pure_dyn_load_loop : forall (S : Type) (step : ps_dyn -> S -> option S) h l fuel st,
    Forall ps_dyn_wf l -> (length l < fuel)%nat ->
    fst (fst (ps_pure (ps_dyn_load_loop fuel h step st) (ps_dyn_file l))) =
    Some (ps_dyn_fold step l st).
  Proof.
    intros S step h l. induction l as [|r l IH]; intros fuel st Hwf Hf.
    - destruct fuel; [lia|]. cbn [ps_dyn_load_loop ps_dyn_file ps_dyn_fold].
      rewrite ps_pure_bind, ps_pure_dyn_read_eof. reflexivity.
    - destruct fuel; [cbn in Hf; lia|]. inversion Hwf; subst.
      cbn [ps_dyn_load_loop ps_dyn_file ps_dyn_fold].
      rewrite ps_pure_bind, ps_pure_dyn_read by assumption.
      destruct (step r st) as [st'|]; [|reflexivity].
      specialize (IH fuel st' H2 ltac:(cbn in Hf; lia)).
      destruct (ps_pure (ps_dyn_load_loop fuel h step st') (ps_dyn_file l)) as [[a rest] out].
      exact IH.
  Qed.

  Theorem ps_dyn_load_correct : forall (S : Type) (step : ps_dyn -> S -> option S) fuel l st s,
    Forall ps_dyn_wf l -> (length l < fuel)%nat ->
    ps_holds ps_dyn_file (ps_view s PS_DYN) l ->
    exists s', ps_run pol (ps_dyn_load fuel step st) s = (Some (ps_dyn_fold step l st), s') /\
      ps_fs s' = ps_fs s /\ ps_next s <= ps_next s' /\
      (forall g, g < ps_next s -> ps_hget g (ps_hs s') = ps_hget g (ps_hs s)).
  Proof.
    intros S step fuel l st s Hwf Hf [Hv|[Hv ->]]; unfold ps_dyn_load.
    - destruct (ps_load_run _ _ (fun h => ps_dyn_load_loop fuel h step st) (Some st) s _ Hv)
        as (s' & Hrun & M); [intro; apply ps_dyn_load_loop_ro|].
      rewrite ps_pure_dyn_load_loop in Hrun by assumption.
      exists s'. split; [exact Hrun|apply ps_moved_below, M].
    - unfold ps_open. cbn [ps_run]. rewrite (ps_open_r_none pol s _ Hv).
      exists s. split; [reflexivity|apply ps_moved_below, ps_moved_refl].
  Qed.
End Ro.

Definition ps_rekey (k : bytes) (r : ps_obs) : ps_obs :=
  mkObs k (pso_proto r) (pso_listen r) (pso_tuple r) (pso_pkt r) (pso_osc r).

Section ObsLoad.
  Variable pol : Z -> Z -> Z.
  Variable S : Type.
  Variables la lt : Z.
  Hypothesis la_pos : 0 < la.
  Hypothesis lt_pos : 0 < lt.
  Variable step : ps_obs -> S -> ps_prog (S * option bytes).
  (* what one call of the caller's step (coap_persist_observe_add_lkd) does: to the caller's
     state, the key of the subscription it made, and to the counter file *)
  Variable spec : ps_obs -> S -> list (bytes * Z) -> S * option bytes * list (bytes * Z).
  Variable okS : S -> Prop.
  Variable cmax : nat.

  (* the step may update the counter file, with streams of its own *)
  Definition ps_step_ok : Prop :=
    forall r st C s,
      okS st -> Forall ps_cnt_wf C -> (length C < cmax)%nat ->
      ps_holds ps_cnt_file (ps_view s PS_CNT) C ->
      exists s',
        ps_run pol (step r st) s = ((fst (fst (spec r st C)), snd (fst (spec r st C))), s') /\
        okS (fst (fst (spec r st C))) /\
        Forall ps_cnt_wf (snd (spec r st C)) /\
        (length (snd (spec r st C)) <= Datatypes.S (length C))%nat /\
        ps_holds ps_cnt_file (ps_view s' PS_CNT) (snd (spec r st C)) /\
        (forall k, snd (fst (spec r st C)) = Some k -> len k = PS_KEY) /\
        ps_keeps (ps_next s) PS_CNT s s'.

  Fixpoint ps_obs_fold (l : list ps_obs) (st : S) (C : list (bytes * Z))
    : S * list ps_obs * list (bytes * Z) :=
    match l with
    | [] => (st, [], C)
    | r :: tl =>
        let x := spec r st C in
        let y := ps_obs_fold tl (fst (fst x)) (snd x) in
        (fst (fst y),
         match snd (fst x) with Some k => ps_rekey k r :: snd (fst y) | None => snd (fst y) end,
         snd y)
    end.

  Lemma ps_rekey_wf : forall k r, ps_obs_wf la lt r -> len k = PS_KEY -> ps_obs_wf la lt (ps_rekey k r).
  Proof.
    intros k r (H1 & H2 & H3 & H4 & H5 & H6) Hk. unfold ps_obs_wf, ps_rekey.
    cbn [pso_key pso_proto pso_listen pso_tuple pso_pkt pso_osc]. tauto.
  Qed.

  Hypothesis step_ok : ps_step_ok.

  (* the loop from any point of the file: ho reads the original, hn writes the temporary file,
     both opened (below lim) before the steps open their own streams *)
  Lemma ps_obs_load_loop_run : forall F ho hn lim rest fuel s pos W C st,
    (length rest < fuel)%nat -> Forall (ps_obs_wf la lt) rest ->
    ho <> hn -> ho < lim -> hn < lim -> lim <= ps_next s ->
    ps_txr s ho F pos -> drop pos F = ps_obs_file rest -> ps_txw s hn PS_OBS W ->
    okS st -> Forall ps_cnt_wf C -> (length C + length rest < cmax)%nat ->
    ps_holds ps_cnt_file (ps_view s PS_CNT) C ->
    exists s' pos',
      ps_run pol (ps_obs_load_loop la lt fuel ho hn step st) s =
        (Some (fst (fst (ps_obs_fold rest st C)), true), s') /\
      ps_txr s' ho F pos' /\
      ps_txw s' hn PS_OBS (W ++ ps_obs_file (snd (fst (ps_obs_fold rest st C)))) /\
      ps_holds ps_cnt_file (ps_view s' PS_CNT) (snd (ps_obs_fold rest st C)) /\
      ps_view s' PS_DYN = ps_view s PS_DYN.
  Proof.
    intros F ho hn lim rest. induction rest as [|r rest IH];
      intros fuel s pos W C st Hf Hwf Hne Hho Hhn Hlim Hr Hd Hw Hok HC Hlen Hcnt;
      (destruct fuel; [cbn in Hf; lia|]); cbn [ps_obs_load_loop ps_obs_file] in *;
      rewrite ps_run_bind;
      destruct (ps_ro_run pol ho _ _ (ps_obs_read_ro la lt ho) s F pos Hr)
        as (s1 & pos1 & Hrun & Hr1 & Hd1 & M1);
      pose proof (ps_moved_txw _ _ _ _ _ _ M1 Hne Hw) as Hw1;
      destruct M1 as (Fs1 & N1 & _); rewrite Hd in Hrun, Hd1.
    - rewrite ps_pure_obs_read_eof in Hrun. rewrite Hrun. cbn [ps_run ps_obs_fold fst snd ps_obs_file].
      exists s1, pos1. rewrite app_nil_r. unfold ps_view. rewrite Fs1.
      split; [reflexivity|]. split; [exact Hr1|]. split; [exact Hw1|]. split; [exact Hcnt|reflexivity].
    - inversion Hwf as [|? ? Hr0 Hrest]; subst. cbn [length] in Hf, Hlen.
      rewrite ps_pure_obs_read in Hrun, Hd1 by assumption. cbn [fst snd] in Hrun, Hd1.
      rewrite Hrun, ps_run_bind.
      (* the caller's step *)
      destruct (step_ok r st C s1 Hok HC) as (s2 & Hrun2 & Hok2 & HC2 & Hlen2 & Hcnt2 & Hkey & K2);
        [clear - Hlen; lia|unfold ps_view; rewrite Fs1; exact Hcnt|].
      rewrite Hrun2. cbn [fst snd ps_obs_fold].
      assert (Hlim1 : lim <= ps_next s1) by (clear - Hlim N1; lia).
      assert (Hr2 : ps_txr s2 ho F pos1) by (eapply ps_keeps_txr; [exact K2|lia|exact Hr1]).
      assert (Hw2 : ps_txw s2 hn PS_OBS W) by (eapply ps_keeps_txw; [exact K2|lia|discriminate|exact Hw1]).
      assert (HV2 : ps_view s2 PS_DYN = ps_view s PS_DYN).
      { rewrite (ps_keeps_view _ _ _ _ PS_DYN K2) by discriminate. unfold ps_view. rewrite Fs1. reflexivity. }
      assert (Hlim2 : lim <= ps_next s2) by (destruct K2 as (_ & N2 & _); clear - Hlim1 N2; lia).
      assert (Hf' : (length rest < fuel)%nat) by (clear - Hf; lia).
      assert (Hlen' : (length (snd (spec r st C)) + length rest < cmax)%nat) by (clear - Hlen Hlen2; lia).
      destruct (snd (fst (spec r st C))) as [k|] eqn:Ek.
      + (* written under the new key *)
        rewrite ps_run_bind.
        destruct (ps_wo_run pol hn _ _ (ps_obs_write_wo hn (ps_rekey k r)) s2 PS_OBS W [] Hw2)
          as (s3 & Hrun3 & Hw3 & K3).
        rewrite (ps_pure_obs_write la lt) in Hrun3, Hw3
          by (assumption || (apply ps_rekey_wf; [exact Hr0|apply Hkey; reflexivity])).
        cbn [fst snd] in Hrun3, Hw3. change (mkObs k _ _ _ _ _) with (ps_rekey k r). rewrite Hrun3.
        assert (Hlim3 : lim <= ps_next s3) by (destruct K3 as (_ & N3 & _); clear - Hlim2 N3; lia).
        destruct (IH fuel s3 pos1 (W ++ ps_obs_enc (ps_rekey k r)) (snd (spec r st C))
                     (fst (fst (spec r st C))) Hf' Hrest Hne Hho Hhn Hlim3
                     (ps_wrote_txr _ _ _ _ _ _ _ K3 (not_eq_sym Hne) Hr2) Hd1 Hw3 Hok2 HC2 Hlen')
          as (s4 & pos4 & Hrun4 & Hr4 & Hw4 & Hcnt4 & HV4).
        { rewrite (ps_wrote_view _ _ _ _ PS_CNT K3). exact Hcnt2. }
        exists s4, pos4. cbn [ps_obs_file]. rewrite app_assoc.
        split; [exact Hrun4|]. split; [exact Hr4|]. split; [exact Hw4|]. split; [exact Hcnt4|].
        rewrite HV4, (ps_wrote_view _ _ _ _ PS_DYN K3). exact HV2.
      + (* not re-created: not written *)
        destruct (IH fuel s2 pos1 W (snd (spec r st C)) (fst (fst (spec r st C)))
                     Hf' Hrest Hne Hho Hhn Hlim2 Hr2 Hd1 Hw2 Hok2 HC2 Hlen' Hcnt2)
          as (s4 & pos4 & Hrun4 & Hr4 & Hw4 & Hcnt4 & HV4).
        exists s4, pos4.
        split; [exact Hrun4|]. split; [exact Hr4|]. split; [exact Hw4|]. split; [exact Hcnt4|].
        rewrite HV4. exact HV2.
  Qed.

  (* coap_op_observe_load_disk: every record of the file is handed to the caller's step, in file
     order; the file is rewritten with exactly the records for which the step returned a key,
     under that key; the counter file ends up as the steps left it; the third file is untouched *)
  Theorem ps_obs_load_correct : forall fuel l C st s,
    (length l < fuel)%nat -> Forall (ps_obs_wf la lt) l ->
    ps_view s PS_OBS = Some (ps_obs_file l) ->
    okS st -> Forall ps_cnt_wf C -> (length C + length l < cmax)%nat ->
    ps_holds ps_cnt_file (ps_view s PS_CNT) C ->
    exists s',
      ps_run pol (ps_obs_load la lt fuel step st) s = (Some (fst (fst (ps_obs_fold l st C))), s') /\
      ps_view s' PS_OBS = Some (ps_obs_file (snd (fst (ps_obs_fold l st C)))) /\
      ps_holds ps_cnt_file (ps_view s' PS_CNT) (snd (ps_obs_fold l st C)) /\
      ps_view s' PS_DYN = ps_view s PS_DYN.
  Proof.
    intros fuel l C st s Hf Hwf Hv Hok HC Hlen Hcnt.
    unfold ps_obs_load, ps_open. cbn [ps_run].
    destruct (ps_open_r_some pol s (PsBase PS_OBS) _ Hv) as (s1 & E1 & Hr1 & Hn1 & (Fs1 & _)).
    rewrite E1. cbn [ps_run].
    destruct (ps_open_w pol s1 PS_OBS) as (s2 & E2 & Hw2 & Hn2 & K2).
    rewrite E2, ps_run_bind. set (ho := ps_next s) in *. set (hn := ps_next s1) in *.
    assert (HV2 : forall i, ps_view s2 i = ps_view s i).
    { intro i. rewrite (ps_wrote_view _ _ _ _ i K2). unfold ps_view. rewrite Fs1. reflexivity. }
    assert (Hne : ho <> hn) by lia.
    destruct (ps_obs_load_loop_run (ps_obs_file l) ho hn (ps_next s2) l fuel s2 0 [] C st Hf Hwf Hne)
      as (s3 & pos3 & Hrun3 & Hr3 & Hw3 & Hcnt3 & HV3); try assumption; try lia.
    - eapply ps_wrote_txr; [exact K2|lia|exact Hr1].
    - reflexivity.
    - rewrite HV2. exact Hcnt.
    - rewrite Hrun3, ps_run_bind.
      destruct (ps_commit_run pol s3 hn PS_OBS _ (Some ho) ho Hw3) as (s4 & Hrun4 & Hv4 & K4);
        [lia|split; [exact Hne|]; split; [lia|]; exists (ps_obs_file l), pos3; exact Hr3|].
      rewrite Hrun4. cbn [ps_run]. exists s4. split; [reflexivity|]. split; [exact Hv4|].
      rewrite !(ps_keeps_view _ _ _ _ _ K4) by discriminate.
      split; [exact Hcnt3|]. rewrite HV3. apply HV2.
  Qed.
End ObsLoad.
