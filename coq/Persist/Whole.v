(* C17 - whole histories: the invariant of Coherence.v holds after every event of every history
   and in a fresh process, and a restart from files coherent with a memory state gives back that
   state's resources, observations and counters (RestoreCoh.v).  Kill points inside an event are
   in Final.v. *)
From LibcoapV Require Import Base.Tactics Base.Bytes Persist.Fs Persist.Records Persist.History
  Persist.Server Persist.Restore Persist.MemLemmas Persist.EventCalls Persist.Coherence
  Persist.RestoreCoh.
Local Open Scope Z_scope.

Section Whole.
  Variable pol : Z -> Z -> Z.
  Variable app : bytes -> option (bytes * bool).
  Variable req : bytes -> option (bytes * bytes * bytes).
  Variable alloc : list bytes -> bytes.
  Variable c : ps_cfg.
  Variable m0 : ps_mem.
  Hypothesis alloc_fresh : forall live, ~ In (alloc live) live.
  Hypothesis alloc_len : forall live, len (alloc live) = PS_KEY.
  Hypothesis cfg_proto : len (psc_proto c) = PS_PROTO.
  Hypothesis cfg_listen : len (psc_listen c) = psc_la c.
  Hypothesis freq_pos : 0 < psc_freq c.
  Hypothesis freq_small : psc_freq c < 1000000.
  Hypothesis cfg_dyn : psc_dyn c = true.
  Hypothesis cfg_obs : psc_obs c = true.
  Hypothesis cfg_cnt : psc_cnt c = true.
  Hypothesis cfg_unknown : psc_unknown c = true.
  Hypothesis la_pos : 0 < psc_la c.
  Hypothesis lt_pos : 0 < psc_lt c.

  (* every event of the history has sound arguments in the memory state it meets *)
  Fixpoint ps_hist_ok (evs : list ps_event) (m : ps_mem) : Prop :=
    match evs with
    | [] => True
    | e :: tl => ps_evt_ok app req c e m /\ ps_hist_ok tl (fst (ps_ev_out alloc e m))
    end.

  Fixpoint ps_ghosts (evs : list ps_event) (m : ps_mem) (G : list ps_send) : list ps_send :=
    match evs with
    | [] => G
    | e :: tl => ps_ghosts tl (fst (ps_ev_out alloc e m)) (ps_ghost alloc e m G)
    end.

  Notation inv := (ps_inv app req c m0).

  Lemma ps_evt_ok_server : forall e m, ps_evt_ok app req c e m -> ps_ev_server e.
  Proof. intros [] m H; cbn in *; tauto. Qed.

  Theorem ps_inv_history : forall evs m A G,
    inv m A G -> ps_hist_ok evs m ->
    inv (fst (ps_hist_state alloc c evs m A)) (snd (ps_hist_state alloc c evs m A)) (ps_ghosts evs m G) /\
    ps_hist_wf alloc c evs m.
  Proof.
    induction evs as [|e evs IH]; intros m A G Hi Hok; cbn [ps_hist_state ps_ghosts ps_hist_wf fst snd].
    - split; [exact Hi|exact I].
    - destruct Hok as [He Hok].
      destruct (ps_inv_event app req alloc c m0 alloc_fresh alloc_len cfg_proto cfg_listen freq_pos freq_small
                             e m A G Hi He) as [Hcw Hi'].
      destruct (IH _ _ _ Hi' Hok) as [Hf Hw].
      split; [exact Hf|]. split; [eapply ps_evt_ok_server; exact He|]. split; [exact Hcw|exact Hw].
  Qed.

  Lemma ps_hist_ok_app : forall evs1 rest m,
    ps_hist_ok (evs1 ++ rest) m ->
    ps_hist_ok evs1 m /\ forall A, ps_hist_ok rest (fst (ps_hist_state alloc c evs1 m A)).
  Proof.
    induction evs1 as [|e evs1 IH]; intros rest m H; cbn [List.app ps_hist_ok ps_hist_state] in *.
    - split; [exact I|intros A; exact H].
    - destruct H as [He H]. destruct (IH rest _ H) as [H1 H2]. split; [split; assumption|].
      intro A. apply H2.
  Qed.

  (* the fresh process: what the application registers, no files *)
  Definition ps_abs0 : ps_abs := mkAbs None None None.

  Lemma ps_inv_init :
    Forall (ps_fresh_rsrc) m0 -> NoDup (map psr_name m0) ->
    (forall r, In r m0 -> psr_observe r <= ps_bound c) ->
    inv m0 ps_abs0 [].
  Proof.
    intros Hm0 Hnd Hb.
    assert (Hnosub : forall n s, ~ ps_insub m0 n s).
    { intros n s (r & Hf & Hin). destruct (ps_find_forall _ m0 n r Hm0 Hf) as (_ & H2 & _).
      rewrite H2 in Hin. contradiction. }
    (* the fields about subscriptions and about records in the files hold of nothing *)
    constructor; try (intros; exfalso; eapply Hnosub; eassumption); try (cbn; intros; contradiction).
    - (* iv_names *) exact Hnd.
    - (* iv_res *) intros n r Hf. destruct (ps_find_forall _ m0 n r Hm0 Hf) as (H1 & H2 & H3 & H4).
      rewrite (ps_find_name n m0 r Hf) in H3. split; [exact H3|].
      split; [split; [lia|apply Hb; eapply ps_find_in; exact Hf]|].
      rewrite H2. split; [constructor|]. intro X. contradiction.
    - (* iv_wf *) cbn. repeat split; exact I.
    - (* iv_dyn *) intros n r Hf _. left. unfold ps_has. rewrite Hf. discriminate.
    - (* iv_obs3 *) cbn. constructor.
    - (* iv_cnt1 *) cbn. constructor.
    - (* iv_cnt3 *) intros n r Hf Hs. destruct (ps_find_forall _ m0 n r Hm0 Hf) as (_ & H2 & _). contradiction.
  Qed.

  (* restart after a kill that falls on an updater boundary that is also an event boundary
     (between two events, or anywhere in an event that makes at most one updater call) *)
  Theorem ps_whole_restart : forall m A G s,
    Forall ps_fresh_rsrc m0 ->
    inv m A G -> (ps_abs_size A + ps_abs_size A < psc_fuel c)%nat -> ps_holdsA s A ->
    exists mR,
      fst (ps_run pol (ps_startup app req alloc c m0) (ps_boot (ps_fs s))) = Some mR /\
      (forall n r, ps_find n m = Some r -> psr_observable r = true -> ps_has mR n) /\
      (forall n su, ps_insub m n su -> ps_present req mR (ps_obs_of c su)) /\
      (forall n tu tok v rR, In (n, tu, tok, v) G -> ps_find n mR = Some rR -> v < psr_observe rR + 1).
  Proof.
    intros m A G s Hm0 Hi Hsz Hh.
    apply (ps_invw_restores app req alloc c m0 alloc_len freq_pos pol m A G); try assumption.
    apply ps_inv_invw. exact Hi.
  Qed.
End Whole.
