(* C17 - programs that read one stream and write another (the record readers/writers and the
   copy loops) have a pure meaning: a function from the unread input to (result, rest of the
   input, bytes written).  ps_rw_run: running such a program in the stdio model does exactly
   that to the two streams and touches nothing else - for every buffering policy.  Before that,
   what each stdio call does to a stream in a known state. *)
From LibcoapV Require Import Base.Tactics Base.Bytes Base.BytesProofs Persist.Fs Persist.FsProofs
  Persist.Records.
Local Open Scope Z_scope.

Lemma ps_line_prefix : forall fuel l, l = ps_line fuel l ++ drop (len (ps_line fuel l)) l.
Proof.
  induction fuel as [|f IH]; intro l; [reflexivity|].
  destruct l as [|b tl]; [reflexivity|]. cbn [ps_line].
  destruct (b =? 10); [reflexivity|].
  rewrite len_cons. cbn [app].
  replace (drop (1 + len (ps_line f tl)) (b :: tl)) with (drop (len (ps_line f tl)) tl).
  - f_equal. apply IH.
  - unfold drop. pose proof (len_nonneg (ps_line f tl)).
    replace (Z.to_nat (1 + len (ps_line f tl))) with (S (Z.to_nat (len (ps_line f tl)))) by lia.
    reflexivity.
Qed.

Lemma ps_line_len : forall fuel l, len (ps_line fuel l) <= len l.
Proof.
  intros. pose proof (ps_line_prefix fuel l) as H.
  apply (f_equal (@len Z)) in H. rewrite len_app in H.
  pose proof (len_nonneg (drop (len (ps_line fuel l)) l)). lia.
Qed.

Inductive ps_rw (ho hn : Z) {A : Type} : ps_prog A -> Prop :=
| PsRwRet : forall a, ps_rw ho hn (PsRet a)
| PsRwRead : forall sz k, (forall r, ps_rw ho hn (k r)) -> ps_rw ho hn (PsDo (PoRead ho sz) k)
| PsRwGets : forall cap k, (forall r, ps_rw ho hn (k r)) -> ps_rw ho hn (PsDo (PoGets ho cap) k)
| PsRwWrite : forall d k, (forall r, ps_rw ho hn (k r)) -> ps_rw ho hn (PsDo (PoWrite hn d) k)
| PsRwPrintf : forall d k, (forall r, ps_rw ho hn (k r)) -> ps_rw ho hn (PsDo (PoPrintf hn d) k).

Inductive ps_wo (hn : Z) {A : Type} : ps_prog A -> Prop :=
| PsWoRet : forall a, ps_wo hn (PsRet a)
| PsWoWrite : forall d k, (forall r, ps_wo hn (k r)) -> ps_wo hn (PsDo (PoWrite hn d) k)
| PsWoPrintf : forall d k, (forall r, ps_wo hn (k r)) -> ps_wo hn (PsDo (PoPrintf hn d) k).

Lemma ps_wo_rw : forall ho hn A (p : ps_prog A), ps_wo hn p -> ps_rw ho hn p.
Proof. induction 1; constructor; assumption. Qed.

Inductive ps_ro (ho : Z) {A : Type} : ps_prog A -> Prop :=
| PsRoRet : forall a, ps_ro ho (PsRet a)
| PsRoRead : forall sz k, (forall r, ps_ro ho (k r)) -> ps_ro ho (PsDo (PoRead ho sz) k)
| PsRoGets : forall cap k, (forall r, ps_ro ho (k r)) -> ps_ro ho (PsDo (PoGets ho cap) k).

Lemma ps_ro_rw : forall ho hn A (p : ps_prog A), ps_ro ho p -> ps_rw ho hn p.
Proof. induction 1; constructor; assumption. Qed.

Fixpoint ps_pure {A : Type} (p : ps_prog A) (inp : bytes) : A * bytes * bytes :=
  match p with
  | PsRet a => (a, inp, [])
  | PsDo op k =>
      match op with
      | PoRead _ sz =>
          match ps_item sz inp with
          | Some (a, rest) => ps_pure (k (PrData true a)) rest
          | None => ps_pure (k (PrData false [])) (if 0 <? sz then [] else inp)
          end
      | PoGets _ cap =>
          match ps_line (Z.to_nat (cap - 1)) inp with
          | [] => ps_pure (k (PrData false [])) inp
          | l => ps_pure (k (PrData true l)) (drop (len l) inp)
          end
      | PoWrite _ d =>
          match d with
          | [] => ps_pure (k (PrInt 0)) inp
          | _ => let '(a, rest, out) := ps_pure (k (PrInt 1)) inp in (a, rest, d ++ out)
          end
      | PoPrintf _ d =>
          let '(a, rest, out) := ps_pure (k (PrInt (len d))) inp in (a, rest, d ++ out)
      | _ => ps_pure (k PrNull) inp
      end
  end.

Lemma ps_rw_bind : forall ho hn A B (p : ps_prog A) (f : A -> ps_prog B),
  ps_rw ho hn p -> (forall a, ps_rw ho hn (f a)) -> ps_rw ho hn (ps_bind p f).
Proof.
  intros ho hn A B p f Hp Hf. induction Hp; cbn [ps_bind]; [apply Hf| | | |];
    constructor; intro r; apply H0.
Qed.

Lemma ps_ro_bind : forall ho A B (p : ps_prog A) (f : A -> ps_prog B),
  ps_ro ho p -> (forall a, ps_ro ho (f a)) -> ps_ro ho (ps_bind p f).
Proof.
  intros ho A B p f Hp Hf. induction Hp; cbn [ps_bind]; [apply Hf| |]; constructor; intro r; apply H0.
Qed.

Lemma ps_pure_bind : forall A B (p : ps_prog A) (f : A -> ps_prog B) inp,
  ps_pure (ps_bind p f) inp =
  let '(a, rest, out) := ps_pure p inp in
  let '(b, rest', out') := ps_pure (f a) rest in (b, rest', out ++ out').
Proof.
  intros A B p f. induction p as [a|op k IH]; intro inp.
  - cbn [ps_bind ps_pure]. destruct (ps_pure (f a) inp) as [[b r] o]. reflexivity.
  - cbn [ps_bind ps_pure]. destruct op; try apply IH.
    + destruct (ps_item sz inp) as [[a rest]|]; apply IH.
    + destruct (ps_line (Z.to_nat (cap - 1)) inp); apply IH.
    + destruct d as [|b d]; [apply IH|].
      rewrite IH. destruct (ps_pure (k (PrInt 1)) inp) as [[a rest] out].
      destruct (ps_pure (f a) rest) as [[b' r'] o']. rewrite app_assoc. reflexivity.
    + rewrite IH. destruct (ps_pure (k (PrInt (len d))) inp) as [[a rest] out].
      destruct (ps_pure (f a) rest) as [[b' r'] o']. rewrite app_assoc. reflexivity.
Qed.

Lemma ps_run_bind : forall pol A B (p : ps_prog A) (f : A -> ps_prog B) s,
  ps_run pol (ps_bind p f) s = let '(a, s') := ps_run pol p s in ps_run pol (f a) s'.
Proof.
  intros pol A B p f. induction p as [a|op k IH]; intro s.
  - cbn [ps_bind ps_run]. reflexivity.
  - cbn [ps_bind ps_run]. destruct (ps_step pol op s) as [r s']. apply IH.
Qed.

(* a stream open for reading, the file contents F, position pos *)
Definition ps_txr (s : ps_sys) (ho : Z) (F : bytes) (pos : Z) : Prop :=
  (exists n, ps_hget ho (ps_hs s) = Some (mkPsH n PsR F pos [] true)) /\ 0 <= pos <= len F.

(* a stream opened "w+" on the temporary file of f; W = everything written so far (on disk or
   still buffered) *)
Definition ps_txw (s : ps_sys) (hn f : Z) (W : bytes) : Prop :=
  exists pend disk,
    ps_hget hn (ps_hs s) = Some (mkPsH (PsTmp f) PsWp [] 0 pend true) /\
    ps_get (PsTmp f) (ps_fs s) = Some disk /\ disk ++ pend = W.

Lemma ps_wrote_txr : forall h n s s' ho F pos,
  ps_wrote h n s s' -> h <> ho -> ps_txr s ho F pos -> ps_txr s' ho F pos.
Proof.
  intros h n s s' ho F pos (_ & _ & G) Hne [(m & H) Hp]. split; [|exact Hp].
  exists m. rewrite G by congruence. exact H.
Qed.

Lemma ps_wrote_txw : forall h n s s' hn f W,
  ps_wrote h n s s' -> h <> hn -> n <> PsTmp f -> ps_txw s hn f W -> ps_txw s' hn f W.
Proof.
  intros h n s s' hn f W (Fs & _ & G) Hne Hn (pend & disk & Hh & Hd & HW).
  exists pend, disk. rewrite G, Fs by congruence. repeat split; assumption.
Qed.

Lemma ps_moved_txw : forall h s s' hn f W,
  ps_moved h s s' -> h <> hn -> ps_txw s hn f W -> ps_txw s' hn f W.
Proof.
  intros h s s' hn f W Hm Hne. apply (ps_wrote_txw h (PsBase f)); [|exact Hne|discriminate].
  apply ps_moved_wrote. exact Hm.
Qed.

Lemma ps_keeps_txr : forall lim f s s' ho F pos,
  ps_keeps lim f s s' -> ho < lim -> ps_txr s ho F pos -> ps_txr s' ho F pos.
Proof.
  intros lim f s s' ho F pos (_ & _ & G) Hl [(m & H) Hp]. split; [|exact Hp].
  exists m. rewrite G by exact Hl. exact H.
Qed.

Lemma ps_keeps_txw : forall lim f' s s' hn f W,
  ps_keeps lim f' s s' -> hn < lim -> f <> f' -> ps_txw s hn f W -> ps_txw s' hn f W.
Proof.
  intros lim f' s s' hn f W (Fs & _ & G) Hl Hf (pend & disk & Hh & Hd & HW).
  exists pend, disk. rewrite G, Fs by (exact Hl || congruence). repeat split; assumption.
Qed.

Section Steps.
  Variable pol : Z -> Z -> Z.

  Lemma ps_open_r_some : forall s n F,
    ps_get n (ps_fs s) = Some F ->
    exists s', ps_step pol (PoOpen n PsR) s = (PrH (ps_next s), s') /\
      ps_txr s' (ps_next s) F 0 /\ ps_next s' = ps_next s + 1 /\ ps_moved (ps_next s) s s'.
  Proof.
    intros s n F H. unfold ps_step. rewrite H. eexists. split; [reflexivity|].
    split; [|split; [reflexivity|apply ps_moved_hput; lia]].
    split; [|pose proof (len_nonneg F); lia]. exists n. apply ps_hget_hput_same.
  Qed.

  Lemma ps_open_r_none : forall s n,
    ps_get n (ps_fs s) = None -> ps_step pol (PoOpen n PsR) s = (PrNull, s).
  Proof. intros s n H. unfold ps_step. rewrite H. reflexivity. Qed.

  Lemma ps_open_w : forall s f,
    exists s', ps_step pol (PoOpen (PsTmp f) PsWp) s = (PrH (ps_next s), s') /\
      ps_txw s' (ps_next s) f [] /\ ps_next s' = ps_next s + 1 /\
      ps_wrote (ps_next s) (PsTmp f) s s'.
  Proof.
    intros s f. unfold ps_step. eexists. split; [reflexivity|].
    split; [|split; [reflexivity|]].
    - exists [], []. split; [apply ps_hget_hput_same|]. split; [apply ps_get_put_same|reflexivity].
    - split; [intros m Hm; apply ps_get_put_other; exact Hm|]. split; [cbn; lia|].
      intros g Hg. apply ps_hget_hput_other. exact Hg.
  Qed.

  Lemma ps_step_read : forall s ho F pos sz,
    ps_txr s ho F pos ->
    exists r s' pos',
      ps_step pol (PoRead ho sz) s = (r, s') /\ ps_txr s' ho F pos' /\ ps_moved ho s s' /\
      forall A (k : ps_res -> ps_prog A),
        ps_pure (PsDo (PoRead ho sz) k) (drop pos F) = ps_pure (k r) (drop pos' F).
  Proof.
    intros s ho F pos sz [(n & Hh) Hp].
    unfold ps_step. rewrite Hh. cbn [psh_open psh_mode ps_writable negb andb psh_pos psh_data].
    pose proof (len_drop pos F Hp) as Hl. cbn [ps_pure]. unfold ps_item.
    replace (sz <=? len (drop pos F)) with (pos + sz <=? len F) by lia.
    destruct ((0 <? sz) && (pos + sz <=? len F)) eqn:E.
    - eexists _, _, (pos + sz). split; [reflexivity|].
      split; [split; [exists n; apply ps_hget_hput_same|lia]|].
      split; [apply ps_moved_hput; lia|]. intros. rewrite <- drop_drop by lia. reflexivity.
    - destruct (0 <? sz).
      + eexists _, _, (len F). split; [reflexivity|].
        split; [split; [exists n; apply ps_hget_hput_same|lia]|].
        split; [apply ps_moved_hput; lia|]. intros. rewrite drop_all by lia. reflexivity.
      + exists (PrData false []), s, pos. split; [reflexivity|].
        split; [split; [exists n; exact Hh|exact Hp]|]. split; [apply ps_moved_refl|reflexivity].
  Qed.

  Lemma ps_step_gets : forall s ho F pos cap,
    ps_txr s ho F pos ->
    exists r s' pos',
      ps_step pol (PoGets ho cap) s = (r, s') /\ ps_txr s' ho F pos' /\ ps_moved ho s s' /\
      forall A (k : ps_res -> ps_prog A),
        ps_pure (PsDo (PoGets ho cap) k) (drop pos F) = ps_pure (k r) (drop pos' F).
  Proof.
    intros s ho F pos cap [(n & Hh) Hp].
    unfold ps_step. rewrite Hh. cbn [psh_open psh_mode ps_writable negb andb psh_pos psh_data].
    cbn [ps_pure].
    pose proof (ps_line_len (Z.to_nat (cap - 1)) (drop pos F)) as Hl. rewrite len_drop in Hl by exact Hp.
    destruct (ps_line (Z.to_nat (cap - 1)) (drop pos F)) as [|b tl].
    - exists (PrData false []), s, pos. split; [reflexivity|].
      split; [split; [exists n; exact Hh|exact Hp]|]. split; [apply ps_moved_refl|reflexivity].
    - pose proof (len_nonneg (b :: tl)).
      eexists _, _, (pos + len (b :: tl)). split; [reflexivity|].
      split; [split; [exists n; apply ps_hget_hput_same|lia]|].
      split; [apply ps_moved_hput; lia|]. intros. rewrite <- drop_drop by lia. reflexivity.
  Qed.

  Lemma ps_close_read : forall s ho F pos,
    ps_txr s ho F pos -> exists r s', ps_step pol (PoClose ho) s = (r, s') /\ ps_moved ho s s'.
  Proof.
    intros s ho F pos [(n & Hh) _]. unfold ps_step. rewrite Hh.
    eexists _, _. split; [reflexivity|]. apply ps_moved_hput. cbn. lia.
  Qed.

  (* everything that goes through the write stream: fwrite, fprintf, fflush, fclose *)
  Lemma ps_out_txw : forall s hn f W d fl cl,
    ps_txw s hn f W ->
    exists s' pend disk,
      ps_out pol s hn d fl cl = Some s' /\
      ps_hget hn (ps_hs s') = Some (mkPsH (PsTmp f) PsWp [] 0 pend (negb cl)) /\
      ps_get (PsTmp f) (ps_fs s') = Some disk /\ disk ++ pend = W ++ d /\
      (fl = true -> pend = []) /\ ps_wrote hn (PsTmp f) s s'.
  Proof.
    intros s hn f W d fl cl (pend & disk & Hh & Hd & HW).
    unfold ps_out. rewrite Hh. cbn [psh_open psh_mode ps_writable andb psh_pend psh_name psh_data psh_pos].
    assert (Hsp : exists now later, (if fl then (pend ++ d, []) else ps_push pol pend d) = (now, later) /\
                    now ++ later = pend ++ d /\ (fl = true -> later = [])).
    { destruct fl.
      - exists (pend ++ d), []. split; [reflexivity|]. split; [apply app_nil_r|reflexivity].
      - eexists _, _. split; [reflexivity|]. split; [apply take_drop|discriminate]. }
    destruct Hsp as (now & later & -> & Hsp & Hfl).
    eexists _, later, (disk ++ now). split; [reflexivity|]. cbn [ps_hs ps_fs ps_next].
    split; [apply ps_hget_hput_same|]. split; [apply ps_get_append_same; exact Hd|].
    split; [rewrite <- app_assoc, Hsp, app_assoc, HW; reflexivity|]. split; [exact Hfl|].
    split; [intros m Hm; apply ps_get_append_other; exact Hm|]. split; [apply Z.le_refl|].
    intros g Hg. apply ps_hget_hput_other. exact Hg.
  Qed.

  Lemma ps_step_put : forall s hn f W op d,
    op = PoWrite hn d \/ op = PoPrintf hn d -> ps_txw s hn f W ->
    exists r s',
      ps_step pol op s = (r, s') /\ ps_txw s' hn f (W ++ d) /\ ps_wrote hn (PsTmp f) s s' /\
      forall A (k : ps_res -> ps_prog A) inp,
        ps_pure (PsDo op k) inp = let '(a, rest, out) := ps_pure (k r) inp in (a, rest, d ++ out).
  Proof.
    intros s hn f W op d Hop Hw.
    destruct (ps_out_txw s hn f W d false false Hw) as (s' & pend & disk & Ho & Hh & Hd & HW & _ & Hwr).
    assert (Hw' : ps_txw s' hn f (W ++ d)) by (exists pend, disk; repeat split; assumption).
    destruct Hop as [-> | ->]; unfold ps_step; [destruct d as [|b d]|].
    - exists (PrInt 0), s. rewrite app_nil_r. split; [reflexivity|]. split; [exact Hw|].
      split; [apply ps_wrote_refl|]. intros. cbn [ps_pure].
      destruct (ps_pure (k (PrInt 0)) inp) as [[a rest] out]. reflexivity.
    - rewrite Ho. exists (PrInt 1), s'. split; [reflexivity|]. split; [exact Hw'|]. split; [exact Hwr|]. reflexivity.
    - rewrite Ho. exists (PrInt (len d)), s'. split; [reflexivity|]. split; [exact Hw'|]. split; [exact Hwr|reflexivity].
  Qed.

  Lemma ps_step_flush : forall s hn f W,
    ps_txw s hn f W ->
    exists s', ps_step pol (PoFlush hn) s = (PrInt 0, s') /\ ps_txw s' hn f W /\
      ps_wrote hn (PsTmp f) s s'.
  Proof.
    intros s hn f W Hw.
    destruct (ps_out_txw s hn f W [] true false Hw) as (s' & pend & disk & Ho & Hh & Hd & HW & _ & Hwr).
    unfold ps_step. rewrite Ho. exists s'. split; [reflexivity|]. split; [|exact Hwr].
    rewrite app_nil_r in HW. exists pend, disk. repeat split; assumption.
  Qed.

  Lemma ps_step_close_w : forall s hn f W,
    ps_txw s hn f W ->
    exists s', ps_step pol (PoClose hn) s = (PrInt 0, s') /\
      ps_get (PsTmp f) (ps_fs s') = Some W /\ ps_wrote hn (PsTmp f) s s'.
  Proof.
    intros s hn f W Hw.
    destruct (ps_out_txw s hn f W [] true true Hw) as (s' & pend & disk & Ho & Hh & Hd & HW & Hfl & Hwr).
    destruct Hw as (pend0 & disk0 & Hh0 & _).
    unfold ps_step. rewrite Hh0. cbn [psh_open psh_mode ps_writable]. rewrite Ho.
    exists s'. split; [reflexivity|]. split; [|exact Hwr].
    rewrite (Hfl eq_refl), !app_nil_r in HW. rewrite <- HW. exact Hd.
  Qed.

  Lemma ps_step_rename : forall s f W,
    ps_get (PsTmp f) (ps_fs s) = Some W ->
    exists s', ps_step pol (PoRename (PsTmp f) (PsBase f)) s = (PrInt 0, s') /\
      ps_view s' f = Some W /\ forall lim, ps_keeps lim f s s'.
  Proof.
    intros s f W H. unfold ps_step. rewrite H. eexists. split; [reflexivity|].
    split; [apply ps_get_put_same|]. intro lim.
    split; [|split; [cbn; lia|reflexivity]]. intros n H1 H2. cbn [ps_fs].
    rewrite ps_get_put_other, ps_get_del_other by assumption. reflexivity.
  Qed.

  (* running a read/write program = its pure meaning on the two streams *)
  Theorem ps_rw_run : forall ho hn A (p : ps_prog A), ps_rw ho hn p ->
    forall s F pos f W lim,
      ho <> hn -> lim <= ho -> lim <= hn -> ps_txr s ho F pos -> ps_txw s hn f W ->
      exists s' pos',
        ps_run pol p s = (fst (fst (ps_pure p (drop pos F))), s') /\
        ps_txr s' ho F pos' /\ drop pos' F = snd (fst (ps_pure p (drop pos F))) /\
        ps_txw s' hn f (W ++ snd (ps_pure p (drop pos F))) /\
        ps_keeps lim f s s'.
  Proof.
    intros ho hn A p Hp.
    induction Hp as [a|sz k _ IH|cap k _ IH|d k _ IH|d k _ IH]; intros s F pos f W lim Hne Hlo Hln Hr Hw.
    - exists s, pos. cbn [ps_run ps_pure fst snd]. rewrite app_nil_r.
      split; [reflexivity|]. split; [exact Hr|]. split; [reflexivity|]. split; [exact Hw|].
      apply ps_keeps_refl.
    - destruct (ps_step_read s ho F pos sz Hr) as (r & s1 & pos1 & Hs & Hr1 & Hm & Hpure).
      cbn [ps_run]. rewrite Hs, Hpure.
      destruct (IH r s1 F pos1 f W lim Hne Hlo Hln Hr1 (ps_moved_txw _ _ _ _ _ _ Hm Hne Hw))
        as (s2 & pos2 & Hrun & Hr2 & Hd2 & Hw2 & Hk).
      apply (ps_moved_wrote _ (PsTmp f)) in Hm.
      exists s2, pos2. split; [exact Hrun|]. split; [exact Hr2|]. split; [exact Hd2|]. split; [exact Hw2|].
      eapply ps_keeps_trans; [eapply ps_wrote_keeps; eassumption|exact Hk].
    - destruct (ps_step_gets s ho F pos cap Hr) as (r & s1 & pos1 & Hs & Hr1 & Hm & Hpure).
      cbn [ps_run]. rewrite Hs, Hpure.
      destruct (IH r s1 F pos1 f W lim Hne Hlo Hln Hr1 (ps_moved_txw _ _ _ _ _ _ Hm Hne Hw))
        as (s2 & pos2 & Hrun & Hr2 & Hd2 & Hw2 & Hk).
      apply (ps_moved_wrote _ (PsTmp f)) in Hm.
      exists s2, pos2. split; [exact Hrun|]. split; [exact Hr2|]. split; [exact Hd2|]. split; [exact Hw2|].
      eapply ps_keeps_trans; [eapply ps_wrote_keeps; eassumption|exact Hk].
    - destruct (ps_step_put s hn f W _ d (or_introl eq_refl) Hw) as (r & s1 & Hs & Hw1 & Hm & Hpure).
      cbn [ps_run]. rewrite Hs, Hpure.
      destruct (IH r s1 F pos f (W ++ d) lim Hne Hlo Hln) as (s2 & pos2 & Hrun & Hr2 & Hd2 & Hw2 & Hk);
        [eapply ps_wrote_txr; [exact Hm|congruence|exact Hr]|exact Hw1|].
      destruct (ps_pure (k r) (drop pos F)) as [[a rest] out]. cbn [fst snd] in *.
      exists s2, pos2. rewrite app_assoc.
      split; [exact Hrun|]. split; [exact Hr2|]. split; [exact Hd2|]. split; [exact Hw2|].
      eapply ps_keeps_trans; [eapply ps_wrote_keeps; eassumption|exact Hk].
    - destruct (ps_step_put s hn f W _ d (or_intror eq_refl) Hw) as (r & s1 & Hs & Hw1 & Hm & Hpure).
      cbn [ps_run]. rewrite Hs, Hpure.
      destruct (IH r s1 F pos f (W ++ d) lim Hne Hlo Hln) as (s2 & pos2 & Hrun & Hr2 & Hd2 & Hw2 & Hk);
        [eapply ps_wrote_txr; [exact Hm|congruence|exact Hr]|exact Hw1|].
      destruct (ps_pure (k r) (drop pos F)) as [[a rest] out]. cbn [fst snd] in *.
      exists s2, pos2. rewrite app_assoc.
      split; [exact Hrun|]. split; [exact Hr2|]. split; [exact Hd2|]. split; [exact Hw2|].
      eapply ps_keeps_trans; [eapply ps_wrote_keeps; eassumption|exact Hk].
  Qed.

  Theorem ps_wo_run : forall hn A (p : ps_prog A), ps_wo hn p ->
    forall s f W inp,
      ps_txw s hn f W ->
      exists s',
        ps_run pol p s = (fst (fst (ps_pure p inp)), s') /\
        ps_txw s' hn f (W ++ snd (ps_pure p inp)) /\ ps_wrote hn (PsTmp f) s s'.
  Proof.
    intros hn A p Hp. induction Hp as [a|d k _ IH|d k _ IH]; intros s f W inp Hw.
    - exists s. cbn [ps_run ps_pure fst snd]. rewrite app_nil_r.
      split; [reflexivity|]. split; [exact Hw|apply ps_wrote_refl].
    - destruct (ps_step_put s hn f W _ d (or_introl eq_refl) Hw) as (r & s1 & Hs & Hw1 & Hm & Hpure).
      cbn [ps_run]. rewrite Hs, Hpure.
      destruct (IH r s1 f (W ++ d) inp Hw1) as (s2 & Hrun & Hw2 & Hk).
      destruct (ps_pure (k r) inp) as [[a rest] out]. cbn [fst snd] in *.
      exists s2. rewrite app_assoc. split; [exact Hrun|]. split; [exact Hw2|].
      eapply ps_wrote_trans; eassumption.
    - destruct (ps_step_put s hn f W _ d (or_intror eq_refl) Hw) as (r & s1 & Hs & Hw1 & Hm & Hpure).
      cbn [ps_run]. rewrite Hs, Hpure.
      destruct (IH r s1 f (W ++ d) inp Hw1) as (s2 & Hrun & Hw2 & Hk).
      destruct (ps_pure (k r) inp) as [[a rest] out]. cbn [fst snd] in *.
      exists s2. rewrite app_assoc. split; [exact Hrun|]. split; [exact Hw2|].
      eapply ps_wrote_trans; eassumption.
  Qed.

  Theorem ps_ro_run : forall ho A (p : ps_prog A), ps_ro ho p ->
    forall s F pos, ps_txr s ho F pos ->
      exists s' pos',
        ps_run pol p s = (fst (fst (ps_pure p (drop pos F))), s') /\
        ps_txr s' ho F pos' /\ drop pos' F = snd (fst (ps_pure p (drop pos F))) /\
        ps_moved ho s s'.
  Proof.
    intros ho A p Hp. induction Hp as [a|sz k _ IH|cap k _ IH]; intros s F pos Hr.
    - exists s, pos. cbn [ps_run ps_pure fst snd].
      split; [reflexivity|]. split; [exact Hr|]. split; [reflexivity|apply ps_moved_refl].
    - destruct (ps_step_read s ho F pos sz Hr) as (r & s1 & pos1 & Hs & Hr1 & Hm & Hpure).
      cbn [ps_run]. rewrite Hs, Hpure.
      destruct (IH r s1 F pos1 Hr1) as (s2 & pos2 & Hrun & Hr2 & Hd2 & Hk).
      exists s2, pos2. split; [exact Hrun|]. split; [exact Hr2|]. split; [exact Hd2|].
      eapply ps_moved_trans; eassumption.
    - destruct (ps_step_gets s ho F pos cap Hr) as (r & s1 & pos1 & Hs & Hr1 & Hm & Hpure).
      cbn [ps_run]. rewrite Hs, Hpure.
      destruct (IH r s1 F pos1 Hr1) as (s2 & pos2 & Hrun & Hr2 & Hd2 & Hk).
      exists s2, pos2. split; [exact Hrun|]. split; [exact Hr2|]. split; [exact Hd2|].
      eapply ps_moved_trans; eassumption.
  Qed.
End Steps.
