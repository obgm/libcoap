(* C17 - the invariant that links the in-memory server state of Server.v to the three files
   (abstract state of History.v) and to the Observe values sent so far, and its preservation by
   every server event. *)
From LibcoapV Require Import Base.Tactics Base.Bytes Base.BytesProofs Persist.Records
  Persist.RecordsProofs Persist.UpdatersProofs Persist.History Persist.Server Persist.Restore
  Persist.MemLemmas Persist.EventCalls Persist.Counter.
Local Open Scope Z_scope.

Definition ps_ol {X : Type} (v : option (list X)) : list X :=
  match v with Some l => l | None => [] end.

Section Coh.
  Variable app : bytes -> option (bytes * bool).
  Variable req : bytes -> option (bytes * bytes * bytes).
  Variable alloc : list bytes -> bytes.
  Variable c : ps_cfg.
  Variable m0 : ps_mem.                       (* the resources the application registers itself *)
  Hypothesis alloc_fresh : forall live, ~ In (alloc live) live.
  Hypothesis alloc_len : forall live, len (alloc live) = PS_KEY.
  Hypothesis cfg_proto : len (psc_proto c) = PS_PROTO.
  Hypothesis cfg_listen : len (psc_listen c) = psc_la c.
  Hypothesis freq_pos : 0 < psc_freq c.
  Hypothesis freq_small : psc_freq c < 1000000.

  (* no wrap of the 24-bit counter: the histories considered keep r->observe below this bound *)
  Definition ps_bound : Z := 16777216 - psc_freq c - 2.

  Record ps_inv (m : ps_mem) (A : ps_abs) (G : list ps_send) : Prop := mkInv {
    iv_names : NoDup (map psr_name m);
    iv_res : forall n r, ps_find n m = Some r ->
               ps_name_ok n /\ 0 <= psr_observe r <= ps_bound /\
               NoDup (map pss_key (psr_subs r)) /\ (psr_subs r <> [] -> psr_observable r = true);
    iv_sub : forall n s, ps_insub m n s ->
               req (pss_pkt s) = Some (n, pss_token s, pss_ck s) /\ len (pss_key s) = PS_KEY /\
               len (pss_tuple s) = psc_lt c /\ 1 <= len (pss_pkt s) <= PS_MAX;
    iv_key : forall n1 s1 n2 s2, ps_insub m n1 s1 -> ps_insub m n2 s2 ->
               pss_key s1 = pss_key s2 -> n1 = n2 /\ s1 = s2;
    iv_tok : forall n s1 s2, ps_insub m n s1 -> ps_insub m n s2 ->
               pss_tuple s1 = pss_tuple s2 -> pss_token s1 = pss_token s2 -> s1 = s2;
    iv_ck : forall n s1 s2, ps_insub m n s1 -> ps_insub m n s2 ->
               pss_tuple s1 = pss_tuple s2 -> pss_ck s1 = pss_ck s2 -> s1 = s2;
    iv_wf : ps_abs_wf (psc_la c) (psc_lt c) A;
    iv_dyn : forall n r, ps_find n m = Some r -> psr_observable r = true ->
               ps_has m0 n \/ exists d, In d (ps_ol (ab_dyn A)) /\ psd_name d = n;
    iv_dynf : forall d, In d (ps_ol (ab_dyn A)) ->
               app (psd_pkt d) = Some (psd_name d, true) /\ ps_name_ok (psd_name d);
    iv_obs1 : forall n s, ps_insub m n s -> In (ps_obs_of c s) (ps_ol (ab_obs A));
    iv_obs2 : forall rec, In rec (ps_ol (ab_obs A)) -> exists n s, ps_insub m n s /\ rec = ps_obs_of c s;
    iv_obs3 : NoDup (map pso_key (ps_ol (ab_obs A)));
    iv_cnt0 : forall n x, In (n, x) (ps_ol (ab_cnt A)) -> ps_has m n;
    iv_cnt1 : NoDup (map fst (ps_ol (ab_cnt A)));
    iv_cnt2 : forall n x r, In (n, x) (ps_ol (ab_cnt A)) -> ps_find n m = Some r ->
               0 <= x /\ x <= psr_observe r <= ps_rnd (psc_freq c) x;
    iv_cnt3 : forall n r, ps_find n m = Some r -> psr_subs r <> [] ->
               exists x, In (n, x) (ps_ol (ab_cnt A));
    iv_sent : forall n tu tok v, In (n, tu, tok, v) G ->
               exists r, ps_find n m = Some r /\ v <= psr_observe r /\
                         exists x, In (n, x) (ps_ol (ab_cnt A))
  }.

  (* the arguments an event must have so that its records are well-formed, and the facts about
     the outside world it stands for (the handler creates what it created; the stored request
     is the request that was handled) *)
  Definition ps_evt_ok (e : ps_event) (m : ps_mem) : Prop :=
    match e with
    | PsEvPut name observable pkt =>
        ps_name_ok name /\ 1 <= len pkt <= PS_MAX /\ app pkt = Some (name, observable)
    | PsEvReg name tuple token ck pkt =>
        req pkt = Some (name, token, ck) /\ len tuple = psc_lt c /\ 1 <= len pkt <= PS_MAX
    | PsEvNotify name | PsEvDel name =>
        forall r, ps_find name m = Some r -> psr_observe r < ps_bound
    | PsEvCancel _ _ _ _ => True
    | PsEvRaw _ => False
    end.

  (* the Observe values sent so far that still count: those of a deleted resource are forgotten *)
  Definition ps_ghost (e : ps_event) (m : ps_mem) (G : list ps_send) : list ps_send :=
    match e with
    | PsEvDel name =>
        match ps_find name m with
        | Some _ => filter (fun x => negb (ps_beq name (fst (fst (fst x))))) G
        | None => G
        end
    | _ => G ++ snd (ps_ev_out alloc e m)
    end.

  (* The fields of ps_inv fall into groups that depend on the memory state in different ways:
     the resources themselves, the subscriptions (through ps_insub only, and downward closed in
     it), and one group per file.  An event step touches few of them; the others follow from
     how the step changes lookup and ps_insub. *)
  Definition ps_rsrcs_ok (m : ps_mem) : Prop :=
    NoDup (map psr_name m) /\
    forall n r, ps_find n m = Some r ->
      ps_name_ok n /\ 0 <= psr_observe r <= ps_bound /\
      NoDup (map pss_key (psr_subs r)) /\ (psr_subs r <> [] -> psr_observable r = true).

  Definition ps_subs_ok (m : ps_mem) : Prop :=
    (forall n s, ps_insub m n s ->
       req (pss_pkt s) = Some (n, pss_token s, pss_ck s) /\ len (pss_key s) = PS_KEY /\
       len (pss_tuple s) = psc_lt c /\ 1 <= len (pss_pkt s) <= PS_MAX) /\
    (forall n1 s1 n2 s2, ps_insub m n1 s1 -> ps_insub m n2 s2 ->
       pss_key s1 = pss_key s2 -> n1 = n2 /\ s1 = s2) /\
    (forall n s1 s2, ps_insub m n s1 -> ps_insub m n s2 ->
       pss_tuple s1 = pss_tuple s2 -> pss_token s1 = pss_token s2 -> s1 = s2) /\
    (forall n s1 s2, ps_insub m n s1 -> ps_insub m n s2 ->
       pss_tuple s1 = pss_tuple s2 -> pss_ck s1 = pss_ck s2 -> s1 = s2).

  Definition ps_dyn_ok (m : ps_mem) (D : list ps_dyn) : Prop :=
    (forall n r, ps_find n m = Some r -> psr_observable r = true ->
       ps_has m0 n \/ exists d, In d D /\ psd_name d = n) /\
    (forall d, In d D -> app (psd_pkt d) = Some (psd_name d, true) /\ ps_name_ok (psd_name d)).

  Definition ps_obs_ok (m : ps_mem) (O : list ps_obs) : Prop :=
    (forall n s, ps_insub m n s -> In (ps_obs_of c s) O) /\
    (forall rec, In rec O -> exists n s, ps_insub m n s /\ rec = ps_obs_of c s) /\
    NoDup (map pso_key O).

  Definition ps_cnt_ok (m : ps_mem) (C : list (bytes * Z)) (G : list ps_send) : Prop :=
    (forall n x, In (n, x) C -> ps_has m n) /\
    NoDup (map fst C) /\
    (forall n x r, In (n, x) C -> ps_find n m = Some r ->
       0 <= x /\ x <= psr_observe r <= ps_rnd (psc_freq c) x) /\
    (forall n r, ps_find n m = Some r -> psr_subs r <> [] -> exists x, In (n, x) C) /\
    (forall n tu tok v, In (n, tu, tok, v) G ->
       exists r, ps_find n m = Some r /\ v <= psr_observe r /\ exists x, In (n, x) C).

  Lemma ps_inv_parts : forall m A G,
    ps_inv m A G <->
    ps_rsrcs_ok m /\ ps_subs_ok m /\ ps_abs_wf (psc_la c) (psc_lt c) A /\
    ps_dyn_ok m (ps_ol (ab_dyn A)) /\ ps_obs_ok m (ps_ol (ab_obs A)) /\ ps_cnt_ok m (ps_ol (ab_cnt A)) G.
  Proof.
    intros m A G. split.
    - intros [R1 R2 S1 S2 S3 S4 W D1 D2 O1 O2 O3 C0 C1 C2 C3 C4].
      exact (conj (conj R1 R2) (conj (conj S1 (conj S2 (conj S3 S4))) (conj W (conj (conj D1 D2)
               (conj (conj O1 (conj O2 O3)) (conj C0 (conj C1 (conj C2 (conj C3 C4))))))))).
    - intros ((R1 & R2) & (S1 & S2 & S3 & S4) & W & (D1 & D2) & (O1 & O2 & O3) & (C0 & C1 & C2 & C3 & C4)).
      constructor; assumption.
  Qed.

  Lemma ps_subs_ok_incl : forall m m',
    ps_subs_ok m -> (forall n s, ps_insub m' n s -> ps_insub m n s) -> ps_subs_ok m'.
  Proof.
    intros m m' (S1 & S2 & S3 & S4) H. split; [|split; [|split]].
    - intros n s Hs. apply (S1 n s (H n s Hs)).
    - intros n1 s1 n2 s2 H1 H2. apply S2; apply H; assumption.
    - intros n s1 s2 H1 H2. apply (S3 n); apply H; assumption.
    - intros n s1 s2 H1 H2. apply (S4 n); apply H; assumption.
  Qed.

  Lemma ps_obs_ok_iff : forall m m' O,
    ps_obs_ok m O -> (forall n s, ps_insub m' n s <-> ps_insub m n s) -> ps_obs_ok m' O.
  Proof.
    intros m m' O (O1 & O2 & O3) H. split; [|split; [|exact O3]].
    - intros n s Hs. apply (O1 n s). apply H. exact Hs.
    - intros rec Hr. destruct (O2 rec Hr) as (n & s & Hs & E). exists n, s. split; [apply H; exact Hs|exact E].
  Qed.

  Lemma ps_rsrcs_ok_replace : forall m name r new,
    ps_rsrcs_ok m -> ps_find name m = Some r -> psr_name new = name ->
    0 <= psr_observe new <= ps_bound -> NoDup (map pss_key (psr_subs new)) -> psr_observable new = true ->
    ps_rsrcs_ok (ps_replace new m).
  Proof.
    intros m name r new (R1 & R2) Hf Hn Hv Hk Ho. split.
    - rewrite (ps_names_replace new m name Hn). exact R1.
    - intros n r' Hf'. destruct (ps_find_replace_inv new m name r n r' Hn Hf Hf') as [[-> ->]|[_ Hf0]].
      + split; [apply (R2 name r Hf)|]. split; [exact Hv|]. split; [exact Hk|]. intros _. exact Ho.
      + apply (R2 n r' Hf0).
  Qed.

  Lemma ps_dyn_ok_replace : forall m D name r new,
    ps_dyn_ok m D -> ps_find name m = Some r -> psr_observable r = true -> psr_name new = name ->
    ps_dyn_ok (ps_replace new m) D.
  Proof.
    intros m D name r new (D1 & D2) Hf Ho Hn. split; [|exact D2]. intros n r' Hf' Ho'.
    destruct (ps_find_replace_inv new m name r n r' Hn Hf Hf') as [[-> _]|[_ Hf0]].
    - apply (D1 name r Hf Ho).
    - apply (D1 n r' Hf0 Ho').
  Qed.

  (* The counter file and the sent values when resource [name] is replaced by [new]: its counter
     does not go down, the other lines stay, the line of [name] covers the new counter, and there
     is one if there was one, if [new] has observers, or if responses G2 go out. *)
  Lemma ps_cnt_ok_replace : forall m C C' G G2 name r new,
    ps_cnt_ok m C G -> ps_find name m = Some r -> psr_name new = name ->
    psr_observe r <= psr_observe new ->
    NoDup (map fst C') ->
    (forall n x, n <> name -> (In (n, x) C' <-> In (n, x) C)) ->
    (forall x, In (name, x) C' -> 0 <= x /\ x <= psr_observe new <= ps_rnd (psc_freq c) x) ->
    ((exists x, In (name, x) C) \/ psr_subs new <> [] \/ G2 <> [] -> exists x, In (name, x) C') ->
    (forall n tu tok v, In (n, tu, tok, v) G2 -> n = name /\ v <= psr_observe new) ->
    ps_cnt_ok (ps_replace new m) C' (G ++ G2).
  Proof.
    intros m C C' G G2 name r new (C0 & C1 & C2 & C3 & C4) Hf Hn Hv Hnd Hoth Hcov Hline HG2.
    assert (Hfind := fun n r' => ps_find_replace_inv new m name r n r' Hn Hf).
    assert (Hsame := ps_find_replace_same new m name r Hn Hf).
    assert (Hother : forall n, n <> name -> ps_find n (ps_replace new m) = ps_find n m)
      by (intros n Hne; apply ps_find_replace_other; rewrite Hn; exact Hne).
    assert (Hkeep : forall n, (exists x, In (n, x) C) -> exists x, In (n, x) C').
    { intros n [x Hx]. destruct (ps_bytes_dec n name) as [->|Hne]; [apply Hline; left; exists x; exact Hx|].
      exists x. apply (Hoth n x Hne). exact Hx. }
    split; [|split; [exact Hnd|split; [|split]]].
    - intros n x Hin. unfold ps_has. destruct (ps_bytes_dec n name) as [->|Hne].
      + rewrite Hsame. discriminate.
      + rewrite (Hother n Hne). apply (C0 n x). apply (Hoth n x Hne). exact Hin.
    - intros n x r' Hin Hf'. destruct (Hfind n r' Hf') as [[-> ->]|[Hne Hf0]].
      + apply (Hcov x Hin).
      + apply (C2 n x r'); [apply (Hoth n x Hne); exact Hin|exact Hf0].
    - intros n r' Hf' Hsub'. destruct (Hfind n r' Hf') as [[-> ->]|[Hne Hf0]].
      + apply Hline. right. left. exact Hsub'.
      + apply Hkeep. apply (C3 n r' Hf0 Hsub').
    - intros n tu tok v Hin. apply in_app_or in Hin. destruct Hin as [Hin|Hin].
      + destruct (C4 n tu tok v Hin) as (r' & Hf' & Hv' & Hl). destruct (ps_bytes_dec n name) as [->|Hne].
        * rewrite Hf in Hf'. inversion Hf'; subst r'. exists new.
          split; [exact Hsame|]. split; [lia|apply Hkeep; exact Hl].
        * exists r'. rewrite (Hother n Hne). split; [exact Hf'|]. split; [exact Hv'|apply Hkeep; exact Hl].
      + destruct (HG2 n tu tok v Hin) as [-> Hv']. exists new. split; [exact Hsame|]. split; [exact Hv'|].
        apply Hline. right. right. intro E. rewrite E in Hin. contradiction.
  Qed.

  Lemma ps_ol_add : forall X (w : list X -> list X) a v,
    w [] = [] -> ps_ol (ps_add w a v) = w (ps_ol v) ++ [a].
  Proof. intros X w a [l|] H; cbn [ps_add ps_ol]; [reflexivity|rewrite H; reflexivity]. Qed.

  Lemma ps_ol_rem : forall X (w : list X -> list X) v,
    w [] = [] -> ps_ol (ps_rem w v) = w (ps_ol v).
  Proof. intros X w [l|] H; cbn [ps_rem ps_ol]; [reflexivity|rewrite H; reflexivity]. Qed.

  Lemma ps_optall_ol : forall X (P : X -> Prop) v, ps_optall P v -> Forall P (ps_ol v).
  Proof. intros X P [l|] H; [exact H|constructor]. Qed.

  Lemma ps_optlen_ol : forall X (v : option (list X)), length (ps_ol v) = ps_optlen v.
  Proof. intros X [l|]; reflexivity. Qed.

  Lemma ps_abs_calls_app : forall l1 l2 A, ps_abs_calls (l1 ++ l2) A = ps_abs_calls l2 (ps_abs_calls l1 A).
  Proof. induction l1 as [|x l1 IH]; intros l2 A; cbn [List.app ps_abs_calls]; [reflexivity|apply IH]. Qed.

  Lemma ps_cnt_without_in : forall name C n x,
    In (n, x) (ps_cnt_without name C) <-> n <> name /\ In (n, x) C.
  Proof.
    intros name C n x. unfold ps_cnt_without. rewrite filter_In. cbn [fst]. split.
    - intros [Hin Hb]. split; [|exact Hin]. intro E. subst. rewrite ps_beq_refl in Hb. discriminate.
    - intros [Hne Hin]. split; [exact Hin|]. rewrite ps_beq_false; [reflexivity|congruence].
  Qed.

  Lemma ps_dyn_without_in : forall name D d,
    In d (ps_dyn_without name D) <-> In d D /\ psd_name d <> name.
  Proof.
    intros name D d. unfold ps_dyn_without. rewrite filter_In. split.
    - intros [Hin Hb]. split; [exact Hin|]. intro E. rewrite <- E, ps_beq_refl in Hb. discriminate.
    - intros [Hin Hne]. split; [exact Hin|]. rewrite ps_beq_false; [reflexivity|congruence].
  Qed.

  Lemma ps_obs_without_in : forall key O rec,
    In rec (ps_obs_without key O) <-> In rec O /\ pso_key rec <> key.
  Proof.
    intros key O rec. unfold ps_obs_without. rewrite filter_In. split.
    - intros [Hin Hb]. split; [exact Hin|]. intro E. rewrite E, ps_beq_refl in Hb. discriminate.
    - intros [Hin Hne]. split; [exact Hin|]. rewrite ps_beq_false; [reflexivity|exact Hne].
  Qed.

  (* the counter file after track_observe_value *)
  Lemma ps_cnt_set_nodup : forall name v C,
    NoDup (map fst C) -> NoDup (map fst (ps_cnt_without name C ++ [(name, v)])).
  Proof.
    intros name v C H. rewrite map_app. apply NoDup_snoc; [apply NoDup_map_filter; exact H|].
    intro Hin. apply in_map_iff in Hin. destruct Hin as ([n x] & E & Hin). cbn [fst] in E. subst n.
    apply ps_cnt_without_in in Hin. destruct Hin as [Hne _]. congruence.
  Qed.

  Lemma ps_cnt_set_in : forall name v C n x,
    In (n, x) (ps_cnt_without name C ++ [(name, v)]) <->
    (n <> name /\ In (n, x) C) \/ (n = name /\ x = v).
  Proof.
    intros. rewrite in_app_iff, ps_cnt_without_in. cbn [In]. split.
    - intros [H|[E|[]]]; [left; exact H|right; inversion E; split; reflexivity].
    - intros [H|[-> ->]]; [left; exact H|right; left; reflexivity].
  Qed.

  Lemma ps_insub_same_subs : forall new m name rs n s,
    psr_name new = name -> ps_find name m = Some rs -> psr_subs new = psr_subs rs ->
    (ps_insub (ps_replace new m) n s <-> ps_insub m n s).
  Proof.
    intros new m name rs n s Hn Hf Hs. rewrite (ps_insub_replace new m name rs n s Hn Hf), Hs.
    destruct (ps_bytes_dec n name) as [->|Hne].
    - pose proof (ps_insub_at m name rs s Hf) as Hat. clear - Hat. tauto.
    - clear - Hne. tauto.
  Qed.

  Lemma ps_next_observe_ok : forall v, 0 <= v < ps_bound -> ps_next_observe v = v + 1.
  Proof. intros v H. unfold ps_next_observe, ps_bound in *. apply Z.mod_small. lia. Qed.

  Notation wf_calls := (Forall (ps_call_wf (psc_la c) (psc_lt c))).

  Lemma ps_abs_wf_calls : forall calls A,
    ps_abs_wf (psc_la c) (psc_lt c) A -> wf_calls calls -> ps_abs_wf (psc_la c) (psc_lt c) (ps_abs_calls calls A).
  Proof. intros calls A HA Hc. apply (ps_abs_calls_wf c); assumption. Qed.

  (* The counter of a resource goes up to v, and the counter file is either rewritten with v
     (track) or has a line that still covers v; responses carrying v may go out to observers l.
     A notification is this with v = r->observe + 1, a registration with v = r->observe. *)
  Lemma ps_inv_observe : forall name m A G r v (track : bool) l,
    ps_inv m A G -> ps_find name m = Some r -> psr_observable r = true ->
    psr_observe r <= v <= ps_bound ->
    (track = false -> (exists x, In (name, x) (ps_ol (ab_cnt A))) /\
                      forall x, In (name, x) (ps_ol (ab_cnt A)) -> v <= ps_rnd (psc_freq c) x) ->
    let calls := if track then [CCntTrack name v] else [] in
    wf_calls calls /\
    ps_inv (ps_replace (mkRsrc name true v (psr_subs r)) m) (ps_abs_calls calls A)
           (G ++ map (fun s => (name, pss_tuple s, pss_token s, v)) l).
  Proof.
    intros name m A G r v track l Hi Hf Hobs Hv Hcov calls.
    destruct (iv_res _ _ _ Hi name r Hf) as (Hnok & Hrange & Hnd & _).
    assert (Hcw : wf_calls calls).
    { subst calls. destruct track; [|constructor]. constructor; [|constructor].
      cbn [ps_call_wf]. split; [exact Hnok|]. unfold ps_bound in Hv. clear - Hrange Hv freq_pos. lia. }
    split; [exact Hcw|].
    set (new := mkRsrc name true v (psr_subs r)).
    assert (Hiff : forall n s, ps_insub (ps_replace new m) n s <-> ps_insub m n s)
      by (intros; apply (ps_insub_same_subs new m name r); [reflexivity|exact Hf|reflexivity]).
    assert (Hfind := fun n r' => ps_find_replace_inv new m name r n r' eq_refl Hf).
    assert (Hsame : ab_dyn (ps_abs_calls calls A) = ab_dyn A /\ ab_obs (ps_abs_calls calls A) = ab_obs A)
      by (subst calls; destruct track; split; reflexivity).
    destruct Hsame as [Hdynf Hobsf].
    apply ps_inv_parts in Hi. destruct Hi as (HR & HS & HW & HD & HO & HC).
    apply ps_inv_parts. split; [|split; [|split; [|split; [|split]]]].
    - apply (ps_rsrcs_ok_replace m name r new HR Hf); try reflexivity; [cbn [psr_observe new]; lia|exact Hnd].
    - apply (ps_subs_ok_incl m _ HS). intros n s. apply Hiff.
    - apply ps_abs_wf_calls; assumption.
    - rewrite Hdynf. apply (ps_dyn_ok_replace m _ name r new HD Hf Hobs eq_refl).
    - rewrite Hobsf. apply (ps_obs_ok_iff m _ _ HO Hiff).
    - pose proof HC as (_ & C1 & C2 & _).
      assert (HG2 : forall n tu tok v0, In (n, tu, tok, v0) (map (fun s => (name, pss_tuple s, pss_token s, v)) l) ->
                      n = name /\ v0 <= psr_observe new).
      { intros n tu tok v0 Hin. apply in_map_iff in Hin. destruct Hin as (s & E & _). inversion E.
        split; [reflexivity|cbn [psr_observe new]; lia]. }
      subst calls. destruct track.
      + cbn [ps_abs_calls ps_abs_call ab_cnt]. rewrite ps_ol_add by reflexivity.
        apply (ps_cnt_ok_replace m _ _ G _ name r new HC Hf eq_refl);
          [cbn [psr_observe new]; lia|apply ps_cnt_set_nodup; exact C1| | | |exact HG2].
        * intros n x Hne. rewrite ps_cnt_set_in. split; [|intro H; left; split; assumption].
          intros [[_ H]|[E _]]; [exact H|contradiction].
        * intros x Hin. apply ps_cnt_set_in in Hin. destruct Hin as [[E _]|[_ ->]]; [contradiction|].
          cbn [psr_observe new]. pose proof (ps_rnd_ge (psc_freq c) freq_pos v). lia.
        * intros _. exists v. apply ps_cnt_set_in. right. split; reflexivity.
      + destruct (Hcov eq_refl) as [Hex Hall].
        apply (ps_cnt_ok_replace m _ _ G _ name r new HC Hf eq_refl);
          [cbn [psr_observe new]; lia|exact C1|tauto| |intros _; exact Hex|exact HG2].
        intros x Hin. destruct (C2 name x r Hin Hf) as (Hx & Hxr & _). cbn [psr_observe new].
        specialize (Hall x Hin). lia.
  Qed.

  (* a notification: the counter goes up by one and is saved when it reaches a multiple of save_freq;
     otherwise the line on disk, which exists because there are observers, still covers it *)
  Lemma ps_inv_bump : forall name m A G r l,
    ps_inv m A G -> ps_find name m = Some r -> psr_observable r = true -> psr_subs r <> [] ->
    psr_observe r < ps_bound ->
    let v := psr_observe r + 1 in
    let calls := if v mod psc_freq c =? 0 then [CCntTrack name v] else [] in
    wf_calls calls /\
    ps_inv (ps_replace (mkRsrc name true v (psr_subs r)) m) (ps_abs_calls calls A)
           (G ++ map (fun s => (name, pss_tuple s, pss_token s, v)) l).
  Proof.
    intros name m A G r l Hi Hf Hobs Hsubs Hok v calls.
    destruct (iv_res _ _ _ Hi name r Hf) as (_ & Hrange & _).
    apply (ps_inv_observe name m A G r v (v mod psc_freq c =? 0) l Hi Hf Hobs); [subst v; lia|].
    intro E. apply Z.eqb_neq in E. split; [apply (iv_cnt3 _ _ _ Hi name r Hf Hsubs)|].
    intros x Hin. destruct (iv_cnt2 _ _ _ Hi name x r Hin Hf) as (Hx & Hxr).
    pose proof (ps_rnd_next (psc_freq c) freq_pos x (psr_observe r) Hx (proj1 Hxr) (proj2 Hxr)) as Hn.
    assert (psr_observe r <> ps_rnd (psc_freq c) x) by (intro Eq; apply E; apply Hn; exact Eq).
    subst v. lia.
  Qed.

  Definition ps_ev_keeps (e : ps_event) : Prop :=
    forall m A G, ps_inv m A G -> ps_evt_ok e m ->
      wf_calls (ps_ev_calls alloc c e m) /\
      ps_inv (fst (ps_ev_out alloc e m)) (ps_abs_calls (ps_ev_calls alloc c e m) A) (ps_ghost e m G).

  Lemma ps_inv_noop : forall m A G, ps_inv m A G -> wf_calls [] /\ ps_inv m A (G ++ []).
  Proof. intros m A G Hi. rewrite app_nil_r. split; [constructor|exact Hi]. Qed.

  Lemma ps_inv_notify : forall name, ps_ev_keeps (PsEvNotify name).
  Proof.
    intros name m A G Hi Hok. unfold ps_ghost. cbn [ps_ev_calls ps_ev_out ps_evt_ok] in *.
    destruct (ps_find name m) as [r|] eqn:Hf; [|exact (ps_inv_noop m A G Hi)].
    destruct (psr_observable r) eqn:Hobs; [|exact (ps_inv_noop m A G Hi)].
    destruct (psr_subs r) as [|s0 l] eqn:Hsubs; [exact (ps_inv_noop m A G Hi)|].
    destruct (iv_res _ _ _ Hi name r Hf) as (_ & Hrange & _). specialize (Hok r eq_refl).
    rewrite (ps_next_observe_ok (psr_observe r)) by lia. cbn [fst snd]. rewrite <- Hsubs.
    apply (ps_inv_bump name m A G r (psr_subs r) Hi Hf Hobs); [rewrite Hsubs; discriminate|exact Hok].
  Qed.

  Lemma ps_insub_app_fresh : forall m x n s,
    psr_subs x = [] -> (ps_insub (m ++ [x]) n s <-> ps_insub m n s).
  Proof.
    intros m x n s Hx. unfold ps_insub. rewrite ps_find_app. split.
    - intros (r & E & Hin). destruct (ps_find n m) as [r0|].
      + inversion E; subst. exists r. split; [reflexivity|exact Hin].
      + destruct (ps_beq n (psr_name x)); [|discriminate]. inversion E; subst. rewrite Hx in Hin. contradiction.
    - intros (r & E & Hin). rewrite E. exists r. split; [reflexivity|exact Hin].
  Qed.

  Lemma ps_inv_put : forall name observable pkt, ps_ev_keeps (PsEvPut name observable pkt).
  Proof.
    intros name observable pkt m A G Hi (Hnok & Hpk & Happ). unfold ps_ghost.
    cbn [ps_ev_calls ps_ev_out].
    destruct (ps_find name m) as [r0|] eqn:Hf; [exact (ps_inv_noop m A G Hi)|].
    cbn [fst snd]. rewrite app_nil_r.
    set (new := mkRsrc name observable PS_OBSERVE0 []).
    set (d := mkDyn (psc_proto c) name pkt).
    set (calls := if observable then [CDynAdded d] else []).
    assert (Hcw : wf_calls calls).
    { subst calls. destruct observable; [|constructor]. constructor; [|constructor].
      cbn [ps_call_wf]. unfold ps_dyn_wf. cbn [psd_proto psd_name psd_pkt d].
      destruct Hnok as [_ Hl]. unfold PS_LINE, PS_MAX in *. pose proof (len_nonneg name).
      split; [exact cfg_proto|]. split; lia. }
    split; [exact Hcw|].
    assert (Hoc : ab_obs (ps_abs_calls calls A) = ab_obs A /\ ab_cnt (ps_abs_calls calls A) = ab_cnt A)
      by (subst calls; destruct observable; split; reflexivity).
    destruct Hoc as [Hobsf Hcntf].
    assert (Hiff : forall n s, ps_insub (m ++ [new]) n s <-> ps_insub m n s)
      by (intros; apply ps_insub_app_fresh; reflexivity).
    assert (Hfind : forall n r, ps_find n (m ++ [new]) = Some r ->
                      ps_find n m = Some r \/ (ps_find n m = None /\ n = name /\ r = new)).
    { intros n r Hr. rewrite ps_find_app in Hr. destruct (ps_find n m) as [r1|]; [left; exact Hr|right].
      cbn [psr_name new] in Hr. destruct (ps_beq n name) eqn:En; [|discriminate].
      apply ps_beq_eq in En. inversion Hr. split; [reflexivity|split; [exact En|reflexivity]]. }
    assert (Hkeep : forall n r, ps_find n m = Some r -> ps_find n (m ++ [new]) = Some r)
      by (intros n r Hr; rewrite ps_find_app, Hr; reflexivity).
    apply ps_inv_parts in Hi.
    destruct Hi as ((R1 & R2) & HS & HW & (D1 & D2) & HO & (C0 & C1 & C2 & C3 & C4)).
    apply ps_inv_parts. split; [|split; [|split; [|split; [|split]]]].
    - split; [apply ps_names_app; [exact R1|exact Hf]|].
      intros n r Hr. destruct (Hfind n r Hr) as [Hr0|(_ & -> & ->)]; [apply (R2 n r Hr0)|].
      cbn [psr_observe psr_subs new]. split; [exact Hnok|]. unfold ps_bound, PS_OBSERVE0.
      split; [lia|]. split; [constructor|]. intro X. contradiction.
    - apply (ps_subs_ok_incl m _ HS). intros n s. apply Hiff.
    - apply ps_abs_wf_calls; assumption.
    - split.
      + intros n r Hr Ho. destruct (Hfind n r Hr) as [Hr0|(_ & -> & ->)].
        * destruct (D1 n r Hr0 Ho) as [Hs|(d0 & Hd0 & Hn0)]; [left; exact Hs|].
          right. exists d0. split; [|exact Hn0]. subst calls. destruct observable; [|exact Hd0].
          cbn [ps_abs_calls ps_abs_call ab_dyn]. rewrite ps_ol_add by reflexivity. apply in_or_app. left.
          apply ps_dyn_without_in. split; [exact Hd0|]. cbn [psd_name d]. intro E. congruence.
        * cbn [psr_observable new] in Ho. subst observable. right. exists d. split; [|reflexivity].
          cbn [ps_abs_calls ps_abs_call ab_dyn calls]. rewrite ps_ol_add by reflexivity.
          apply in_or_app. right. left. reflexivity.
      + intros d0 Hd0. subst calls. destruct observable; [|apply (D2 d0 Hd0)].
        cbn [ps_abs_calls ps_abs_call ab_dyn] in Hd0. rewrite ps_ol_add in Hd0 by reflexivity.
        apply in_app_or in Hd0. destruct Hd0 as [Hd0|[<-|[]]].
        * apply ps_dyn_without_in in Hd0. apply (D2 d0 (proj1 Hd0)).
        * cbn [psd_pkt psd_name d]. split; assumption.
    - rewrite Hobsf. apply (ps_obs_ok_iff m _ _ HO Hiff).
    - rewrite Hcntf. split; [|split; [exact C1|split; [|split]]].
      + intros n x Hin. pose proof (C0 n x Hin) as Hh. unfold ps_has in *.
        destruct (ps_find n m) as [r|] eqn:E; [|contradiction]. rewrite (Hkeep n r E). discriminate.
      + intros n x r Hin Hr. destruct (Hfind n r Hr) as [Hr0|(Hnone & _)]; [apply (C2 n x r Hin Hr0)|].
        exfalso. apply (C0 n x Hin). exact Hnone.
      + intros n r Hr Hs. destruct (Hfind n r Hr) as [Hr0|(_ & _ & ->)]; [apply (C3 n r Hr0 Hs)|].
        cbn [psr_subs new] in Hs. contradiction.
      + intros n tu tok v Hin. destruct (C4 n tu tok v Hin) as (r & Hr & Hv & Hl).
        exists r. split; [apply Hkeep; exact Hr|]. split; assumption.
  Qed.

  Lemma ps_inv_drop : forall name m A G r s,
    ps_inv m A G -> ps_find name m = Some r -> psr_observable r = true -> In s (psr_subs r) ->
    ps_inv (ps_replace (mkRsrc name true (psr_observe r) (ps_drop_key (pss_key s) (psr_subs r))) m)
           (ps_abs_call (CObsDeleted (pss_key s)) A) G.
  Proof.
    intros name m A G r s Hi Hf Hobs Hs.
    destruct (iv_res _ _ _ Hi name r Hf) as (_ & Hrange & Hnd & _).
    set (new := mkRsrc name true (psr_observe r) (ps_drop_key (pss_key s) (psr_subs r))).
    assert (Hsin : ps_insub m name s) by (exists r; split; assumption).
    assert (Hiff : forall n s', ps_insub (ps_replace new m) n s' <->
                                ps_insub m n s' /\ pss_key s' <> pss_key s).
    { intros n s'. rewrite (ps_insub_replace new m name r n s' eq_refl Hf). cbn [psr_subs new].
      rewrite (ps_drop_key_in _ _ s' Hnd). destruct (ps_bytes_dec n name) as [->|Hne].
      - pose proof (ps_insub_at m name r s' Hf) as Hat. clear - Hat. tauto.
      - assert (Hk : ps_insub m n s' -> pss_key s' <> pss_key s)
          by (intros Hin Ek; destruct (iv_key _ _ _ Hi n s' name s Hin Hsin Ek); contradiction).
        clear - Hne Hk. tauto. }
    assert (Hobsf : ps_ol (ab_obs (ps_abs_call (CObsDeleted (pss_key s)) A)) =
                    ps_obs_without (pss_key s) (ps_ol (ab_obs A)))
      by (cbn [ps_abs_call ab_obs]; apply ps_ol_rem; reflexivity).
    apply ps_inv_parts in Hi.
    destruct Hi as (HR & HS & HW & HD & (O1 & O2 & O3) & HC).
    apply ps_inv_parts. split; [|split; [|split; [|split; [|split]]]].
    - apply (ps_rsrcs_ok_replace m name r new HR Hf); try reflexivity;
        [exact Hrange|apply ps_drop_key_nodup; exact Hnd].
    - apply (ps_subs_ok_incl m _ HS). intros n s' H'. apply Hiff in H'. exact (proj1 H').
    - apply ps_abs_call_wf; [exact HW|exact I].
    - apply (ps_dyn_ok_replace m _ name r new HD Hf Hobs eq_refl).
    - rewrite Hobsf. split; [|split].
      + intros n s' H'. apply Hiff in H'. destruct H' as [H' Hk].
        apply ps_obs_without_in. split; [apply (O1 n s' H')|exact Hk].
      + intros rec Hr. apply ps_obs_without_in in Hr. destruct Hr as [Hr Hk].
        destruct (O2 rec Hr) as (n & s' & H' & E). exists n, s'.
        split; [|exact E]. apply Hiff. split; [exact H'|]. subst rec. exact Hk.
      + apply NoDup_map_filter. exact O3.
    - cbn [ps_abs_call ab_cnt]. rewrite <- (app_nil_r G). pose proof HC as (_ & C1 & C2 & C3 & _).
      apply (ps_cnt_ok_replace m _ _ G [] name r new HC Hf eq_refl);
        [cbn [psr_observe new]; lia|exact C1|tauto| | |intros n tu tok v []].
      + intros x Hin. apply (C2 name x r Hin Hf).
      + intros [Hex|[Hsub'|E]]; [exact Hex| |exfalso; apply E; reflexivity].
        apply (C3 name r Hf). intro E. rewrite E in Hs. contradiction.
  Qed.

  Lemma ps_inv_cancel : forall name tuple token ck, ps_ev_keeps (PsEvCancel name tuple token ck).
  Proof.
    intros name tuple token ck m A G Hi _. unfold ps_ghost. cbn [ps_ev_calls ps_ev_out].
    destruct (ps_find name m) as [r|] eqn:Hf; [|exact (ps_inv_noop m A G Hi)].
    destruct (psr_observable r) eqn:Hobs; cbn [negb]; [|exact (ps_inv_noop m A G Hi)].
    destruct (ps_cancel_hit tuple token ck r) as [s|] eqn:Hh; [|exact (ps_inv_noop m A G Hi)].
    cbn [fst snd ps_abs_calls]. rewrite app_nil_r. split; [constructor; [exact I|constructor]|].
    apply ps_inv_drop; try assumption.
    unfold ps_cancel_hit in Hh. destruct (ps_find_tok tuple token (psr_subs r)) as [s1|] eqn:Et.
    - inversion Hh; subst. apply (ps_find_tok_some _ _ _ _ Et).
    - apply (ps_find_ck_some _ _ _ _ Hh).
  Qed.

  (* the observer enters the list and the observe file; the resource has a counter line *)
  Lemma ps_inv_addsub : forall name m A G r sn,
    ps_inv m A G -> ps_find name m = Some r -> psr_observable r = true ->
    (exists x, In (name, x) (ps_ol (ab_cnt A))) ->
    req (pss_pkt sn) = Some (name, pss_token sn, pss_ck sn) -> len (pss_key sn) = PS_KEY ->
    len (pss_tuple sn) = psc_lt c -> 1 <= len (pss_pkt sn) <= PS_MAX ->
    (forall s, In s (psr_subs r) -> ~ (pss_tuple s = pss_tuple sn /\ pss_token s = pss_token sn)) ->
    (forall s, In s (psr_subs r) -> ~ (pss_tuple s = pss_tuple sn /\ pss_ck s = pss_ck sn)) ->
    (forall n s, ps_insub m n s -> pss_key s <> pss_key sn) ->
    ps_call_wf (psc_la c) (psc_lt c) (CObsAdded (ps_obs_of c sn)) /\
    ps_inv (ps_replace (mkRsrc name true (psr_observe r) (sn :: psr_subs r)) m)
           (ps_abs_call (CObsAdded (ps_obs_of c sn)) A)
           (G ++ [(name, pss_tuple sn, pss_token sn, psr_observe r)]).
  Proof.
    intros name m A G r sn Hi Hf Hobs Hline Hreq Hkl Htu Hpk Hnt Hnc Hfresh.
    destruct (iv_res _ _ _ Hi name r Hf) as (_ & Hrange & Hnd & _).
    assert (Hcw : ps_call_wf (psc_la c) (psc_lt c) (CObsAdded (ps_obs_of c sn))).
    { cbn [ps_call_wf]. unfold ps_obs_wf, ps_obs_of.
      cbn [pso_key pso_proto pso_listen pso_tuple pso_pkt pso_osc].
      repeat split; try assumption; lia. }
    split; [exact Hcw|].
    set (new := mkRsrc name true (psr_observe r) (sn :: psr_subs r)).
    assert (Hiff : forall n s, ps_insub (ps_replace new m) n s <->
                               ps_insub m n s \/ (n = name /\ s = sn)).
    { intros n s. rewrite (ps_insub_replace new m name r n s eq_refl Hf). cbn [psr_subs new In].
      destruct (ps_bytes_dec n name) as [->|Hne].
      - pose proof (ps_insub_at m name r s Hf) as Hat. clear - Hat. intuition congruence.
      - clear - Hne. tauto. }
    assert (Hnokey : forall rec, In rec (ps_ol (ab_obs A)) -> pso_key rec <> pss_key sn).
    { intros rec Hr. destruct (iv_obs2 _ _ _ Hi rec Hr) as (n & s & Hs & ->). cbn [ps_obs_of pso_key].
      apply (Hfresh n s Hs). }
    assert (Hobsf : ps_ol (ab_obs (ps_abs_call (CObsAdded (ps_obs_of c sn)) A)) =
                    ps_ol (ab_obs A) ++ [ps_obs_of c sn]).
    { cbn [ps_abs_call ab_obs]. rewrite ps_ol_add by reflexivity. f_equal.
      apply ps_filter_id. intros rec Hr. cbn [ps_obs_of pso_key].
      rewrite ps_beq_false; [reflexivity|apply Hnokey; exact Hr]. }
    (* the new observer differs from the others of its resource in token and in cache key *)
    assert (Huniq : forall proj : ps_sub -> bytes,
              (forall n s1 s2, ps_insub m n s1 -> ps_insub m n s2 ->
                 pss_tuple s1 = pss_tuple s2 -> proj s1 = proj s2 -> s1 = s2) ->
              (forall s, In s (psr_subs r) -> ~ (pss_tuple s = pss_tuple sn /\ proj s = proj sn)) ->
              forall n s1 s2, ps_insub (ps_replace new m) n s1 -> ps_insub (ps_replace new m) n s2 ->
                pss_tuple s1 = pss_tuple s2 -> proj s1 = proj s2 -> s1 = s2).
    { intros proj Hold Hnew n s1 s2 H1 H2 Et Ep. apply Hiff in H1. apply Hiff in H2.
      destruct H1 as [H1|[-> ->]]; destruct H2 as [H2|[E2 ->]].
      - apply (Hold n); assumption.
      - subst n. destruct H1 as (r' & Hf' & Hin). rewrite Hf in Hf'. inversion Hf'; subst r'.
        exfalso. apply (Hnew s1 Hin). split; assumption.
      - destruct H2 as (r' & Hf' & Hin). rewrite Hf in Hf'. inversion Hf'; subst r'.
        exfalso. apply (Hnew s2 Hin). split; symmetry; assumption.
      - reflexivity. }
    apply ps_inv_parts in Hi.
    destruct Hi as (HR & (S1 & S2 & S3 & S4) & HW & HD & (O1 & O2 & O3) & HC).
    apply ps_inv_parts. split; [|split; [|split; [|split; [|split]]]].
    - apply (ps_rsrcs_ok_replace m name r new HR Hf); try reflexivity; [exact Hrange|].
      cbn [psr_subs new map]. constructor; [|exact Hnd].
      intro Hin. apply in_map_iff in Hin. destruct Hin as (s & Ek & Hs).
      apply (Hfresh name s); [exists r; split; assumption|exact Ek].
    - split; [|split; [|split]].
      + intros n s Hs. apply Hiff in Hs. destruct Hs as [Hs|[-> ->]]; [apply (S1 n s Hs)|].
        split; [exact Hreq|]. split; [exact Hkl|]. split; [exact Htu|exact Hpk].
      + intros n1 s1 n2 s2 H1 H2 Ek. apply Hiff in H1. apply Hiff in H2.
        destruct H1 as [H1|[-> ->]]; destruct H2 as [H2|[-> ->]].
        * apply S2; assumption.
        * exfalso. apply (Hfresh n1 s1 H1). exact Ek.
        * exfalso. apply (Hfresh n2 s2 H2). symmetry. exact Ek.
        * split; reflexivity.
      + exact (Huniq pss_token S3 Hnt).
      + exact (Huniq pss_ck S4 Hnc).
    - apply ps_abs_call_wf; [exact HW|exact Hcw].
    - apply (ps_dyn_ok_replace m _ name r new HD Hf Hobs eq_refl).
    - rewrite Hobsf. split; [|split].
      + intros n s Hs. apply in_or_app. apply Hiff in Hs.
        destruct Hs as [Hs|[-> ->]]; [left; apply (O1 n s Hs)|right; left; reflexivity].
      + intros rec Hr. apply in_app_or in Hr. destruct Hr as [Hr|[<-|[]]].
        * destruct (O2 rec Hr) as (n & s & Hs & E). exists n, s.
          split; [apply Hiff; left; exact Hs|exact E].
        * exists name, sn. split; [apply Hiff; right; split; reflexivity|reflexivity].
      + rewrite map_app. apply NoDup_snoc; [exact O3|]. cbn [map ps_obs_of pso_key].
        intro Hin. apply in_map_iff in Hin. destruct Hin as (rec & Ek & Hr). exact (Hnokey rec Hr Ek).
    - cbn [ps_abs_call ab_cnt]. pose proof HC as (_ & C1 & C2 & _).
      apply (ps_cnt_ok_replace m _ _ G _ name r new HC Hf eq_refl);
        [cbn [psr_observe new]; lia|exact C1|tauto| |intros _; exact Hline|].
      + intros x Hin. apply (C2 name x r Hin Hf).
      + intros n tu tok v [E|[]]. inversion E. split; [reflexivity|cbn [psr_observe new]; lia].
  Qed.

  (* coap_add_observer writes the observe record, then the counter line; the two are in different
     files, so the state is the one reached by saving the counter first *)
  Lemma ps_inv_add : forall name m A G r tuple token ck pkt kn,
    ps_inv m A G -> ps_find name m = Some r -> psr_observable r = true ->
    req pkt = Some (name, token, ck) -> len tuple = psc_lt c -> 1 <= len pkt <= PS_MAX ->
    (forall s, In s (psr_subs r) -> ~ (pss_tuple s = tuple /\ pss_token s = token)) ->
    (forall s, In s (psr_subs r) -> ~ (pss_tuple s = tuple /\ pss_ck s = ck)) ->
    len kn = PS_KEY -> (forall n s, ps_insub m n s -> pss_key s <> kn) ->
    let sn := mkSub kn tuple token ck pkt in
    let calls := [CObsAdded (ps_obs_of c sn); CCntTrack name (psr_observe r)] in
    Forall (ps_call_wf (psc_la c) (psc_lt c)) calls /\
    ps_inv (ps_replace (mkRsrc name true (psr_observe r) (sn :: psr_subs r)) m)
           (ps_abs_calls calls A) (G ++ [(name, tuple, token, psr_observe r)]).
  Proof.
    intros name m A G r tuple token ck pkt kn Hi Hf Hobs Hreq Htu Hpk Hnt Hnc Hkl Hfresh sn calls.
    destruct (iv_res _ _ _ Hi name r Hf) as (_ & Hrange & _).
    destruct (ps_inv_observe name m A G r (psr_observe r) true [] Hi Hf Hobs) as [Hcw1 Hi1];
      [lia|discriminate|].
    cbn [map] in Hi1. rewrite app_nil_r in Hi1.
    set (r1 := mkRsrc name true (psr_observe r) (psr_subs r)) in Hi1.
    destruct (ps_inv_addsub name (ps_replace r1 m) _ G r1 sn Hi1) as [Hcw2 Hi2]; try assumption.
    - apply (ps_find_replace_same r1 m name r eq_refl Hf).
    - reflexivity.
    - exists (psr_observe r). cbn [ps_abs_calls ps_abs_call ab_cnt]. rewrite ps_ol_add by reflexivity.
      apply ps_cnt_set_in. right. split; reflexivity.
    - intros n s Hs. apply (Hfresh n s).
      apply (ps_insub_same_subs r1 m name r n s eq_refl Hf eq_refl). exact Hs.
    - cbn [psr_observe psr_subs r1] in Hi2. rewrite ps_replace_replace in Hi2 by reflexivity.
      split; [|exact Hi2]. inversion Hcw1. constructor; [exact Hcw2|assumption].
  Qed.

  Lemma ps_inv_reg : forall name tuple token ck pkt, ps_ev_keeps (PsEvReg name tuple token ck pkt).
  Proof.
    intros name tuple token ck pkt m A G Hi (Hreq & Htu & Hpk). unfold ps_ghost.
    cbn [ps_ev_calls ps_ev_out].
    destruct (ps_find name m) as [r|] eqn:Hf; [|exact (ps_inv_noop m A G Hi)].
    destruct (psr_observable r) eqn:Hobs; cbn [negb]; [|exact (ps_inv_noop m A G Hi)].
    destruct (iv_res _ _ _ Hi name r Hf) as (Hnok & Hrange & Hnd & _).
    destruct (ps_find_tok tuple token (psr_subs r)) as [s0|] eqn:Et.
    - (* the same observer again: only the response *)
      cbn [fst snd ps_abs_calls]. split; [constructor|].
      destruct (ps_find_tok_some _ _ _ _ Et) as (Hs0 & _).
      pose proof (iv_cnt3 _ _ _ Hi name r Hf) as Hline.
      destruct Hi. constructor; try assumption.
      intros n tu tok v Hin. apply in_app_or in Hin. destruct Hin as [Hin|[E|[]]].
      + apply (iv_sent0 n tu tok v). exact Hin.
      + inversion E; subst n tu tok v. exists r. split; [exact Hf|]. split; [lia|].
        apply Hline. intro X. rewrite X in Hs0. contradiction.
    - cbn [fst snd].
      pose proof (proj1 (ps_find_tok_none _ _ _) Et) as Hnt.
      set (m1 := ps_replace (mkRsrc name true (psr_observe r) (ps_reg_subs1 tuple ck r)) m).
      assert (Hkn : len (alloc (ps_live m1)) = PS_KEY) by apply alloc_len.
      unfold ps_reg_new. fold m1.
      destruct (ps_find_ck tuple ck (psr_subs r)) as [o|] eqn:Ec.
      + (* an observer with the same cache key is replaced *)
        destruct (ps_find_ck_some _ _ _ _ Ec) as (Ho & Hotu & Hock).
        assert (Es1 : ps_reg_subs1 tuple ck r = ps_drop_key (pss_key o) (psr_subs r))
          by (unfold ps_reg_subs1; rewrite Ec; reflexivity).
        pose proof (ps_inv_drop name m A G r o Hi Hf Hobs Ho) as Hmid.
        rewrite <- Es1 in Hmid. fold m1 in Hmid.
        set (rmid := mkRsrc name true (psr_observe r) (ps_reg_subs1 tuple ck r)).
        assert (Hfm : ps_find name m1 = Some rmid)
          by (apply (ps_find_replace_same rmid m name r); [reflexivity|exact Hf]).
        destruct (ps_inv_add name m1 _ G rmid tuple token ck pkt (alloc (ps_live m1)) Hmid Hfm eq_refl
                             Hreq Htu Hpk) as [Hcw Hfin]; try assumption.
        * cbn [psr_subs rmid]. rewrite Es1. intros s Hs. apply (ps_drop_key_in _ _ s Hnd) in Hs.
          apply Hnt. exact (proj1 Hs).
        * cbn [psr_subs rmid]. rewrite Es1. intros s Hs [E1 E2]. apply (ps_drop_key_in _ _ s Hnd) in Hs.
          destruct Hs as [Hs Hk]. apply Hk. f_equal.
          apply (iv_ck _ _ _ Hi name s o); [exists r; split; assumption|exists r; split; assumption| |];
            congruence.
        * intros n s Hs Ek. apply (alloc_fresh (ps_live m1)). rewrite <- Ek.
          apply (ps_insub_live m1 n s Hs).
        * cbn [psr_observe psr_subs rmid] in Hcw, Hfin. cbn [List.app ps_abs_calls].
          unfold m1 in Hfin. rewrite ps_replace_replace in Hfin by reflexivity. fold m1 in Hfin.
          split; [constructor; [exact I|exact Hcw]|exact Hfin].
      + (* a new observer *)
        assert (Es1 : ps_reg_subs1 tuple ck r = psr_subs r) by (unfold ps_reg_subs1; rewrite Ec; reflexivity).
        pose proof (proj1 (ps_find_ck_none _ _ _) Ec) as Hnc.
        destruct (ps_inv_add name m A G r tuple token ck pkt (alloc (ps_live m1)) Hi Hf Hobs
                             Hreq Htu Hpk Hnt Hnc Hkn) as [Hcw Hfin].
        * intros n s Hs Ek. apply (alloc_fresh (ps_live m1)). rewrite <- Ek.
          apply (ps_insub_live m1 n s).
          unfold m1.
          apply (ps_insub_same_subs (mkRsrc name true (psr_observe r) (ps_reg_subs1 tuple ck r)) m name r n s
                                    eq_refl Hf); [exact Es1|exact Hs].
        * cbn [List.app]. rewrite Es1. split; [exact Hcw|exact Hfin].
  Qed.

  Lemma ps_insub_remove : forall name m n s,
    NoDup (map psr_name m) -> (ps_insub (ps_remove name m) n s <-> n <> name /\ ps_insub m n s).
  Proof.
    intros name m n s Hnd. unfold ps_insub. destruct (ps_bytes_dec n name) as [->|Hne].
    - rewrite (ps_find_remove_same name m Hnd). split; [intros (r & E & _); discriminate|intros [X _]; congruence].
    - rewrite (ps_find_remove_other name m n Hne). split; [intro H; split; assumption|intros [_ H]; exact H].
  Qed.

  (* a resource without observers goes, with its dynamic-resource record and its counter line *)
  Lemma ps_inv_remove : forall name m A G r,
    ps_inv m A G -> ps_find name m = Some r -> psr_subs r = [] ->
    ps_inv (ps_remove name m) (ps_abs_calls [CDynDeleted name; CCntDeleted name] A)
           (filter (fun x => negb (ps_beq name (fst (fst (fst x))))) G).
  Proof.
    intros name m A G r Hi Hf Hsubs.
    pose proof (iv_names _ _ _ Hi) as Hnames.
    assert (Hiff : forall n s, ps_insub (ps_remove name m) n s <-> ps_insub m n s).
    { intros n s. rewrite (ps_insub_remove name m n s Hnames). split; [tauto|]. intro H. split; [|exact H].
      intros ->. destruct H as (r' & Hf' & Hin). rewrite Hf in Hf'. inversion Hf'; subst r'.
      rewrite Hsubs in Hin. contradiction. }
    assert (Hfind := fun n r' => ps_find_remove_inv name m n r' Hnames).
    set (A' := ps_abs_calls [CDynDeleted name; CCntDeleted name] A).
    assert (Hdynf : ps_ol (ab_dyn A') = ps_dyn_without name (ps_ol (ab_dyn A)))
      by (cbn [A' ps_abs_calls ps_abs_call ab_dyn]; apply ps_ol_rem; reflexivity).
    assert (Hcntf : ps_ol (ab_cnt A') = ps_cnt_without name (ps_ol (ab_cnt A)))
      by (cbn [A' ps_abs_calls ps_abs_call ab_cnt]; apply ps_ol_rem; reflexivity).
    apply ps_inv_parts in Hi.
    destruct Hi as ((R1 & R2) & HS & HW & (D1 & D2) & HO & (C0 & C1 & C2 & C3 & C4)).
    apply ps_inv_parts. split; [|split; [|split; [|split; [|split]]]].
    - split; [apply ps_names_remove; exact R1|]. intros n r' Hf'. apply (R2 n r'), (Hfind n r' Hf').
    - apply (ps_subs_ok_incl m _ HS). intros n s. apply Hiff.
    - apply ps_abs_wf_calls; [exact HW|]. constructor; [exact I|constructor; [exact I|constructor]].
    - rewrite Hdynf. split.
      + intros n r' Hf' Ho'. destruct (Hfind n r' Hf') as [Hne Hf0].
        destruct (D1 n r' Hf0 Ho') as [Hs|(d & Hd & Hdn)]; [left; exact Hs|right].
        exists d. split; [|exact Hdn]. apply ps_dyn_without_in. split; [exact Hd|congruence].
      + intros d Hd. apply ps_dyn_without_in in Hd. apply (D2 d (proj1 Hd)).
    - apply (ps_obs_ok_iff m _ _ HO Hiff).
    - rewrite Hcntf. split; [|split; [|split; [|split]]].
      + intros n x Hin. apply ps_cnt_without_in in Hin. destruct Hin as [Hne Hin].
        unfold ps_has. rewrite (ps_find_remove_other name m n Hne). apply (C0 n x Hin).
      + apply NoDup_map_filter. exact C1.
      + intros n x r' Hin Hf'. apply ps_cnt_without_in in Hin. apply (C2 n x r' (proj2 Hin)), (Hfind n r' Hf').
      + intros n r' Hf' Hsub'. destruct (Hfind n r' Hf') as [Hne Hf0].
        destruct (C3 n r' Hf0 Hsub') as [x Hx]. exists x. apply ps_cnt_without_in. split; assumption.
      + intros n tu tok v Hin. apply filter_In in Hin. destruct Hin as [Hin Hb]. cbn [fst] in Hb.
        assert (Hne : n <> name) by (intro X; subst n; rewrite ps_beq_refl in Hb; discriminate).
        destruct (C4 n tu tok v Hin) as (r' & Hf' & Hv & x & Hx).
        exists r'. rewrite (ps_find_remove_other name m n Hne). split; [exact Hf'|]. split; [exact Hv|].
        exists x. apply ps_cnt_without_in. split; assumption.
  Qed.

  (* A DELETE of a resource with observers: a last notification (without responses), then the
     observers leave one by one, in list order; l1 are those already gone.  The invariant holds
     at each of these points. *)
  Lemma ps_inv_del_stage : forall name m A G r,
    ps_inv m A G -> ps_find name m = Some r -> ps_del_bump r = true -> psr_observe r < ps_bound ->
    let pre := if ps_del_value r mod psc_freq c =? 0 then [CCntTrack name (ps_del_value r)] else [] in
    wf_calls pre /\
    forall l1 l2, psr_subs r = l1 ++ l2 ->
      ps_inv (ps_replace (mkRsrc name true (ps_del_value r) l2) m)
             (ps_abs_calls (pre ++ map (fun s => CObsDeleted (pss_key s)) l1) A) G.
  Proof.
    intros name m A G r Hi Hf Hb Hok. unfold ps_del_value. rewrite Hb.
    unfold ps_del_bump in Hb. apply andb_true_iff in Hb. destruct Hb as [Hobs Hne].
    assert (Hsubs : psr_subs r <> []) by (intro E; rewrite E in Hne; discriminate).
    destruct (iv_res _ _ _ Hi name r Hf) as (_ & Hrange & _).
    rewrite ps_next_observe_ok by lia.
    destruct (ps_inv_bump name m A G r [] Hi Hf Hobs Hsubs Hok) as [Hcw Hi0].
    cbn [map] in Hi0. rewrite app_nil_r in Hi0. cbv zeta. split; [exact Hcw|].
    induction l1 as [|s l1 IH] using rev_ind; intros l2 Hs.
    - cbn [map]. rewrite app_nil_r. cbn [List.app] in Hs. rewrite <- Hs. exact Hi0.
    - rewrite <- app_assoc in Hs. cbn [List.app] in Hs.
      pose proof (ps_inv_drop name _ _ G (mkRsrc name true (psr_observe r + 1) (s :: l2)) s (IH _ Hs)) as Hd.
      cbn [psr_observe psr_subs ps_drop_key] in Hd. rewrite ps_beq_refl in Hd.
      rewrite ps_replace_replace in Hd by reflexivity.
      rewrite map_app, app_assoc, ps_abs_calls_app. cbn [map ps_abs_calls]. apply Hd.
      + apply (ps_find_replace_same _ m name r); [reflexivity|exact Hf].
      + reflexivity.
      + left. reflexivity.
  Qed.

  Lemma ps_del_no_bump : forall m A G name r,
    ps_inv m A G -> ps_find name m = Some r -> ps_del_bump r = false -> psr_subs r = [].
  Proof.
    intros m A G name r Hi Hf Hb. destruct (iv_res _ _ _ Hi name r Hf) as (_ & _ & _ & Ho).
    unfold ps_del_bump in Hb. destruct (psr_subs r) as [|s l]; [reflexivity|].
    rewrite Ho in Hb by discriminate. discriminate.
  Qed.

  Lemma ps_inv_del : forall name, ps_ev_keeps (PsEvDel name).
  Proof.
    intros name m A G Hi Hok. unfold ps_ghost. cbn [ps_ev_calls ps_ev_out ps_evt_ok] in *.
    destruct (ps_find name m) as [r|] eqn:Hf; [|split; [constructor|exact Hi]].
    cbn [fst]. specialize (Hok r eq_refl).
    assert (Htail : wf_calls [CDynDeleted name; CCntDeleted name])
      by (constructor; [exact I|constructor; [exact I|constructor]]).
    destruct (ps_del_bump r) eqn:Hb; cbn [andb].
    - destruct (ps_inv_del_stage name m A G r Hi Hf Hb Hok) as [Hcw Hk].
      specialize (Hk (psr_subs r) [] (eq_sym (app_nil_r _))). split.
      + apply Forall_app. split; [exact Hcw|]. apply Forall_app. split; [|exact Htail].
        apply Forall_forall. intros x Hx. apply in_map_iff in Hx. destruct Hx as (s & <- & _). exact I.
      + rewrite app_assoc, ps_abs_calls_app.
        rewrite <- (ps_remove_replace (mkRsrc name true (ps_del_value r) []) m name eq_refl).
        apply (ps_inv_remove name _ _ G (mkRsrc name true (ps_del_value r) []) Hk); [|reflexivity].
        apply (ps_find_replace_same _ m name r); [reflexivity|exact Hf].
    - rewrite (ps_del_no_bump m A G name r Hi Hf Hb). cbn [map List.app]. split; [exact Htail|].
      apply (ps_inv_remove name m A G r Hi Hf). apply (ps_del_no_bump m A G name r Hi Hf Hb).
  Qed.

  Theorem ps_inv_event : forall e m A G,
    ps_inv m A G -> ps_evt_ok e m ->
    Forall (ps_call_wf (psc_la c) (psc_lt c)) (ps_ev_calls alloc c e m) /\
    ps_inv (fst (ps_ev_out alloc e m)) (ps_abs_calls (ps_ev_calls alloc c e m) A) (ps_ghost e m G).
  Proof.
    intros e m A G Hi Hok. destruct e.
    - apply ps_inv_put; assumption.
    - apply ps_inv_del; assumption.
    - apply ps_inv_reg; assumption.
    - apply ps_inv_cancel; [assumption|exact I].
    - apply ps_inv_notify; assumption.
    - contradiction.
  Qed.
End Coh.
