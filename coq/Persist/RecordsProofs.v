(* C17 - round trip of the three record formats, for arbitrary binary content. *)
From LibcoapV Require Import Base.Tactics Base.Bytes Base.BytesProofs Persist.Fs Persist.Records.
Local Open Scope Z_scope.

Lemma ps_len_le : forall n x, len (ps_le n x) = Z.of_nat n.
Proof.
  induction n as [|n IH]; intro x; [reflexivity|].
  cbn [ps_le]. rewrite len_cons, IH. lia.
Qed.

Lemma ps_unle_le : forall n x, 0 <= x -> ps_unle (ps_le n x) = x mod 256 ^ Z.of_nat n.
Proof.
  induction n as [|n IH]; intros x Hx.
  - cbn [ps_le ps_unle]. change (256 ^ Z.of_nat 0) with 1. rewrite Z.mod_1_r. reflexivity.
  - cbn [ps_le ps_unle]. rewrite IH by (apply Z.div_pos; lia).
    rewrite Nat2Z.inj_succ, Z.pow_succ_r by lia.
    rewrite (Z.rem_mul_r x 256 (256 ^ Z.of_nat n)); [reflexivity|lia|].
    apply Z.pow_pos_nonneg; lia.
Qed.

Lemma ps_dec_enc_size : forall x,
  -9223372036854775808 <= x < 9223372036854775808 -> ps_dec_size (ps_enc_size x) = x.
Proof.
  intros x Hx. unfold ps_dec_size, ps_enc_size.
  rewrite ps_unle_le by (apply Z.mod_pos_bound; reflexivity).
  change (256 ^ Z.of_nat 8) with 18446744073709551616.
  rewrite Z.mod_mod by discriminate.
  destruct (Z.ltb_spec (x mod 18446744073709551616) 9223372036854775808); lia.
Qed.

Lemma ps_len_enc_size : forall x, len (ps_enc_size x) = PS_LEN.
Proof. intro. unfold ps_enc_size. rewrite ps_len_le. reflexivity. Qed.

Lemma ps_item_app : forall n a rest, len a = n -> 0 < n -> ps_item n (a ++ rest) = Some (a, rest).
Proof.
  intros n a rest Hl Hn. unfold ps_item. subst n.
  rewrite len_app.
  assert (H : (0 <? len a) && (len a <=? len a + len rest) = true).
  { pose proof (len_nonneg rest). apply andb_true_iff. split; lia. }
  rewrite H, take_app_exact, drop_app_exact. reflexivity.
Qed.

Lemma ps_item_some : forall n l a rest,
  ps_item n l = Some (a, rest) -> l = a ++ rest /\ len a = n /\ 0 < n.
Proof.
  intros n l a rest H. unfold ps_item in H.
  destruct ((0 <? n) && (n <=? len l)) eqn:E; [|discriminate].
  apply andb_true_iff in E. destruct E as [E1 E2].
  inversion H; subst. split; [symmetry; apply take_drop|].
  split; [apply len_take|]; lia.
Qed.

Lemma ps_item_nil : forall n, ps_item n [] = None.
Proof.
  intro n. unfold ps_item. change (len (@nil Z)) with 0.
  destruct (Z.ltb_spec 0 n); destruct (Z.leb_spec n 0); try reflexivity; lia.
Qed.

Lemma ps_size_ok_true : forall n, 0 <= n <= PS_MAX -> ps_size_ok n = true.
Proof. intros. unfold ps_size_ok. apply andb_true_iff. split; lia. Qed.

(* side conditions of ps_item_app for the fields of a well-formed record *)
Ltac ps_field := assumption || reflexivity || apply ps_len_enc_size || lia.

Theorem ps_obs_dec_enc : forall la lt r rest,
  0 < la -> 0 < lt -> ps_obs_wf la lt r ->
  ps_obs_dec la lt (ps_obs_enc r ++ rest) = Some (r, rest).
Proof.
  intros la lt [key proto listen tuple pkt osc] rest Hla Hlt (Hk & Hp & Hl & Ht & Hpk & Ho).
  unfold ps_obs_dec, ps_obs_enc. cbn [pso_key pso_proto pso_listen pso_tuple pso_pkt pso_osc] in *.
  unfold PS_MAX in *. rewrite <- !app_assoc.
  rewrite !ps_item_app by ps_field.
  rewrite ps_dec_enc_size, ps_size_ok_true by (unfold PS_MAX; lia). cbn [negb].
  rewrite ps_item_app by ps_field.
  destruct osc as [o|]; rewrite <- ?app_assoc; rewrite ps_item_app, ps_dec_enc_size by ps_field.
  - destruct (Z.eqb_spec (len o) (-1)); [lia|].
    rewrite ps_size_ok_true by (unfold PS_MAX; lia). cbn [negb].
    rewrite ps_item_app by ps_field. reflexivity.
  - reflexivity.
Qed.

Theorem ps_dyn_dec_enc : forall r rest,
  ps_dyn_wf r -> ps_dyn_dec (ps_dyn_enc r ++ rest) = Some (r, rest).
Proof.
  intros [proto name pkt] rest (Hp & Hn & Hk).
  unfold ps_dyn_dec, ps_dyn_enc. cbn [psd_proto psd_name psd_pkt] in *.
  unfold PS_MAX in *. pose proof (len_nonneg name) as Hn0. rewrite <- !app_assoc.
  rewrite !ps_item_app by ps_field.
  rewrite ps_dec_enc_size, ps_size_ok_true by (unfold PS_MAX; lia). cbn [negb].
  (* the empty name is not read as an item *)
  destruct (Z.eqb_spec (len name) 0) as [E|E].
  - destruct name; [|rewrite len_cons in E; pose proof (len_nonneg name); lia]. cbn [app].
    rewrite ps_item_app by ps_field.
    rewrite ps_dec_enc_size, ps_size_ok_true by (unfold PS_MAX; lia). cbn [negb].
    rewrite ps_item_app by ps_field. reflexivity.
  - rewrite !ps_item_app by ps_field.
    rewrite ps_dec_enc_size, ps_size_ok_true by (unfold PS_MAX; lia). cbn [negb].
    rewrite ps_item_app by ps_field. reflexivity.
Qed.

(* a whole file: the copy loops and the loaders see exactly the records that were written *)
Theorem ps_obs_all_file : forall la lt l fuel,
  0 < la -> 0 < lt -> Forall (ps_obs_wf la lt) l -> (length l < fuel)%nat ->
  ps_obs_all la lt fuel (ps_obs_file l) = l.
Proof.
  intros la lt l. induction l as [|r l IH]; intros fuel Hla Hlt Hwf Hf.
  - destruct fuel; [lia|]. cbn [ps_obs_all ps_obs_file].
    unfold ps_obs_dec. rewrite ps_item_nil. reflexivity.
  - destruct fuel; [cbn in Hf; lia|]. cbn [ps_obs_all ps_obs_file].
    inversion Hwf; subst.
    rewrite ps_obs_dec_enc by assumption.
    f_equal. apply IH; try assumption. cbn in Hf. lia.
Qed.

Theorem ps_dyn_all_file : forall l fuel,
  Forall ps_dyn_wf l -> (length l < fuel)%nat -> ps_dyn_all fuel (ps_dyn_file l) = l.
Proof.
  induction l as [|r l IH]; intros fuel Hwf Hf.
  - destruct fuel; [lia|]. cbn [ps_dyn_all ps_dyn_file].
    unfold ps_dyn_dec. rewrite ps_item_nil. reflexivity.
  - destruct fuel; [cbn in Hf; lia|]. cbn [ps_dyn_all ps_dyn_file].
    inversion Hwf; subst.
    rewrite ps_dyn_dec_enc by assumption.
    f_equal. apply IH; try assumption. cbn in Hf. lia.
Qed.

(* why ps_obs_wf / ps_dyn_wf ask for non-empty packets: an item of 0 bytes cannot be read back
   (fread(p, 0, 1, f) returns 0) *)
Lemma ps_item_zero : forall l, ps_item 0 l = None.
Proof. intro l. unfold ps_item. reflexivity. Qed.

Definition ps_digit (b : Z) : Prop := 48 <= b <= 57.

Lemma ps_digs_digit : forall d rest a,
  ps_digit d -> ps_digs (d :: rest) a = ps_digs rest (a * 10 + (d - 48)).
Proof.
  intros d rest a [H1 H2]. cbn [ps_digs].
  destruct (Z.leb_spec 48 d); [|lia]. destruct (Z.leb_spec d 57); [|lia]. reflexivity.
Qed.

(* value accumulated by the printed digits: the printer's own recursion, on numbers *)
Fixpoint ps_shift (fuel : nat) (a n : Z) : Z :=
  match fuel with
  | O => a
  | S f => if n <? 10 then a * 10 + n else ps_shift f a (n / 10) * 10 + n mod 10
  end.

Lemma ps_digs_digits : forall fuel n acc a,
  0 <= n -> ps_digs (ps_digits_fuel fuel n acc) a = ps_digs acc (ps_shift fuel a n).
Proof.
  induction fuel as [|f IH]; intros n acc a Hn; [reflexivity|].
  cbn [ps_digits_fuel ps_shift]. destruct (Z.ltb_spec n 10).
  - rewrite ps_digs_digit by (unfold ps_digit; lia). f_equal. lia.
  - rewrite IH by (apply Z.div_pos; lia).
    rewrite ps_digs_digit by (unfold ps_digit; pose proof (Z.mod_pos_bound n 10); lia).
    f_equal. lia.
Qed.

Lemma ps_shift_zero : forall fuel n, 0 <= n < 10 ^ Z.of_nat fuel -> ps_shift fuel 0 n = n.
Proof.
  induction fuel as [|f IH]; intros n Hn.
  - change (10 ^ Z.of_nat 0) with 1 in Hn. cbn [ps_shift]. lia.
  - cbn [ps_shift]. destruct (Z.ltb_spec n 10); [lia|].
    rewrite IH.
    + pose proof (Z.div_mod n 10). lia.
    + rewrite Nat2Z.inj_succ, Z.pow_succ_r in Hn by lia.
      split; [apply Z.div_pos; lia|]. apply Z.div_lt_upper_bound; lia.
Qed.

Lemma ps_digits_are_digits : forall fuel n acc,
  0 <= n -> Forall ps_digit acc -> Forall ps_digit (ps_digits_fuel fuel n acc).
Proof.
  induction fuel as [|f IH]; intros n acc Hn Ha; [exact Ha|].
  cbn [ps_digits_fuel]. destruct (Z.ltb_spec n 10).
  - constructor; [unfold ps_digit; lia|exact Ha].
  - apply IH; [apply Z.div_pos; lia|].
    constructor; [unfold ps_digit; pose proof (Z.mod_pos_bound n 10); lia|exact Ha].
Qed.

Lemma ps_digits_nonempty : forall fuel n acc, ps_digits_fuel (S fuel) n acc <> [].
Proof.
  intros fuel. induction fuel as [|f IH]; intros n acc.
  - cbn [ps_digits_fuel]. destruct (n <? 10); discriminate.
  - change (ps_digits_fuel (S (S f)) n acc) with
      (if n <? 10 then (48 + n) :: acc
       else ps_digits_fuel (S f) (n / 10) ((48 + n mod 10) :: acc)).
    destruct (n <? 10); [discriminate|apply IH].
Qed.

Lemma ps_digits_len : forall fuel k n acc,
  0 <= n < 10 ^ Z.of_nat (S k) -> len (ps_digits_fuel fuel n acc) <= Z.of_nat (S k) + len acc.
Proof.
  induction fuel as [|f IH]; intros k n acc Hn; [cbn [ps_digits_fuel]; lia|].
  cbn [ps_digits_fuel]. destruct (Z.ltb_spec n 10).
  - rewrite len_cons. lia.
  - destruct k as [|k].
    + change (10 ^ Z.of_nat 1) with 10 in Hn. lia.
    + assert (Hd : 0 <= n / 10 < 10 ^ Z.of_nat (S k)).
      { rewrite (Nat2Z.inj_succ (S k)), Z.pow_succ_r in Hn by lia.
        split; [apply Z.div_pos; lia|]. apply Z.div_lt_upper_bound; lia. }
      specialize (IH k (n / 10) ((48 + n mod 10) :: acc) Hd). rewrite len_cons in IH. lia.
Qed.

Lemma ps_atoi_dec : forall v rest,
  0 <= v < 4294967296 -> (forall b tl, rest = b :: tl -> ~ ps_digit b) ->
  ps_atoi (ps_dec v ++ rest) = v.
Proof.
  intros v rest Hv Hrest. unfold ps_atoi, ps_dec.
  pose proof (ps_digits_are_digits 20 v [] (proj1 Hv) (Forall_nil _)) as Hd.
  pose proof (ps_digits_nonempty 19 v []) as Hne.
  destruct (ps_digits_fuel 20 v []) as [|d ds] eqn:E; [congruence|].
  assert (Hdd : ps_digit d) by (inversion Hd; assumption).
  cbn [app ps_skip_sp].
  assert (Hsp : ps_isspace d = false).
  { unfold ps_isspace, ps_digit in *.
    destruct (Z.eqb_spec d 32); [lia|]. destruct (Z.leb_spec 9 d); destruct (Z.leb_spec d 13);
      try reflexivity; lia. }
  rewrite Hsp.
  assert (H45 : (d =? 45) = false) by (unfold ps_digit in Hdd; lia).
  assert (H43 : (d =? 43) = false) by (unfold ps_digit in Hdd; lia).
  rewrite H45, H43. cbn [orb].
  assert (Hval : ps_digs (d :: ds ++ rest) 0 = v).
  { change (d :: ds ++ rest) with ((d :: ds) ++ rest). rewrite <- E.
    (* digits, then something that is not a digit *)
    assert (G : forall l a, Forall ps_digit l -> ps_digs (l ++ rest) a = ps_digs (l ++ []) a).
    { induction l as [|x l IH]; intros a Hl.
      - cbn [app]. destruct rest as [|b tl]; [reflexivity|].
        specialize (Hrest b tl eq_refl). cbn [ps_digs]. unfold ps_digit in Hrest.
        destruct (Z.leb_spec 48 b); destruct (Z.leb_spec b 57); try reflexivity. lia.
      - inversion Hl; subst. cbn [app]. rewrite !ps_digs_digit by assumption. apply IH. assumption. }
    rewrite G by (rewrite E; exact Hd). rewrite app_nil_r.
    rewrite ps_digs_digits by lia. cbn [ps_digs].
    apply ps_shift_zero. change (10 ^ Z.of_nat 20) with 100000000000000000000. lia. }
  rewrite Hval. rewrite Z.min_r by lia. rewrite Z.max_r by lia. apply Z.mod_small. exact Hv.
Qed.

Definition ps_name_ok (n : bytes) : Prop :=
  Forall (fun b => b <> 0 /\ b <> 32 /\ b <> 10) n /\ len n <= PS_LINE - 13.

Lemma ps_name_okb_spec : forall n, ps_name_okb n = true <-> ps_name_ok n.
Proof.
  intro n. unfold ps_name_okb, ps_name_ok. rewrite andb_true_iff, forallb_forall, Forall_forall.
  split; intros [H1 H2]; (split; [|lia]); intros b Hb; specialize (H1 b Hb).
  - apply negb_true_iff in H1. apply orb_false_iff in H1. destruct H1 as [H1 H3].
    apply orb_false_iff in H1. destruct H1 as [H1 H4]. lia.
  - apply negb_true_iff. destruct (Z.eqb_spec b 0), (Z.eqb_spec b 32), (Z.eqb_spec b 10);
      try reflexivity; lia.
Qed.

Lemma ps_cstr_noz : forall l rest, Forall (fun b => b <> 0) l -> ps_cstr (l ++ rest) = l ++ ps_cstr rest.
Proof.
  induction l as [|b l IH]; intros rest H; [reflexivity|].
  inversion H; subst. cbn [app ps_cstr]. destruct (Z.eqb_spec b 0); [contradiction|].
  rewrite IH by assumption. reflexivity.
Qed.

Lemma ps_cstr_id : forall l, Forall (fun b => b <> 0) l -> ps_cstr l = l.
Proof.
  intros l H. rewrite <- (app_nil_r l) at 1. rewrite ps_cstr_noz by exact H. apply app_nil_r.
Qed.

Lemma ps_split_sp_app : forall l rest, Forall (fun b => b <> 32) l ->
  ps_split_sp (l ++ 32 :: rest) = Some (l, rest).
Proof.
  induction l as [|b l IH]; intros rest H.
  - reflexivity.
  - inversion H; subst. cbn [app ps_split_sp]. destruct (Z.eqb_spec b 32); [contradiction|].
    rewrite IH by assumption. reflexivity.
Qed.

(* fgets takes exactly one line off the front of the file *)
Lemma ps_line_app : forall l rest fuel,
  Forall (fun b => b <> 10) l -> (length l < fuel)%nat ->
  ps_line fuel (l ++ 10 :: rest) = l ++ [10].
Proof.
  induction l as [|b l IH]; intros rest fuel H Hf.
  - destruct fuel; [lia|]. reflexivity.
  - destruct fuel; [cbn in Hf; lia|]. inversion H; subst. cbn [app ps_line].
    destruct (Z.eqb_spec b 10); [contradiction|]. rewrite IH; [reflexivity|assumption|].
    cbn in Hf. lia.
Qed.

(* a printed line: name, blank, digits - without NUL or newline, shorter than the readers'
   buffer - and the newline *)
Lemma ps_cnt_line_shape : forall n v,
  ps_name_ok n -> 0 <= v < 4294967296 ->
  ps_cnt_line n v = (n ++ 32 :: ps_dec v) ++ [10] /\
  Forall (fun b => b <> 0 /\ b <> 10) (n ++ 32 :: ps_dec v) /\ Forall (fun b => b <> 32) n /\
  len (n ++ 32 :: ps_dec v) < PS_LINE - 1.
Proof.
  intros n v [Hn Hl] Hv. unfold ps_cnt_line. rewrite (Z.mod_small v) by lia.
  assert (Hnz : Forall (fun b => b <> 0) n) by (eapply Forall_impl; [|exact Hn]; cbn; tauto).
  rewrite ps_cstr_id by exact Hnz. split; [rewrite <- app_assoc; reflexivity|]. split; [|split].
  - apply Forall_app. split; [eapply Forall_impl; [|exact Hn]; cbn; tauto|].
    constructor; [lia|].
    eapply Forall_impl; [|exact (ps_digits_are_digits 20 v [] (proj1 Hv) (Forall_nil _))].
    unfold ps_digit. intros; lia.
  - eapply Forall_impl; [|exact Hn]. cbn; tauto.
  - pose proof (ps_digits_len 20 9 v []) as X. change (len (@nil Z)) with 0 in X.
    change (10 ^ Z.of_nat 10) with 10000000000 in X. fold (ps_dec v) in X.
    rewrite len_app, len_cons. unfold PS_LINE in *. lia.
Qed.

Theorem ps_cnt_parse_line : forall n v,
  ps_name_ok n -> 0 <= v < 4294967296 -> ps_cnt_parse (ps_cnt_line n v) = Some (n, v).
Proof.
  intros n v Hn Hv. destruct (ps_cnt_line_shape n v Hn Hv) as (-> & Hb & Hs & _).
  unfold ps_cnt_parse. rewrite ps_cstr_noz by (eapply Forall_impl; [|exact Hb]; cbn; tauto).
  change (ps_cstr [10]) with [10]. rewrite <- app_assoc. cbn [app].
  rewrite ps_split_sp_app by exact Hs.
  rewrite ps_atoi_dec; [reflexivity|exact Hv|].
  intros b tl E. inversion E; subst. unfold ps_digit. lia.
Qed.

Lemma ps_cnt_line_first : forall n v rest,
  ps_name_ok n -> 0 <= v < 4294967296 ->
  ps_line (Z.to_nat (PS_LINE - 1)) (ps_cnt_line n v ++ rest) = ps_cnt_line n v.
Proof.
  intros n v rest Hn Hv. destruct (ps_cnt_line_shape n v Hn Hv) as (-> & Hb & _ & Hl).
  rewrite <- app_assoc. apply ps_line_app.
  - eapply Forall_impl; [|exact Hb]. cbn; tauto.
  - unfold len, PS_LINE in *. lia.
Qed.

Definition ps_cnt_wf (e : bytes * Z) : Prop := ps_name_ok (fst e) /\ 0 <= snd e < 4294967296.

Lemma ps_cnt_line_nonempty : forall n v, ps_cnt_line n v <> [].
Proof. intros. unfold ps_cnt_line. destruct (ps_cstr n); discriminate. Qed.

Theorem ps_cnt_all_file : forall l fuel,
  Forall ps_cnt_wf l -> (length l < fuel)%nat -> ps_cnt_all fuel (ps_cnt_file l) = l.
Proof.
  induction l as [|[n v] l IH]; intros fuel Hwf Hf.
  - destruct fuel; [lia|]. reflexivity.
  - destruct fuel; [cbn in Hf; lia|]. inversion Hwf as [|? ? [Hn Hv] Hl]; subst.
    cbn [fst snd] in *. cbn [ps_cnt_all ps_cnt_file].
    rewrite ps_cnt_line_first by assumption.
    pose proof (ps_cnt_line_nonempty n v) as Hne.
    destruct (ps_cnt_line n v) as [|b0 tl0] eqn:El; [congruence|]. rewrite <- El.
    rewrite ps_cnt_parse_line by assumption.
    rewrite drop_app_exact. f_equal. apply IH; [assumption|]. cbn in Hf. lia.
Qed.

(* a name with a blank does not come back: the text format is not injective outside ps_name_ok *)
Lemma ps_cnt_blank_name_refuted :
  exists n v, 0 <= v < 4294967296 /\ ps_cnt_parse (ps_cnt_line n v) <> Some (n, v).
Proof. exists [97; 32; 98], 7. split; [lia|]. vm_compute. discriminate. Qed.

(* ... nor does a name that makes the line longer than the readers' buffer: fgets returns the
   first PS_LINE - 1 bytes, without a blank, and the readers stop there *)
Lemma ps_line_full : forall l rest, Forall (fun b => b <> 10) l -> ps_line (length l) (l ++ rest) = l.
Proof.
  induction 1 as [|b l Hb Hl IH]; [reflexivity|]. cbn [length app ps_line].
  destruct (Z.eqb_spec b 10); [contradiction|]. rewrite IH. reflexivity.
Qed.

Lemma ps_split_sp_none : forall l, Forall (fun b => b <> 32) l -> ps_split_sp l = None.
Proof.
  induction 1 as [|b l Hb Hl IH]; [reflexivity|]. cbn [ps_split_sp].
  destruct (Z.eqb_spec b 32); [contradiction|]. rewrite IH. reflexivity.
Qed.

Lemma ps_cnt_all_long : forall fuel l rest,
  Forall (fun b => b <> 0 /\ b <> 32 /\ b <> 10) l -> length l = Z.to_nat (PS_LINE - 1) ->
  ps_cnt_all fuel (l ++ rest) = [].
Proof.
  intros [|fuel] l rest Hl Hlen; [reflexivity|]. cbn [ps_cnt_all]. rewrite <- Hlen.
  rewrite ps_line_full by (eapply Forall_impl; [|exact Hl]; cbn; tauto).
  destruct l as [|b tl]; [reflexivity|].
  unfold ps_cnt_parse. rewrite ps_cstr_id by (eapply Forall_impl; [|exact Hl]; cbn; tauto).
  rewrite ps_split_sp_none by (eapply Forall_impl; [|exact Hl]; cbn; tauto). reflexivity.
Qed.

Lemma ps_cnt_long_name_refuted :
  exists n v, Forall (fun b => b <> 0 /\ b <> 32 /\ b <> 10) n /\ 0 <= v < 4294967296 /\
    ps_cnt_all 5 (ps_cnt_file [(n, v); ([98], 1)]) <> [(n, v); ([98], 1)].
Proof.
  set (n := repeat 97 (Z.to_nat (PS_LINE - 1))). exists n, 7.
  assert (Hn : Forall (fun b => b <> 0 /\ b <> 32 /\ b <> 10) n)
    by (apply Forall_forall; intros x Hx; apply repeat_spec in Hx; lia).
  split; [exact Hn|]. split; [lia|].
  cbn [ps_cnt_file]. unfold ps_cnt_line at 1.
  rewrite ps_cstr_id by (eapply Forall_impl; [|exact Hn]; cbn; tauto).
  rewrite <- app_assoc, ps_cnt_all_long; [discriminate|exact Hn|apply repeat_length].
Qed.
