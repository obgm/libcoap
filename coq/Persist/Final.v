(* C17 - the theorem over whole histories and all kill points: restarting from the files left
   by a kill anywhere in any event history gives back the resources, observations and counters
   of the memory state after the last completed updater. *)
From LibcoapV Require Import Base.Tactics Base.Bytes Persist.Fs Persist.FsProofs Persist.Records
  Persist.History Persist.Server Persist.Restore Persist.MemLemmas Persist.EventCalls
  Persist.Coherence Persist.RestoreCoh Persist.Whole Persist.MidEvent.
Local Open Scope Z_scope.

Section Final.
  Variable pol : Z -> Z -> Z.
  Variable app : bytes -> option (bytes * bool).
  Variable req : bytes -> option (bytes * bytes * bytes).
  Variable alloc : list bytes -> bytes.
  Variable c : ps_cfg.
  Variable m0 : ps_mem.
  Hypothesis alloc_fresh : forall live, ~ In (alloc live) live.
  Hypothesis alloc_len : forall live, len (alloc live) = PS_KEY.
  Hypothesis cfg_proto : len (psc_proto c) = PS_PROTO.
  Hypothesis cfg_listen : len (psc_listen c) = psc_la c.
  Hypothesis freq_pos : 0 < psc_freq c.
  Hypothesis freq_small : psc_freq c < 1000000.
  Hypothesis cfg_dyn : psc_dyn c = true.
  Hypothesis cfg_obs : psc_obs c = true.
  Hypothesis cfg_cnt : psc_cnt c = true.
  Hypothesis cfg_unknown : psc_unknown c = true.
  Hypothesis la_pos : 0 < psc_la c.
  Hypothesis lt_pos : 0 < psc_lt c.
  Hypothesis m0_fresh : Forall ps_fresh_rsrc m0.

  Notation inv := (ps_inv app req c m0).
  Notation hstate := (ps_hist_state alloc c).

  Lemma ps_hist_state_size : forall evs m A,
    ps_abs_wf (psc_la c) (psc_lt c) A -> ps_hist_wf alloc c evs m ->
    (ps_abs_size (snd (hstate evs m A)) <= ps_abs_size A + ps_hist_ncalls alloc c evs m)%nat.
  Proof.
    induction evs as [|e evs IH]; intros m A HA Hw; cbn [ps_hist_state ps_hist_ncalls snd]; [lia|].
    destruct Hw as (_ & Hcw & Hw).
    destruct (ps_abs_calls_wf c _ A HA Hcw) as [HA' Hs'].
    specialize (IH _ _ HA' Hw). lia.
  Qed.

  Lemma ps_ncalls_app : forall evs1 rest m A,
    ps_hist_ncalls alloc c (evs1 ++ rest) m =
    (ps_hist_ncalls alloc c evs1 m + ps_hist_ncalls alloc c rest (fst (hstate evs1 m A)))%nat.
  Proof.
    induction evs1 as [|e evs1 IH]; intros rest m A; cbn [List.app ps_hist_ncalls ps_hist_state fst]; [reflexivity|].
    rewrite (IH rest _ (ps_abs_calls (ps_ev_calls alloc c e m) A)). lia.
  Qed.

  (* the memory state after the last completed updater, and the Observe values that count *)
  Definition ps_mem_last (rest : list ps_event) (m1 : ps_mem) (j : nat) : ps_mem :=
    match rest with e :: _ => ps_mem_at alloc c e m1 j | [] => m1 end.
  Definition ps_ghost_last (rest : list ps_event) (m1 : ps_mem) (G1 : list ps_send) (j : nat) : list ps_send :=
    match rest with e :: _ => ps_ghost_at alloc c e m1 G1 j | [] => G1 end.

  (* C17_restart_restores + C17_observe_monotone, over every history and every kill point *)
  Theorem ps_history_restart : forall evs m A G sent s k,
    inv m A G -> ps_hist_ok app req alloc c evs m ->
    (2 * (ps_abs_size A + ps_hist_ncalls alloc c evs m) < psc_fuel c)%nat ->
    ps_tmpw s -> ps_holdsA s A ->
    exists evs1 rest j mR,
      evs = evs1 ++ rest /\
      (j <= match rest with e :: _ => length (ps_ev_calls alloc c e (fst (hstate evs1 m A))) | [] => 0 end)%nat /\
      (* the files at the kill: those of the last event boundary, advanced by j updater calls *)
      ps_holdsA (ps_runk pol (ps_hist alloc c evs m sent) k s)
        (ps_abs_calls (firstn j (match rest with
                                 | e :: _ => ps_ev_calls alloc c e (fst (hstate evs1 m A))
                                 | [] => []
                                 end)) (snd (hstate evs1 m A))) /\
      (* a fresh process started on them *)
      fst (ps_run pol (ps_startup app req alloc c m0)
                  (ps_boot (ps_fs (ps_runk pol (ps_hist alloc c evs m sent) k s)))) = Some mR /\
      let mj := ps_mem_last rest (fst (hstate evs1 m A)) j in
      let Gj := ps_ghost_last rest (fst (hstate evs1 m A)) (ps_ghosts alloc evs1 m G) j in
      (forall n r, ps_find n mj = Some r -> psr_observable r = true -> ps_has mR n) /\
      (forall n su, ps_insub mj n su -> ps_present req mR (ps_obs_of c su)) /\
      (forall n tu tok v rR, In (n, tu, tok, v) Gj -> ps_find n mR = Some rR -> v < psr_observe rR + 1).
  Proof.
    intros evs m A G sent s k Hi Hok Hfuel Hs Hh.
    destruct (ps_inv_history app req alloc c m0 alloc_fresh alloc_len cfg_proto cfg_listen freq_pos freq_small
                             evs m A G Hi Hok) as [_ Hwf].
    destruct (ps_hist_crash pol alloc c cfg_dyn cfg_obs cfg_cnt la_pos lt_pos evs m sent A s k
                            (iv_wf _ _ _ _ _ _ _ Hi) Hwf ltac:(lia) Hs Hh) as (evs1 & rest & j & He & Hjl & Hj).
    destruct (ps_hist_ok_app app req alloc c evs1 rest m ltac:(rewrite <- He; exact Hok)) as [Hok0 Hok1].
    destruct (ps_inv_history app req alloc c m0 alloc_fresh alloc_len cfg_proto cfg_listen freq_pos freq_small
                             evs1 m A G Hi Hok0) as [Hi1 Hwf1].
    specialize (Hok1 A).
    set (m1 := fst (hstate evs1 m A)) in *. set (A1 := snd (hstate evs1 m A)) in *.
    set (G1 := ps_ghosts alloc evs1 m G) in *.
    set (calls := match rest with e :: _ => ps_ev_calls alloc c e m1 | [] => [] end) in *.
    pose proof (ps_hist_state_size evs1 m A (iv_wf _ _ _ _ _ _ _ Hi) Hwf1) as Hsz1. fold A1 in Hsz1.
    assert (Hnc : (ps_hist_ncalls alloc c evs1 m + length calls <= ps_hist_ncalls alloc c evs m)%nat).
    { rewrite He, (ps_ncalls_app evs1 rest m A). fold m1. subst calls.
      destruct rest as [|e rest']; cbn [ps_hist_ncalls length]; lia. }
    (* the weak invariant at the kill point *)
    assert (Hw : ps_invw app req c m0 (ps_mem_last rest m1 j) (ps_abs_calls (firstn j calls) A1)
                         (ps_ghost_last rest m1 G1 j)).
    { unfold ps_mem_last, ps_ghost_last. subst calls. destruct rest as [|e rest'].
      - cbn [firstn]. destruct j; cbn [firstn ps_abs_calls]; apply (ps_inv_invw app req c m0); exact Hi1.
      - destruct Hok1 as [He1 _].
        apply (ps_mid_invw app req alloc c m0 alloc_fresh alloc_len cfg_proto cfg_listen freq_pos freq_small
                           e m1 A1 G1 j Hi1 He1 Hjl). }
    assert (Hcwj : Forall (ps_call_wf (psc_la c) (psc_lt c)) (firstn j calls)).
    { apply ps_forall_firstn. subst calls. destruct rest as [|e rest']; [constructor|].
      destruct Hok1 as [He1 _].
      apply (ps_inv_event app req alloc c m0 alloc_fresh alloc_len cfg_proto cfg_listen freq_pos freq_small
                          e m1 A1 G1 Hi1 He1). }
    destruct (ps_abs_calls_wf c (firstn j calls) A1 (iv_wf _ _ _ _ _ _ _ Hi1) Hcwj) as [_ Hszj].
    assert (Hlenj : (length (firstn j calls) <= length calls)%nat) by (rewrite firstn_length; lia).
    destruct (ps_invw_restores app req alloc c m0 alloc_len freq_pos pol
                _ _ _ (ps_fs (ps_runk pol (ps_hist alloc c evs m sent) k s))
                cfg_dyn cfg_obs cfg_cnt cfg_unknown la_pos lt_pos m0_fresh Hw ltac:(lia) Hj)
      as (mR & Hrun & R1 & R2 & R3).
    exists evs1, rest, j, mR. split; [exact He|].
    split; [subst calls; destruct rest; [cbn [length] in Hjl|]; exact Hjl|]. split; [exact Hj|].
    split; [exact Hrun|]. cbn zeta. split; [exact R1|]. split; [exact R2|exact R3].
  Qed.
End Final.

(* what the theorem says about an interrupted DELETE: until its last call every Observe value
   sent before still counts, and until the dynamic-resource record goes the resource is part of
   the memory state that has to come back (with the observers whose records are still there) *)
Theorem ps_delete_window : forall alloc c name rest m G r j,
  ps_find name m = Some r ->
  let p := if ps_del_bump r && (ps_del_value r mod psc_freq c =? 0) then 1%nat else 0%nat in
  (j < length (ps_ev_calls alloc c (PsEvDel name) m))%nat ->
  ps_ghost_last alloc c (PsEvDel name :: rest) m G j = G /\
  ((1 <= j <= p + length (psr_subs r))%nat ->
   ps_mem_last alloc c (PsEvDel name :: rest) m j =
   ps_replace (mkRsrc name (psr_observable r) (ps_del_value r) (skipn (j - p) (psr_subs r))) m).
Proof.
  intros alloc c name rest m G r j Hf p Hj. unfold ps_ghost_last, ps_mem_last. split.
  - apply ps_ghost_at_inside. exact Hj.
  - intros [H1 H2]. unfold ps_mem_at. destruct j as [|j']; [lia|]. rewrite Hf. fold p.
    destruct (Nat.leb_spec (S j') (p + length (psr_subs r))); [reflexivity|lia].
Qed.
