(* C17 - every server event is a fixed sequence of updater calls (a function of the event and
   the memory state), hence History.ps_calls_crash applies to whole event histories: at any kill
   point the files hold the abstract state after the completed events plus the first j updater
   calls of the interrupted event. *)
From LibcoapV Require Import Base.Tactics Base.Bytes Persist.Fs Persist.FsProofs Persist.Records
  Persist.Updaters Persist.Streams Persist.History Persist.Server.
Local Open Scope Z_scope.

Section Eqv.
  Variable pol : Z -> Z -> Z.

  (* same behaviour as far as run / runk can tell *)
  Definition ps_eqv {A} (p q : ps_prog A) : Prop :=
    forall s, ps_run pol p s = ps_run pol q s /\ forall k, ps_runk pol p k s = ps_runk pol q k s.

  Lemma ps_eqv_refl : forall A (p : ps_prog A), ps_eqv p p.
  Proof. intros A p s. split; reflexivity. Qed.

  Lemma ps_eqv_trans : forall A (p q r : ps_prog A), ps_eqv p q -> ps_eqv q r -> ps_eqv p r.
  Proof.
    intros A p q r H1 H2 s. destruct (H1 s) as [A1 B1]. destruct (H2 s) as [A2 B2].
    split; [congruence|]. intro k. rewrite B1. apply B2.
  Qed.

  Lemma ps_eqv_sym : forall A (p q : ps_prog A), ps_eqv p q -> ps_eqv q p.
  Proof. intros A p q H s. destruct (H s) as [A1 B1]. split; [congruence|]. intro k. symmetry. apply B1. Qed.

  Lemma ps_eqv_do : forall A op (k k' : ps_res -> ps_prog A),
    (forall r, ps_eqv (k r) (k' r)) -> ps_eqv (PsDo op k) (PsDo op k').
  Proof.
    intros A op k k' H s. split.
    - cbn [ps_run]. destruct (ps_step pol op s) as [r s1]. apply H.
    - intros [|n]; [reflexivity|]. cbn [ps_runk]. destruct (ps_step pol op s) as [r s1]. apply H.
  Qed.

  Lemma ps_eqv_bind_ext : forall A B (p : ps_prog A) (f g : A -> ps_prog B),
    (forall a, ps_eqv (f a) (g a)) -> ps_eqv (ps_bind p f) (ps_bind p g).
  Proof.
    intros A B p f g H. induction p as [a|op k IH]; cbn [ps_bind]; [apply H|apply ps_eqv_do; exact IH].
  Qed.

  Lemma ps_eqv_assoc : forall A B C (p : ps_prog A) (f : A -> ps_prog B) (g : B -> ps_prog C),
    ps_eqv (ps_bind (ps_bind p f) g) (ps_bind p (fun a => ps_bind (f a) g)).
  Proof.
    intros A B C p f g. induction p as [a|op k IH]; cbn [ps_bind]; [apply ps_eqv_refl|apply ps_eqv_do; exact IH].
  Qed.
End Eqv.

Section Seq.
  Variable pol : Z -> Z -> Z.
  Variables la lt : Z.
  Hypothesis la_pos : 0 < la.
  Hypothesis lt_pos : 0 < lt.
  Variable fuel : nat.

  (* programs that run a list of updater calls (aborting only on out-of-fuel) and then return x *)
  Inductive ps_seqof {R : Type} : list ps_call -> R -> ps_prog (option R) -> Prop :=
  | PsSeqRet : forall x, ps_seqof [] x (PsRet (Some x))
  | PsSeqGuard : forall cl calls x k,
      ps_seqof calls x k -> ps_seqof (cl :: calls) x (ps_guard (ps_call_prog la lt fuel cl) k)
  | PsSeqEqv : forall calls x p q, ps_seqof calls x p -> ps_eqv pol p q -> ps_seqof calls x q.

  Theorem ps_seqof_run : forall R calls (x : R) p, ps_seqof calls x p ->
    forall A s,
      ps_abs_wf la lt A -> Forall (ps_call_wf la lt) calls ->
      (ps_abs_size A + length calls < fuel)%nat -> ps_tmpw s -> ps_holdsA s A ->
      fst (ps_run pol p s) = Some x /\
      ps_holdsA (snd (ps_run pol p s)) (ps_abs_calls calls A) /\
      ps_tmpw (snd (ps_run pol p s)) /\
      forall k, exists j, (j <= length calls)%nat /\
        ps_holdsA (ps_runk pol p k s) (ps_abs_calls (firstn j calls) A).
  Proof.
    intros R calls x p Hp. induction Hp; intros A s HA Hw Hsz Hs Hh.
    - cbn [ps_run fst snd ps_abs_calls]. split; [reflexivity|]. split; [exact Hh|]. split; [exact Hs|].
      intro k. exists O. split; [lia|]. destruct k; exact Hh.
    - inversion Hw as [|? ? Hw1 Hw2]; subst. cbn [length] in Hsz.
      destruct (ps_abs_call_wf la lt cl A HA Hw1) as [HA1 Hsz1].
      destruct (ps_call_run pol la lt la_pos lt_pos fuel cl A s HA Hw1 ltac:(lia) Hh) as [Hh1 Hres].
      assert (Hs1 : ps_tmpw (snd (ps_run pol (ps_call_prog la lt fuel cl) s))).
      { apply ps_disc_run_tmpw; [apply ps_disc1_disc; apply ps_call_prog_d1|exact Hs]. }
      destruct (IHHp (ps_abs_call cl A) (snd (ps_run pol (ps_call_prog la lt fuel cl) s))
                     HA1 Hw2 ltac:(lia) Hs1 Hh1) as (I1 & I2 & I3 & I4).
      unfold ps_guard. rewrite ps_run_bind.
      destruct (ps_run pol (ps_call_prog la lt fuel cl) s) as [r s1] eqn:Er. cbn [fst snd] in *.
      destruct (Z.eqb_spec r PS_FUEL) as [E|E]; [contradiction|].
      split; [exact I1|]. split; [exact I2|]. split; [exact I3|].
      apply (ps_call_crash pol la lt la_pos lt_pos fuel _ cl _ calls A s HA Hw1 ltac:(lia) Hs Hh).
      cbv zeta. rewrite Er. cbn [fst snd]. destruct (Z.eqb_spec r PS_FUEL) as [E'|_]; [contradiction|exact I4].
    - destruct (IHHp A s HA Hw Hsz Hs Hh) as (I1 & I2 & I3 & I4).
      destruct (H s) as [E1 E2]. rewrite <- E1.
      split; [exact I1|]. split; [exact I2|]. split; [exact I3|].
      intro n. rewrite <- E2. apply I4.
  Qed.

  Lemma ps_seqof_app : forall R calls1 calls2 (x : R) k,
    ps_seqof calls2 x k ->
    forall (wrap : ps_prog (option R) -> ps_prog (option R)),
      (forall calls y q, ps_seqof calls y q -> ps_seqof (calls1 ++ calls) y (wrap q)) ->
      ps_seqof (calls1 ++ calls2) x (wrap k).
  Proof. intros. apply H0. exact H. Qed.

  (* coap_op_resource_deleted = dynamic-resource entry, then counter entry *)
  Lemma ps_seqof_res_deleted : forall R n calls (x : R) k,
    ps_seqof calls x k ->
    ps_seqof (CDynDeleted n :: CCntDeleted n :: calls) x
             (ps_guard (ps_res_deleted fuel true true n) k).
  Proof.
    intros R n calls x k Hk.
    eapply PsSeqEqv.
    - apply (PsSeqGuard (CDynDeleted n)). apply (PsSeqGuard (CCntDeleted n)). exact Hk.
    - apply ps_eqv_sym. unfold ps_guard, ps_res_deleted. cbn [ps_call_prog].
      eapply ps_eqv_trans; [apply ps_eqv_assoc|].
      apply ps_eqv_bind_ext. intro a.
      destruct (a =? PS_FUEL) eqn:E.
      + cbn [ps_bind]. change (PS_FUEL =? PS_FUEL) with true. cbn iota. apply ps_eqv_refl.
      + eapply ps_eqv_trans; [apply ps_eqv_assoc|].
        apply ps_eqv_bind_ext. intro b.
        destruct (b =? PS_FUEL) eqn:Eb.
        * cbn [ps_bind]. change (PS_FUEL =? PS_FUEL) with true. cbn iota. apply ps_eqv_refl.
        * cbn [ps_bind]. change (1 =? PS_FUEL) with false. cbn iota. apply ps_eqv_refl.
  Qed.
End Seq.

Section Events.
  Variable pol : Z -> Z -> Z.
  Variable alloc : list bytes -> bytes.
  Variable c : ps_cfg.
  Hypothesis cfg_dyn : psc_dyn c = true.
  Hypothesis cfg_obs : psc_obs c = true.
  Hypothesis cfg_cnt : psc_cnt c = true.

  Definition ps_del_bump (r : ps_rsrc) : bool :=
    psr_observable r && negb (match psr_subs r with [] => true | _ => false end).
  Definition ps_del_value (r : ps_rsrc) : Z :=
    if ps_del_bump r then ps_next_observe (psr_observe r) else psr_observe r.

  Definition ps_reg_subs1 (tuple ck : bytes) (r : ps_rsrc) : list ps_sub :=
    match ps_find_ck tuple ck (psr_subs r) with
    | Some o => ps_drop_key (pss_key o) (psr_subs r)
    | None => psr_subs r
    end.
  Definition ps_reg_new (name tuple token ck pkt : bytes) (r : ps_rsrc) (m : ps_mem) : ps_sub :=
    mkSub (alloc (ps_live (ps_replace (mkRsrc name true (psr_observe r) (ps_reg_subs1 tuple ck r)) m)))
          tuple token ck pkt.
  Definition ps_cancel_hit (tuple token ck : bytes) (r : ps_rsrc) : option ps_sub :=
    match ps_find_tok tuple token (psr_subs r) with
    | Some s => Some s
    | None => ps_find_ck tuple ck (psr_subs r)
    end.

  (* the updater calls an event issues *)
  Definition ps_ev_calls (e : ps_event) (m : ps_mem) : list ps_call :=
    match e with
    | PsEvPut name observable pkt =>
        match ps_find name m with
        | Some _ => []
        | None => if observable then [CDynAdded (mkDyn (psc_proto c) name pkt)] else []
        end
    | PsEvDel name =>
        match ps_find name m with
        | None => []
        | Some r =>
            (if ps_del_bump r && (ps_del_value r mod psc_freq c =? 0)
             then [CCntTrack name (ps_del_value r)] else []) ++
            map (fun s => CObsDeleted (pss_key s)) (psr_subs r) ++
            [CDynDeleted name; CCntDeleted name]
        end
    | PsEvReg name tuple token ck pkt =>
        match ps_find name m with
        | None => []
        | Some r =>
            if negb (psr_observable r) then [] else
            match ps_find_tok tuple token (psr_subs r) with
            | Some _ => []
            | None =>
                (match ps_find_ck tuple ck (psr_subs r) with
                 | Some o => [CObsDeleted (pss_key o)]
                 | None => []
                 end) ++
                [CObsAdded (ps_obs_of c (ps_reg_new name tuple token ck pkt r m));
                 CCntTrack name (psr_observe r)]
            end
        end
    | PsEvCancel name tuple token ck =>
        match ps_find name m with
        | None => []
        | Some r =>
            if negb (psr_observable r) then [] else
            match ps_cancel_hit tuple token ck r with
            | Some s => [CObsDeleted (pss_key s)]
            | None => []
            end
        end
    | PsEvNotify name =>
        match ps_find name m with
        | None => []
        | Some r =>
            match psr_observable r, psr_subs r with
            | true, _ :: _ =>
                if ps_next_observe (psr_observe r) mod psc_freq c =? 0
                then [CCntTrack name (ps_next_observe (psr_observe r))] else []
            | _, _ => []
            end
        end
    | PsEvRaw _ => []
    end.

  (* the memory state and the messages after the event *)
  Definition ps_ev_out (e : ps_event) (m : ps_mem) : ps_mem * list ps_send :=
    match e with
    | PsEvPut name observable pkt =>
        match ps_find name m with
        | Some _ => (m, [])
        | None => (m ++ [mkRsrc name observable PS_OBSERVE0 []], [])
        end
    | PsEvDel name =>
        match ps_find name m with
        | None => (m, [])
        | Some r => (ps_remove name m, [])
        end
    | PsEvReg name tuple token ck pkt =>
        match ps_find name m with
        | None => (m, [])
        | Some r =>
            if negb (psr_observable r) then (m, []) else
            match ps_find_tok tuple token (psr_subs r) with
            | Some _ => (m, [(name, tuple, token, psr_observe r)])
            | None =>
                (ps_replace (mkRsrc name true (psr_observe r)
                               (ps_reg_new name tuple token ck pkt r m :: ps_reg_subs1 tuple ck r)) m,
                 [(name, tuple, token, psr_observe r)])
            end
        end
    | PsEvCancel name tuple token ck =>
        match ps_find name m with
        | None => (m, [])
        | Some r =>
            if negb (psr_observable r) then (m, []) else
            match ps_cancel_hit tuple token ck r with
            | Some s => (ps_replace (mkRsrc name true (psr_observe r)
                                            (ps_drop_key (pss_key s) (psr_subs r))) m, [])
            | None => (m, [])
            end
        end
    | PsEvNotify name =>
        match ps_find name m with
        | None => (m, [])
        | Some r =>
            match psr_observable r, psr_subs r with
            | true, _ :: _ =>
                (ps_replace (mkRsrc name true (ps_next_observe (psr_observe r)) (psr_subs r)) m,
                 map (fun s => (name, pss_tuple s, pss_token s, ps_next_observe (psr_observe r)))
                     (psr_subs r))
            | _, _ => (m, [])
            end
        end
    | PsEvRaw _ => (m, [])
    end.

  Definition ps_ev_server (e : ps_event) : Prop :=
    match e with PsEvRaw _ => False | _ => True end.

  Notation seqof := (ps_seqof pol (psc_la c) (psc_lt c) (psc_fuel c)).

  Lemma ps_untrack_sub_seqof : forall R s calls (x : R) k,
    seqof calls x k -> seqof (CObsDeleted (pss_key s) :: calls) x (ps_untrack_sub c s k).
  Proof. intros R s calls x k Hk. unfold ps_untrack_sub, ps_when. rewrite cfg_obs. apply PsSeqGuard. exact Hk. Qed.

  Lemma ps_untrack_all_seqof : forall l calls x k,
    seqof calls x k ->
    seqof (map (fun s => CObsDeleted (pss_key s)) l ++ calls) x (ps_untrack_all c l k).
  Proof.
    induction l as [|s l IH]; intros calls x k Hk; cbn [map List.app ps_untrack_all]; [exact Hk|].
    apply ps_untrack_sub_seqof, IH. exact Hk.
  Qed.

  Theorem ps_ev_seqof : forall e m, ps_ev_server e ->
    seqof (ps_ev_calls e m) (ps_ev_out e m) (ps_ev alloc c e m).
  Proof.
    intros e m He. destruct e; cbn [ps_ev ps_ev_calls ps_ev_out]; try contradiction.
    - (* put *)
      unfold ps_ev_put. destruct (ps_find name m); [constructor|].
      rewrite cfg_dyn. cbn [andb]. unfold ps_when. destruct observable; [|constructor].
      apply PsSeqGuard. constructor.
    - (* delete *)
      unfold ps_ev_del. destruct (ps_find name m) as [r|]; [|constructor].
      fold (ps_del_bump r). fold (ps_del_value r). rewrite cfg_cnt, cfg_dyn. cbn [orb].
      rewrite andb_true_r. unfold ps_when at 1.
      destruct (ps_del_bump r && (ps_del_value r mod psc_freq c =? 0)); cbn [List.app];
        [apply PsSeqGuard|]; apply ps_untrack_all_seqof, ps_seqof_res_deleted; constructor.
    - (* register *)
      unfold ps_ev_reg. destruct (ps_find name m) as [r|]; [|constructor].
      destruct (negb (psr_observable r)); [constructor|].
      destruct (ps_find_tok tuple token (psr_subs r)); [constructor|].
      fold (ps_reg_subs1 tuple ck r). fold (ps_reg_new name tuple token ck pkt r m).
      rewrite cfg_obs. unfold ps_track, ps_when. rewrite cfg_cnt.
      destruct (ps_find_ck tuple ck (psr_subs r)) as [o|]; cbn [List.app];
        [apply ps_untrack_sub_seqof|]; apply PsSeqGuard, PsSeqGuard; constructor.
    - (* cancel *)
      unfold ps_ev_cancel. destruct (ps_find name m) as [r|]; [|constructor].
      destruct (negb (psr_observable r)); [constructor|].
      fold (ps_cancel_hit tuple token ck r).
      destruct (ps_cancel_hit tuple token ck r) as [s|]; [|constructor].
      apply ps_untrack_sub_seqof. constructor.
    - (* notify *)
      unfold ps_ev_notify. destruct (ps_find name m) as [r|]; [|constructor].
      destruct (psr_observable r); [|constructor]. destruct (psr_subs r) as [|s0 l]; [constructor|].
      rewrite cfg_cnt. cbn [andb]. unfold ps_when.
      destruct (ps_next_observe (psr_observe r) mod psc_freq c =? 0); [|constructor].
      apply PsSeqGuard. constructor.
  Qed.
End Events.

Section Histories.
  Variable pol : Z -> Z -> Z.
  Variable alloc : list bytes -> bytes.
  Variable c : ps_cfg.
  Hypothesis cfg_dyn : psc_dyn c = true.
  Hypothesis cfg_obs : psc_obs c = true.
  Hypothesis cfg_cnt : psc_cnt c = true.
  Hypothesis la_pos : 0 < psc_la c.
  Hypothesis lt_pos : 0 < psc_lt c.

  (* memory and abstract file state after a list of events *)
  Fixpoint ps_hist_state (evs : list ps_event) (m : ps_mem) (A : ps_abs) : ps_mem * ps_abs :=
    match evs with
    | [] => (m, A)
    | e :: tl => ps_hist_state tl (fst (ps_ev_out alloc e m)) (ps_abs_calls (ps_ev_calls alloc c e m) A)
    end.

  (* every call of the history has well-formed arguments; total number of calls *)
  Fixpoint ps_hist_wf (evs : list ps_event) (m : ps_mem) : Prop :=
    match evs with
    | [] => True
    | e :: tl => ps_ev_server e /\ Forall (ps_call_wf (psc_la c) (psc_lt c)) (ps_ev_calls alloc c e m) /\
                 ps_hist_wf tl (fst (ps_ev_out alloc e m))
    end.
  Fixpoint ps_hist_ncalls (evs : list ps_event) (m : ps_mem) : nat :=
    match evs with
    | [] => O
    | e :: tl => (length (ps_ev_calls alloc c e m) + ps_hist_ncalls tl (fst (ps_ev_out alloc e m)))%nat
    end.

  Lemma ps_abs_calls_wf : forall calls A,
    ps_abs_wf (psc_la c) (psc_lt c) A -> Forall (ps_call_wf (psc_la c) (psc_lt c)) calls ->
    ps_abs_wf (psc_la c) (psc_lt c) (ps_abs_calls calls A) /\
    (ps_abs_size (ps_abs_calls calls A) <= ps_abs_size A + length calls)%nat.
  Proof.
    induction calls as [|cl calls IH]; intros A HA Hw; cbn [ps_abs_calls length]; [split; [exact HA|apply Nat.le_add_r]|].
    inversion Hw; subst. destruct (ps_abs_call_wf _ _ cl A HA H1) as [H3 H4].
    destruct (IH _ H3 H2) as [H5 H6]. split; [exact H5|clear - H4 H6; lia].
  Qed.

  (* C17_atomic + C17_update_correct over whole event histories: at kill point k the files hold
     the abstract state after the completed events (evs1) plus the first j updater calls of the
     event that was interrupted *)
  Theorem ps_hist_crash : forall evs m sent A s k,
    ps_abs_wf (psc_la c) (psc_lt c) A -> ps_hist_wf evs m ->
    (ps_abs_size A + ps_hist_ncalls evs m < psc_fuel c)%nat ->
    ps_tmpw s -> ps_holdsA s A ->
    exists evs1 rest j,
      evs = evs1 ++ rest /\
      let calls := match rest with
                   | e :: _ => ps_ev_calls alloc c e (fst (ps_hist_state evs1 m A))
                   | [] => []
                   end in
      (j <= length calls)%nat /\
      ps_holdsA (ps_runk pol (ps_hist alloc c evs m sent) k s)
                (ps_abs_calls (firstn j calls) (snd (ps_hist_state evs1 m A))).
  Proof.
    induction evs as [|e evs IH]; intros m sent A s k HA Hw Hsz Hs Hh.
    - exists [], [], O. split; [reflexivity|]. split; [apply Nat.le_refl|].
      cbn [ps_hist ps_hist_state fst snd firstn ps_abs_calls]. destruct k; exact Hh.
    - destruct Hw as (Hsrv & Hcw & Hw'). cbn [ps_hist_ncalls] in Hsz.
      pose proof (ps_ev_seqof pol alloc c cfg_dyn cfg_obs cfg_cnt e m Hsrv) as Hseq.
      destruct (ps_seqof_run pol (psc_la c) (psc_lt c) la_pos lt_pos (psc_fuel c) _ _ _ _ Hseq
                             A s HA Hcw ltac:(lia) Hs Hh) as (R1 & R2 & R3 & R4).
      cbn [ps_hist]. rewrite ps_runk_bind.
      destruct (k <=? ps_nops pol (ps_ev alloc c e m) s)%nat.
      + destruct (R4 k) as (j & Hj & Hjh).
        exists [], (e :: evs), j. split; [reflexivity|]. split; [exact Hj|exact Hjh].
      + destruct (ps_ev_out alloc e m) as [m' sn] eqn:Eo.
        destruct (ps_abs_calls_wf _ A HA Hcw) as [HA' Hsz'].
        destruct (IH m' (sent ++ sn) (ps_abs_calls (ps_ev_calls alloc c e m) A)
                     (snd (ps_run pol (ps_ev alloc c e m) s))
                     (k - ps_nops pol (ps_ev alloc c e m) s)%nat HA')
          as (evs1 & rest & j & He & Hjh); try assumption; try exact Hw'; try (cbn [fst] in Hsz; lia).
        exists (e :: evs1), rest, j. split; [cbn [List.app]; congruence|].
        unfold ps_result in *. rewrite R1. cbn [ps_hist_state]. rewrite Eo. cbn [fst]. exact Hjh.
  Qed.

  Theorem ps_hist_run : forall evs m sent A s,
    ps_abs_wf (psc_la c) (psc_lt c) A -> ps_hist_wf evs m ->
    (ps_abs_size A + ps_hist_ncalls evs m < psc_fuel c)%nat ->
    ps_tmpw s -> ps_holdsA s A ->
    exists sn, fst (ps_run pol (ps_hist alloc c evs m sent) s) =
                 Some (fst (ps_hist_state evs m A), sent ++ sn) /\
      ps_holdsA (snd (ps_run pol (ps_hist alloc c evs m sent) s)) (snd (ps_hist_state evs m A)).
  Proof.
    induction evs as [|e evs IH]; intros m sent A s HA Hw Hsz Hs Hh.
    - exists []. cbn [ps_hist ps_run ps_hist_state fst snd]. rewrite app_nil_r. split; [reflexivity|exact Hh].
    - destruct Hw as (Hsrv & Hcw & Hw'). cbn [ps_hist_ncalls] in Hsz.
      pose proof (ps_ev_seqof pol alloc c cfg_dyn cfg_obs cfg_cnt e m Hsrv) as Hseq.
      destruct (ps_seqof_run pol (psc_la c) (psc_lt c) la_pos lt_pos (psc_fuel c) _ _ _ _ Hseq
                             A s HA Hcw ltac:(lia) Hs Hh) as (R1 & R2 & R3 & R4).
      cbn [ps_hist]. rewrite ps_run_bind. clear R4. unfold ps_result in *. revert R1 R2 R3.
      destruct (ps_run pol _ s) as [r s1]. cbn [fst snd]. intros -> R2' R3'.
      destruct (ps_ev_out alloc e m) as [m' sn] eqn:Eo.
      destruct (ps_abs_calls_wf _ A HA Hcw) as [HA' Hsz'].
      destruct (IH m' (sent ++ sn) _ s1 HA') as (sn' & F1 & F2); try assumption; try exact Hw'; try (cbn [fst] in Hsz; lia).
      exists (sn ++ sn'). cbn [ps_hist_state]. rewrite Eo. cbn [fst]. cbv beta iota zeta.
      split; [rewrite F1, <- app_assoc; reflexivity|exact F2].
  Qed.
End Histories.
