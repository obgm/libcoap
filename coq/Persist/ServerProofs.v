(* C17 - the call-outs, whole histories and coap_persist_startup follow the discipline of
   FsProofs.v, hence the crash theorem holds for a complete server process: at every kill point
   the three persistent files are exactly what the last completed rename left (or what the
   process found at its start). *)
From LibcoapV Require Import Base.Tactics Base.Bytes Persist.Fs Persist.FsProofs Persist.Records
  Persist.Updaters Persist.Discipline Persist.Server.
Local Open Scope Z_scope.

Lemma ps_guard_d : forall A (p : ps_prog Z) (k : ps_prog (option A)),
  ps_disc p -> ps_disc k -> ps_disc (ps_guard p k).
Proof.
  intros. unfold ps_guard. apply ps_disc_bind; [assumption|].
  intro r. destruct (r =? PS_FUEL); [constructor|assumption].
Qed.

Lemma ps_when_d : forall A b (p : ps_prog Z) (k : ps_prog (option A)),
  ps_disc p -> ps_disc k -> ps_disc (ps_when b p k).
Proof. intros. unfold ps_when. destruct b; [apply ps_guard_d|]; assumption. Qed.

(* the call-outs: a guarded updater, then the rest *)
Lemma ps_track_d : forall A c name v (k : ps_prog (option A)), ps_disc k -> ps_disc (ps_track c name v k).
Proof. intros. apply ps_when_d; [apply ps_disc1_disc, ps_cnt_track_d1|assumption]. Qed.

Lemma ps_untrack_sub_d : forall A c s (k : ps_prog (option A)), ps_disc k -> ps_disc (ps_untrack_sub c s k).
Proof. intros. apply ps_when_d; [apply ps_disc1_disc, ps_obs_deleted_d1|assumption]. Qed.

Section Disc.
  Variable app : bytes -> option (bytes * bool).
  Variable req : bytes -> option (bytes * bytes * bytes).
  Variable alloc : list bytes -> bytes.
  Variable c : ps_cfg.

  Lemma ps_untrack_all_d : forall l k, ps_disc k -> ps_disc (ps_untrack_all c l k).
  Proof.
    induction l as [|s l IH]; intros k Hk; cbn [ps_untrack_all]; [exact Hk|].
    apply ps_untrack_sub_d, IH, Hk.
  Qed.

  Definition ps_ev_ok (e : ps_event) : Prop :=
    match e with PsEvRaw p => ps_disc p | _ => True end.

  Lemma ps_ev_d : forall e m, ps_ev_ok e -> ps_disc (ps_ev alloc c e m).
  Proof.
    intros e m He. destruct e; cbn [ps_ev].
    - unfold ps_ev_put. destruct (ps_find name m); [constructor|].
      apply ps_when_d; [apply ps_disc1_disc, ps_dyn_added_d1|constructor].
    - unfold ps_ev_del. destruct (ps_find name m); [|constructor].
      apply ps_when_d; [apply ps_disc1_disc, ps_cnt_track_d1|].
      apply ps_untrack_all_d, ps_when_d; [apply ps_res_deleted_d|constructor].
    - unfold ps_ev_reg. destruct (ps_find name m) as [r|]; [|constructor].
      destruct (negb (psr_observable r)); [constructor|].
      destruct (ps_find_tok tuple token (psr_subs r)); [constructor|]. cbv zeta.
      destruct (ps_find_ck tuple ck (psr_subs r)); [apply ps_untrack_sub_d|];
        (apply ps_when_d; [apply ps_disc1_disc, ps_obs_added_d1|apply ps_track_d; constructor]).
    - unfold ps_ev_cancel. destruct (ps_find name m) as [r|]; [|constructor].
      destruct (negb (psr_observable r)); [constructor|].
      destruct (match ps_find_tok tuple token (psr_subs r) with
                | Some s => Some s | None => ps_find_ck tuple ck (psr_subs r) end); [|constructor].
      apply ps_untrack_sub_d. constructor.
    - unfold ps_ev_notify. destruct (ps_find name m) as [r|]; [|constructor].
      destruct (psr_observable r); [|constructor]. destruct (psr_subs r); [constructor|].
      apply ps_when_d; [apply ps_disc1_disc, ps_cnt_track_d1|constructor].
    - apply ps_guard_d; [exact He|constructor].
  Qed.

  Lemma ps_hist_d : forall l m sent, Forall ps_ev_ok l -> ps_disc (ps_hist alloc c l m sent).
  Proof.
    induction l as [|e l IH]; intros m sent Hl; cbn [ps_hist]; [constructor|].
    inversion Hl; subst. apply ps_disc_bind; [apply ps_ev_d; assumption|].
    intros [[m' s]|]; [apply IH; assumption|constructor].
  Qed.

  Lemma ps_obs_step_d : forall r m, ps_disc (ps_obs_step req alloc c r m).
  Proof.
    intros r m. unfold ps_obs_step.
    destruct (negb (ps_beq (pso_proto r) (psc_proto c))); [constructor|].
    destruct (negb (ps_beq (pso_listen r) (psc_listen c))); [constructor|].
    destruct (req (pso_pkt r)) as [[[name token] ck]|]; [|constructor].
    destruct (ps_find name m) as [rs|]; [|constructor].
    destruct (negb (psr_observable rs)); [constructor|].
    destruct (ps_find_tok (pso_tuple r) token (psr_subs rs)); [constructor|].
    destruct (psc_cnt c); [|constructor].
    apply ps_disc_bind; [apply ps_disc1_disc; apply ps_cnt_track_d1|]. intro; constructor.
  Qed.

  Lemma ps_startup_d : forall m0, ps_disc (ps_startup app req alloc c m0).
  Proof.
    intro m0. unfold ps_startup. apply ps_disc_bind.
    - destruct (psc_dyn c && psc_unknown c); [|constructor].
      apply ps_disc0_disc, ps_dyn_load_d0.
    - intros [m1|]; [|constructor]. apply ps_disc_bind.
      + destruct (psc_cnt c); [|constructor].
        apply ps_disc0_disc, ps_cnt_load_d0.
      + intros [cnts|]; [|constructor]. destruct (psc_obs c); [|constructor].
        apply ps_obs_load_d. intros. apply ps_obs_step_d.
  Qed.

  Theorem ps_process_d : forall m0 evs,
    Forall ps_ev_ok evs -> ps_disc (ps_process app req alloc c m0 evs).
  Proof.
    intros m0 evs He. unfold ps_process. apply ps_disc_bind; [apply ps_startup_d|].
    intros [m|]; [apply ps_hist_d; exact He|constructor].
  Qed.

  (* C17_atomic for a whole server process: whatever the history, wherever the kill *)
  Theorem ps_process_crash_view : forall pol m0 evs fs k i,
    Forall ps_ev_ok evs ->
    ps_view (ps_runk pol (ps_process app req alloc c m0 evs) k (ps_boot fs)) i =
    last (ps_commit_views pol (ps_process app req alloc c m0 evs) k (ps_boot fs))
         (ps_view (ps_boot fs)) i.
  Proof.
    intros. apply ps_crash_view; [apply ps_process_d; assumption|apply ps_tmpw_boot].
  Qed.
End Disc.
