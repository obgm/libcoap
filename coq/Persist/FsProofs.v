(* C17 - facts about the stdio/file-system model: finite-map lemmas, what each call can do to
   the three persistent files, the crash theorem for programs that follow the
   write-temporary-then-rename discipline, and the relations that say what a run leaves alone. *)
From LibcoapV Require Import Base.Tactics Base.Bytes Persist.Fs.
Local Open Scope Z_scope.

Lemma ps_name_eqb_eq : forall a b, ps_name_eqb a b = true <-> a = b.
Proof. intros [i|i] [j|j]; cbn [ps_name_eqb]; rewrite ?Z.eqb_eq; split; congruence. Qed.

Lemma ps_name_eqb_refl : forall a, ps_name_eqb a a = true.
Proof. intros. apply ps_name_eqb_eq. reflexivity. Qed.

Lemma ps_name_eqb_neq : forall a b, a <> b -> ps_name_eqb a b = false.
Proof. intros a b H. apply not_true_is_false. rewrite ps_name_eqb_eq. exact H. Qed.

Lemma ps_name_eqb_sym : forall a b, ps_name_eqb a b = ps_name_eqb b a.
Proof. intros [i|i] [j|j]; cbn [ps_name_eqb]; try reflexivity; apply Z.eqb_sym. Qed.

Lemma ps_get_del_same : forall n fs, ps_get n (ps_del n fs) = None.
Proof.
  induction fs as [|[m b] tl IH]; [reflexivity|].
  cbn [ps_del]. destruct (ps_name_eqb n m) eqn:E; [exact IH|].
  cbn [ps_get]. rewrite E. exact IH.
Qed.

Lemma ps_get_del_other : forall n m fs, n <> m -> ps_get n (ps_del m fs) = ps_get n fs.
Proof.
  induction fs as [|[x b] tl IH]; intro H; [reflexivity|].
  cbn [ps_del ps_get]. destruct (ps_name_eqb m x) eqn:E.
  - apply ps_name_eqb_eq in E. subst x. rewrite (ps_name_eqb_neq n m H). apply IH. exact H.
  - cbn [ps_get]. destruct (ps_name_eqb n x); [reflexivity|]. apply IH. exact H.
Qed.

Lemma ps_get_put_same : forall n b fs, ps_get n (ps_put n b fs) = Some b.
Proof. intros. unfold ps_put. cbn [ps_get]. rewrite ps_name_eqb_refl. reflexivity. Qed.

Lemma ps_get_put_other : forall n m b fs, n <> m -> ps_get n (ps_put m b fs) = ps_get n fs.
Proof.
  intros. unfold ps_put. cbn [ps_get]. rewrite (ps_name_eqb_neq n m H).
  apply ps_get_del_other. exact H.
Qed.

Lemma ps_get_append_other : forall n m d fs, n <> m -> ps_get n (ps_append m d fs) = ps_get n fs.
Proof.
  intros. unfold ps_append. destruct (ps_get m fs); [|reflexivity].
  apply ps_get_put_other. exact H.
Qed.

Lemma ps_get_append_same : forall n d fs b,
  ps_get n fs = Some b -> ps_get n (ps_append n d fs) = Some (b ++ d).
Proof. intros. unfold ps_append. rewrite H. apply ps_get_put_same. Qed.

Lemma ps_hget_hput_same : forall h x hs, ps_hget h (ps_hput h x hs) = Some x.
Proof. intros. unfold ps_hput. cbn [ps_hget]. rewrite Z.eqb_refl. reflexivity. Qed.

Lemma ps_hget_hput_other : forall h g x hs, h <> g -> ps_hget h (ps_hput g x hs) = ps_hget h hs.
Proof.
  intros. unfold ps_hput. cbn [ps_hget].
  destruct (h =? g) eqn:E; [apply Z.eqb_eq in E; contradiction|reflexivity].
Qed.

Lemma ps_hget_hput : forall h g x hs,
  ps_hget h (ps_hput g x hs) = if h =? g then Some x else ps_hget h hs.
Proof. intros. unfold ps_hput. reflexivity. Qed.

Lemma ps_base_ne_tmp : forall i n, ps_is_tmp n = true -> PsBase i <> n.
Proof. intros i [j|j] H; [discriminate|congruence]. Qed.

(* calls that cannot change a persistent file as long as every open write stream is on a
   temporary file *)
Definition ps_quiet_op (op : ps_op) : bool :=
  match op with
  | PoOpen n PsR => true
  | PoOpen n _ => ps_is_tmp n
  | PoRename _ _ => false
  | PoRemove n => ps_is_tmp n
  | _ => true
  end.

(* the commit: rename("<file>.tmp", "<file>") *)
Definition ps_commit_op (op : ps_op) : bool :=
  match op with
  | PoRename (PsTmp i) (PsBase j) => i =? j
  | _ => false
  end.

Definition ps_tmpw (s : ps_sys) : Prop :=
  forall h x, ps_hget h (ps_hs s) = Some x -> psh_open x = true ->
              ps_writable (psh_mode x) = true -> ps_is_tmp (psh_name x) = true.

Lemma ps_tmpw_boot : forall fs, ps_tmpw (ps_boot fs).
Proof. intros fs h x H. discriminate. Qed.

Lemma ps_tmpw_crash : forall s, ps_tmpw (ps_crash s).
Proof. intros s h x H. discriminate. Qed.

Lemma ps_out_spec : forall pol s h d fl cl s',
  ps_out pol s h d fl cl = Some s' ->
  exists x now y,
    ps_hget h (ps_hs s) = Some x /\ psh_open x = true /\ ps_writable (psh_mode x) = true /\
    ps_fs s' = ps_append (psh_name x) now (ps_fs s) /\ ps_hs s' = ps_hput h y (ps_hs s) /\
    psh_name y = psh_name x.
Proof.
  intros pol s h d fl cl s' H. unfold ps_out in H.
  destruct (ps_hget h (ps_hs s)) as [x|]; [|discriminate].
  destruct (psh_open x) eqn:Ho; [|discriminate].
  destruct (ps_writable (psh_mode x)) eqn:Hw; [|discriminate]. cbn [andb] in H.
  destruct (if fl then _ else _) as [now later]. inversion H.
  exists x, now. eexists. repeat split; assumption || reflexivity.
Qed.

Lemma ps_tmpw_hput : forall s' s h y,
  ps_tmpw s -> ps_hs s' = ps_hput h y (ps_hs s) ->
  (psh_open y = true -> ps_writable (psh_mode y) = true -> ps_is_tmp (psh_name y) = true) ->
  ps_tmpw s'.
Proof.
  intros s' s h y Hs Hh Hy g x Hg Ho Hw. rewrite Hh in Hg. rewrite ps_hget_hput in Hg.
  destruct (g =? h).
  - inversion Hg; subst. apply Hy; assumption.
  - eapply Hs; eassumption.
Qed.

Lemma ps_quiet_step : forall pol op s,
  ps_tmpw s -> ps_quiet_op op = true ->
  ps_tmpw (snd (ps_step pol op s)) /\ forall i, ps_view (snd (ps_step pol op s)) i = ps_view s i.
Proof.
  intros pol op s Hs Hq.
  assert (Same : ps_tmpw s /\ forall i, ps_view s i = ps_view s i) by (split; [exact Hs|reflexivity]).
  (* a new stream, on a temporary file if it can write; a file created is a temporary one *)
  assert (New : forall n m d fs,
            (ps_writable m = true -> ps_is_tmp n = true) ->
            fs = ps_fs s \/ ps_is_tmp n = true /\ fs = ps_put n [] (ps_fs s) ->
            let t := mkPsS fs (ps_hput (ps_next s) (mkPsH n m d 0 [] true) (ps_hs s)) (ps_next s + 1) in
            ps_tmpw t /\ forall i, ps_view t i = ps_view s i).
  { intros n m d fs Hm Hfs t. split.
    - eapply ps_tmpw_hput; [exact Hs|reflexivity|]. intros _. exact Hm.
    - intro i. unfold ps_view. cbn [t ps_fs]. destruct Hfs as [->|[Ht ->]]; [reflexivity|].
      apply ps_get_put_other, ps_base_ne_tmp, Ht. }
  (* a read stream moved or closed *)
  assert (Put : forall h x pos o, ps_hget h (ps_hs s) = Some x -> ps_writable (psh_mode x) = false ->
            let t := mkPsS (ps_fs s) (ps_hput h (mkPsH (psh_name x) (psh_mode x) (psh_data x) pos
                                                       (psh_pend x) o) (ps_hs s)) (ps_next s) in
            ps_tmpw t /\ forall i, ps_view t i = ps_view s i).
  { intros h x pos o Hx Hw t. split; [|reflexivity].
    eapply ps_tmpw_hput; [exact Hs|reflexivity|]. cbn. congruence. }
  (* bytes reach the file of a write stream: a temporary one *)
  assert (Out : forall h d fl cl t, ps_out pol s h d fl cl = Some t ->
            ps_tmpw t /\ forall i, ps_view t i = ps_view s i).
  { intros h d fl cl t E. apply ps_out_spec in E.
    destruct E as (x & now & y & Hx & Ho & Hw & Hf & Hh & Hy).
    pose proof (Hs h x Hx Ho Hw) as Ht. split.
    - eapply ps_tmpw_hput; [exact Hs|exact Hh|]. intros _ _. rewrite Hy. exact Ht.
    - intro i. unfold ps_view. rewrite Hf. apply ps_get_append_other, ps_base_ne_tmp, Ht. }
  destruct op; cbn [ps_quiet_op] in Hq; unfold ps_step.
  - destruct m.
    + destruct (ps_get n (ps_fs s)); [|exact Same]. apply New; [discriminate|left; reflexivity].
    + apply New; [intros _; exact Hq|right; split; [exact Hq|reflexivity]].
    + apply New; [intros _; exact Hq|].
      destruct (ps_get n (ps_fs s)); [left; reflexivity|right; split; [exact Hq|reflexivity]].
  - destruct (ps_hget h (ps_hs s)) as [x|] eqn:Hx; [|exact Same].
    destruct (psh_open x); [|exact Same]. destruct (ps_writable (psh_mode x)) eqn:Hw; [exact Same|].
    cbn [andb negb]. destruct ((0 <? sz) && (psh_pos x + sz <=? len (psh_data x)));
      [apply Put; assumption|]. destruct (0 <? sz); [apply Put; assumption|exact Same].
  - destruct (ps_hget h (ps_hs s)) as [x|] eqn:Hx; [|exact Same].
    destruct (psh_open x); [|exact Same]. destruct (ps_writable (psh_mode x)) eqn:Hw; [exact Same|].
    cbn [andb negb]. destruct (ps_line (Z.to_nat (cap - 1)) (drop (psh_pos x) (psh_data x)));
      [exact Same|apply Put; assumption].
  - destruct d as [|b d]; [exact Same|].
    destruct (ps_out pol s h (b :: d) false false) eqn:E; [eapply Out; exact E|exact Same].
  - destruct (ps_out pol s h d false false) eqn:E; [eapply Out; exact E|exact Same].
  - destruct (ps_out pol s h [] true false) eqn:E; [eapply Out; exact E|exact Same].
  - destruct (ps_hget h (ps_hs s)) as [x|] eqn:Hx; [|exact Same].
    destruct (psh_open x); [|exact Same]. destruct (ps_writable (psh_mode x)) eqn:Hw.
    + destruct (ps_out pol s h [] true true) eqn:E; [eapply Out; exact E|exact Same].
    + apply Put; assumption.
  - discriminate.
  - destruct (ps_get n (ps_fs s)); [|exact Same]. split; [exact Hs|].
    intro i. apply ps_get_del_other, ps_base_ne_tmp, Hq.
Qed.

(* the commit replaces exactly one persistent file, by the whole temporary file *)
Lemma ps_commit_step : forall pol i s,
  ps_tmpw s ->
  let s' := snd (ps_step pol (PoRename (PsTmp i) (PsBase i)) s) in
  ps_tmpw s' /\
  match ps_get (PsTmp i) (ps_fs s) with
  | Some c => ps_view s' i = Some c /\ forall j, j <> i -> ps_view s' j = ps_view s j
  | None => forall j, ps_view s' j = ps_view s j
  end.
Proof.
  intros pol i s Hs. unfold ps_step.
  destruct (ps_get (PsTmp i) (ps_fs s)) as [c|] eqn:E; cbn [snd].
  - split; [exact Hs|]. split.
    + unfold ps_view. cbn [ps_fs]. apply ps_get_put_same.
    + intros j Hj. unfold ps_view. cbn [ps_fs].
      rewrite ps_get_put_other by congruence. apply ps_get_del_other. discriminate.
  - split; [exact Hs|reflexivity].
Qed.

(* programs that only make quiet calls and commits *)
Inductive ps_disc {A : Type} : ps_prog A -> Prop :=
| PsDiscRet : forall a, ps_disc (PsRet a)
| PsDiscDo : forall op k,
    ps_quiet_op op = true \/ ps_commit_op op = true ->
    (forall r, ps_disc (k r)) -> ps_disc (PsDo op k).

(* ... with at most one commit, after which only quiet calls follow *)
Inductive ps_disc0 {A : Type} : ps_prog A -> Prop :=
| PsDisc0Ret : forall a, ps_disc0 (PsRet a)
| PsDisc0Do : forall op k,
    ps_quiet_op op = true -> (forall r, ps_disc0 (k r)) -> ps_disc0 (PsDo op k).

Inductive ps_disc1 {A : Type} : ps_prog A -> Prop :=
| PsDisc1Ret : forall a, ps_disc1 (PsRet a)
| PsDisc1Quiet : forall op k,
    ps_quiet_op op = true -> (forall r, ps_disc1 (k r)) -> ps_disc1 (PsDo op k)
| PsDisc1Commit : forall op k,
    ps_commit_op op = true -> (forall r, ps_disc0 (k r)) -> ps_disc1 (PsDo op k).

Lemma ps_disc0_disc1 : forall A (p : ps_prog A), ps_disc0 p -> ps_disc1 p.
Proof. induction 1; [constructor|apply PsDisc1Quiet; assumption]. Qed.

Lemma ps_disc0_disc : forall A (p : ps_prog A), ps_disc0 p -> ps_disc p.
Proof. induction 1; constructor; auto. Qed.

Lemma ps_disc1_disc : forall A (p : ps_prog A), ps_disc1 p -> ps_disc p.
Proof.
  induction 1; constructor; auto. intro r. apply ps_disc0_disc. auto.
Qed.

Lemma ps_disc_bind : forall A B (p : ps_prog A) (f : A -> ps_prog B),
  ps_disc p -> (forall a, ps_disc (f a)) -> ps_disc (ps_bind p f).
Proof.
  intros A B p f Hp Hf. induction Hp; cbn [ps_bind]; [apply Hf|].
  constructor; [assumption|]. intro r. apply H1.
Qed.

Lemma ps_disc0_bind : forall A B (p : ps_prog A) (f : A -> ps_prog B),
  ps_disc0 p -> (forall a, ps_disc0 (f a)) -> ps_disc0 (ps_bind p f).
Proof.
  intros A B p f Hp Hf. induction Hp; cbn [ps_bind]; [apply Hf|].
  constructor; [assumption|]. intro r. apply H1.
Qed.

Lemma ps_disc1_bind0 : forall A B (p : ps_prog A) (f : A -> ps_prog B),
  ps_disc0 p -> (forall a, ps_disc1 (f a)) -> ps_disc1 (ps_bind p f).
Proof.
  intros A B p f Hp Hf. induction Hp; cbn [ps_bind]; [apply Hf|].
  apply PsDisc1Quiet; [assumption|]. intro r. apply H1.
Qed.

Lemma ps_commit_op_shape : forall op, ps_commit_op op = true ->
  exists i, op = PoRename (PsTmp i) (PsBase i).
Proof.
  intros op H. destruct op; try discriminate. destruct a; try discriminate.
  destruct b; try discriminate. cbn in H. apply Z.eqb_eq in H. subst. eexists; reflexivity.
Qed.

Lemma ps_disc_step : forall pol op s,
  ps_tmpw s -> ps_quiet_op op = true \/ ps_commit_op op = true ->
  ps_tmpw (snd (ps_step pol op s)).
Proof.
  intros pol op s Hs [H|H].
  - apply ps_quiet_step; assumption.
  - apply ps_commit_op_shape in H. destruct H as [i ->].
    apply (ps_commit_step pol i s Hs).
Qed.

Lemma ps_disc0_view : forall pol A (p : ps_prog A), ps_disc0 p ->
  forall k s, ps_tmpw s -> forall i, ps_view (ps_runk pol p k s) i = ps_view s i.
Proof.
  intros pol A p Hp. induction Hp; intros n s Hs i.
  - destruct n; reflexivity.
  - destruct n; [reflexivity|]. cbn [ps_runk].
    destruct (ps_step pol op s) as [r s'] eqn:E.
    pose proof (ps_quiet_step pol op s Hs H) as [Ht Hv]. rewrite E in Ht, Hv. cbn [snd] in *.
    rewrite H1 by exact Ht. apply Hv.
Qed.

Lemma ps_runk_all : forall pol A (p : ps_prog A) s,
  exists n, forall k, (n <= k)%nat -> ps_runk pol p k s = snd (ps_run pol p s).
Proof.
  intros pol A p. induction p as [a|op k IH]; intro s.
  - exists O. intros n _. destruct n; reflexivity.
  - cbn [ps_run]. destruct (ps_step pol op s) as [r s'] eqn:E.
    destruct (IH r s') as [n Hn]. exists (S n). intros m Hm.
    destruct m; [lia|]. cbn [ps_runk]. rewrite E. apply Hn. lia.
Qed.

(* C17_atomic, general form for one updater: at any kill point the three persistent files
   are what they were before the updater started, or what they are when it has finished *)
Theorem ps_atomic1 : forall pol A (p : ps_prog A), ps_disc1 p ->
  forall s, ps_tmpw s -> forall k,
    (forall i, ps_view (ps_runk pol p k s) i = ps_view s i) \/
    (forall i, ps_view (ps_runk pol p k s) i = ps_view (snd (ps_run pol p s)) i).
Proof.
  intros pol A p Hp. induction Hp; intros s Hs n.
  - left. destruct n; reflexivity.
  - destruct n; [left; reflexivity|]. cbn [ps_runk ps_run].
    destruct (ps_step pol op s) as [r s'] eqn:E.
    pose proof (ps_quiet_step pol op s Hs H) as [Ht Hv]. rewrite E in Ht, Hv. cbn [snd] in *.
    destruct (H1 r s' Ht n) as [Hl|Hr].
    + left. intro i. rewrite Hl. apply Hv.
    + right. exact Hr.
  - destruct n; [left; reflexivity|]. cbn [ps_runk ps_run].
    destruct (ps_step pol op s) as [r s'] eqn:E.
    assert (Ht : ps_tmpw s').
    { pose proof (ps_disc_step pol op s Hs (or_intror H)) as X. rewrite E in X. exact X. }
    right. intro i.
    rewrite (ps_disc0_view pol A (k r) (H0 r) n s' Ht i).
    destruct (ps_runk_all pol A (k r) s') as [m Hm].
    rewrite <- (Hm m (le_n m)).
    symmetry. apply ps_disc0_view; [apply H0|exact Ht].
Qed.

(* general form for any disciplined program (whole histories): the persistent view at a kill
   point is the view right after one of the commits made so far, or the initial one *)
Fixpoint ps_commit_views (pol : Z -> Z -> Z) {A} (p : ps_prog A) (k : nat) (s : ps_sys)
  : list (Z -> option bytes) :=
  match k, p with
  | O, _ => []
  | _, PsRet _ => []
  | S k', PsDo op c =>
      let '(r, s') := ps_step pol op s in
      (if ps_commit_op op then [ps_view s'] else []) ++ ps_commit_views pol (c r) k' s'
  end.

Lemma ps_last_cons : forall (X : Type) (l : list X) (a d : X), last (a :: l) d = last l a.
Proof.
  induction l as [|b l IH]; intros a d; [reflexivity|].
  change (last (a :: b :: l) d) with (last (b :: l) d). rewrite (IH b d), (IH b a). reflexivity.
Qed.

Theorem ps_crash_view : forall pol A (p : ps_prog A), ps_disc p ->
  forall k s, ps_tmpw s ->
    forall i, ps_view (ps_runk pol p k s) i = last (ps_commit_views pol p k s) (ps_view s) i.
Proof.
  intros pol A p Hp. induction Hp; intros n s Hs i.
  - destruct n; reflexivity.
  - destruct n; [reflexivity|]. cbn [ps_runk ps_commit_views].
    destruct (ps_step pol op s) as [r s'] eqn:E.
    assert (Ht : ps_tmpw s').
    { pose proof (ps_disc_step pol op s Hs H) as X. rewrite E in X. exact X. }
    rewrite (H1 r n s' Ht i).
    destruct (ps_commit_op op) eqn:Ec.
    + cbn [app]. rewrite ps_last_cons. reflexivity.
    + cbn [app].
      destruct H as [H|H]; [|congruence].
      pose proof (ps_quiet_step pol op s Hs H) as [_ Hv]. rewrite E in Hv. cbn [snd] in Hv.
      destruct (ps_commit_views pol (k r) n s') eqn:El; [cbn [last]; apply Hv|].
      rewrite !ps_last_cons. reflexivity.
Qed.

(* Three relations between the system before and after:
   ps_moved h: only stream h may differ, no file does (a read, fclose of a read stream);
   ps_wrote h n: only stream h and file n may differ (fwrite, fprintf, fflush, fclose);
   ps_keeps lim f: every stream below lim and every file but persistent file f and its
   temporary are as before (an update of f made with streams opened at or after lim).
   Stream ids never decrease. *)
Definition ps_moved (h : Z) (s s' : ps_sys) : Prop :=
  ps_fs s' = ps_fs s /\ ps_next s <= ps_next s' /\
  forall g, g <> h -> ps_hget g (ps_hs s') = ps_hget g (ps_hs s).

Definition ps_wrote (h : Z) (n : ps_name) (s s' : ps_sys) : Prop :=
  (forall m, m <> n -> ps_get m (ps_fs s') = ps_get m (ps_fs s)) /\ ps_next s <= ps_next s' /\
  forall g, g <> h -> ps_hget g (ps_hs s') = ps_hget g (ps_hs s).

Definition ps_keeps (lim f : Z) (s s' : ps_sys) : Prop :=
  (forall n, n <> PsBase f -> n <> PsTmp f -> ps_get n (ps_fs s') = ps_get n (ps_fs s)) /\
  ps_next s <= ps_next s' /\
  forall g, g < lim -> ps_hget g (ps_hs s') = ps_hget g (ps_hs s).

Lemma ps_moved_refl : forall h s, ps_moved h s s.
Proof. intros. split; [reflexivity|]. split; [lia|reflexivity]. Qed.

Lemma ps_moved_trans : forall h s1 s2 s3, ps_moved h s1 s2 -> ps_moved h s2 s3 -> ps_moved h s1 s3.
Proof.
  intros h s1 s2 s3 (F1 & N1 & G1) (F2 & N2 & G2). split; [congruence|]. split; [lia|].
  intros g Hg. rewrite G2, G1 by exact Hg. reflexivity.
Qed.

Lemma ps_moved_hput : forall h y s nx,
  ps_next s <= nx -> ps_moved h s (mkPsS (ps_fs s) (ps_hput h y (ps_hs s)) nx).
Proof.
  intros h y s nx Hn. split; [reflexivity|]. split; [exact Hn|].
  intros g Hg. apply ps_hget_hput_other. exact Hg.
Qed.

Lemma ps_moved_wrote : forall h n s s', ps_moved h s s' -> ps_wrote h n s s'.
Proof. intros h n s s' (F & N & G). split; [intros; rewrite F; reflexivity|]. split; assumption. Qed.

Lemma ps_wrote_refl : forall h n s, ps_wrote h n s s.
Proof. intros. apply ps_moved_wrote, ps_moved_refl. Qed.

Lemma ps_wrote_trans : forall h n s1 s2 s3,
  ps_wrote h n s1 s2 -> ps_wrote h n s2 s3 -> ps_wrote h n s1 s3.
Proof.
  intros h n s1 s2 s3 (F1 & N1 & G1) (F2 & N2 & G2).
  split; [intros m Hm; rewrite F2, F1 by exact Hm; reflexivity|]. split; [lia|].
  intros g Hg. rewrite G2, G1 by exact Hg. reflexivity.
Qed.

Lemma ps_keeps_refl : forall lim f s, ps_keeps lim f s s.
Proof. intros. split; [reflexivity|]. split; [lia|reflexivity]. Qed.

Lemma ps_keeps_trans : forall lim f s1 s2 s3,
  ps_keeps lim f s1 s2 -> ps_keeps lim f s2 s3 -> ps_keeps lim f s1 s3.
Proof.
  intros lim f s1 s2 s3 (F1 & N1 & G1) (F2 & N2 & G2).
  split; [intros n H1 H2; rewrite F2, F1 by assumption; reflexivity|]. split; [lia|].
  intros g Hg. rewrite G2, G1 by exact Hg. reflexivity.
Qed.

Lemma ps_wrote_keeps : forall h f lim s s',
  ps_wrote h (PsTmp f) s s' -> lim <= h -> ps_keeps lim f s s'.
Proof.
  intros h f lim s s' (F & N & G) Hl.
  split; [intros n _ Hn; apply F; exact Hn|]. split; [exact N|].
  intros g Hg. apply G. lia.
Qed.

Lemma ps_keeps_view : forall lim f s s' j, ps_keeps lim f s s' -> j <> f -> ps_view s' j = ps_view s j.
Proof. intros lim f s s' j (F & _) Hj. apply F; congruence. Qed.

Lemma ps_wrote_view : forall h f s s' i, ps_wrote h (PsTmp f) s s' -> ps_view s' i = ps_view s i.
Proof. intros h f s s' i (F & _). apply F. discriminate. Qed.
