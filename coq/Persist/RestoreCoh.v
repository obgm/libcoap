(* C17 - restart from files that contain a memory state.  ps_invw is the part of the coherence
   invariant (Coherence.ps_inv) a restart needs: the memory state is included in the files, and
   the files themselves are sound; it also holds in the middle of an event (MidEvent.v).  The
   fresh process then has every observable resource of that state, every observation with its
   token and cache key, and counters that are at least every Observe value sent. *)
From LibcoapV Require Import Base.Tactics Base.Bytes Persist.Fs Persist.Records
  Persist.RecordsProofs Persist.Updaters Persist.UpdatersProofs Persist.History
  Persist.LoadersProofs Persist.Server Persist.Restore Persist.MemLemmas Persist.Counter
  Persist.Coherence.
Local Open Scope Z_scope.

Section RestoreCoh.
  Variable app : bytes -> option (bytes * bool).
  Variable req : bytes -> option (bytes * bytes * bytes).
  Variable alloc : list bytes -> bytes.
  Variable c : ps_cfg.
  Variable m0 : ps_mem.
  Hypothesis alloc_len : forall live, len (alloc live) = PS_KEY.
  Hypothesis freq_pos : 0 < psc_freq c.
  Hypothesis freq_small : psc_freq c < 1000000.

  (* what the application registers itself in every process: observable resources, fresh *)
  Definition ps_fresh_rsrc (r : ps_rsrc) : Prop :=
    psr_observable r = true /\ psr_subs r = [] /\ ps_name_ok (psr_name r) /\
    0 <= psr_observe r < 16777216.

  Lemma ps_dyn_fold_fresh : forall D m,
    Forall ps_fresh_rsrc m ->
    (forall d, In d D -> app (psd_pkt d) = Some (psd_name d, true) /\ ps_name_ok (psd_name d)) ->
    Forall ps_fresh_rsrc (ps_dyn_fold (ps_dyn_step app) D m).
  Proof.
    induction D as [|d D IH]; intros m Hm HD; cbn [ps_dyn_fold]; [exact Hm|].
    destruct (HD d (or_introl eq_refl)) as [Ha Hn].
    unfold ps_dyn_step at 1. destruct (ps_find (psd_name d) m) eqn:E1.
    - apply IH; [exact Hm|]. intros x Hx. apply HD. right. exact Hx.
    - rewrite Ha, E1. apply IH; [|intros x Hx; apply HD; right; exact Hx].
      apply Forall_app. split; [exact Hm|]. constructor; [|constructor].
      unfold ps_fresh_rsrc. cbn [psr_observable psr_subs psr_name psr_observe]. unfold PS_OBSERVE0.
      split; [reflexivity|]. split; [reflexivity|]. split; [exact Hn|lia].
  Qed.

  Lemma ps_set_counts_fresh : forall l m,
    Forall ps_fresh_rsrc m -> Forall ps_fresh_rsrc (ps_set_counts l m).
  Proof.
    induction l as [|[k v] l IH]; intros m Hm; cbn [ps_set_counts]; [exact Hm|].
    apply IH. destruct (ps_find k m) as [r|] eqn:E; [|exact Hm].
    apply ps_replace_forall; [exact Hm|].
    destruct (ps_find_forall _ m k r Hm E) as (H1 & H2 & H3 & H4).
    unfold ps_fresh_rsrc. cbn [psr_observable psr_subs psr_name psr_observe].
    rewrite (ps_find_name k m r E) in H3. pose proof (Z.mod_pos_bound v 16777216).
    split; [exact H1|]. split; [exact H2|]. split; [exact H3|lia].
  Qed.

  Lemma ps_fresh_mem_ok : forall m, Forall ps_fresh_rsrc m -> ps_mem_ok m.
  Proof.
    intros m H. unfold ps_mem_ok. eapply Forall_impl; [|exact H].
    intros r (H1 & H2 & H3 & H4). split; [exact H3|]. split; [lia|]. rewrite H2. constructor.
  Qed.

  (* the counter a resource gets from its (unique) line *)
  Lemma ps_set_counts_other : forall l m n,
    ~ In n (map fst l) -> ps_find n (ps_set_counts l m) = ps_find n m.
  Proof.
    induction l as [|[k v] l IH]; intros m n Hn; cbn [ps_set_counts]; [reflexivity|].
    cbn [map fst In] in Hn. rewrite IH by tauto.
    destruct (ps_find k m) as [r|] eqn:E; [|reflexivity].
    apply ps_find_replace_other. cbn [psr_name]. intro X. apply Hn. left. congruence.
  Qed.

  Lemma ps_set_counts_line : forall l m n v r,
    NoDup (map fst l) -> In (n, v) l -> ps_find n m = Some r ->
    exists r', ps_find n (ps_set_counts l m) = Some r' /\ psr_observe r' = v mod 16777216.
  Proof.
    induction l as [|[k v0] l IH]; intros m n v r Hnd Hin Hf; [contradiction|].
    cbn [map fst] in Hnd. inversion Hnd as [|? ? Hk Hl]; subst. cbn [ps_set_counts].
    destruct Hin as [E|Hin].
    - inversion E; subst k v0. rewrite Hf. rewrite ps_set_counts_other by exact Hk.
      eexists. split; [apply (ps_find_replace_same _ m n r); [reflexivity|exact Hf]|reflexivity].
    - assert (Hne : n <> k) by (intro X; subst k; apply Hk; apply in_map_iff; exists (n, v); split; [reflexivity|exact Hin]).
      destruct (ps_find k m) as [rk|] eqn:Ek.
      + apply (IH _ n v r Hl Hin). rewrite ps_find_replace_other; [exact Hf|exact Hne].
      + apply (IH m n v r Hl Hin Hf).
  Qed.

  (* re-creating the observations does not touch the counters *)
  Lemma ps_obs_step_spec_observe : forall r m C n,
    option_map psr_observe (ps_find n (fst (fst (ps_obs_step_spec req alloc c r m C)))) =
    option_map psr_observe (ps_find n m).
  Proof.
    intros r m C n. unfold ps_obs_step_spec.
    destruct (negb (ps_beq (pso_proto r) (psc_proto c))); [reflexivity|].
    destruct (negb (ps_beq (pso_listen r) (psc_listen c))); [reflexivity|].
    destruct (req (pso_pkt r)) as [[[name token] ck]|]; [|reflexivity].
    destruct (ps_find name m) as [rs|] eqn:Ef; [|reflexivity].
    destruct (negb (psr_observable rs)); [reflexivity|].
    destruct (ps_find_tok (pso_tuple r) token (psr_subs rs)); [reflexivity|]. cbn [fst snd].
    match goal with |- context [ps_replace ?x m] => set (new := x) end.
    rewrite (ps_find_replace_any new m name rs n eq_refl Ef).
    destruct (ps_beq n name) eqn:En; [|reflexivity]. apply ps_beq_eq in En. subst n. rewrite Ef. reflexivity.
  Qed.

  Lemma ps_obs_fold_observe : forall O m C n,
    option_map psr_observe (ps_find n (fst (fst (ps_obs_fold ps_mem (ps_obs_step_spec req alloc c) O m C)))) =
    option_map psr_observe (ps_find n m).
  Proof.
    induction O as [|r O IH]; intros m C n; cbn [ps_obs_fold fst snd]; [reflexivity|].
    rewrite IH. apply ps_obs_step_spec_observe.
  Qed.

  Record ps_invw (m : ps_mem) (A : ps_abs) (G : list ps_send) : Prop := mkInvw {
    iw_wf : ps_abs_wf (psc_la c) (psc_lt c) A;
    iw_dynf : forall d, In d (ps_ol (ab_dyn A)) ->
                app (psd_pkt d) = Some (psd_name d, true) /\ ps_name_ok (psd_name d);
    iw_dyn : forall n r, ps_find n m = Some r -> psr_observable r = true ->
               ps_has m0 n \/ exists d, In d (ps_ol (ab_dyn A)) /\ psd_name d = n;
    iw_sub : forall n s, ps_insub m n s ->
               req (pss_pkt s) = Some (n, pss_token s, pss_ck s) /\
               exists r, ps_find n m = Some r /\ psr_observable r = true;
    iw_obs1 : forall n s, ps_insub m n s -> In (ps_obs_of c s) (ps_ol (ab_obs A));
    iw_obsok : forall rec, In rec (ps_ol (ab_obs A)) ->
               pso_proto rec = psc_proto c /\ pso_listen rec = psc_listen c /\
               exists n t k, req (pso_pkt rec) = Some (n, t, k);
    iw_ktok : NoDup (map (ps_ktok req) (ps_ol (ab_obs A)));
    iw_kck : NoDup (map (ps_kck req) (ps_ol (ab_obs A)));
    iw_cnt1 : NoDup (map fst (ps_ol (ab_cnt A)));
    iw_sent : forall n tu tok v, In (n, tu, tok, v) G ->
               exists x, In (n, x) (ps_ol (ab_cnt A)) /\ 0 <= x <= ps_bound c /\
                         v <= ps_rnd (psc_freq c) x
  }.

  (* the observe records differ in every key under which the subscriptions of one resource
     differ: (resource, session, token) and (resource, session, cache key) *)
  Lemma ps_inv_obs_nodup : forall m A G (proj : ps_sub -> bytes) (k : ps_obs -> option (bytes * bytes * bytes)),
    ps_inv app req c m0 m A G ->
    (forall n s, ps_insub m n s -> k (ps_obs_of c s) = Some (n, pss_tuple s, proj s)) ->
    (forall n s1 s2, ps_insub m n s1 -> ps_insub m n s2 ->
       pss_tuple s1 = pss_tuple s2 -> proj s1 = proj s2 -> s1 = s2) ->
    NoDup (map k (ps_ol (ab_obs A))).
  Proof.
    intros m A G proj k Hi Hk Hinj.
    apply (ps_nodup_map_transfer _ _ _ k pso_key _ (iv_obs3 _ _ _ _ _ _ _ Hi)).
    intros a b Ha Hb E.
    destruct (iv_obs2 _ _ _ _ _ _ _ Hi a Ha) as (n1 & s1 & H1 & ->).
    destruct (iv_obs2 _ _ _ _ _ _ _ Hi b Hb) as (n2 & s2 & H2 & ->).
    rewrite (Hk n1 s1 H1), (Hk n2 s2 H2) in E. inversion E; subst n2.
    cbn [ps_obs_of pso_key]. f_equal. apply (Hinj n1 s1 s2 H1 H2); assumption.
  Qed.

  Lemma ps_inv_invw : forall m A G, ps_inv app req c m0 m A G -> ps_invw m A G.
  Proof.
    intros m A G Hi.
    assert (Hreq : forall n s, ps_insub m n s -> req (pss_pkt s) = Some (n, pss_token s, pss_ck s))
      by (intros n s Hs; apply (iv_sub _ _ _ _ _ _ _ Hi n s Hs)).
    constructor.
    - apply (iv_wf _ _ _ _ _ _ _ Hi).
    - apply (iv_dynf _ _ _ _ _ _ _ Hi).
    - apply (iv_dyn _ _ _ _ _ _ _ Hi).
    - intros n s Hs. split; [apply Hreq; exact Hs|].
      destruct Hs as (r & Hf & Hin). exists r. split; [exact Hf|].
      destruct (iv_res _ _ _ _ _ _ _ Hi n r Hf) as (_ & _ & _ & Hob). apply Hob.
      intro X. rewrite X in Hin. contradiction.
    - apply (iv_obs1 _ _ _ _ _ _ _ Hi).
    - intros rec Hr. destruct (iv_obs2 _ _ _ _ _ _ _ Hi rec Hr) as (n & s & Hs & ->).
      cbn [ps_obs_of pso_proto pso_listen pso_pkt]. split; [reflexivity|]. split; [reflexivity|].
      eexists _, _, _. apply (Hreq n s Hs).
    - apply (ps_inv_obs_nodup m A G pss_token (ps_ktok req) Hi); [|apply (iv_tok _ _ _ _ _ _ _ Hi)].
      intros n s Hs. unfold ps_ktok. cbn [ps_obs_of pso_pkt pso_tuple]. rewrite (Hreq n s Hs). reflexivity.
    - apply (ps_inv_obs_nodup m A G pss_ck (ps_kck req) Hi); [|apply (iv_ck _ _ _ _ _ _ _ Hi)].
      intros n s Hs. unfold ps_kck. cbn [ps_obs_of pso_pkt pso_tuple]. rewrite (Hreq n s Hs). reflexivity.
    - apply (iv_cnt1 _ _ _ _ _ _ _ Hi).
    - intros n tu tok v Hin. destruct (iv_sent _ _ _ _ _ _ _ Hi n tu tok v Hin) as (r & Hf & Hv & x & Hx).
      destruct (iv_cnt2 _ _ _ _ _ _ _ Hi n x r Hx Hf) as (Hx0 & Hxr).
      destruct (iv_res _ _ _ _ _ _ _ Hi n r Hf) as (_ & Hrange & _).
      exists x. split; [exact Hx|]. split; lia.
  Qed.

  Variable pol : Z -> Z -> Z.

  (* restart from files that contain (at least) the memory state m *)
  Theorem ps_invw_restores : forall m A G fs,
    psc_dyn c = true -> psc_obs c = true -> psc_cnt c = true -> psc_unknown c = true ->
    0 < psc_la c -> 0 < psc_lt c ->
    Forall ps_fresh_rsrc m0 ->
    ps_invw m A G ->
    (ps_abs_size A + ps_abs_size A < psc_fuel c)%nat ->
    ps_holdsA (ps_boot fs) A ->
    exists mR,
      fst (ps_run pol (ps_startup app req alloc c m0) (ps_boot fs)) = Some mR /\
      (* every observable resource exists again *)
      (forall n r, ps_find n m = Some r -> psr_observable r = true -> ps_has mR n) /\
      (* every observation is re-established, with its session, token, cache key and request *)
      (forall n s, ps_insub m n s -> ps_present req mR (ps_obs_of c s)) /\
      (* the counters cover every Observe value sent: the next notification carries a greater one *)
      (forall n tu tok v rR, In (n, tu, tok, v) G -> ps_find n mR = Some rR -> v < psr_observe rR + 1).
  Proof.
    intros m A G fs Hd Ho Hc Hu Hla Hlt Hm0 Hi Hfuel (VD & VO & VC).
    set (D := ps_ol (ab_dyn A)). set (O := ps_ol (ab_obs A)). set (C := ps_ol (ab_cnt A)).
    destruct (iw_wf _ _ _ Hi) as (WD & WO & WC).
    set (m1 := ps_dyn_fold (ps_dyn_step app) D m0).
    set (m2 := ps_set_counts (ps_rounded (psc_freq c) C) m1).
    assert (Hf2 : Forall ps_fresh_rsrc m2).
    { apply ps_set_counts_fresh, ps_dyn_fold_fresh; [exact Hm0|apply (iw_dynf _ _ _ Hi)]. }
    assert (Hrun : fst (ps_run pol (ps_startup app req alloc c m0) (ps_boot fs)) =
                   Some (ps_restored_mem app req alloc c m0 D O C)).
    { unfold ps_abs_size in Hfuel.
      pose proof (ps_optlen_ol _ (ab_dyn A)). pose proof (ps_optlen_ol _ (ab_obs A)).
      pose proof (ps_optlen_ol _ (ab_cnt A)).
      apply (ps_startup_mem pol app req alloc c Hla Hlt alloc_len); try assumption;
        try (apply ps_optall_ol; assumption); try (apply ps_holds_of; assumption);
        try (subst D O C; lia).
      apply ps_fresh_mem_ok. exact Hf2. }
    exists (ps_restored_mem app req alloc c m0 D O C). split; [exact Hrun|].
    assert (Hres : forall n r, ps_find n m = Some r -> psr_observable r = true -> ps_has m2 n).
    { intros n r Hf Hob. apply (proj2 (ps_set_counts_has (ps_rounded (psc_freq c) C) m1 n)).
      destruct (iw_dyn _ _ _ Hi n r Hf Hob) as [Hs|(d & Hd0 & Hdn)].
      - apply ps_dyn_fold_has. exact Hs.
      - rewrite <- Hdn. apply ps_dyn_restored; [|exact Hd0].
        intros d' Hd'. exists true. apply (iw_dynf _ _ _ Hi d' Hd'). }
    split; [intros n r Hf Hob; unfold ps_restored_mem;
            apply (proj2 (ps_obs_fold_has req alloc c O m2 C n)); apply (Hres n r Hf Hob)|].
    split.
    - intros n s Hs. unfold ps_restored_mem. fold m1 m2.
      destruct (ps_obs_fold_present_g req alloc c O m2 C []) as [H1 _].
      + intros rec Hr. destruct (iw_obsok _ _ _ Hi rec Hr) as (Ep & El & n' & t' & k' & Hreq).
        destruct (ps_find n' m2) as [rs|] eqn:E2.
        * left. split; [rewrite Ep; apply ps_beq_refl|]. split; [rewrite El; apply ps_beq_refl|].
          exists n', t', k', rs. split; [exact Hreq|]. split; [exact E2|].
          apply (ps_find_forall _ m2 n' rs Hf2 E2).
        * right. exists n', t', k'. split; assumption.
      + intros n' rs s' Hf' Hs'. destruct (ps_find_forall _ m2 n' rs Hf2 Hf') as (_ & X & _).
        rewrite X in Hs'. contradiction.
      + apply (iw_ktok _ _ _ Hi).
      + apply (iw_kck _ _ _ Hi).
      + intros r0 r' [].
      + apply H1; [apply (iw_obs1 _ _ _ Hi n s Hs)|].
        destruct (iw_sub _ _ _ Hi n s Hs) as (Hreq & r & Hf & Hob).
        pose proof (Hres n r Hf Hob) as Hh. unfold ps_has in Hh.
        destruct (ps_find n m2) as [rs|] eqn:E2; [|contradiction].
        split; [cbn [ps_obs_of pso_proto]; apply ps_beq_refl|].
        split; [cbn [ps_obs_of pso_listen]; apply ps_beq_refl|].
        exists n, (pss_token s), (pss_ck s), rs. cbn [ps_obs_of pso_pkt].
        split; [exact Hreq|]. split; [exact E2|]. apply (ps_find_forall _ m2 n rs Hf2 E2).
    - intros n tu tok v rR Hin HfR.
      destruct (iw_sent _ _ _ Hi n tu tok v Hin) as (x & Hx & Hxb & Hv).
      (* the resource exists when the counters are assigned *)
      assert (Hh1 : ps_has m1 n).
      { apply (proj1 (ps_set_counts_has (ps_rounded (psc_freq c) C) m1 n)). fold m2.
        apply (proj1 (ps_obs_fold_has req alloc c O m2 C n)). unfold ps_has. unfold ps_restored_mem in HfR.
        fold m1 m2 in HfR. rewrite HfR. discriminate. }
      unfold ps_has in Hh1. destruct (ps_find n m1) as [r1|] eqn:E1; [|contradiction].
      destruct (ps_set_counts_line (ps_rounded (psc_freq c) C) m1 n (ps_round (psc_freq c) x) r1)
        as (r2 & E2 & Hobs2).
      + unfold ps_rounded. rewrite map_map. cbn [fst]. apply (iw_cnt1 _ _ _ Hi).
      + unfold ps_rounded. apply in_map_iff. exists (n, x). split; [reflexivity|exact Hx].
      + exact E1.
      + pose proof (ps_obs_fold_observe O m2 C n) as Hsame. unfold ps_restored_mem in HfR.
        fold m1 m2 in HfR. fold m2 in E2. rewrite HfR, E2 in Hsame. cbn [option_map] in Hsame.
        inversion Hsame as [Heq]. rewrite Heq, Hobs2.
        unfold ps_bound in Hxb.
        pose proof (ps_round_rnd (psc_freq c) x freq_pos (proj1 Hxb) ltac:(lia)) as Hr.
        pose proof (ps_rnd_ge (psc_freq c) freq_pos x (proj1 Hxb)).
        pose proof (ps_rnd_below (psc_freq c) freq_pos x).
        rewrite Hr, Z.mod_small by lia. lia.
  Qed.
End RestoreCoh.
