(* C17 - atomicity and update correctness lifted over arbitrary histories of updater calls:
   whatever sequence of the six updaters runs (this is what the server core issues through its
   call-outs), and wherever the process is killed, each of the three files holds exactly the
   abstract state after some prefix of the calls - the one before or after the interrupted call. *)
From LibcoapV Require Import Base.Tactics Base.Bytes Persist.Fs Persist.FsProofs Persist.Records
  Persist.RecordsProofs Persist.Updaters Persist.UpdatersProofs Persist.Discipline.
Local Open Scope Z_scope.

Inductive ps_call :=
| CObsAdded (a : ps_obs) | CObsDeleted (key : bytes)
| CCntTrack (name : bytes) (v : Z) | CCntDeleted (name : bytes)
| CDynAdded (a : ps_dyn) | CDynDeleted (name : bytes).

(* the abstract contents of the three files (None = the file does not exist) *)
Record ps_abs := mkAbs {
  ab_dyn : option (list ps_dyn); ab_obs : option (list ps_obs); ab_cnt : option (list (bytes * Z)) }.

Definition ps_add {X} (without : list X -> list X) (a : X) (v : option (list X)) : option (list X) :=
  match v with Some l => Some (without l ++ [a]) | None => Some [a] end.
Definition ps_rem {X} (without : list X -> list X) (v : option (list X)) : option (list X) :=
  match v with Some l => Some (without l) | None => None end.

Definition ps_abs_call (cl : ps_call) (A : ps_abs) : ps_abs :=
  match cl with
  | CObsAdded a => mkAbs (ab_dyn A) (ps_add (ps_obs_without (pso_key a)) a (ab_obs A)) (ab_cnt A)
  | CObsDeleted k => mkAbs (ab_dyn A) (ps_rem (ps_obs_without k) (ab_obs A)) (ab_cnt A)
  | CCntTrack n v => mkAbs (ab_dyn A) (ab_obs A) (ps_add (ps_cnt_without n) (n, v) (ab_cnt A))
  | CCntDeleted n => mkAbs (ab_dyn A) (ab_obs A) (ps_rem (ps_cnt_without n) (ab_cnt A))
  | CDynAdded a => mkAbs (ps_add (ps_dyn_without (psd_name a)) a (ab_dyn A)) (ab_obs A) (ab_cnt A)
  | CDynDeleted n => mkAbs (ps_rem (ps_dyn_without n) (ab_dyn A)) (ab_obs A) (ab_cnt A)
  end.

Fixpoint ps_abs_calls (l : list ps_call) (A : ps_abs) : ps_abs :=
  match l with [] => A | cl :: tl => ps_abs_calls tl (ps_abs_call cl A) end.

Section Hist.
  Variable pol : Z -> Z -> Z.
  Variables la lt : Z.
  Hypothesis la_pos : 0 < la.
  Hypothesis lt_pos : 0 < lt.
  Variable fuel : nat.

  Definition ps_call_prog (cl : ps_call) : ps_prog Z :=
    match cl with
    | CObsAdded a => ps_obs_added la lt fuel a
    | CObsDeleted k => ps_obs_deleted la lt fuel k
    | CCntTrack n v => ps_cnt_track fuel n v
    | CCntDeleted n => ps_cnt_deleted fuel n
    | CDynAdded a => ps_dyn_added fuel a
    | CDynDeleted n => ps_dyn_deleted fuel n
    end.

  Fixpoint ps_calls_prog (l : list ps_call) : ps_prog unit :=
    match l with
    | [] => PsRet tt
    | cl :: tl => ps_bind (ps_call_prog cl) (fun _ => ps_calls_prog tl)
    end.

  Definition ps_call_wf (cl : ps_call) : Prop :=
    match cl with
    | CObsAdded a => ps_obs_wf la lt a
    | CCntTrack n v => ps_name_ok n /\ 0 <= v < 4294967296
    | CDynAdded a => ps_dyn_wf a
    | _ => True
    end.

  Definition ps_optall {X} (P : X -> Prop) (v : option (list X)) : Prop :=
    match v with Some l => Forall P l | None => True end.
  Definition ps_optlen {X} (v : option (list X)) : nat :=
    match v with Some l => length l | None => O end.

  Definition ps_abs_wf (A : ps_abs) : Prop :=
    ps_optall ps_dyn_wf (ab_dyn A) /\ ps_optall (ps_obs_wf la lt) (ab_obs A) /\
    ps_optall ps_cnt_wf (ab_cnt A).
  Definition ps_abs_size (A : ps_abs) : nat :=
    (ps_optlen (ab_dyn A) + ps_optlen (ab_obs A) + ps_optlen (ab_cnt A))%nat.

  Definition ps_holdsA (s : ps_sys) (A : ps_abs) : Prop :=
    ps_view s PS_DYN = option_map ps_dyn_file (ab_dyn A) /\
    ps_view s PS_OBS = option_map ps_obs_file (ab_obs A) /\
    ps_view s PS_CNT = option_map ps_cnt_file (ab_cnt A).

  (* an entry replaced or appended / removed: well-formedness stays, at most one entry more *)
  Lemma ps_add_wf : forall X (P : X -> Prop) f a v,
    ps_optall P v -> P a ->
    ps_optall P (ps_add (fun l => filter f l) a v) /\
    (ps_optlen (ps_add (fun l => filter f l) a v) <= S (ps_optlen v))%nat.
  Proof.
    intros X P f a [l|] Hv Ha; cbn [ps_add ps_optall ps_optlen length] in Hv |- *.
    - rewrite app_length. cbn [length]. pose proof (ps_filter_len _ f l) as Hl.
      split; [|clear - Hl; lia]. apply Forall_app. split; [apply incl_Forall with (2 := Hv), incl_filter|].
      constructor; [exact Ha|constructor].
    - split; [constructor; [exact Ha|constructor]|apply le_n].
  Qed.

  Lemma ps_rem_wf : forall X (P : X -> Prop) f v,
    ps_optall P v ->
    ps_optall P (ps_rem (fun l => filter f l) v) /\
    (ps_optlen (ps_rem (fun l => filter f l) v) <= ps_optlen v)%nat.
  Proof.
    intros X P f [l|] Hv; cbn [ps_rem ps_optall ps_optlen] in Hv |- *; [|split; [exact I|apply le_n]].
    split; [apply incl_Forall with (2 := Hv), incl_filter|apply ps_filter_len].
  Qed.

  Lemma ps_abs_call_wf : forall cl A, ps_abs_wf A -> ps_call_wf cl ->
    ps_abs_wf (ps_abs_call cl A) /\ (ps_abs_size (ps_abs_call cl A) <= S (ps_abs_size A))%nat.
  Proof.
    intros cl [d o c] (Hd & Ho & Hc) Hw. unfold ps_abs_wf, ps_abs_size.
    destruct cl; cbn [ps_abs_call ps_call_wf ab_dyn ab_obs ab_cnt] in Hd, Ho, Hc, Hw |- *;
      unfold ps_obs_without, ps_cnt_without, ps_dyn_without;
      [destruct (ps_add_wf _ _ (fun r => negb (ps_beq (pso_key r) (pso_key a))) a o Ho Hw) as [W L]
      |destruct (ps_rem_wf _ _ (fun r => negb (ps_beq (pso_key r) key)) o Ho) as [W L]
      |destruct (ps_add_wf _ _ (fun e => negb (ps_beq name (fst e))) (name, v) c Hc Hw) as [W L]
      |destruct (ps_rem_wf _ _ (fun e => negb (ps_beq name (fst e))) c Hc) as [W L]
      |destruct (ps_add_wf _ _ (fun r => negb (ps_beq (psd_name a) (psd_name r))) a d Hd Hw) as [W L]
      |destruct (ps_rem_wf _ _ (fun r => negb (ps_beq name (psd_name r))) d Hd) as [W L]];
      (split; [split; [|split]; assumption|clear - L; lia]).
  Qed.

  Lemma ps_holds_of : forall X (file : list X -> bytes) v (o : option (list X)),
    v = option_map file o -> ps_holds file v (match o with Some l => l | None => [] end).
  Proof. intros X file v [l|] H; [left; exact H|right; split; [exact H|reflexivity]]. Qed.

  Lemma ps_call_run : forall cl A s,
    ps_abs_wf A -> ps_call_wf cl -> (ps_abs_size A < fuel)%nat -> ps_holdsA s A ->
    ps_holdsA (snd (ps_run pol (ps_call_prog cl) s)) (ps_abs_call cl A) /\
    fst (ps_run pol (ps_call_prog cl) s) <> PS_FUEL.
  Proof.
    intros cl [d o c] s (Hd & Ho & Hc) Hw Hsz (Vd & Vo & Vc).
    unfold ps_abs_size in Hsz. cbn [ab_dyn ab_obs ab_cnt] in *.
    destruct cl; cbn [ps_call_prog ps_call_wf ps_abs_call] in *; unfold ps_holdsA;
      cbn [ab_dyn ab_obs ab_cnt].
    - destruct (ps_obs_added_correct pol la lt fuel a (match o with Some l => l | None => [] end) s)
        as (s' & Hr & Hv & Hoth); try assumption.
      + destruct o; [exact Ho|constructor].
      + destruct o; cbn [ps_optlen] in Hsz; cbn [length]; lia.
      + apply ps_holds_of. exact Vo.
      + rewrite Hr. cbn [fst snd]. split; [|unfold PS_FUEL; lia].
        rewrite ?(Hoth PS_DYN), ?(Hoth PS_OBS), ?(Hoth PS_CNT) by discriminate.
        split; [exact Vd|]. split; [|exact Vc].
        rewrite Hv. destruct o; reflexivity.
    - destruct o as [l|].
      + destruct (ps_obs_deleted_correct pol la lt fuel key l s) as (s' & Hr & Hv & Hoth);
          try assumption; [cbn [ps_optlen] in Hsz; lia|].
        rewrite Hr. cbn [fst snd]. split; [|unfold PS_FUEL; lia].
        rewrite ?(Hoth PS_DYN), ?(Hoth PS_OBS), ?(Hoth PS_CNT) by discriminate.
        split; [exact Vd|]. split; [exact Hv|exact Vc].
      + rewrite (ps_obs_deleted_missing pol la lt fuel key s Vo).
        cbn [fst snd ps_rem option_map]. split; [|unfold PS_FUEL; lia].
        split; [exact Vd|]. split; [exact Vo|exact Vc].
    - destruct Hw as [Hn Hv0].
      destruct (ps_cnt_track_correct pol fuel name v (match c with Some l => l | None => [] end) s)
        as (s' & Hr & Hv & Hoth).
      + destruct c; [exact Hc|constructor].
      + destruct c; cbn [ps_optlen] in Hsz; cbn [length]; lia.
      + apply ps_holds_of. exact Vc.
      + rewrite Hr. cbn [fst snd]. split; [|unfold PS_FUEL; lia].
        rewrite ?(Hoth PS_DYN), ?(Hoth PS_OBS), ?(Hoth PS_CNT) by discriminate.
        split; [exact Vd|]. split; [exact Vo|].
        rewrite Hv, (ps_cnt_track_entry name v _ Hn Hv0). destruct c; reflexivity.
    - destruct c as [l|].
      + destruct (ps_cnt_deleted_correct pol fuel name l s) as (s' & Hr & Hv & Hoth);
          try assumption; [cbn [ps_optlen] in Hsz; lia|].
        rewrite Hr. cbn [fst snd]. split; [|unfold PS_FUEL; lia].
        rewrite ?(Hoth PS_DYN), ?(Hoth PS_OBS), ?(Hoth PS_CNT) by discriminate.
        split; [exact Vd|]. split; [exact Vo|exact Hv].
      + rewrite (ps_cnt_deleted_missing pol fuel name s Vc).
        cbn [fst snd ps_rem option_map]. split; [|unfold PS_FUEL; lia].
        split; [exact Vd|]. split; [exact Vo|exact Vc].
    - destruct (ps_dyn_added_correct pol fuel a (match d with Some l => l | None => [] end) s)
        as (s' & Hr & Hv & Hoth); try assumption.
      + destruct d; [exact Hd|constructor].
      + destruct d; cbn [ps_optlen] in Hsz; cbn [length]; lia.
      + apply ps_holds_of. exact Vd.
      + rewrite Hr. cbn [fst snd]. split; [|unfold PS_FUEL; lia].
        rewrite ?(Hoth PS_DYN), ?(Hoth PS_OBS), ?(Hoth PS_CNT) by discriminate.
        split; [|split; [exact Vo|exact Vc]].
        rewrite Hv. destruct d; reflexivity.
    - destruct d as [l|].
      + destruct (ps_dyn_deleted_correct pol fuel name l s) as (s' & Hr & Hv & Hoth);
          try assumption; [cbn [ps_optlen] in Hsz; lia|].
        rewrite Hr. cbn [fst snd]. split; [|unfold PS_FUEL; lia].
        rewrite ?(Hoth PS_DYN), ?(Hoth PS_OBS), ?(Hoth PS_CNT) by discriminate.
        split; [exact Hv|]. split; [exact Vo|exact Vc].
      + rewrite (ps_dyn_deleted_missing pol fuel name s Vd).
        cbn [fst snd ps_rem option_map]. split; [|unfold PS_FUEL; lia].
        split; [exact Vd|]. split; [exact Vo|exact Vc].
  Qed.

  Lemma ps_call_prog_d1 : forall cl, ps_disc1 (ps_call_prog cl).
  Proof.
    destruct cl; cbn [ps_call_prog].
    - apply ps_obs_added_d1.
    - apply ps_obs_deleted_d1.
    - apply ps_cnt_track_d1.
    - apply ps_cnt_deleted_d1.
    - apply ps_dyn_added_d1.
    - apply ps_dyn_deleted_d1.
  Qed.

  Lemma ps_disc_run_tmpw : forall A (p : ps_prog A), ps_disc p ->
    forall s, ps_tmpw s -> ps_tmpw (snd (ps_run pol p s)).
  Proof.
    intros A p Hp. induction Hp; intros s Hs; [exact Hs|]. cbn [ps_run].
    pose proof (ps_disc_step pol op s Hs H) as X. destruct (ps_step pol op s) as [r s1].
    apply H1. exact X.
  Qed.

  (* number of calls a program makes *)
  Fixpoint ps_nops {A} (p : ps_prog A) (s : ps_sys) : nat :=
    match p with
    | PsRet _ => O
    | PsDo op k => let '(r, s') := ps_step pol op s in S (ps_nops (k r) s')
    end.

  Lemma ps_runk_bind : forall A B (p : ps_prog A) (f : A -> ps_prog B) k s,
    ps_runk pol (ps_bind p f) k s =
    if (k <=? ps_nops p s)%nat then ps_runk pol p k s
    else ps_runk pol (f (fst (ps_run pol p s))) (k - ps_nops p s) (snd (ps_run pol p s)).
  Proof.
    intros A B p f. induction p as [a|op c IH]; intros k s.
    - cbn [ps_bind ps_nops ps_run fst snd]. destruct k; [|rewrite Nat.sub_0_r; reflexivity].
      cbn [Nat.leb]. destruct (f a); reflexivity.
    - cbn [ps_bind ps_nops ps_run]. destruct k; [reflexivity|]. cbn [ps_runk].
      destruct (ps_step pol op s) as [r s1]. rewrite IH. cbn [Nat.leb Nat.sub]. reflexivity.
  Qed.

  Lemma ps_holdsA_view : forall s t A,
    (forall i, ps_view t i = ps_view s i) -> ps_holdsA s A -> ps_holdsA t A.
  Proof. intros s t A H (H1 & H2 & H3). unfold ps_holdsA. rewrite !H. repeat split; assumption. Qed.

  (* a kill inside "call cl, then f": the files are those before the call, those after it, or
     what a kill inside f leaves *)
  Lemma ps_call_crash : forall B cl (f : Z -> ps_prog B) rest A s,
    ps_abs_wf A -> ps_call_wf cl -> (ps_abs_size A < fuel)%nat -> ps_tmpw s -> ps_holdsA s A ->
    let rs := ps_run pol (ps_call_prog cl) s in
    (forall k, exists j, (j <= length rest)%nat /\
       ps_holdsA (ps_runk pol (f (fst rs)) k (snd rs)) (ps_abs_calls (firstn j rest) (ps_abs_call cl A))) ->
    forall k, exists j, (j <= length (cl :: rest))%nat /\
      ps_holdsA (ps_runk pol (ps_bind (ps_call_prog cl) f) k s) (ps_abs_calls (firstn j (cl :: rest)) A).
  Proof.
    intros B cl f rest A s HA Hw Hsz Hs Hh rs Hrest k. rewrite ps_runk_bind.
    destruct (k <=? ps_nops (ps_call_prog cl) s)%nat.
    - destruct (ps_atomic1 pol Z (ps_call_prog cl) (ps_call_prog_d1 cl) s Hs k) as [Hv|Hv].
      + exists O. split; [lia|]. eapply ps_holdsA_view; [exact Hv|exact Hh].
      + exists 1%nat. split; [cbn [length]; lia|]. cbn [firstn ps_abs_calls].
        eapply ps_holdsA_view; [exact Hv|]. apply (ps_call_run cl A s HA Hw Hsz Hh).
    - destruct (Hrest (k - ps_nops (ps_call_prog cl) s)%nat) as (j & Hj & Hjh).
      exists (S j). split; [cbn [length]; lia|exact Hjh].
  Qed.

  (* C17_atomic + C17_update_correct over any history of updater calls *)
  Theorem ps_calls_crash : forall calls A s k,
    ps_abs_wf A -> Forall ps_call_wf calls -> (ps_abs_size A + length calls < fuel)%nat ->
    ps_tmpw s -> ps_holdsA s A ->
    exists j, (j <= length calls)%nat /\
      ps_holdsA (ps_runk pol (ps_calls_prog calls) k s) (ps_abs_calls (firstn j calls) A).
  Proof.
    induction calls as [|cl calls IH]; intros A s k HA Hw Hsz Hs Hh.
    - exists O. split; [lia|]. cbn [ps_calls_prog firstn ps_abs_calls]. destruct k; exact Hh.
    - inversion Hw as [|? ? Hw1 Hw2]; subst. cbn [length] in Hsz.
      destruct (ps_abs_call_wf cl A HA Hw1) as [HA1 Hsz1].
      revert k. apply (ps_call_crash unit cl (fun _ => ps_calls_prog calls)); try assumption; [lia|].
      intro k. apply IH; try assumption; [lia| |apply (ps_call_run cl A s HA Hw1 ltac:(lia) Hh)].
      apply ps_disc_run_tmpw; [apply ps_disc1_disc, ps_call_prog_d1|exact Hs].
  Qed.
End Hist.
