(* C17 - the weak invariant in the middle of an event: for every prefix of the updater calls of
   an event, the files are coherent (ps_invw) with the memory state after the last completed
   updater (ps_mem_at). *)
From LibcoapV Require Import Base.Tactics Base.Bytes Persist.Records Persist.UpdatersProofs
  Persist.History Persist.Server Persist.MemLemmas Persist.EventCalls Persist.Counter
  Persist.Coherence Persist.RestoreCoh.
Local Open Scope Z_scope.

Section Mid.
  Variable app : bytes -> option (bytes * bool).
  Variable req : bytes -> option (bytes * bytes * bytes).
  Variable alloc : list bytes -> bytes.
  Variable c : ps_cfg.
  Variable m0 : ps_mem.
  Hypothesis alloc_fresh : forall live, ~ In (alloc live) live.
  Hypothesis alloc_len : forall live, len (alloc live) = PS_KEY.
  Hypothesis cfg_proto : len (psc_proto c) = PS_PROTO.
  Hypothesis cfg_listen : len (psc_listen c) = psc_la c.
  Hypothesis freq_pos : 0 < psc_freq c.
  Hypothesis freq_small : psc_freq c < 1000000.

  Notation inv := (ps_inv app req c m0).
  Notation invw := (ps_invw app req c m0).

  (* the memory state after the first j updater calls of event e, started in m:
     - a DELETE keeps the resource until its dynamic-resource record is removed: with the first
       call the Observe counter has its last value, each observe-record removal drops one
       observer, the removal of the dynamic-resource record drops the resource; the counter line
       goes last (coap_free_resource / coap_op_resource_deleted);
     - a registration that replaces an observer first drops the old one (1 call), then has the
       new one;
     - otherwise the change is there with the first call. *)
  Definition ps_mem_at (e : ps_event) (m : ps_mem) (j : nat) : ps_mem :=
    match j with
    | O => m
    | S j' =>
        match e with
        | PsEvReg name tuple token ck pkt =>
            match ps_find name m with
            | Some r =>
                match ps_find_tok tuple token (psr_subs r), ps_find_ck tuple ck (psr_subs r), j' with
                | None, Some o, O =>
                    if psr_observable r
                    then ps_replace (mkRsrc name true (psr_observe r)
                                            (ps_drop_key (pss_key o) (psr_subs r))) m
                    else m
                | _, _, _ => fst (ps_ev_out alloc e m)
                end
            | None => m
            end
        | PsEvDel name =>
            match ps_find name m with
            | Some r =>
                let p := if ps_del_bump r && (ps_del_value r mod psc_freq c =? 0) then 1%nat else 0%nat in
                if (j <=? p + length (psr_subs r))%nat
                then ps_replace (mkRsrc name (psr_observable r) (ps_del_value r)
                                        (skipn (j - p) (psr_subs r))) m
                else ps_remove name m
            | None => m
            end
        | _ => fst (ps_ev_out alloc e m)
        end
    end.

  (* the Observe values that count at that point: those of the event's start until its last call
     (for a DELETE: the resource's values count as long as its counter line is there) *)
  Definition ps_ghost_at (e : ps_event) (m : ps_mem) (G : list ps_send) (j : nat) : list ps_send :=
    match j with
    | O => G
    | _ => if (length (ps_ev_calls alloc c e m) <=? j)%nat then ps_ghost alloc e m G else G
    end.

  Lemma ps_ghost_at_inside : forall e m G j,
    (j < length (ps_ev_calls alloc c e m))%nat -> ps_ghost_at e m G j = G.
  Proof.
    intros e m G j Hj. unfold ps_ghost_at. destruct j; [reflexivity|].
    destruct (Nat.leb_spec (length (ps_ev_calls alloc c e m)) (S j)); [lia|reflexivity].
  Qed.

  Lemma ps_invw_swap : forall m A1 G1 A2 G2,
    invw m A1 G1 -> ab_dyn A2 = ab_dyn A1 -> ab_obs A2 = ab_obs A1 ->
    ps_abs_wf (psc_la c) (psc_lt c) A2 -> NoDup (map fst (ps_ol (ab_cnt A2))) ->
    (forall n tu tok v, In (n, tu, tok, v) G2 ->
       exists x, In (n, x) (ps_ol (ab_cnt A2)) /\ 0 <= x <= ps_bound c /\ v <= ps_rnd (psc_freq c) x) ->
    invw m A2 G2.
  Proof.
    intros m A1 G1 A2 G2 H Hd Ho Hwf Hn Hs. destruct H. constructor; rewrite ?Hd, ?Ho; assumption.
  Qed.

  Lemma ps_forall_firstn : forall X (P : X -> Prop) j l, Forall P l -> Forall P (firstn j l).
  Proof.
    intros X P j. induction j as [|j IH]; intros l H; [constructor|].
    destruct l as [|x l]; [constructor|]. inversion H; subst. cbn [firstn]. constructor; [assumption|apply IH; assumption].
  Qed.

  Notation inv_event := (ps_inv_event app req alloc c m0 alloc_fresh alloc_len cfg_proto cfg_listen freq_pos freq_small).

  Lemma ps_firstn_del : forall (F : ps_sub -> ps_call) (pre tl : list ps_call) subs j,
    (length pre <= j <= length pre + length subs)%nat ->
    firstn j (pre ++ map F subs ++ tl) = pre ++ map F (firstn (j - length pre) subs).
  Proof.
    intros F pre tl subs j Hj. rewrite firstn_app, (firstn_all2 pre) by lia. f_equal.
    rewrite firstn_app, map_length.
    replace (j - length pre - length subs)%nat with 0%nat by lia. cbn [firstn]. rewrite app_nil_r.
    apply firstn_map.
  Qed.

  (* the dynamic-resource record goes: the files contain the memory state without the resource *)
  Lemma ps_invw_dyn_deleted : forall name m' m2 A G,
    invw m' A G -> (forall n, n <> name -> ps_find n m2 = ps_find n m') -> ps_find name m2 = None ->
    invw m2 (ps_abs_call (CDynDeleted name) A) G.
  Proof.
    intros name m' m2 A G Hw Hfo Hnone.
    assert (Hne_of : forall n r, ps_find n m2 = Some r -> n <> name)
      by (intros n r E X; subst n; rewrite Hnone in E; discriminate).
    assert (Hsub : forall n s, ps_insub m2 n s -> n <> name /\ ps_insub m' n s).
    { intros n s (r & Hf & Hin). pose proof (Hne_of n r Hf) as Hne. split; [exact Hne|].
      exists r. rewrite <- (Hfo n Hne). split; assumption. }
    assert (Hdn : ps_ol (ab_dyn (ps_abs_call (CDynDeleted name) A)) = ps_dyn_without name (ps_ol (ab_dyn A)))
      by (cbn [ps_abs_call ab_dyn]; apply ps_ol_rem; reflexivity).
    destruct Hw as [W1 W2 W3 W4 W5 W6 W7 W8 W9 W10]. constructor; try assumption.
    - (* iw_wf *) apply ps_abs_call_wf; [assumption|exact I].
    - (* iw_dynf *) intros d Hd. rewrite Hdn in Hd. apply ps_dyn_without_in in Hd. apply W2. exact (proj1 Hd).
    - (* iw_dyn *) intros n r Hf Ho. pose proof (Hne_of n r Hf) as Hne. rewrite (Hfo n Hne) in Hf.
      destruct (W3 n r Hf Ho) as [Hs|(d & Hd & Hdn')]; [left; exact Hs|right].
      exists d. split; [|exact Hdn']. rewrite Hdn. apply ps_dyn_without_in. split; [exact Hd|].
      rewrite Hdn'. exact Hne.
    - (* iw_sub *) intros n s Hs. destruct (Hsub n s Hs) as [Hne Hs']. destruct (W4 n s Hs') as (Hreq & r' & Hf' & Ho').
      split; [exact Hreq|]. exists r'. rewrite (Hfo n Hne). split; assumption.
    - (* iw_obs1 *) intros n s Hs. apply (W5 n s (proj2 (Hsub n s Hs))).
  Qed.

  (* delete, before the counter line goes: while the observers leave the full invariant holds
     (Coherence.ps_inv_del_stage); then the resource goes with its dynamic-resource record *)
  Lemma ps_mid_del : forall name m A G r j,
    inv m A G -> psr_observe r < ps_bound c -> ps_find name m = Some r ->
    let pre := if ps_del_bump r && (ps_del_value r mod psc_freq c =? 0)
               then [CCntTrack name (ps_del_value r)] else [] in
    let calls := pre ++ map (fun s => CObsDeleted (pss_key s)) (psr_subs r) ++
                 [CDynDeleted name; CCntDeleted name] in
    ((1 <= j <= length pre + length (psr_subs r))%nat ->
     invw (ps_replace (mkRsrc name (psr_observable r) (ps_del_value r)
                              (skipn (j - length pre) (psr_subs r))) m)
          (ps_abs_calls (firstn j calls) A) G) /\
    (j = S (length pre + length (psr_subs r)) ->
     invw (ps_remove name m) (ps_abs_calls (firstn j calls) A) G).
  Proof.
    intros name m A G r j Hi Hok Hf.
    pose proof (iv_names _ _ _ _ _ _ _ Hi) as Hnames.
    assert (Hgone : forall m' A', invw m' A' G -> (forall n, n <> name -> ps_find n m' = ps_find n m) ->
              invw (ps_remove name m) (ps_abs_call (CDynDeleted name) A') G).
    { intros m' A' Hw Ho. apply (ps_invw_dyn_deleted name m' _ A' G Hw); [|apply ps_find_remove_same; exact Hnames].
      intros n Hne. rewrite (Ho n Hne). apply ps_find_remove_other. exact Hne. }
    cbv zeta. destruct (ps_del_bump r) eqn:Hb; cbn [andb].
    - destruct (ps_inv_del_stage app req c m0 freq_pos name m A G r Hi Hf Hb Hok) as [_ Hst].
      set (pre := if ps_del_value r mod psc_freq c =? 0 then [CCntTrack name (ps_del_value r)] else []) in *.
      set (calls := pre ++ map (fun s => CObsDeleted (pss_key s)) (psr_subs r) ++
                    [CDynDeleted name; CCntDeleted name]).
      apply andb_true_iff in Hb. rewrite (proj1 Hb).
      assert (Hp : (length pre <= 1)%nat) by (subst pre; destruct (_ =? 0); cbn [length]; lia).
      assert (Stage : forall i, (length pre <= i <= length pre + length (psr_subs r))%nat ->
                inv (ps_replace (mkRsrc name true (ps_del_value r) (skipn (i - length pre) (psr_subs r))) m)
                    (ps_abs_calls (firstn i calls) A) G).
      { intros i Hi'. subst calls. rewrite ps_firstn_del by exact Hi'.
        apply Hst. symmetry. apply firstn_skipn. }
      split.
      + intro Hj. apply ps_inv_invw. apply Stage. lia.
      + intro Ej. subst j calls. rewrite app_assoc.
        replace (S (length pre + length (psr_subs r)))
          with (length (pre ++ map (fun s => CObsDeleted (pss_key s)) (psr_subs r)) + 1)%nat
          by (rewrite app_length, map_length; lia).
        rewrite firstn_app_2, ps_abs_calls_app. cbn [firstn ps_abs_calls].
        pose proof (Stage (length pre + length (psr_subs r))%nat ltac:(lia)) as Hw.
        rewrite ps_firstn_del in Hw by lia.
        replace (length pre + length (psr_subs r) - length pre)%nat with (length (psr_subs r)) in Hw by lia.
        rewrite firstn_all in Hw.
        apply (Hgone _ _ (ps_inv_invw app req c m0 _ _ _ Hw)).
        intros n Hne. apply ps_find_replace_other. exact Hne.
    - rewrite (ps_del_no_bump app req c m0 m A G name r Hi Hf Hb). cbn [length map List.app].
      split; [lia|]. intros ->. cbn [firstn ps_abs_calls].
      apply (Hgone m A (ps_inv_invw app req c m0 m A G Hi)). reflexivity.
  Qed.

  (* the state after the observe-file part of a registration, before the counter line is written *)
  Lemma ps_mid_swap_cnt : forall m m' A calls1 name v G G',
    inv m A G ->
    inv m' (ps_abs_calls (calls1 ++ [CCntTrack name v]) A) G' ->
    Forall (ps_call_wf (psc_la c) (psc_lt c)) calls1 ->
    ab_cnt (ps_abs_calls calls1 A) = ab_cnt A ->
    invw m' (ps_abs_calls calls1 A) G.
  Proof.
    intros m m' A calls1 name v G G' Hi Hfin Hcw Hcnt.
    pose proof (ps_inv_invw app req c m0 _ _ _ Hfin) as Hw.
    pose proof (ps_inv_invw app req c m0 _ _ _ Hi) as Hw0.
    rewrite ps_abs_calls_app in Hw. cbn [ps_abs_calls] in Hw.
    apply (ps_invw_swap m' _ G' (ps_abs_calls calls1 A) G Hw); try reflexivity.
    - apply (ps_abs_calls_wf c); [apply (iv_wf _ _ _ _ _ _ _ Hi)|exact Hcw].
    - rewrite Hcnt. apply (iv_cnt1 _ _ _ _ _ _ _ Hi).
    - rewrite Hcnt. apply (iw_sent _ _ _ _ _ _ _ Hw0).
  Qed.

  (* C17: in the middle of any event, after any number j of its updater calls, the files contain
     the memory state after the last completed updater *)
  Theorem ps_mid_invw : forall e m A G j,
    inv m A G -> ps_evt_ok app req c e m -> (j <= length (ps_ev_calls alloc c e m))%nat ->
    invw (ps_mem_at e m j) (ps_abs_calls (firstn j (ps_ev_calls alloc c e m)) A) (ps_ghost_at e m G j).
  Proof.
    intros e m A G j Hi Hok Hj.
    destruct j as [|j']; [cbn [firstn ps_abs_calls ps_mem_at ps_ghost_at];
                          apply (ps_inv_invw app req c m0); exact Hi|].
    destruct (inv_event e m A G Hi Hok) as [Hcw Hfin].
    (* the complete event *)
    assert (Hall : S j' = length (ps_ev_calls alloc c e m) ->
                   ps_mem_at e m (S j') = fst (ps_ev_out alloc e m) ->
                   invw (ps_mem_at e m (S j'))
                        (ps_abs_calls (firstn (S j') (ps_ev_calls alloc c e m)) A) (ps_ghost_at e m G (S j'))).
    { intros El Em. rewrite Em, El, firstn_all. unfold ps_ghost_at. rewrite <- El.
      rewrite Nat.leb_refl.
      apply (ps_inv_invw app req c m0). exact Hfin. }
    destruct e; cbn [ps_evt_ok] in Hok; try contradiction.
    - (* put: at most one call *)
      apply Hall; [|reflexivity]. cbn [ps_ev_calls] in *. destruct (ps_find name m); cbn [length] in *; [lia|].
      destruct observable; cbn [length] in *; lia.
    - (* delete *)
      cbn [ps_ev_calls] in Hj, Hall |- *. cbn [ps_mem_at ps_ev_out] in Hall |- *.
      destruct (ps_find name m) as [r|] eqn:Hf; [|cbn [length] in Hj; lia].
      specialize (Hok r eq_refl).
      destruct (ps_mid_del name m A G r (S j') Hi Hok Hf) as [St1 St2]. cbn zeta in St1, St2.
      set (pre := if ps_del_bump r && (ps_del_value r mod psc_freq c =? 0)
                  then [CCntTrack name (ps_del_value r)] else []) in *.
      assert (Ep : (if ps_del_bump r && (ps_del_value r mod psc_freq c =? 0) then 1%nat else 0%nat) = length pre)
        by (subst pre; destruct (ps_del_bump r && (ps_del_value r mod psc_freq c =? 0)); reflexivity).
      rewrite Ep in Hall |- *. rewrite !app_length, map_length in Hj, Hall. cbn [length] in Hj, Hall.
      assert (HG : (S j' < length pre + (length (psr_subs r) + 2))%nat ->
                   ps_ghost_at (PsEvDel name) m G (S j') = G).
      { intro L. apply ps_ghost_at_inside. cbn [ps_ev_calls]. rewrite Hf. fold pre.
        rewrite !app_length, map_length. exact L. }
      destruct (Nat.leb_spec (S j') (length pre + length (psr_subs r))) as [L|L].
      + (* the resource is still there *)
        rewrite HG by lia. apply St1. lia.
      + destruct (Nat.eq_dec (S j') (S (length pre + length (psr_subs r)))) as [E|E].
        * (* its record is gone, the counter line is still there *)
          rewrite HG by lia. apply St2. exact E.
        * apply Hall; [lia|reflexivity].
    - (* register *)
      cbn [ps_ev_calls ps_ev_out ps_mem_at ps_ghost_at] in Hj, Hcw, Hfin, Hall |- *.
      destruct (ps_find name m) as [r|] eqn:Hf; [|cbn [length] in Hj; lia].
      destruct (psr_observable r) eqn:Hobs; cbn [negb] in *; [|cbn [length] in Hj; lia].
      destruct (ps_find_tok tuple token (psr_subs r)) as [s0|] eqn:Et; [cbn [length] in Hj; lia|].
      destruct (ps_find_ck tuple ck (psr_subs r)) as [o|] eqn:Ec; cbn [List.app length fst] in *.
      + (* replace: 3 calls *)
        destruct j' as [|[|j'']]; cbn [firstn Nat.leb].
        * (* the old observer is gone *)
          apply (ps_inv_invw app req c m0).
          apply (ps_inv_drop app req c m0 name m A G r o Hi Hf Hobs).
          apply (ps_find_ck_some _ _ _ _ Ec).
        * (* the new one is in the observe file, the counter line is not written yet *)
          apply (ps_mid_swap_cnt m _ A
                   [CObsDeleted (pss_key o); CObsAdded (ps_obs_of c (ps_reg_new alloc name tuple token ck pkt r m))]
                   name (psr_observe r) G _ Hi Hfin); [|reflexivity].
          inversion Hcw as [|? ? H1 H2]; subst. inversion H2; subst.
          constructor; [assumption|constructor; [assumption|constructor]].
        * apply Hall; [lia|reflexivity].
      + (* new: 2 calls *)
        destruct j' as [|j'']; cbn [firstn Nat.leb].
        * apply (ps_mid_swap_cnt m _ A
                   [CObsAdded (ps_obs_of c (ps_reg_new alloc name tuple token ck pkt r m))]
                   name (psr_observe r) G _ Hi Hfin); [|reflexivity].
          inversion Hcw; subst. constructor; [assumption|constructor].
        * apply Hall; [lia|destruct j''; reflexivity].
    - (* cancel: at most one call *)
      apply Hall; [|reflexivity]. cbn [ps_ev_calls] in *. destruct (ps_find name m) as [r|]; cbn [length] in *; [|lia].
      destruct (negb (psr_observable r)); cbn [length] in *; [lia|].
      destruct (ps_cancel_hit tuple token ck r); cbn [length] in *; lia.
    - (* notify: at most one call *)
      apply Hall; [|reflexivity]. cbn [ps_ev_calls] in *. destruct (ps_find name m) as [r|]; cbn [length] in *; [|lia].
      destruct (psr_observable r); cbn [length] in *; [|lia]. destruct (psr_subs r); cbn [length] in *; [lia|].
      destruct (ps_next_observe (psr_observe r) mod psc_freq c =? 0); cbn [length] in *; lia.
  Qed.
End Mid.
