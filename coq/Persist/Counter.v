(* C17 - the Observe counter across kills (C17_observe_monotone).

   One resource, seen through the three things that matter: c = r->observe in memory,
   v = the value in the counter file (None: no line yet), m = the highest Observe value that
   has left on the wire.  The code paths are cut into their atomic steps so that a kill fits
   between any two of them:

     notify  : c := c + 1                           coap_resource_notify_observers_lkd
               if c mod freq = 0 then v := c        track_observe_value (one rename)
               send c                               coap_check_notify
     register: v := c ; send c                      coap_add_observer, then the response
     restart : c := round(v)  (memory is lost)      coap_op_obs_cnt_load_disk
               v := c                               (re-registration from the observe file)

   A kill inside the rename leaves the old or the new line (FsProofs.ps_atomic1), so "v := x"
   is a single step here.  Values stay below 2^24 - freq (no wrap). *)
From LibcoapV Require Import Base.Tactics Persist.Updaters Persist.Server.
Local Open Scope Z_scope.

Definition ps_rnd (f x : Z) : Z := (x + f) / f * f - 1.

Inductive ps_phase := PhIdle | PhSave | PhSend.

Record ps_cst := mkCst { cs_c : Z; cs_v : option Z; cs_m : Z; cs_ph : ps_phase }.

Section Counter.
  Variable f : Z.
  Hypothesis f_pos : 0 < f.

  Inductive ps_cstep : ps_cst -> ps_cst -> Prop :=
  | CsNotify : forall c x m,
      (* only a resource that has (had) an observer, hence a line, is notified *)
      ps_cstep (mkCst c (Some x) m PhIdle)
               (mkCst (c + 1) (Some x) m (if (c + 1) mod f =? 0 then PhSave else PhSend))
  | CsRegister : forall c v m, ps_cstep (mkCst c v m PhIdle) (mkCst c v m PhSave)
  | CsSave : forall c v m, ps_cstep (mkCst c v m PhSave) (mkCst c (Some c) m PhSend)
  | CsSend : forall c v m, ps_cstep (mkCst c v m PhSend) (mkCst c v (Z.max m c) PhIdle)
  | CsResave : forall c v m, ps_cstep (mkCst c v m PhIdle) (mkCst c (Some c) m PhIdle)
  | CsKill : forall c x m ph,        (* killed anywhere, restarted *)
      ps_cstep (mkCst c (Some x) m ph) (mkCst (ps_rnd f x) (Some x) m PhIdle)
  | CsKillFresh : forall c m ph c0,  (* killed before anything was saved *)
      0 <= c0 -> ps_cstep (mkCst c None m ph) (mkCst c0 None m PhIdle).

  Inductive ps_creach : ps_cst -> ps_cst -> Prop :=
  | CrRefl : forall s, ps_creach s s
  | CrStep : forall s t u, ps_creach s t -> ps_cstep t u -> ps_creach s u.

  (* everything sent is covered by what a restart resumes from *)
  Definition ps_cinv (s : ps_cst) : Prop :=
    0 <= cs_c s /\
    match cs_v s with
    | Some x =>
        0 <= x /\ x <= cs_c s /\ cs_m s <= ps_rnd f x /\ cs_m s <= cs_c s /\
        match cs_ph s with
        | PhSave => cs_c s <= ps_rnd f x + 1 /\ (cs_c s = ps_rnd f x + 1 -> cs_m s < cs_c s)
        | _ => cs_c s <= ps_rnd f x
        end
    | None => cs_m s < 0 /\ cs_ph s <> PhSend
    end.

  Lemma ps_rnd_ge : forall x, 0 <= x -> x <= ps_rnd f x.
  Proof.
    intros x Hx. unfold ps_rnd. lia.
  Qed.

  Lemma ps_rnd_below : forall x, ps_rnd f x <= x + f - 1.
  Proof. intro x. unfold ps_rnd. pose proof (Z.mul_div_le (x + f) f f_pos). lia. Qed.

  Lemma ps_rnd_idem : forall x, 0 <= x -> ps_rnd f (ps_rnd f x) = ps_rnd f x.
  Proof.
    intros x Hx. unfold ps_rnd.
    replace ((x + f) / f * f - 1 + f) with (((x + f) / f) * f + (f - 1)) by lia.
    rewrite Z.div_add_l by lia. rewrite (Z.div_small (f - 1) f) by lia. lia.
  Qed.

  (* c + 1 is a multiple of f exactly when c is the last value of its block *)
  Lemma ps_rnd_next : forall x c, 0 <= x -> x <= c -> c <= ps_rnd f x ->
    ((c + 1) mod f = 0 <-> c = ps_rnd f x).
  Proof.
    intros x c Hx Hxc Hc. unfold ps_rnd in *.
    pose proof (Z.div_mod (x + f) f ltac:(lia)). pose proof (Z.mod_pos_bound (x + f) f f_pos).
    set (q := (x + f) / f) in *.
    split; intro H1.
    - apply Z.mod_divide in H1; [|lia]. destruct H1 as [k Hk].
      assert (k = q) by nia. subst k. lia.
    - subst c. replace (q * f - 1 + 1) with (q * f) by lia. apply Z.mod_mul. lia.
  Qed.

  Lemma ps_cinv_step : forall s t, ps_cinv s -> ps_cstep s t -> ps_cinv t.
  Proof.
    intros s t Hi Hs. destruct Hs; unfold ps_cinv in *; cbn [cs_c cs_v cs_m cs_ph] in *.
    - (* notify *)
      destruct Hi as (Hc & Hx & Hxc & Hm & Hmc & Hcr).
      split; [lia|]. split; [exact Hx|]. split; [lia|]. split; [exact Hm|]. split; [lia|].
      pose proof (ps_rnd_next x c Hx Hxc Hcr) as Hn.
      destruct (Z.eqb_spec ((c + 1) mod f) 0) as [E|E].
      + apply Hn in E. split; lia.
      + assert (c <> ps_rnd f x) by (intro; apply E; apply Hn; assumption). lia.
    - (* register *)
      destruct v as [x|].
      + destruct Hi as (Hc & Hx & Hxc & Hm & Hmc & Hcr). repeat split; try assumption; lia.
      + destruct Hi as (Hc & Hm & _). repeat split; try assumption; discriminate.
    - (* save *)
      destruct Hi as [Hc Hi]. split; [exact Hc|].
      pose proof (ps_rnd_ge c Hc).
      destruct v as [x|].
      + destruct Hi as (Hx & Hxc & Hm & Hmc & Hcr & Hlt). repeat split; lia.
      + destruct Hi as [Hm _]. repeat split; lia.
    - (* send *)
      destruct Hi as [Hc Hi]. split; [exact Hc|].
      destruct v as [x|].
      + destruct Hi as (Hx & Hxc & Hm & Hmc & Hcr). repeat split; lia.
      + destruct Hi as [_ Hp]. congruence.
    - (* resave *)
      destruct Hi as [Hc Hi]. split; [exact Hc|]. pose proof (ps_rnd_ge c Hc).
      destruct v as [x|].
      + destruct Hi as (Hx & Hxc & Hm & Hmc & Hcr). repeat split; lia.
      + destruct Hi as [Hm _]. repeat split; lia.
    - (* kill + restart *)
      destruct Hi as (Hc & Hx & Hxc & Hm & Hmc & Hcr).
      pose proof (ps_rnd_ge x Hx). repeat split; lia.
    - (* kill before any save *)
      destruct Hi as (Hc & Hm & _). repeat split; try assumption; discriminate.
  Qed.

  Theorem ps_cinv_reach : forall s t, ps_cinv s -> ps_creach s t -> ps_cinv t.
  Proof.
    intros s t Hi Hr. induction Hr as [s|s t u Hr IH Hs]; [exact Hi|].
    apply (ps_cinv_step t u); [apply IH; exact Hi|exact Hs].
  Qed.

  (* whatever the history and wherever the kills: the value a restarted server sends first
     (round(v) + 1) exceeds every value sent before *)
  Theorem ps_observe_monotone : forall s t x,
    ps_cinv s -> ps_creach s t -> cs_v t = Some x -> cs_m t < ps_rnd f x + 1.
  Proof.
    intros s t x Hi Hr Hv. pose proof (ps_cinv_reach s t Hi Hr) as [_ H]. rewrite Hv in H. lia.
  Qed.

  (* ... and within one process the values sent only grow: m <= c, the next notification is c + 1 *)
  Theorem ps_observe_growing : forall s t,
    ps_cinv s -> ps_creach s t -> cs_ph t = PhIdle -> cs_m t < cs_c t + 1.
  Proof.
    intros s t Hi Hr Hp. pose proof (ps_cinv_reach s t Hi Hr) as [Hc H].
    destruct (cs_v t); [lia|]. destruct H. lia.
  Qed.

  (* a fresh resource: counter 2 (coap_resource_init), no line, nothing sent *)
  Lemma ps_cinv_init : ps_cinv (mkCst PS_OBSERVE0 None (-1) PhIdle).
  Proof. unfold ps_cinv. cbn. repeat split; try lia; discriminate. Qed.
End Counter.

(* the arithmetic of the code is the arithmetic above while nothing wraps *)
Lemma ps_round_rnd : forall f x, 0 < f -> 0 <= x -> x + f < 4294967296 -> ps_round f x = ps_rnd f x.
Proof.
  intros f x Hf Hx Hb. unfold ps_round, ps_rnd.
  rewrite (Z.mod_small (x + f)) by lia. apply Z.mod_small. lia.
Qed.

Lemma ps_next_observe_succ : forall c, 0 <= c < 16777215 -> ps_next_observe c = c + 1.
Proof. intros. unfold ps_next_observe. apply Z.mod_small. lia. Qed.
