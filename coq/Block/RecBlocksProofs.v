(* C09 layer 2: the range array represents a set of block numbers. *)
From LibcoapV Require Import Base.Tactics Base.Bytes Base.BytesProofs Block.SlicesProofs
  Block.RecBlocks.
Local Open Scope Z_scope.

Fixpoint blk_memP (r : blk_ranges) (k : Z) : Prop :=
  match r with
  | [] => False
  | (b, e) :: t => b <= k <= e \/ blk_memP t k
  end.

Lemma blk_abs_mem r k : In k (blk_abs r) <-> blk_memP r k.
Proof.
  unfold blk_abs. induction r as [|[b e] t IH]; cbn [flat_map blk_memP]; [tauto|].
  rewrite in_app_iff, IH, blk_in_range_from. cbn [fst snd]. intuition lia.
Qed.

Lemma blk_sorted_weaken lo lo' r : lo' <= lo -> blk_sorted_from lo r -> blk_sorted_from lo' r.
Proof. destruct r as [|[b e] t]; cbn; [tauto|]. intuition lia. Qed.

Lemma blk_sorted_mem_ge lo r k : blk_sorted_from lo r -> blk_memP r k -> lo <= k.
Proof.
  revert lo. induction r as [|[b e] t IH]; cbn; [tauto|]. intros lo (H1 & H2 & H3) [M|M]; [lia|].
  specialize (IH _ H3 M). lia.
Qed.

Lemma blk_sorted_in lo r b e : blk_sorted_from lo r -> In (b, e) r -> lo <= b <= e.
Proof.
  revert lo. induction r as [|[b2 e2] t IH]; cbn; [tauto|]. intros lo (H1 & H2 & H3) [HI|HI].
  - inversion HI; subst. lia.
  - specialize (IH _ H3 HI). lia.
Qed.

Lemma blk_sorted_fromb_spec lo r : blk_sorted_fromb lo r = true <-> blk_sorted_from lo r.
Proof.
  revert lo. induction r as [|[b e] t IH]; intros lo; cbn; [tauto|].
  rewrite !andb_true_iff, IH, !Z.leb_le. tauto.
Qed.

Lemma blk_invb_spec r : blk_invb r = true <-> blk_inv r.
Proof. unfold blk_invb, blk_inv. rewrite andb_true_iff, blk_sorted_fromb_spec, Z.leb_le. tauto. Qed.

Lemma blk_upd_loop_spec used : forall l lo n, blk_sorted_from lo l -> lo <= n ->
  match blk_upd_loop used l n with
  | Some l' => blk_sorted_from lo l' /\ (forall k, blk_memP l' k <-> k = n \/ blk_memP l k) /\
               len l' <= len l + 1 /\ (used = blk_rblock_cnt - 1 -> len l' <= len l)
  | None => used = blk_rblock_cnt - 1 /\
            (forall b e, In (b, e) l -> n + 1 < b \/ e + 1 < n)
  end.
Proof.
  induction l as [|[b e] t IH]; intros lo n Hs Hn; cbn [blk_upd_loop].
  - destruct (used =? blk_rblock_cnt - 1) eqn:E; [split; [lia|]; intros ? ? []|].
    cbn [blk_sorted_from blk_memP]. rewrite !len_cons, len_nil.
    split; [lia|]. split; [intros k; intuition lia | lia].
  - cbn [blk_sorted_from] in Hs. destruct Hs as (H1 & H2 & H3).
    (* n lies in the first range, before it, just behind it, or further on *)
    destruct ((b <=? n) && (n <=? e)) eqn:Ein;
      [|destruct (n <? b) eqn:Elt; [|destruct (n =? e + 1) eqn:Enext]].
    4: { specialize (IH (e + 2) n H3 ltac:(lia)).
         destruct (blk_upd_loop used t n) as [t'|].
         - destruct IH as (I1 & I2 & I3). cbn [blk_sorted_from blk_memP]. rewrite !len_cons.
           split; [intuition lia|]. split; [|lia].
           intros k. rewrite I2. intuition lia.
         - destruct IH as (I1 & I2). split; [exact I1|].
           intros b' e' [HI|HI]; [inversion HI; subst; lia|]. apply I2; exact HI. }
    (* behind it: the range grows by n, and takes in the next one if that begins at n + 1 *)
    3: destruct t as [|[b2 e2] t2];
         [|cbn [blk_sorted_from] in H3; destruct H3 as (G1 & G2 & G3); destruct (b2 =? n + 1) eqn:Em].
    (* before it: n joins the range, or is a range of its own if there is room for one *)
    2: destruct (n + 1 =? b) eqn:Eadj; [|destruct (used =? blk_rblock_cnt - 1) eqn:E].
    3: { (* no room *) split; [lia|]. intros b' e' [HI|HI].
         - inversion HI; subst. lia.
         - left. pose proof (blk_sorted_in _ _ _ _ H3 HI). lia. }
    (* wherever the loop stops with a list, the claims are linear arithmetic on the bounds *)
    all: clear IH; cbn [blk_sorted_from blk_memP]; rewrite ?len_cons, ?len_nil.
    all: split; [intuition lia|]; split; [intros k; intuition lia|lia].
Qed.

(* the converse of the None case of blk_upd_loop_spec *)
Lemma blk_upd_loop_none used : forall l lo n, blk_sorted_from lo l -> lo <= n ->
  used = blk_rblock_cnt - 1 -> (forall b e, In (b, e) l -> n + 1 < b \/ e + 1 < n) ->
  blk_upd_loop used l n = None.
Proof.
  induction l as [|[b e] t IH]; intros lo n Hs Hn Hu Hiso.
  - cbn [blk_upd_loop]. subst used. reflexivity.
  - cbn [blk_sorted_from] in Hs. destruct Hs as (H1 & H2 & H3).
    pose proof (Hiso b e (or_introl eq_refl)) as Hbe.
    cbn [blk_upd_loop].
    destruct ((b <=? n) && (n <=? e)) eqn:Ein; [lia|].
    destruct (n <? b) eqn:Elt.
    { destruct (n + 1 =? b) eqn:Eadj; [lia|]. subst used. reflexivity. }
    destruct (n =? e + 1) eqn:Enext; [lia|].
    rewrite (IH (e + 2) n H3 ltac:(lia) Hu); [reflexivity|].
    intros b' e' HI. apply Hiso. right. exact HI.
Qed.

Theorem blk_update_inv r n : blk_inv r -> 0 <= n ->
  forall r', blk_update r n = Some r' -> blk_inv r'.
Proof.
  intros (Hs & Hl) Hn r' H. unfold blk_update in H.
  pose proof (blk_upd_loop_spec (len r) r 0 n Hs Hn) as S. rewrite H in S.
  destruct S as (S1 & S2 & S3). split; [exact S1|lia].
Qed.

Theorem blk_update_mem r n : blk_inv r -> 0 <= n ->
  forall r', blk_update r n = Some r' ->
  forall k, In k (blk_abs r') <-> k = n \/ In k (blk_abs r).
Proof.
  intros (Hs & Hl) Hn r' H k. unfold blk_update in H.
  pose proof (blk_upd_loop_spec (len r) r 0 n Hs Hn) as S. rewrite H in S.
  destruct S as (S1 & S2 & S3). rewrite !blk_abs_mem. apply S2.
Qed.

(* the update is refused exactly when all COAP_RBLOCK_CNT-1 usable ranges are taken and the
   block neither lies in nor touches one of them *)
Theorem blk_update_none_iff r n : blk_inv r -> 0 <= n ->
  (blk_update r n = None <->
   len r = blk_rblock_cnt - 1 /\ forall b e, In (b, e) r -> n + 1 < b \/ e + 1 < n).
Proof.
  intros (Hs & Hl) Hn. unfold blk_update. split.
  - intros H. pose proof (blk_upd_loop_spec (len r) r 0 n Hs Hn) as S. rewrite H in S. exact S.
  - intros (H1 & H2). eapply blk_upd_loop_none; eauto.
Qed.

Lemma blk_check_received_spec_from lo r n : blk_sorted_from lo r ->
  (blk_check_received r n = true <-> blk_memP r n).
Proof.
  revert lo. induction r as [|[b e] t IH]; intros lo Hs; cbn [blk_check_received blk_memP].
  - split; [discriminate|tauto].
  - cbn [blk_sorted_from] in Hs. destruct Hs as (H1 & H2 & H3).
    destruct (n <? b) eqn:E1.
    + split; [discriminate|]. intros [M|M]; [lia|].
      pose proof (blk_sorted_mem_ge _ _ _ H3 M). lia.
    + destruct (n <=? e) eqn:E2.
      * split; [intros _; left; lia|reflexivity].
      * rewrite (IH _ H3). intuition lia.
Qed.

Theorem blk_check_received_spec r n : blk_inv r ->
  (blk_check_received r n = true <-> In n (blk_abs r)).
Proof. intros (Hs & _). rewrite blk_abs_mem. eapply blk_check_received_spec_from; eauto. Qed.

Lemma blk_update_many_spec : forall (cnt : nat) r n, blk_inv r -> 0 <= n ->
  match blk_update_many r n cnt with
  | Some (r', upd) =>
      blk_inv r' /\ (forall j, blk_memP r' j <-> n <= j < n + Z.of_nat cnt \/ blk_memP r j) /\
      (upd = false -> r' = r)
  | None => exists r1 j, n <= j < n + Z.of_nat cnt /\ blk_inv r1 /\ blk_update r1 j = None /\
                         (forall x, blk_memP r1 x <-> n <= x < j \/ blk_memP r x)
  end.
Proof.
  induction cnt as [|cnt IH]; intros r n Hi Hn.
  - cbn [blk_update_many]. split; [exact Hi|]. split; [|reflexivity]. intros j. intuition lia.
  - cbn [blk_update_many].
    destruct (blk_check_received r n) eqn:Ec.
    + (* block n is there already *)
      apply (blk_check_received_spec _ _ Hi), blk_abs_mem in Ec.
      assert (E : forall x hi, n + 1 <= x < hi \/ blk_memP r x <-> n <= x < hi \/ blk_memP r x).
      { intros x hi. destruct (Z.eq_dec x n) as [->|]; [tauto|intuition lia]. }
      specialize (IH r (n + 1) Hi ltac:(lia)).
      destruct (blk_update_many r (n + 1) cnt) as [[r' upd]|].
      * destruct IH as (I1 & I2 & I3). split; [exact I1|]. split; [|exact I3].
        intros j. rewrite I2, E. intuition lia.
      * destruct IH as (r1 & j & J1 & J2 & J3 & J4). exists r1, j. split; [lia|].
        split; [exact J2|]. split; [exact J3|]. intros x. rewrite J4. apply E.
    + destruct (blk_update r n) as [r1|] eqn:Eu.
      * pose proof (blk_update_inv r n Hi Hn r1 Eu) as Hi1.
        assert (M1 : forall j, blk_memP r1 j <-> j = n \/ blk_memP r j).
        { intros j. rewrite <- !blk_abs_mem. apply (blk_update_mem r n Hi Hn r1 Eu). }
        specialize (IH r1 (n + 1) Hi1 ltac:(lia)).
        destruct (blk_update_many r1 (n + 1) cnt) as [[r' upd]|].
        -- destruct IH as (I1 & I2 & I3). split; [exact I1|]. split; [|discriminate].
           intros j. rewrite I2, M1. intuition lia.
        -- destruct IH as (r2 & j & J1 & J2 & J3 & J4). exists r2, j. split; [lia|].
           split; [exact J2|]. split; [exact J3|]. intros x. rewrite J4, M1. intuition lia.
      * exists r, n. split; [lia|]. split; [exact Hi|]. split; [exact Eu|]. intros x. intuition lia.
Qed.

Lemma blk_update_many_1 r n :
  blk_update_many r n 1 =
  if blk_check_received r n then Some (r, false)
  else match blk_update r n with Some r' => Some (r', true) | None => None end.
Proof. reflexivity. Qed.

Lemma blk_check_all_in_shape r total : blk_sorted_from 0 r -> r <> [] ->
  (blk_check_all_in r total = true <-> exists e, r = [(0, e)] /\ total <= e + 1).
Proof.
  intros Hs Hne. destruct r as [|[b e] t]; [congruence|].
  cbn [blk_sorted_from] in Hs. destruct Hs as (H1 & H2 & H3).
  unfold blk_check_all_in. cbn [blk_all_in_loop].
  destruct (0 <? b) eqn:E1.
  { split; [discriminate|]. intros (e' & He & _). inversion He. lia. }
  assert (b = 0) by lia. subst b.
  assert ((if 0 <? e then e else 0) = e) as -> by (destruct (0 <? e) eqn:E; lia).
  destruct t as [|[b2 e2] t2].
  - cbn [blk_all_in_loop]. rewrite negb_true_iff, Z.ltb_ge. split.
    + intros H. exists e. split; [reflexivity|lia].
    + intros (e' & He & Ht). inversion He; subst. lia.
  - cbn [blk_sorted_from] in H3. destruct H3 as (G1 & G2 & G3). cbn [blk_all_in_loop].
    destruct (e <? b2) eqn:E2; [|lia]. split; [discriminate|].
    intros (e' & He & _). inversion He.
Qed.

(* The C function answers "all in" exactly when blocks 0 .. total-1 are all present, provided
   it is asked about a total that covers every recorded block (the callers pass
   ceil(total_len / chunk) with total_len >= end of every stored block) and at least one block
   is recorded (the callers record the current block first).  Outside these two conditions
   the function is not the set predicate - see blk_check_all_in_corners. *)
Theorem blk_check_all_in_spec r total : blk_inv r -> r <> [] ->
  (forall k, In k (blk_abs r) -> k < total) ->
  (blk_check_all_in r total = true <-> forall k, 0 <= k < total -> In k (blk_abs r)).
Proof.
  intros (Hs & _) Hne Hb. rewrite (blk_check_all_in_shape r total Hs Hne). split.
  - intros (e & -> & He) k Hk. rewrite blk_abs_mem. cbn [blk_memP]. left. lia.
  - intros H. destruct r as [|[b e] t]; [congruence|].
    cbn [blk_sorted_from] in Hs. destruct Hs as (H1 & H2 & H3).
    assert (Hbt : b < total) by (apply Hb; rewrite blk_abs_mem; cbn [blk_memP]; left; lia).
    pose proof (H 0 ltac:(lia)) as M0. rewrite blk_abs_mem in M0. cbn [blk_memP] in M0.
    assert (b = 0).
    { destruct M0 as [M0|M0]; [lia|]. pose proof (blk_sorted_mem_ge _ _ _ H3 M0). lia. }
    subst b.
    destruct t as [|[b2 e2] t2].
    + exists e. split; [reflexivity|].
      destruct (Z_le_gt_dec total (e + 1)); [assumption|]. exfalso.
      pose proof (H (e + 1) ltac:(lia)) as M. rewrite blk_abs_mem in M. cbn [blk_memP] in M. lia.
    + exfalso. cbn [blk_sorted_from] in H3. destruct H3 as (G1 & G2 & G3).
      assert (b2 < total) by (apply Hb; rewrite blk_abs_mem; cbn [blk_memP]; right; left; lia).
      pose proof (H (e + 1) ltac:(lia)) as M. rewrite blk_abs_mem in M. cbn [blk_memP] in M.
      destruct M as [M|[M|M]]; [lia|lia|].
      pose proof (blk_sorted_mem_ge _ _ _ G3 M). lia.
Qed.

Lemma blk_contig_len r hi : blk_inv r -> (forall x, blk_memP r x <-> 0 <= x < hi) -> len r <= 1.
Proof.
  intros (Hs & _) Hm. destruct r as [|[b e] [|[b2 e2] t]]; [cbn; lia|cbn; lia|exfalso].
  cbn [blk_sorted_from] in Hs. destruct Hs as (H1 & H2 & H3 & H4 & H5).
  assert (M2 : blk_memP ((b, e) :: (b2, e2) :: t) b2) by (cbn; lia). apply Hm in M2.
  assert (M : blk_memP ((b, e) :: (b2, e2) :: t) (e + 1)) by (apply Hm; lia).
  cbn [blk_memP] in M. destruct M as [M|[M|M]]; [lia|lia|].
  pose proof (blk_sorted_mem_ge _ _ _ H5 M). lia.
Qed.

Example blk_check_all_in_corners :
  blk_check_all_in [] 1 = true /\                   (* nothing recorded, one block expected *)
  blk_check_all_in [(0, 5); (8, 9)] 3 = false /\    (* 0,1,2 present, asked about 3 blocks *)
  blk_check_all_in [(0, 5)] 6 = true /\ blk_check_all_in [(0, 5)] 7 = false /\
  blk_check_all_in [(1, 5)] 6 = false.
Proof. vm_compute. repeat split. Qed.

(* non-vacuity for the range theorems: fill, merge, refuse *)
Example blk_update_examples :
  blk_update [] 4 = Some [(4, 4)] /\
  blk_update [(0, 1); (3, 3)] 2 = Some [(0, 3)] /\
  blk_update [(0, 1); (5, 5); (9, 9)] 3 = None /\
  blk_update [(0, 1); (5, 5); (9, 9)] 4 = Some [(0, 1); (4, 5); (9, 9)] /\
  blk_update [(0, 1); (5, 5); (9, 9)] 12 = None /\
  blk_update [(2, 2); (5, 5)] 0 = Some [(0, 0); (2, 2); (5, 5)] /\
  blk_inv [(0, 1); (5, 5); (9, 9)].
Proof. do 6 (split; [vm_compute; reflexivity|]). apply blk_invb_spec. vm_compute. reflexivity. Qed.
