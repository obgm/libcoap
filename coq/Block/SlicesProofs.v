(* C09 layer 1b: the slices of a body tile it exactly.  The arithmetic of block index and byte
   offset is done for any chunk length c > 0 (the _c lemmas) and used at c = blk_chunk szx; the
   end of the file is the renumbering after the peer lowered SZX. *)
From LibcoapV Require Import Base.Tactics Base.Bytes Base.BytesProofs Block.BlockOpt
  Block.BlockOptProofs Block.Slices.
Local Open Scope Z_scope.

Lemma blk_drop_0 {A} (l : list A) : drop 0 l = l.
Proof. reflexivity. Qed.

Lemma blk_take_add {A} a b (l : list A) : 0 <= a -> 0 <= b ->
  take (a + b) l = take a l ++ take b (drop a l).
Proof.
  intros. unfold take, drop. rewrite Z2Nat.inj_add by lia.
  revert l. induction (Z.to_nat a) as [|n IH]; intros l; [reflexivity|].
  destruct l; cbn [Nat.add firstn skipn app]; [rewrite firstn_nil; reflexivity|]. f_equal. apply IH.
Qed.

Lemma blk_len_take_le {A} n (l : list A) : len (take n l) <= len l.
Proof. unfold take, len. rewrite firstn_length. lia. Qed.

Lemma blk_nth_drop {A} n i (l : list A) d : nth i (drop n l) d = nth (Z.to_nat n + i) l d.
Proof.
  unfold drop. revert l. induction (Z.to_nat n) as [|k IH]; intros l; [reflexivity|].
  destruct l; cbn [skipn]; [destruct i; reflexivity|]. apply IH.
Qed.

Lemma blk_range_S n : 0 <= n -> blk_range (n + 1) = blk_range n ++ [n].
Proof.
  intros. unfold blk_range. replace (Z.to_nat (n + 1)) with (Z.to_nat n + 1)%nat by lia.
  rewrite seq_app, map_app. cbn [seq map]. rewrite Nat.add_0_l, Z2Nat.id by lia. reflexivity.
Qed.

Lemma blk_range_from_0 n : blk_range_from 0 n = blk_range n.
Proof. unfold blk_range_from, blk_range. apply map_ext. intros. lia. Qed.

Lemma blk_in_range_from a n k : In k (blk_range_from a n) <-> a <= k < a + n.
Proof.
  unfold blk_range_from. rewrite in_map_iff. split.
  - intros (i & <- & Hi). apply in_seq in Hi. lia.
  - intros H. exists (Z.to_nat (k - a)). split; [lia|]. apply in_seq. lia.
Qed.

Lemma blk_in_range n k : In k (blk_range n) <-> 0 <= k < n.
Proof. rewrite <- blk_range_from_0. apply blk_in_range_from. Qed.

Lemma blk_range_from_cons a n : 0 < n ->
  blk_range_from a n = a :: blk_range_from (a + 1) (n - 1).
Proof.
  intros. unfold blk_range_from.
  replace (Z.to_nat n) with (S (Z.to_nat (n - 1))) by lia.
  cbn [seq map]. f_equal; [lia|]. rewrite <- seq_shift, map_map. apply map_ext. intros. lia.
Qed.

Lemma blk_range_from_1 a : blk_range_from a 1 = [a].
Proof. rewrite blk_range_from_cons by lia. f_equal. Qed.

Lemma blk_idx_lt c i j : 0 < c -> (i / c < j <-> i < j * c).
Proof.
  intros Hc. split; intros H; [nia|]. apply Z.div_lt_upper_bound; lia.
Qed.

Lemma blk_idx_ge c i j : 0 < c -> (j <= i / c <-> j * c <= i).
Proof.
  intros Hc. split; intros H; [nia|]. apply Z.div_le_lower_bound; lia.
Qed.

Lemma blk_nblocks_c_gt n c j : 0 < c -> (j < blk_nblocks_c n c <-> j * c < n).
Proof.
  intros Hc. unfold blk_nblocks_c. split; intros H; [nia|].
  apply Z.le_succ_l, Z.div_le_lower_bound; lia.
Qed.

Lemma blk_nblocks_c_bounds n c : 0 < c ->
  (blk_nblocks_c n c - 1) * c < n <= blk_nblocks_c n c * c.
Proof.
  intros Hc. pose proof (blk_nblocks_c_gt n c (blk_nblocks_c n c - 1) Hc).
  pose proof (blk_nblocks_c_gt n c (blk_nblocks_c n c) Hc). lia.
Qed.

Lemma blk_nblocks_c_nonneg n c : 0 < c -> 0 <= n -> 0 <= blk_nblocks_c n c.
Proof. intros. unfold blk_nblocks_c. apply Z.div_pos; lia. Qed.

Lemma blk_concat_slices body c a n : 0 < c -> 0 <= a -> 0 <= n ->
  concat (map (blk_slice_c body c) (blk_range_from a n)) = take (n * c) (drop (a * c) body).
Proof.
  intros Hc Ha Hn. rewrite <- (Z2Nat.id n Hn). clear Hn. revert a Ha.
  induction (Z.to_nat n) as [|m IH]; intros a Ha; [reflexivity|].
  rewrite blk_range_from_cons by lia. cbn [map concat].
  replace (Z.of_nat (S m) - 1) with (Z.of_nat m) by lia. rewrite IH by lia.
  replace (Z.of_nat (S m) * c) with (c + Z.of_nat m * c) by lia.
  rewrite blk_take_add, <- drop_drop by nia. unfold blk_slice_c. do 3 f_equal. lia.
Qed.

Lemma blk_concat_from body c a n : 0 < c -> 0 <= a -> 0 <= n -> len body <= (a + n) * c ->
  concat (map (blk_slice_c body c) (blk_range_from a n)) = drop (a * c) body.
Proof.
  intros Hc Ha Hn Hl. rewrite blk_concat_slices by assumption.
  apply take_all. rewrite len_drop_max by nia. lia.
Qed.

Theorem blk_slices_concat_c body c : 0 < c ->
  concat (map (blk_slice_c body c) (blk_range (blk_nblocks_c (len body) c))) = body.
Proof.
  intros Hc. pose proof (blk_nblocks_c_bounds (len body) c Hc) as B. pose proof (len_nonneg body).
  rewrite <- blk_range_from_0. apply (blk_concat_from body c 0); nia.
Qed.

Lemma blk_slice_c_len body c k : 0 < c -> 0 <= k ->
  len (blk_slice_c body c k) = Z.max 0 (Z.min c (len body - k * c)).
Proof.
  intros. unfold blk_slice_c. rewrite len_take_min, len_drop_max by lia. lia.
Qed.

Lemma blk_slice_c_nth body c k i d : 0 < c -> 0 <= k -> 0 <= i < c ->
  nth (Z.to_nat i) (blk_slice_c body c k) d = nth (Z.to_nat (k * c + i)) body d.
Proof.
  intros. unfold blk_slice_c. rewrite nth_take by lia. rewrite blk_nth_drop.
  f_equal. lia.
Qed.

Theorem blk_slices_concat body szx : 0 <= szx ->
  concat (map (blk_slice body szx) (blk_range (blk_nblocks body szx))) = body.
Proof. intros. apply blk_slices_concat_c. apply blk_chunk_pos. lia. Qed.

Theorem blk_slice_len_nonfinal body szx k : 0 <= szx ->
  0 <= k < blk_nblocks body szx - 1 -> len (blk_slice body szx k) = blk_chunk szx.
Proof.
  intros Hs Hk. pose proof (blk_chunk_pos szx Hs) as Hc.
  pose proof (proj1 (blk_nblocks_c_gt (len body) (blk_chunk szx) (k + 1) Hc)).
  unfold blk_slice, blk_nblocks in *. rewrite blk_slice_c_len by lia. lia.
Qed.

Theorem blk_slice_len_final body szx : 0 <= szx -> 0 < len body ->
  1 <= len (blk_slice body szx (blk_nblocks body szx - 1)) <= blk_chunk szx /\
  (blk_nblocks body szx - 1) * blk_chunk szx + len (blk_slice body szx (blk_nblocks body szx - 1))
     = len body.
Proof.
  intros Hs Hl. pose proof (blk_chunk_pos szx Hs) as Hc.
  pose proof (blk_nblocks_c_bounds (len body) (blk_chunk szx) Hc).
  pose proof (proj2 (blk_nblocks_c_gt (len body) (blk_chunk szx) 0 Hc)).
  unfold blk_slice, blk_nblocks in *. rewrite blk_slice_c_len by lia. lia.
Qed.

Theorem blk_more_iff body szx k : 0 <= szx -> 0 <= k < blk_nblocks body szx ->
  (blk_more body szx k = true <-> k < blk_nblocks body szx - 1).
Proof.
  intros Hs Hk. pose proof (blk_nblocks_c_gt (len body) _ (k + 1) (blk_chunk_pos szx Hs)).
  unfold blk_more, blk_more_c, blk_nblocks in *. lia.
Qed.

Theorem blk_slice_offset body szx k i d : 0 <= szx -> 0 <= k -> 0 <= i < blk_chunk szx ->
  nth (Z.to_nat i) (blk_slice body szx k) d = nth (Z.to_nat (k * blk_chunk szx + i)) body d.
Proof. intros. apply blk_slice_c_nth; auto. apply blk_chunk_pos; lia. Qed.

Theorem blk_slice_beyond body szx k : 0 <= szx -> blk_nblocks body szx <= k ->
  blk_slice body szx k = [].
Proof.
  intros Hs Hk. pose proof (proj2 (blk_nblocks_c_gt (len body) _ k (blk_chunk_pos szx Hs))).
  unfold blk_slice, blk_slice_c, blk_nblocks in *. rewrite drop_all by lia. apply firstn_nil.
Qed.

Lemma blk_slice_facts body s k : 0 <= s -> 0 <= k < blk_nblocks body s ->
  let d := blk_slice body s k in let c := blk_chunk s in
  1 <= len d <= c /\ k * c + len d <= len body /\
  (blk_more body s k = true -> len d = c /\ (k + 1) * c < len body) /\
  (blk_more body s k = false -> k * c + len d = len body).
Proof.
  intros Hs (Hk0 & Hk) d c. pose proof (blk_chunk_pos s Hs) as Hc.
  apply blk_nblocks_c_gt in Hk; [|exact Hc].
  unfold d, blk_slice, blk_more, blk_more_c. fold c. rewrite blk_slice_c_len by lia. lia.
Qed.

(* the tests on the size of the payload that both receivers make before they look at their
   state: a sender's block passes them *)
Lemma blk_slice_tests body s k : 0 <= s -> 0 <= k < blk_nblocks body s ->
  let d := blk_slice body s k in
  (blk_chunk s <? len d) = false /\ (0 <? len d) = true /\
  (blk_more body s k && negb (len d =? blk_chunk s)) = false.
Proof.
  intros Hs Hk d. destruct (blk_slice_facts body s k Hs Hk) as (F1 & _ & F3 & _). fold d in F1, F3.
  split; [lia|]. split; [lia|].
  destruct (blk_more body s k); [|reflexivity]. destruct (F3 eq_refl) as (F & _). lia.
Qed.

(* after the peer lowered SZX, the next block in the new unit starts exactly where the next
   block in the old unit would have started, so nothing is skipped or sent twice *)
Theorem blk_resize_offset offset szx szx' : 0 <= szx' -> 0 <= szx ->
  0 <= offset -> offset mod blk_chunk szx = 0 ->
  let '(num', s') := blk_resize offset szx szx' in
  (num' + 1) * blk_chunk s' = offset + blk_chunk szx /\ 0 <= num' /\
  (s' = szx' \/ (s' = szx /\ szx <= szx')).
Proof.
  intros Hs' Hs Ho Hm. unfold blk_resize.
  pose proof (blk_chunk_pos szx Hs) as Hc. pose proof (blk_chunk_pos szx' Hs') as Hc'.
  destruct (szx' =? szx) eqn:E1; [lia|]. destruct (szx <? szx') eqn:E2; [lia|].
  assert (Hd := blk_chunk_divides szx' szx ltac:(lia)).
  assert (0 < 2 ^ (szx - szx')) by (apply Z.pow_pos_nonneg; lia).
  set (c := blk_chunk szx) in *. set (c' := blk_chunk szx') in *. set (q := 2 ^ (szx - szx')) in *.
  (* c' divides c, and c divides the offset *)
  assert (Hz : (offset + c) mod c' = 0).
  { replace (offset + c) with ((q * (offset / c) + q) * c') by nia. apply Z.mod_mul. lia. }
  rewrite Hz. cbn [Z.eqb]. assert (c' <= offset + c) by nia. lia.
Qed.

(* hence: the blocks sent before the change (old size) followed by the blocks from num'+1
   on (new size) still concatenate to the body *)
Theorem blk_resize_tiles body szx szx' k : 0 <= szx' < szx ->
  0 <= k -> (k + 1) * blk_chunk szx <= len body ->
  let '(num', s') := blk_resize (k * blk_chunk szx) szx szx' in
  concat (map (blk_slice body szx) (blk_range (k + 1))) ++
  concat (map (blk_slice body s')
            (blk_range_from (num' + 1) (blk_nblocks body s' - (num' + 1)))) = body.
Proof.
  intros Hs Hk Hl.
  pose proof (blk_chunk_pos szx ltac:(lia)) as Hc. pose proof (blk_chunk_pos szx' ltac:(lia)) as Hc'.
  pose proof (blk_resize_offset (k * blk_chunk szx) szx szx' ltac:(lia) ltac:(lia) ltac:(nia)
                ltac:(apply Z.mod_mul; lia)) as R.
  destruct (blk_resize (k * blk_chunk szx) szx szx') as [num' s'].
  destruct R as (Eq & Hn & Hs'). replace s' with szx' in * by lia.
  pose proof (blk_nblocks_c_bounds (len body) (blk_chunk szx') Hc') as B.
  pose proof (proj2 (blk_nblocks_c_gt (len body) (blk_chunk szx') num' Hc')) as G.
  unfold blk_slice, blk_nblocks in *.
  (* the first (k+1)*c bytes, then everything from (num'+1)*c' = (k+1)*c on *)
  rewrite <- blk_range_from_0, blk_concat_slices, blk_concat_from by lia.
  rewrite Eq. replace (k * blk_chunk szx + blk_chunk szx) with ((k + 1) * blk_chunk szx) by lia.
  apply take_drop.
Qed.

(* non-vacuity: a 100-byte body in 32-byte blocks; and the boundary lengths *)
Example blk_slices_example :
  let body := map (fun i => Z.of_nat i mod 251) (seq 0 100) in
  blk_nblocks body 1 = 4 /\
  map (fun k => len (blk_slice body 1 k)) (blk_range 4) = [32; 32; 32; 4] /\
  map (blk_more body 1) (blk_range 4) = [true; true; true; false] /\
  blk_nblocks (firstn 96 body) 1 = 3 /\ blk_nblocks (firstn 97 body) 1 = 4 /\
  blk_nblocks (firstn 95 body) 1 = 3 /\
  blk_resize 64 2 0 = (7, 0) /\ blk_resize 64 2 3 = (1, 2).
Proof. vm_compute. repeat split. Qed.
