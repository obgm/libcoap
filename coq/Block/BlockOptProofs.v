(* C09 layer 1a: the block size 2^(SZX+4), the round trip option value <-> (NUM, M, SZX), and the
   choice of a block size for the space left. *)
From LibcoapV Require Import Base.Tactics Base.Bytes Block.BlockOpt.
Local Open Scope Z_scope.

Lemma blk_chunk_pos szx : 0 <= szx -> 0 < blk_chunk szx.
Proof. intros. unfold blk_chunk. apply Z.pow_pos_nonneg; lia. Qed.

Lemma blk_chunk_values szx : 0 <= szx <= 6 ->
  blk_chunk szx = 16 \/ blk_chunk szx = 32 \/ blk_chunk szx = 64 \/ blk_chunk szx = 128 \/
  blk_chunk szx = 256 \/ blk_chunk szx = 512 \/ blk_chunk szx = 1024.
Proof.
  intros H. unfold blk_chunk.
  assert (szx = 0 \/ szx = 1 \/ szx = 2 \/ szx = 3 \/ szx = 4 \/ szx = 5 \/ szx = 6) as C by lia.
  destruct C as [-> | [-> | [-> | [-> | [-> | [-> | ->]]]]]]; vm_compute; tauto.
Qed.

Lemma blk_chunk_range szx : 0 <= szx <= 6 -> 16 <= blk_chunk szx <= 1024.
Proof. intros H. destruct (blk_chunk_values szx H) as [E|[E|[E|[E|[E|[E|E]]]]]]; rewrite E; lia. Qed.

Lemma blk_chunk_double szx : 0 <= szx -> blk_chunk (szx + 1) = 2 * blk_chunk szx.
Proof.
  intros. unfold blk_chunk. replace (szx + 1 + 4) with (Z.succ (szx + 4)) by lia.
  rewrite Z.pow_succ_r by lia. reflexivity.
Qed.

Lemma blk_chunk_divides s' s : 0 <= s' <= s ->
  blk_chunk s = blk_chunk s' * 2 ^ (s - s').
Proof.
  intros H. unfold blk_chunk. rewrite <- Z.pow_add_r by lia. f_equal. lia.
Qed.

Lemma blk_encode_var_wfb v : 0 <= v < 4294967296 -> wfb (blk_encode_var v).
Proof.
  intros H. unfold blk_encode_var.
  repeat case_if; repeat (apply Forall_cons || apply Forall_nil); unfold is_byte; lia.
Qed.

Lemma blk_encode_var_len v : 0 <= v < 16777216 -> len (blk_encode_var v) <= 3.
Proof.
  intros H. unfold blk_encode_var. repeat case_if; unfold len; cbn [length]; lia.
Qed.

Lemma blk_encode_var_split w : 0 < w < 16777216 ->
  blk_encode_var w <> [] /\ blk_end_byte (blk_encode_var w) = w mod 256 /\
  blk_be_decode 0 (removelast (blk_encode_var w)) = w / 256.
Proof.
  intros Hw. unfold blk_encode_var, blk_end_byte.
  destruct (w <=? 0) eqn:E0; [lia|]. destruct (w <? 256) eqn:E1; [|destruct (w <? 65536) eqn:E2];
    [| |destruct (w <? 16777216) eqn:E3; [|lia]];
    cbn [last removelast blk_be_decode]; (split; [discriminate|]); lia.
Qed.

Theorem blk_opt_roundtrip num m szx :
  0 <= num < 1048576 -> 0 <= m <= 1 -> 0 <= szx <= 6 ->
  blk_get_block (blk_opt_value num m szx) = Some (num, m, szx).
Proof.
  intros Hn Hm Hs. unfold blk_opt_value.
  destruct (Z.eq_dec (blk_opt_word num m szx) 0) as [E|E].
  { rewrite E. unfold blk_opt_word in E. replace num with 0 by lia. replace m with 0 by lia.
    replace szx with 0 by lia. reflexivity. }
  destruct (blk_encode_var_split (blk_opt_word num m szx)) as (Hne & He & Hd);
    [unfold blk_opt_word in *; lia|].
  unfold blk_get_block, blk_opt_szx, blk_opt_more, blk_opt_num.
  destruct (blk_encode_var _) as [|x v]; [congruence|]. rewrite He, Hd. unfold blk_opt_word.
  replace ((num * 16 + m * 8 + szx) mod 256 mod 8) with szx by lia.
  replace (((num * 16 + m * 8 + szx) mod 256 / 8) mod 2) with m by lia.
  replace (_ + _) with num by lia.
  destruct (szx =? 7) eqn:E7; [lia|]. destruct (1048575 <? num) eqn:E8; [lia|]. reflexivity.
Qed.

Theorem blk_opt_value_len num m szx :
  0 <= num < 1048576 -> 0 <= m <= 1 -> 0 <= szx <= 6 ->
  len (blk_opt_value num m szx) <= 3 /\ wfb (blk_opt_value num m szx).
Proof.
  intros. unfold blk_opt_value. split.
  - apply blk_encode_var_len. unfold blk_opt_word. lia.
  - apply blk_encode_var_wfb. unfold blk_opt_word. lia.
Qed.

Theorem blk_get_block_range v num m szx :
  wfb v -> blk_get_block v = Some (num, m, szx) ->
  0 <= num < 1048576 /\ 0 <= m <= 1 /\ 0 <= szx <= 6.
Proof.
  intros Hv. unfold blk_get_block.
  destruct (blk_opt_szx v =? 7) eqn:E7; [discriminate|].
  destruct (1048575 <? blk_opt_num v) eqn:E8; [discriminate|].
  intros H. inversion H; subst; clear H.
  assert (He : 0 <= blk_end_byte v < 256).
  { unfold blk_end_byte. destruct v as [|x v]; [cbn; lia|].
    assert (In (last (x :: v) 0) (x :: v)) as Hin.
    { destruct (exists_last (l := x :: v)) as (l' & a & E); [discriminate|].
      rewrite E. rewrite last_last. apply in_or_app. right. left. reflexivity. }
    unfold wfb in Hv. rewrite Forall_forall in Hv. apply Hv in Hin. exact Hin. }
  unfold blk_opt_more, blk_opt_szx in *.
  assert (0 <= blk_opt_num v).
  { unfold blk_opt_num. destruct v; [lia|]. lia. }
  lia.
Qed.

(* decoding is canonical: a value the decoder accepts re-encodes to the same fields (the
   encoder drops leading zero bytes only) *)
Theorem blk_get_block_reencode v num m szx :
  wfb v -> blk_get_block v = Some (num, m, szx) ->
  blk_get_block (blk_opt_value num m szx) = Some (num, m, szx).
Proof.
  intros Hv H. apply blk_get_block_range in H; auto.
  destruct H as (Hn & Hm & Hs). apply blk_opt_roundtrip; auto.
Qed.

(* non-vacuity: the largest number and size, More set, is a 3-byte value *)
Example blk_opt_example :
  blk_opt_value 1048575 1 6 = [255; 255; 254] /\
  blk_get_block [255; 255; 254] = Some (1048575, 1, 6) /\
  blk_get_block [255; 255; 255] = None /\            (* SZX 7 = BERT: refused on UDP *)
  blk_get_block [16; 0; 0; 6] = None /\              (* NUM = 2^20: refused *)
  blk_opt_value 0 0 0 = [] /\ blk_get_block [] = Some (0, 0, 0).
Proof. vm_compute. repeat split. Qed.

Lemma blk_fls_fuel_bounds f x : 0 < x -> x < 2 ^ Z.of_nat f ->
  2 ^ (blk_fls_fuel f x - 1) <= x < 2 ^ (blk_fls_fuel f x) /\ 1 <= blk_fls_fuel f x.
Proof.
  revert x. induction f as [|f IH]; intros x Hx Hlt.
  - cbn in Hlt. lia.
  - cbn [blk_fls_fuel]. destruct (x <=? 0) eqn:E; [lia|].
    destruct (Z.eq_dec x 1) as [->|Hne].
    + replace (1 / 2) with 0 by reflexivity.
      destruct f; cbn [blk_fls_fuel]; cbn; lia.
    + assert (Hh : 0 < x / 2) by lia.
      assert (Hlt' : x / 2 < 2 ^ Z.of_nat f).
      { rewrite Nat2Z.inj_succ, Z.pow_succ_r in Hlt by lia. lia. }
      destruct (IH (x / 2) Hh Hlt') as ((L & U) & P).
      set (k := blk_fls_fuel f (x / 2)) in *.
      replace (1 + k - 1) with (Z.succ (k - 1)) by lia.
      replace (1 + k) with (Z.succ k) by lia.
      rewrite !Z.pow_succ_r by lia. lia.
Qed.

Theorem blk_szx_for_avail_fits avail :
  16 <= avail < 2 ^ 63 ->
  let s := blk_szx_for_avail avail in
  0 <= s <= 6 /\ blk_chunk s <= avail /\ (s < 6 -> avail < blk_chunk (s + 1)).
Proof.
  intros H s. unfold s, blk_szx_for_avail, blk_fls.
  assert (Hb := blk_fls_fuel_bounds 64 avail ltac:(lia)
                  ltac:(change (Z.of_nat 64) with 64; assert (2^63 < 2^64) by (vm_compute; reflexivity); lia)).
  destruct Hb as ((L & U) & P).
  set (k := blk_fls_fuel 64 avail) in *.
  assert (5 <= k).
  { destruct (Z_lt_le_dec k 5); [|lia].
    assert (2 ^ k <= 2 ^ 4) by (apply Z.pow_le_mono_r; lia). change (2 ^ 4) with 16 in *. lia. }
  unfold blk_chunk.
  destruct (Z_le_gt_dec 6 (k - 5)).
  - rewrite Z.min_l by lia. split; [lia|]. split; [|lia].
    assert (2 ^ (6 + 4) <= 2 ^ (k - 1)) by (apply Z.pow_le_mono_r; lia). lia.
  - rewrite Z.min_r by lia. split; [lia|]. split.
    + replace (k - 5 + 4) with (k - 1) by lia. lia.
    + intros _. replace (k - 5 + 1 + 4) with k by lia. lia.
Qed.
