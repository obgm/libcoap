(* C09 layer 2: the reassembly theorem.  For ANY arrival sequence (any order, duplicates,
   gaps) of blocks that are slices of one body:
     - whatever the receiver hands to the application is that body;
     - a block of inconsistent size is never produced by such a sender (no reject);
     - the number of deliveries is at most the number of times any single block arrived:
       a second delivery needs a complete second copy of the transfer.
   Proved for the server side (Block1, coap_handle_request_put_block, including a first block
   that is larger than the server's block size and is counted in the server's unit) and the
   client side (Block2, coap_handle_response_get_block), single-body mode, for every content
   of uninitialised storage. *)
From LibcoapV Require Import Base.Tactics Base.Bytes Base.BytesProofs Block.BlockOpt
  Block.BlockOptProofs Block.Slices Block.SlicesProofs Block.RecBlocks Block.RecBlocksProofs
  Block.BufProofs.
Local Open Scope Z_scope.

(* what reaches the application's handler: a reassembled body, or a message that is passed on as
   it is (on the server a block 0 without More, which is the whole body) *)
Definition blk_is_delivery (o : blk_out) : bool :=
  match o with BoDeliver _ | BoPass => true | _ => false end.
Definition blk_count_deliveries (l : list blk_out) : Z := len (filter blk_is_delivery l).
Definition blk_count_num (k : Z) (l : list blk_arr) : Z :=
  len (filter (fun a => ba_num a =? k) l).
(* does the payload of arrival [a] cover block j of size [u]? *)
Definition blk_covers (u : Z) (a : blk_arr) (j : Z) : bool :=
  let n0 := ba_num a * 2 ^ (ba_szx a - u) in
  (n0 <=? j) && (j <? n0 + (len (ba_data a) + blk_chunk u - 1) / blk_chunk u).
Definition blk_count_cover (u j : Z) (l : list blk_arr) : Z :=
  len (filter (fun a => blk_covers u a j) l).

Lemma blk_len_filter_cons {A} (f : A -> bool) a l :
  len (filter f (a :: l)) = (if f a then 1 else 0) + len (filter f l).
Proof. cbn [filter]. destruct (f a); [rewrite len_cons|]; lia. Qed.

(* the More bit of blk_arr_of as the receivers test it *)
Lemma blk_m_eqb_1 (b : bool) : ((if b then 1 else 0) =? 1) = b.
Proof. destruct b; reflexivity. Qed.

Lemma blk_m_eqb_0 (b : bool) : ((if b then 1 else 0) =? 0) = negb b.
Proof. destruct b; reflexivity. Qed.

(* the unit in which a server that counts in size u records a block of size s >= u *)
Lemma blk_unit_szx u s : u <= s -> (if u <? s then u else s) = u.
Proof. intros. destruct (u <? s) eqn:E; lia. Qed.

Lemma blk_unit_num u s k : u <= s -> (if u <? s then k * 2 ^ (s - u) else k) = k * 2 ^ (s - u).
Proof.
  intros H. destruct (u <? s) eqn:E; [reflexivity|].
  replace s with u by lia. rewrite Z.sub_diag. lia.
Qed.

(* the size in which the server counts is the one it would also choose for itself *)
Lemma blk_srv_init_szx_fix maxszx body s u size :
  blk_srv_init_szx maxszx (blk_arr_of body s size 0) = u ->
  blk_srv_init_szx maxszx (blk_arr_of body u size 0) = u.
Proof.
  unfold blk_srv_init_szx. cbn [blk_arr_of ba_num ba_szx]. rewrite Z.eqb_refl. cbn [andb].
  intros <-. destruct (negb (maxszx =? 0)); cbn [andb]; [|reflexivity].
  destruct (maxszx <? s) eqn:E; [rewrite Z.ltb_irrefl|rewrite E]; reflexivity.
Qed.

(* Bytes n0*c .. n0*c+ld of a body of length L, where the piece is q whole blocks of size c or
   reaches the end of the body: it ends where the last block that it touches ends. *)
Lemma blk_cover_arith c L n0 ld q : 0 < c -> 0 < ld -> n0 * c + ld <= L ->
  ld = q * c \/ n0 * c + ld = L ->
  let n1 := n0 + (ld + c - 1) / c in
  n0 < n1 /\ (n1 - 1) * c < L /\ n0 * c + ld = Z.min (n1 * c) L.
Proof.
  intros Hc Hld HL Hq n1. unfold n1.
  pose proof (blk_nblocks_c_bounds ld c Hc) as B.
  unfold blk_nblocks_c in B. set (cnt := (ld + c - 1) / c) in *. clearbody cnt.
  assert (0 < cnt) by nia. split; [lia|]. split; [lia|].
  destruct Hq as [Hq|Hq]; [|lia]. assert (q = cnt) by nia. subst q. lia.
Qed.

Section Reassembly.
  Variable body : bytes.
  Variable szx : Z.
  Variable junk : Z -> Z.
  Variable maxszx : Z.
  Hypothesis Hszx : 0 <= szx.
  Hypothesis Hbody : 0 < len body.

  Let c := blk_chunk szx.
  Let L := len body.
  Let K := blk_nblocks body szx.

  Lemma rs_c_pos : 0 < c.
  Proof. apply blk_chunk_pos; exact Hszx. Qed.

  Lemma rs_K_gt j : j < K <-> j * c < L.
  Proof. apply blk_nblocks_c_gt, rs_c_pos. Qed.

  Lemma rs_K_bounds : (K - 1) * c < L <= K * c /\ 1 <= K.
  Proof.
    pose proof (proj1 (rs_K_gt (K - 1))). pose proof (proj2 (rs_K_gt K)).
    pose proof (proj2 (rs_K_gt 0)). unfold L in *. lia.
  Qed.

  Lemma rs_idx i : 0 <= i < L -> 0 <= i / c < K.
  Proof.
    intros Hi. pose proof rs_c_pos as Hc. destruct rs_K_bounds as (B & _).
    split; [apply blk_idx_ge|apply blk_idx_lt]; lia.
  Qed.

  (* the stored bytes of every recorded block are the body's *)
  Definition rs_good (r : blk_ranges) (b : bytes) : Prop :=
    forall i, 0 <= i < L -> blk_memP r (i / c) -> i < len b /\ blk_get b i = blk_get body i.

  (* [d] is the bytes of the blocks n0 .. n0+cnt-1 of the body *)
  Definition rs_piece (d : bytes) (n0 cnt : Z) : Prop :=
    0 <= n0 /\ 1 <= cnt /\ n0 + cnt <= K /\ n0 * c + len d = Z.min ((n0 + cnt) * c) L /\
    forall i, 0 <= i < len d -> blk_get d i = blk_get body (n0 * c + i).

  Lemma rs_piece_len d n0 cnt : rs_piece d n0 cnt -> 1 <= len d /\ n0 * c + len d <= L.
  Proof.
    intros (H0 & H1 & HK & He & _). pose proof rs_c_pos.
    pose proof (proj1 (rs_K_gt n0)). assert (c <= cnt * c) by nia. lia.
  Qed.

  Lemma rs_store r r' seen bo d n0 cnt total :
    rs_piece d n0 cnt ->
    (forall j, blk_memP r j <-> In j seen) ->
    (forall j, blk_memP r' j <-> In j (blk_range_from n0 cnt ++ seen)) ->
    match bo with Some b => rs_good r b | None => r = [] end ->
    n0 * c + len d <= total ->
    (forall b, bo = Some b -> total <= len b \/ len b <= n0 * c + len d) ->
    exists b', blk_build_body junk bo d (n0 * c) total = Some b' /\ rs_good r' b' /\
      (forall b, bo = Some b -> len b <= len b' /\ (total <= len b -> len b' = len b) /\
         (len b < total -> len b' = n0 * c + len d)) /\
      (bo = None -> len b' = total).
  Proof.
    intros Hp Hm Hm' Hbo Ht Hb. pose proof rs_c_pos as Hc.
    destruct (rs_piece_len d n0 cnt Hp) as (Hd1 & HdL).
    pose proof Hp as (H0 & _ & _ & _ & Hd).
    destruct (blk_build_body_effect junk bo d (n0 * c) total ltac:(nia) ltac:(lia) Ht Hb)
      as (b' & E & E1 & E2 & E3 & E4).
    exists b'. split; [exact E|]. split; [|split; [|exact E4]].
    - (* the arithmetic comes before [blk_memP r' (i / c)]: lia pays for every quotient in sight *)
      intros i Hi.
      assert (G : n0 * c <= i < n0 * c + len d \/ ~ n0 * c <= i < n0 * c + len d) by lia.
      destruct G as [G|G]; [intros _; split; [lia|]; rewrite E2, Hd by lia; f_equal; lia|].
      (* a byte outside the piece belongs to a block recorded before *)
      intros Mi. apply Hm', in_app_iff in Mi. rewrite blk_in_range_from, <- Hm in Mi.
      destruct Mi as [(M1 & M2)|Mi].
      { destruct Hp as (_ & _ & _ & He & _).
        apply blk_idx_ge in M1; [|exact Hc]. apply blk_idx_lt in M2; [|exact Hc]. lia. }
      destruct bo as [b|]; [|rewrite Hbo in Mi; destruct Mi].
      destruct (Hbo i Hi Mi) as (G3 & G4). clear Mi. destruct (E3 b eq_refl) as (F1 & _ & _ & F3).
      split; [lia|]. rewrite F3; [exact G4|lia|exact G].
    - intros b Eb. destruct (E3 b Eb) as (F1 & F2 & F2' & _). split; [assumption|split; assumption].
  Qed.

  Lemma rs_complete r b : rs_good r b -> (forall j, 0 <= j < K -> blk_memP r j) ->
    take L b = body.
  Proof.
    intros Hg Ha. destruct rs_K_bounds as (B & K1).
    assert (Lb : L <= len b).
    { destruct (Hg (L - 1) ltac:(lia)) as (G & _); [apply Ha; apply rs_idx; lia|]. lia. }
    apply blk_ext.
    - rewrite len_take; [reflexivity|lia].
    - intros i Hi. rewrite len_take in Hi by lia. rewrite blk_get_take by lia.
      apply Hg; [lia|]. apply Ha. apply rs_idx. lia.
  Qed.

  Lemma rs_all_in_iff r seen : blk_inv r -> r <> [] -> (forall j, blk_memP r j <-> In j seen) ->
    (forall j, In j seen -> 0 <= j < K) ->
    (blk_check_all_in r ((L + c - 1) / c) = true <-> forall j, 0 <= j < K -> In j seen).
  Proof.
    intros Hi Hne Hm Hr. change ((L + c - 1) / c) with K.
    rewrite (blk_check_all_in_spec r K Hi Hne).
    - split; intros H j Hj; [apply Hm, blk_abs_mem, H, Hj|apply blk_abs_mem, Hm, H, Hj].
    - intros j Hj. apply blk_abs_mem, Hm, Hr in Hj. lia.
  Qed.

  Lemma rs_recorded r seen n0 cnt : blk_inv r -> (forall j, blk_memP r j <-> In j seen) ->
    (forall j, In j seen -> 0 <= j < K) -> 0 <= n0 -> 1 <= cnt -> n0 + cnt <= K ->
    match blk_update_many r n0 (Z.to_nat cnt) with
    | Some (r', upd) =>
        blk_inv r' /\ r' <> [] /\
        (forall j, blk_memP r' j <-> In j (blk_range_from n0 cnt ++ seen)) /\
        (forall j, In j (blk_range_from n0 cnt ++ seen) -> 0 <= j < K) /\
        (upd = false -> r' = r)
    | None => exists r1 j, blk_inv r1 /\ len r1 = blk_rblock_cnt - 1 /\
                (forall x, blk_memP r1 x <-> (In x (blk_range_from n0 cnt) /\ x < j) \/ In x seen)
    end.
  Proof.
    intros Hi Hm Hr Hn0 Hcnt HK.
    pose proof (blk_update_many_spec (Z.to_nat cnt) r n0 Hi Hn0) as US.
    rewrite Z2Nat.id in US by lia.
    destruct (blk_update_many r n0 (Z.to_nat cnt)) as [[r' upd]|].
    - destruct US as (Hi' & Hm' & Hupd).
      assert (Hm'' : forall j, blk_memP r' j <-> In j (blk_range_from n0 cnt ++ seen)).
      { intros j. rewrite Hm', in_app_iff, blk_in_range_from, Hm. reflexivity. }
      split; [exact Hi'|]. split; [|split; [exact Hm''|split; [|exact Hupd]]].
      + intros ->. apply (Hm' n0). left. lia.
      + intros j Hj. apply in_app_iff in Hj. rewrite blk_in_range_from in Hj.
        destruct Hj as [Hj|Hj]; [lia|apply Hr, Hj].
    - destruct US as (r1 & j & U1 & U2 & U3 & U4).
      apply (blk_update_none_iff _ _ U2) in U3; [|lia].
      exists r1, j. split; [exact U2|]. split; [apply U3|].
      intros x. rewrite U4, blk_in_range_from, Hm. apply or_iff_compat_r. lia.
  Qed.

  (* the blocks (in the receiver's unit) that block k at size s covers *)
  Definition rs_cover (s k : Z) : list Z :=
    blk_range_from (k * 2 ^ (s - szx)) ((len (blk_slice body s k) + c - 1) / c).

  Lemma rs_arr_piece s k : szx <= s -> 0 <= k < blk_nblocks body s ->
    let q := 2 ^ (s - szx) in let d := blk_slice body s k in
    let n0 := k * q in let cnt := (len d + c - 1) / c in
    rs_piece d n0 cnt /\ k * blk_chunk s = n0 * c /\ blk_more body s k = (n0 + cnt <? K).
  Proof.
    intros Hs Hk q d n0. pose proof rs_c_pos as Hc.
    assert (Hq : 0 < q) by (apply Z.pow_pos_nonneg; lia).
    assert (Eoff : k * blk_chunk s = n0 * c).
    { unfold n0, q, c. rewrite (blk_chunk_divides szx s) by lia. ring. }
    destruct (blk_slice_facts body s k ltac:(lia) Hk) as (F1 & F2 & F3 & F4).
    fold d L in F1, F2, F3, F4. rewrite Eoff in F2, F4.
    destruct (blk_cover_arith c L n0 (len d) q Hc ltac:(lia) F2) as (A1 & A2 & A3).
    { destruct (blk_more body s k); [left|right; apply F4; reflexivity].
      destruct (F3 eq_refl) as (G & _). rewrite G. unfold c, q.
      rewrite (blk_chunk_divides szx s) by lia. ring. }
    intros cnt. fold cnt in A1, A2, A3. clearbody cnt. apply rs_K_gt in A2.
    split; [|split; [exact Eoff|]].
    - split; [unfold n0; nia|]. split; [lia|]. split; [lia|]. split; [exact A3|].
      intros i Hi. rewrite <- Eoff. unfold d, blk_slice.
      apply blk_get_slice_c; [apply blk_chunk_pos|lia|]; lia.
    - pose proof (rs_K_gt (n0 + cnt)) as G. destruct (blk_more body s k).
      + destruct (F3 eq_refl) as (G1 & G2).
        replace ((k + 1) * blk_chunk s) with (n0 * c + len d) in G2 by lia. lia.
      + specialize (F4 eq_refl). lia.
  Qed.

  Lemma rs_cover_full s k : szx <= s -> 0 <= k < blk_nblocks body s -> blk_more body s k = true ->
    rs_cover s k = blk_range_from (k * 2 ^ (s - szx)) (2 ^ (s - szx)).
  Proof.
    intros Hs Hk Hm. pose proof rs_c_pos as Hc.
    destruct (blk_slice_facts body s k ltac:(lia) Hk) as (_ & _ & F3 & _). destruct (F3 Hm) as (F & _).
    unfold rs_cover. rewrite F, (blk_chunk_divides szx s) by lia. fold c.
    replace (c * 2 ^ (s - szx) + c - 1) with (c - 1 + 2 ^ (s - szx) * c) by ring.
    rewrite Z.div_add, Z.div_small by lia. reflexivity.
  Qed.

  Lemma rs_arr_whole s : szx <= s -> 0 < blk_nblocks body s -> blk_more body s 0 = false ->
    forall j, 0 <= j < K -> In j (rs_cover s 0).
  Proof.
    intros Hs Hk Hm j Hj. destruct (rs_arr_piece s 0 Hs ltac:(lia)) as (_ & _ & Hfin).
    apply blk_in_range_from. rewrite Hm in Hfin. lia.
  Qed.

  (* The outcome of a step from a state [st] that has recorded the blocks [seen], for an arrival
     that covers the blocks [cov]; [inv st seen] is the receiver's invariant. *)
  Definition rs_step_ok (inv : option blk_rcv -> list Z -> Prop) (st : option blk_rcv)
             (seen cov : list Z) (r : option blk_rcv * blk_out) : Prop :=
    let '(st', o) := r in
    match o with
    | BoDeliver d => d = body /\ st' = None /\ (forall j, 0 <= j < K -> In j (cov ++ seen))
    | BoPass => st' = st /\ (forall j, 0 <= j < K -> In j cov)
    | BoContinue => inv st' (cov ++ seen) /\
                    (In (K - 1) cov -> ~ In (K - 1) seen ->
                     ~ (forall j, 0 <= j < K -> In j (cov ++ seen)))
    | BoFail => (exists seen', inv st' seen' /\ incl seen' seen) /\
                exists r1 j, blk_inv r1 /\ len r1 = blk_rblock_cnt - 1 /\
                  (forall x, blk_memP r1 x <-> (In x cov /\ x < j) \/ In x seen)
    | BoReject => False
    end.

  (* the lg_srcv while a block is handled; a fresh one holds nothing yet *)
  Definition rs_srv_rec (size : option Z) (s : blk_rcv) (seen : list Z) : Prop :=
    blk_inv (br_rec s) /\ (forall j, blk_memP (br_rec s) j <-> In j seen) /\
    (forall j, In j seen -> 0 <= j < K) /\
    (size = Some L -> br_total s = L) /\ 0 <= br_total s <= L /\
    (forall j, blk_memP (br_rec s) j -> Z.min ((j + 1) * c) L <= br_total s) /\
    (br_nomore s = true <-> blk_memP (br_rec s) (K - 1)) /\ br_szx s = szx /\
    match br_body s with
    | Some b => len b = br_total s /\ rs_good (br_rec s) b
    | None => br_rec s = []
    end.

  Definition rs_srv_inv (size : option Z) (st : option blk_rcv) (seen : list Z) : Prop :=
    match st with
    | None => seen = []
    | Some s => rs_srv_rec size s seen
    end.

  Lemma rs_srv_in_use size st seen : size = None \/ size = Some L -> rs_srv_inv size st seen ->
    rs_srv_rec size
      match st with
      | Some s => s
      | None => {| br_rec := []; br_total := blk_opt_z size; br_body := None; br_nomore := false;
                   br_szx := szx |}
      end seen.
  Proof.
    intros Hsz Hinv. destruct st as [s|]; [exact Hinv|]. cbn [rs_srv_inv] in Hinv. subst seen.
    unfold rs_srv_rec. cbn [br_rec br_total br_body br_nomore br_szx blk_memP In].
    split. { split; [exact I|]. cbn. unfold blk_rblock_cnt. lia. }
    split; [tauto|]. split; [tauto|]. split; [intros ->; reflexivity|].
    split. { destruct Hsz as [->| ->]; cbn [blk_opt_z]; unfold L in *; lia. }
    split; [tauto|]. split; [split; [discriminate|tauto]|]. split; reflexivity.
  Qed.

  (* the state after the piece [d] has been recorded and stored *)
  Lemma rs_srv_rec_step size s seen d n0 cnt (more : bool) r' upd :
    rs_srv_rec size s seen -> rs_piece d n0 cnt -> more = (n0 + cnt <? K) ->
    blk_update_many (br_rec s) n0 (Z.to_nat cnt) = Some (r', upd) ->
    let total' := if upd && (br_total s <? n0 * c + len d) then n0 * c + len d else br_total s in
    let body' := if upd then blk_build_body junk (br_body s) d (n0 * c) total' else br_body s in
    r' <> [] /\ body' <> None /\
    rs_srv_rec size {| br_rec := r'; br_total := total'; br_body := body';
                       br_nomore := if more then br_nomore s else true; br_szx := br_szx s |}
               (blk_range_from n0 cnt ++ seen).
  Proof.
    intros (J1 & J2 & J3 & J4 & J4' & J4e & J4n & J4s & Jb) Hp Hmore EU total' body'.
    destruct (rs_piece_len d n0 cnt Hp) as (Hd1 & HdL).
    pose proof (rs_recorded (br_rec s) seen n0 cnt J1 J2 J3) as US. rewrite EU in US.
    destruct US as (Hi' & Hne' & Hm' & Hr' & Hupd); [apply Hp|apply Hp|apply Hp|].
    split; [exact Hne'|].
    (* no_more_seen is set exactly when the final block is among the recorded ones *)
    assert (Hnm : (if more then br_nomore s else true) = true <-> blk_memP r' (K - 1)).
    { rewrite Hm', in_app_iff, blk_in_range_from, <- J2. destruct Hp as (_ & Hc1 & HK & _).
      destruct more; [rewrite J4n|split; [intros _; left; lia|reflexivity]].
      split; [intros X; right; exact X|intros [X|X]; [lia|exact X]]. }
    unfold rs_srv_rec. cbn [br_rec br_total br_body br_nomore br_szx].
    enough (body' <> None /\ (0 <= total' <= L) /\ (size = Some L -> total' = L) /\
            (forall j, blk_memP r' j -> Z.min ((j + 1) * c) L <= total') /\
            match body' with Some b' => len b' = total' /\ rs_good r' b' | None => r' = [] end)
      as (B0 & B1 & B2 & B3 & B4) by (repeat (split; [assumption|]); assumption).
    unfold body', total'. clear body' total'. destruct upd; cbn [andb].
    - set (total' := if br_total s <? n0 * c + len d then n0 * c + len d else br_total s).
      assert (T : br_total s <= total' <= L /\ n0 * c + len d <= total' /\
                  (total' = br_total s \/ br_total s < total' /\ total' = n0 * c + len d))
        by (unfold total'; destruct (br_total s <? n0 * c + len d) eqn:X; lia).
      destruct T as (T1 & T2 & T4).
      destruct (rs_store (br_rec s) r' seen (br_body s) d n0 cnt total' Hp J2 Hm')
        as (b' & -> & Gb' & Mb' & Nb');
        [destruct (br_body s); [apply Jb|exact Jb]|exact T2| |].
      { intros b Eb. rewrite Eb in Jb. lia. }
      split; [discriminate|]. split; [lia|]. split; [intros Z0; specialize (J4 Z0); lia|].
      split; [|split; [|exact Gb']].
      + intros j Hj. apply Hm', in_app_iff in Hj. rewrite blk_in_range_from, <- J2 in Hj.
        destruct Hj as [Hj|Hj]; [|specialize (J4e j Hj); lia].
        destruct Hp as (_ & _ & _ & He & _). pose proof rs_c_pos.
        assert ((j + 1) * c <= (n0 + cnt) * c) by (apply Z.mul_le_mono_nonneg_r; lia). lia.
      + destruct (br_body s) as [b|]; [|apply Nb'; reflexivity].
        destruct (Mb' b eq_refl) as (_ & X & Y). lia.
    - rewrite (Hupd eq_refl) in *. destruct (br_body s) as [b|]; [|contradiction].
      split; [discriminate|]. split; [lia|]. split; [exact J4|]. split; [exact J4e|exact Jb].
  Qed.

  (* the completion test: the final block has been seen and the ranges say "all in" *)
  Lemma rs_srv_all_in size s seen : rs_srv_rec size s seen -> br_rec s <> [] ->
    (br_nomore s && blk_check_all_in (br_rec s) ((br_total s + c - 1) / c) = true <->
     forall j, 0 <= j < K -> In j seen) /\
    ((forall j, 0 <= j < K -> In j seen) -> br_total s = L).
  Proof.
    intros (J1 & J2 & J3 & _ & J4' & J4e & J4n & _) Hne. destruct rs_K_bounds as (B & K1).
    assert (Hlast : blk_memP (br_rec s) (K - 1) -> br_total s = L).
    { intros X. apply J4e in X. replace (K - 1 + 1) with K in X by ring. lia. }
    pose proof (rs_all_in_iff _ _ J1 Hne J2 J3) as A.
    split; [|intros Hall; apply Hlast, J2, Hall; lia].
    rewrite andb_true_iff, J4n. split.
    - intros (N1 & N2). rewrite (Hlast N1) in N2. apply A, N2.
    - intros Hall. assert (N1 : blk_memP (br_rec s) (K - 1)) by (apply J2, Hall; lia).
      split; [exact N1|]. rewrite (Hlast N1). apply A, Hall.
  Qed.

  (* an arrival: block k of the body at size s >= szx (the receiver's unit) *)
  Definition rs_srv_arrival (size : option Z) (a : blk_arr) (s k : Z) : Prop :=
    szx <= s /\ 0 <= k < blk_nblocks body s /\ a = blk_arr_of body s size k /\
    blk_srv_init_szx maxszx a = szx.

  Lemma rs_srv_step size st seen a s k :
    size = None \/ size = Some L ->
    rs_srv_inv size st seen -> rs_srv_arrival size a s k ->
    rs_step_ok (rs_srv_inv size) st seen (rs_cover s k) (blk_srv_step junk maxszx st a).
  Proof.
    intros Hsz Hinv (Hs & Hk & -> & Hinit).
    destruct (rs_arr_piece s k Hs Hk) as (Hp & Eoff & Hmore).
    destruct (blk_slice_tests body s k ltac:(lia) Hk) as (T1 & _ & T3).
    unfold rs_step_ok, blk_srv_step. rewrite Hinit. cbn [blk_arr_of ba_num ba_m ba_szx ba_size ba_data].
    (* the payload is not cut and not rejected; it is passed on only if it is the whole body *)
    rewrite !blk_m_eqb_1, blk_m_eqb_0, T1, <- andb_assoc, T3, andb_false_r, Eoff.
    destruct ((k =? 0) && negb (blk_more body s k)) eqn:Epass.
    { apply andb_true_iff in Epass. destruct Epass as (E0 & Em).
      apply Z.eqb_eq in E0. apply negb_true_iff in Em. subst k.
      split; [reflexivity|exact (rs_arr_whole s Hs ltac:(lia) Em)]. }
    (* the lg_srcv in use; from here on the old state matters only through its invariant *)
    pose proof (rs_srv_in_use size st seen Hsz Hinv) as I0.
    set (s0 := match st with Some s1 => s1 | None => _ end) in *. clearbody s0.
    assert (Es : br_szx s0 = szx) by apply I0.
    rewrite Es, (blk_unit_szx szx s Hs), (blk_unit_num szx s k Hs). fold c.
    set (d := blk_slice body s k) in *. set (n0 := k * 2 ^ (s - szx)) in *.
    set (cnt := (len d + c - 1) / c) in *.
    destruct (blk_update_many (br_rec s0) n0 (Z.to_nat cnt)) as [[r' upd]|] eqn:EU.
    2:{ split; [exists []; split; [reflexivity|intros x []]|]. destruct I0 as (J1 & J2 & J3 & _).
        pose proof (rs_recorded (br_rec s0) seen n0 cnt J1 J2 J3) as US. rewrite EU in US.
        apply US; apply Hp. }
    destruct (rs_srv_rec_step size s0 seen d n0 cnt _ r' upd I0 Hp Hmore EU) as (Hne' & Hb' & R').
    rewrite Es in R'. set (nomore := if blk_more body s k then _ else _) in *.
    set (total' := if upd && _ then _ else _) in *. set (body' := if upd then _ else _) in *.
    destruct (rs_srv_all_in size _ _ R' Hne') as (A1 & A2).
    cbn [br_rec br_total br_body br_nomore] in A1, A2.
    replace (if blk_more body s k then br_nomore s0 && _ else _)
      with (nomore && blk_check_all_in r' ((total' + c - 1) / c))
      by (unfold nomore; destruct (blk_more body s k); reflexivity).
    destruct (nomore && _).
    - pose proof (proj1 A1 eq_refl) as Hall. specialize (A2 Hall). split; [|split; [reflexivity|exact Hall]].
      destruct R' as (_ & M' & _ & _ & _ & _ & _ & _ & Gb'). cbn [br_rec br_total br_body] in M', Gb'.
      destruct body' as [b'|]; [|contradiction]. rewrite A2.
      apply (rs_complete r' b'); [apply Gb'|]. intros j Hj. apply M', Hall, Hj.
    - split; [exact R'|]. intros _ _ Hall. apply A1 in Hall. discriminate.
  Qed.

  Lemma rs_unit k : 0 <= k < K ->
    k * 2 ^ (szx - szx) = k /\ (len (blk_slice body szx k) + c - 1) / c = 1.
  Proof.
    intros Hk. pose proof rs_c_pos as Hc.
    destruct (blk_slice_facts body szx k Hszx Hk) as (F1 & _). fold c in F1.
    rewrite Z.sub_diag, Z.mul_1_r. split; [reflexivity|].
    pose proof (blk_nblocks_c_gt (len (blk_slice body szx k)) c 0 Hc).
    pose proof (blk_nblocks_c_gt (len (blk_slice body szx k)) c 1 Hc).
    unfold blk_nblocks_c in *. lia.
  Qed.

  Lemma rs_cover_unit k : 0 <= k < K -> rs_cover szx k = [k].
  Proof.
    intros Hk. destruct (rs_unit k Hk) as (U1 & U2). unfold rs_cover. rewrite U1, U2.
    apply blk_range_from_1.
  Qed.

  Lemma rs_unit_piece k : 0 <= k < K ->
    rs_piece (blk_slice body szx k) k 1 /\ blk_more body szx k = (k + 1 <? K).
  Proof.
    intros Hk. destruct (rs_unit k Hk) as (U1 & U2).
    destruct (rs_arr_piece szx k (Z.le_refl _) Hk) as (Hp & _ & Hm). rewrite U1, U2 in Hp, Hm.
    split; assumption.
  Qed.

  Definition rs_cli_rec (size : option Z) (r : blk_ranges) (bo : option bytes) (seen : list Z) :=
    blk_inv r /\ (forall j, blk_memP r j <-> In j seen) /\ (forall j, In j seen -> 0 <= j < K) /\
    match bo with
    | Some b => rs_good r b /\ (size = Some L -> L <= len b)
    | None => r = []
    end.

  Definition rs_cli_inv (size : option Z) (st : option blk_rcv) (seen : list Z) : Prop :=
    match st with
    | None => seen = []
    | Some s => rs_cli_rec size (br_rec s) (br_body s) seen
    end.

  (* Size2 as computed from block k *)
  Lemma rs_size2 size k : size = None \/ size = Some L -> 0 <= k < K ->
    let e := k * c + len (blk_slice body szx k) in
    let size2 := if blk_opt_z size <? e
                 then (if blk_more body szx k then e + 1 else e) else blk_opt_z size in
    e <= size2 /\ (size = Some L -> size2 = L) /\ (size = None -> size2 <= e + 1) /\
    (blk_more body szx k = false -> size2 = L /\ e = L).
  Proof.
    intros Hsz Hk e size2. pose proof rs_c_pos. assert (0 <= k * c) by nia.
    destruct (blk_slice_facts body szx k Hszx Hk) as (F1 & F2 & _ & F4). fold c L e in F1, F2, F4.
    subst size2. destruct Hsz as [->| ->]; cbn [blk_opt_z].
    - (* no Size2: the end of this block, and one more byte while More is set *)
      rewrite (proj2 (Z.ltb_lt 0 e)) by lia.
      destruct (blk_more body szx k).
      + split; [lia|]. split; [discriminate|]. split; [lia|discriminate].
      + specialize (F4 eq_refl). split; [lia|]. split; [discriminate|]. split; [lia|].
        intros _. split; exact F4.
    - (* Size2 = L, and no block ends beyond L *)
      rewrite (proj2 (Z.ltb_ge L e)) by lia.
      split; [exact F2|]. split; [reflexivity|]. split; [discriminate|].
      intros M. split; [reflexivity|exact (F4 M)].
  Qed.

  Lemma rs_cli_rec_step size r bo seen k r' upd size2 :
    size = None \/ size = Some L -> rs_cli_rec size r bo seen -> 0 <= k < K ->
    blk_update_many r k 1 = Some (r', upd) ->
    let d := blk_slice body szx k in
    k * c + len d <= size2 -> (size = Some L -> size2 = L) ->
    (size = None -> size2 <= k * c + len d + 1) ->
    let bo' := if upd then blk_build_body junk bo d (k * c) size2 else bo in
    r' <> [] /\ bo' <> None /\ (upd = false -> In k seen) /\ rs_cli_rec size r' bo' ([k] ++ seen).
  Proof.
    intros Hsz (J1 & J2 & J3 & Jb) Hk EU d S1 S2 S3 bo'.
    destruct (rs_unit_piece k Hk) as (Hp & _).
    pose proof (rs_recorded r seen k 1 J1 J2 J3) as US. change (Z.to_nat 1) with 1%nat in US.
    rewrite EU in US. destruct US as (Hi' & Hne' & Hm' & Hr' & Hupd); [lia|lia|lia|].
    split; [exact Hne'|]. unfold rs_cli_rec. rewrite <- blk_range_from_1.
    enough (bo' <> None /\ (upd = false -> In k seen) /\ match bo' with
                           | Some b' => rs_good r' b' /\ (size = Some L -> L <= len b')
                           | None => r' = []
                           end)
      as (B0 & B1 & B2) by (repeat (split; [assumption|]); assumption).
    unfold bo'. clear bo'. destruct upd.
    - destruct (rs_store r r' seen bo d k 1 size2 Hp J2 Hm') as (b' & -> & Gb' & Mb' & Nb');
        [destruct bo; [apply Jb|exact Jb]|exact S1| |].
      { intros b Eb. rewrite Eb in Jb. destruct Jb as (_ & Jl).
        destruct Hsz as [Z0|Z0]; [specialize (S3 Z0)|specialize (S2 Z0); specialize (Jl Z0)]; lia. }
      split; [discriminate|]. split; [discriminate|]. split; [exact Gb'|]. intros Z0. specialize (S2 Z0).
      destruct bo as [b|]; [|rewrite (Nb' eq_refl); lia].
      destruct (Mb' b eq_refl) as (X & _). destruct Jb as (_ & Jl). specialize (Jl Z0). lia.
    - rewrite (Hupd eq_refl) in *. destruct bo as [b|]; [|contradiction].
      split; [discriminate|]. split; [|exact Jb].
      intros _. apply J2, Hm', in_or_app. left. apply blk_in_range_from. lia.
  Qed.

  Lemma rs_cli_step size st seen k :
    size = None \/ size = Some L -> rs_cli_inv size st seen -> 0 <= k < K ->
    rs_step_ok (rs_cli_inv size) st seen [k] (blk_cli_step junk st (blk_arr_of body szx size k)).
  Proof.
    intros Hsz Hinv Hk.
    destruct (blk_slice_tests body szx k Hszx Hk) as (T1 & T2 & T3).
    destruct (rs_unit_piece k Hk) as (_ & Hmore).
    destruct (rs_size2 size k Hsz Hk) as (S1 & S2 & S3 & S4).
    unfold rs_step_ok, blk_cli_step. cbn [blk_arr_of ba_num ba_m ba_szx ba_size ba_data].
    rewrite !blk_m_eqb_1, T1, T2, T3, orb_true_r. cbn [negb]. fold c.
    set (d := blk_slice body szx k) in *.
    set (size2 := if blk_opt_z size <? _ then _ else _) in *.
    rewrite (proj2 (Z.ltb_ge size2 (k * c + len d)) S1), <- blk_update_many_1.
    set (s0 := match st with Some s => s | None => _ end).
    assert (I0 : rs_cli_rec size (br_rec s0) (br_body s0) seen).
    { unfold s0. destruct st as [s|]; [exact Hinv|]. cbn [rs_cli_inv] in Hinv. subst seen.
      split; [split; [exact I|cbn; unfold blk_rblock_cnt; lia]|].
      split; [cbn; tauto|]. split; [intros j []|reflexivity]. }
    clearbody s0.
    destruct (blk_update_many (br_rec s0) k 1) as [[r' upd]|] eqn:EU.
    2:{ (* too many gaps: the lg_crcv stays as it was *)
        split; [exists seen; split; [exact I0|apply incl_refl]|].
        destruct I0 as (J1 & J2 & J3 & _).
        pose proof (rs_recorded (br_rec s0) seen k 1 J1 J2 J3) as US.
        change (Z.to_nat 1) with 1%nat in US. rewrite EU, blk_range_from_1 in US. apply US; lia. }
    destruct (rs_cli_rec_step size _ _ seen k r' upd size2 Hsz I0 Hk EU S1 S2 S3)
      as (Hne' & Hb' & Hdup & R').
    fold d in Hb', R'. destruct upd.
    2:{ (* a block received before is skipped *)
        split; [exact R'|]. intros [<-|[]] Hn. destruct (Hn (Hdup eq_refl)). }
    destruct (blk_more body szx k) eqn:Mm; cbn [orb].
    { split; [exact R'|]. intros [E|[]]. lia. }
    destruct (S4 eq_refl) as (U1 & U2).
    pose proof R' as (Hi' & Hm' & Hr' & Gb').
    pose proof (rs_all_in_iff r' _ Hi' Hne' Hm' Hr') as A. rewrite <- U1 in A.
    destruct (blk_check_all_in r' ((size2 + c - 1) / c)); cbn [negb].
    2:{ split; [exact R'|]. intros _ _ Hall. apply A in Hall. discriminate. }
    pose proof (proj1 A eq_refl) as Hall.
    destruct (blk_build_body junk (br_body s0) d (k * c) size2) as [b'|]; [|contradiction].
    split; [|split; [reflexivity|exact Hall]].
    rewrite U2. apply (rs_complete r' b'); [apply Gb'|]. intros j Hj. apply Hm', Hall, Hj.
  Qed.

  Lemma rs_count_num_cons a l j :
    blk_count_num j (a :: l) = (if ba_num a =? j then 1 else 0) + blk_count_num j l.
  Proof. exact (blk_len_filter_cons (fun a => ba_num a =? j) a l). Qed.

  Lemma rs_count_cover_cons a l j :
    blk_count_cover szx j (a :: l) = (if blk_covers szx a j then 1 else 0) + blk_count_cover szx j l.
  Proof. exact (blk_len_filter_cons (fun a => blk_covers szx a j) a l). Qed.

  Lemma rs_count_deliveries_cons o l :
    blk_count_deliveries (o :: l) = (if blk_is_delivery o then 1 else 0) + blk_count_deliveries l.
  Proof. apply blk_len_filter_cons. Qed.

  Definition rs_ok_out (o : blk_out) : Prop :=
    match o with
    | BoDeliver d => d = body
    | BoReject => False
    | _ => True
    end.

  Section Run.
    Variable step : option blk_rcv -> blk_arr -> option blk_rcv * blk_out.
    Variable inv : option blk_rcv -> list Z -> Prop.
    Variable arrival : blk_arr -> Prop.
    Variable cov : blk_arr -> list Z.
    Hypothesis inv_init : inv None [].
    Hypothesis step_ok : forall st seen a, inv st seen -> arrival a ->
      rs_step_ok inv st seen (cov a) (step st a).

    (* Every delivery is the body.  For a fixed block j, each delivery uses up an arrival that
       covers j, or the j that the state holds already. *)
    Lemma rs_run (covers : blk_arr -> Z -> bool) :
      (forall a j, arrival a -> (covers a j = true <-> In j (cov a))) ->
      forall l, Forall arrival l -> forall st seen, inv st seen ->
      Forall rs_ok_out (blk_run step st l) /\
      forall j, 0 <= j < K ->
        blk_count_deliveries (blk_run step st l) <= len (filter (fun a => covers a j) l) + 1 /\
        (~ In j seen ->
         blk_count_deliveries (blk_run step st l) <= len (filter (fun a => covers a j) l)).
    Proof.
      intros Hcov. induction 1 as [|a l Ha Hl IH]; intros st seen Hinv.
      { split; [constructor|]. intros j Hj. cbn. lia. }
      cbn [blk_run]. pose proof (step_ok st seen a Hinv Ha) as S.
      destruct (step st a) as [st' o].
      destruct o as [| | |d|]; cbn [rs_step_ok] in S.
      - destruct S as (S & _). destruct (IH st' _ S) as (I1 & I2).
        split; [constructor; [exact I|exact I1]|]. intros j Hj. destruct (I2 j Hj) as (B1 & B2).
        rewrite rs_count_deliveries_cons, blk_len_filter_cons. cbn [blk_is_delivery]. specialize (Hcov a j Ha).
        destruct (covers a j); [lia|]. split; [lia|]. intros Hn. rewrite Z.add_0_l. apply B2.
        rewrite in_app_iff. intros [X|X]; [apply Hcov in X; discriminate|exact (Hn X)].
      - destruct S.
      - destruct S as ((seen' & S & Hsub) & _). destruct (IH st' _ S) as (I1 & I2).
        split; [constructor; [exact I|exact I1]|]. intros j Hj. destruct (I2 j Hj) as (B1 & B2).
        rewrite rs_count_deliveries_cons, blk_len_filter_cons. cbn [blk_is_delivery].
        destruct (covers a j); (split; [lia|]); intros Hn; specialize (B2 (fun X => Hn (Hsub j X))); lia.
      - destruct S as (-> & -> & Hall). destruct (IH None [] inv_init) as (I1 & I2).
        split; [constructor; [reflexivity|exact I1]|]. intros j Hj. destruct (I2 j Hj) as (_ & B2).
        specialize (B2 (fun X => X)). rewrite rs_count_deliveries_cons, blk_len_filter_cons.
        cbn [blk_is_delivery].
        specialize (Hcov a j Ha). destruct (covers a j); [lia|]. split; [lia|]. intros Hn.
        specialize (Hall j Hj). apply in_app_iff in Hall.
        destruct Hall as [X|X]; [apply Hcov in X; discriminate|destruct (Hn X)].
      - destruct S as (-> & Hall). destruct (IH st seen Hinv) as (I1 & I2).
        split; [constructor; [exact I|exact I1]|]. intros j Hj. destruct (I2 j Hj) as (B1 & B2).
        rewrite rs_count_deliveries_cons, blk_len_filter_cons. cbn [blk_is_delivery].
        rewrite (proj2 (Hcov a j Ha) (Hall j Hj)). split; [lia|]. intros Hn. specialize (B2 Hn). lia.
    Qed.

    (* An arrival that covers the blocks j .. j+n-1 when exactly the blocks below j are there:
       it is recorded (the ranges stay one range, so there is no refusal), and the body is
       delivered if and only if it completes it. *)
    Lemma rs_inorder_step a j n st seen : arrival a -> cov a = blk_range_from j n ->
      0 <= j -> 1 <= n -> j + n <= K -> inv st seen -> (forall x, In x seen <-> 0 <= x < j) ->
      (n = K -> snd (step st a) <> BoPass) ->
      exists st', step st a = (st', if j + n =? K then BoDeliver body else BoContinue) /\
                  (j + n < K -> inv st' (blk_range_from j n ++ seen)).
    Proof.
      intros Ha Ec Hj Hn HK Hinv Hseen Hnp. pose proof (step_ok st seen a Hinv Ha) as S.
      rewrite Ec in S.
      assert (Hin : forall x, In x (blk_range_from j n ++ seen) <-> 0 <= x < j + n)
        by (intros x; rewrite in_app_iff, blk_in_range_from, Hseen; lia).
      destruct (step st a) as [st' o]. cbn [snd] in Hnp. exists st'.
      destruct o as [| | |d|]; cbn [rs_step_ok] in S.
      - destruct S as (S1 & S2). destruct (j + n =? K) eqn:E; [exfalso|split; [reflexivity|intros _; exact S1]].
        apply S2; [apply blk_in_range_from; lia|rewrite Hseen; lia|]. intros x Hx. apply Hin. lia.
      - destruct S.
      - exfalso. destruct S as (_ & r1 & j' & U1 & U2 & U3).
        assert (len r1 <= 1); [|unfold blk_rblock_cnt in U2; lia].
        apply (blk_contig_len r1 (Z.min (j + n) (Z.max j j')) U1).
        intros x. rewrite U3, blk_in_range_from, Hseen. lia.
      - destruct S as (-> & -> & S). specialize (S (K - 1) ltac:(lia)). apply Hin in S.
        rewrite (proj2 (Z.eqb_eq (j + n) K)) by lia. split; [reflexivity|lia].
      - exfalso. destruct S as (_ & S). apply Hnp; [|reflexivity].
        pose proof (proj1 (blk_in_range_from _ _ _) (S 0 ltac:(lia))).
        pose proof (proj1 (blk_in_range_from _ _ _) (S (K - 1) ltac:(lia))). lia.
    Qed.

    Lemma rs_inorder_from (arr : Z -> blk_arr) :
      (forall k, 0 <= k < K -> arrival (arr k) /\ cov (arr k) = [k]) ->
      (K = 1 -> forall st seen, inv st seen -> snd (step st (arr 0)) <> BoPass) ->
      forall (n : nat) j st seen, Z.of_nat (S n) = K - j -> 0 <= j ->
      inv st seen -> (forall x, In x seen <-> 0 <= x < j) ->
      blk_run step st (map arr (blk_range_from j (K - j))) = repeat BoContinue n ++ [BoDeliver body].
    Proof.
      intros Harr Hnp.
      assert (Hstep : forall j st seen, 0 <= j < K -> inv st seen ->
                (forall x, In x seen <-> 0 <= x < j) ->
                exists st', step st (arr j) = (st', if j + 1 =? K then BoDeliver body else BoContinue) /\
                            (j + 1 < K -> inv st' (blk_range_from j 1 ++ seen))).
      { intros j st seen Hj Hinv Hseen. destruct (Harr j Hj) as (Ha & Ec).
        apply rs_inorder_step; try assumption; try lia.
        - rewrite blk_range_from_1. exact Ec.
        - intros E. replace j with 0 by lia. exact (Hnp (eq_sym E) st seen Hinv). }
      induction n as [|n IH]; intros j st seen Hn Hj Hinv Hseen;
        rewrite blk_range_from_cons by lia; cbn [map blk_run];
        destruct (Hstep j st seen ltac:(lia) Hinv Hseen) as (st' & -> & S).
      - rewrite (proj2 (Z.eqb_eq (j + 1) K)) by lia. replace (K - j - 1) with 0 by lia. reflexivity.
      - rewrite (proj2 (Z.eqb_neq (j + 1) K)) by lia. cbn [repeat app]. f_equal.
        replace (K - j - 1) with (K - (j + 1)) by ring.
        apply (IH (j + 1) st' (blk_range_from j 1 ++ seen)); [lia|lia|apply S; lia|].
        intros x. rewrite in_app_iff, blk_in_range_from, Hseen. lia.
    Qed.
  End Run.

  Definition rs_srv_arrivals (size : option Z) (l : list blk_arr) : Prop :=
    Forall (fun a => exists s k, rs_srv_arrival size a s k) l.

  Lemma rs_srv_step_ok size : size = None \/ size = Some L -> forall st seen a,
    rs_srv_inv size st seen -> (exists s k, rs_srv_arrival size a s k) ->
    rs_step_ok (rs_srv_inv size) st seen (rs_cover (ba_szx a) (ba_num a))
               (blk_srv_step junk maxszx st a).
  Proof.
    intros Hsz st seen a Hinv (s & k & Ha). pose proof Ha as (_ & _ & -> & _).
    exact (rs_srv_step size st seen _ s k Hsz Hinv Ha).
  Qed.

  (* the reassembly theorem, server side; the Size1 option may be absent or exact *)
  Theorem blk_srv_reassembly size l : size = None \/ size = Some L -> rs_srv_arrivals size l ->
    Forall rs_ok_out (blk_run (blk_srv_step junk maxszx) None l) /\
    forall j, 0 <= j < K ->
      blk_count_deliveries (blk_run (blk_srv_step junk maxszx) None l) <= blk_count_cover szx j l.
  Proof.
    intros Hsz Hl.
    destruct (rs_run _ _ _ _ eq_refl (rs_srv_step_ok size Hsz) (blk_covers szx)) with (2 := Hl)
      (st := @None blk_rcv) (seen := @nil Z) as (A & B); [|reflexivity|].
    - intros a j (s & k & _ & _ & -> & _). unfold blk_covers, rs_cover.
      cbn [blk_arr_of ba_num ba_szx ba_data]. fold c. rewrite blk_in_range_from. lia.
    - split; [exact A|]. intros j Hj. apply (B j Hj). intros [].
  Qed.

  Lemma rs_unit_arrival size k : 0 <= k < K ->
    blk_srv_init_szx maxszx (blk_arr_of body szx size 0) = szx ->
    (exists s j, rs_srv_arrival size (blk_arr_of body szx size k) s j) /\
    rs_cover (ba_szx (blk_arr_of body szx size k)) (ba_num (blk_arr_of body szx size k)) = [k].
  Proof.
    intros Hk H0. split; [|apply rs_cover_unit, Hk].
    exists szx, k. split; [lia|]. split; [exact Hk|]. split; [reflexivity|].
    destruct (Z.eq_dec k 0) as [->|Hne]; [exact H0|].
    unfold blk_srv_init_szx. cbn [blk_arr_of ba_num ba_szx].
    rewrite (proj2 (Z.eqb_neq k 0) Hne). reflexivity.
  Qed.

  (* every block once, in order: K-1 continuations and then exactly one delivery of the body *)
  Theorem blk_srv_inorder size : size = None \/ size = Some L -> 2 <= K ->
    blk_srv_init_szx maxszx (blk_arr_of body szx size 0) = szx ->
    blk_run (blk_srv_step junk maxszx) None (map (blk_arr_of body szx size) (blk_range K))
    = repeat BoContinue (Z.to_nat (K - 1)) ++ [BoDeliver body].
  Proof.
    intros Hsz HK Hcfg. rewrite <- blk_range_from_0. replace K with (K - 0) at 1 by ring.
    apply (rs_inorder_from _ _ _ _ (rs_srv_step_ok size Hsz)) with (seen := []);
      [intros k Hk; apply rs_unit_arrival; assumption|lia|lia|lia|reflexivity|].
    intros x. cbn [In]. lia.
  Qed.

  (* the size negotiation of commit e2e5ed9: the first block arrives with a larger size s0, the
     server counts it as the 2^(s0-szx) blocks of its own size that it covers, the client goes
     on from there in the server's size: still exactly one delivery, of the body *)
  Theorem blk_srv_inorder_renegotiated size s0 : size = None \/ size = Some L -> szx < s0 ->
    blk_srv_init_szx maxszx (blk_arr_of body s0 size 0) = szx ->
    let q := 2 ^ (s0 - szx) in q < K ->
    blk_run (blk_srv_step junk maxszx) None
      (blk_arr_of body s0 size 0 :: map (blk_arr_of body szx size) (blk_range_from q (K - q)))
    = repeat BoContinue (Z.to_nat (K - q)) ++ [BoDeliver body].
  Proof.
    intros Hsz Hs0 Hcfg q Hq. pose proof rs_c_pos as Hc.
    assert (Hq1 : 0 < q) by (apply Z.pow_pos_nonneg; lia).
    assert (Hk0 : 0 <= 0 < blk_nblocks body s0).
    { split; [lia|]. apply blk_nblocks_c_gt; [apply blk_chunk_pos; lia|exact Hbody]. }
    (* the first block is not the whole body, which would have at most q blocks then *)
    assert (Hm : blk_more body s0 0 = true).
    { destruct (blk_more body s0 0) eqn:M; [reflexivity|].
      destruct (blk_slice_facts body s0 0 ltac:(lia) Hk0) as (F1 & _ & _ & F4). specialize (F4 M).
      rewrite (blk_chunk_divides szx s0) in F1 by lia. fold c q in F1. fold L in F4.
      apply rs_K_gt in Hq. lia. }
    pose proof (rs_cover_full s0 0 ltac:(lia) Hk0 Hm) as Hcov. rewrite Z.mul_0_l in Hcov. fold q in Hcov.
    cbn [blk_run].
    destruct (rs_inorder_step _ _ _ _ (rs_srv_step_ok size Hsz) (blk_arr_of body s0 size 0) 0 q None [])
      as (st' & -> & S); [exists s0, 0; repeat split; lia|exact Hcov|lia|lia|lia|reflexivity| |lia|].
    { intros x. cbn [In]. lia. }
    rewrite (proj2 (Z.eqb_neq (0 + q) K)) by lia.
    replace (Z.to_nat (K - q)) with (Datatypes.S (Z.to_nat (K - q - 1))) by lia. cbn [repeat app]. f_equal.
    apply (rs_inorder_from _ _ _ _ (rs_srv_step_ok size Hsz)) with (seen := blk_range_from 0 q ++ []);
      [|lia|lia|lia|apply S; lia|].
    - intros k Hk. apply rs_unit_arrival; [exact Hk|exact (blk_srv_init_szx_fix _ _ _ _ _ Hcfg)].
    - intros x. rewrite in_app_iff, blk_in_range_from. cbn [In]. lia.
  Qed.

  Lemma rs_cli_no_pass size st k : 0 <= k < K ->
    snd (blk_cli_step junk st (blk_arr_of body szx size k)) <> BoPass.
  Proof.
    intros Hk. destruct (blk_slice_tests body szx k Hszx Hk) as (T1 & T2 & T3).
    unfold blk_cli_step. cbn [blk_arr_of ba_num ba_m ba_szx ba_size ba_data].
    rewrite !blk_m_eqb_1, T1, T2, T3, orb_true_r. cbn [negb].
    destruct (if blk_check_received _ _ then _ else _) as [[r' [|]]|]; [destruct (_ || _)| |];
      discriminate.
  Qed.

  Definition rs_arrivals (size : option Z) (l : list blk_arr) : Prop :=
    Forall (fun a => exists k, 0 <= k < K /\ a = blk_arr_of body szx size k) l.

  Lemma rs_cli_step_ok size : size = None \/ size = Some L -> forall st seen a,
    rs_cli_inv size st seen -> (exists k, 0 <= k < K /\ a = blk_arr_of body szx size k) ->
    rs_step_ok (rs_cli_inv size) st seen [ba_num a] (blk_cli_step junk st a).
  Proof. intros Hsz st seen a Hinv (k & Hk & ->). exact (rs_cli_step size st seen k Hsz Hinv Hk). Qed.

  (* the reassembly theorem, client side; the Size2 option may be absent or exact *)
  Theorem blk_cli_reassembly size l : size = None \/ size = Some L -> rs_arrivals size l ->
    Forall rs_ok_out (blk_run (blk_cli_step junk) None l) /\
    forall j, 0 <= j < K ->
      blk_count_deliveries (blk_run (blk_cli_step junk) None l) <= blk_count_num j l.
  Proof.
    intros Hsz Hl.
    destruct (rs_run _ _ _ _ eq_refl (rs_cli_step_ok size Hsz) (fun a j => ba_num a =? j)) with (2 := Hl)
      (st := @None blk_rcv) (seen := @nil Z) as (A & B); [|reflexivity|].
    - intros a j _. cbn [In]. lia.
    - split; [exact A|]. intros j Hj. apply (B j Hj). intros [].
  Qed.

  Theorem blk_cli_inorder size : size = None \/ size = Some L ->
    blk_run (blk_cli_step junk) None (map (blk_arr_of body szx size) (blk_range K))
    = repeat BoContinue (Z.to_nat (K - 1)) ++ [BoDeliver body].
  Proof.
    intros Hsz. destruct rs_K_bounds as (_ & K1).
    rewrite <- blk_range_from_0. replace K with (K - 0) at 1 by ring.
    apply (rs_inorder_from _ _ _ _ (rs_cli_step_ok size Hsz)) with (seen := []);
      [intros k Hk; split; [exists k; split; [exact Hk|reflexivity]|reflexivity]| |lia|lia|reflexivity|].
    - intros _ st seen _. apply rs_cli_no_pass. lia.
    - intros x. cbn [In]. lia.
  Qed.
End Reassembly.
