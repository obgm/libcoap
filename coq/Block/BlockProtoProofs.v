(* C09 layer 3, in the order of BlockProto.v.  The lg_srcv table hands every request to the
   reassembly core with the state of its own (resource, Request-Tag), so a transfer sees the run
   of layer 2 over its own requests; the client's ETag check keeps an lg_crcv within one
   representation, where the layer-2 client step applies; the closed loops without loss follow
   the in-order runs of layer 2; then the expiry timers and the table of stored responses. *)
From LibcoapV Require Import Base.Tactics Base.Bytes Base.BytesProofs Block.BlockOpt
  Block.BlockOptProofs Block.Slices Block.SlicesProofs Block.RecBlocks Block.ReassemblyProofs Block.BlockProto.
Local Open Scope Z_scope.

Lemma blk_rtag_match_refl a : blk_rtag_match a a = true.
Proof. destruct a; cbn; [apply Z.eqb_refl|reflexivity]. Qed.

Lemma blk_rtag_match_sym a b : blk_rtag_match a b = blk_rtag_match b a.
Proof. destruct a, b; cbn; try reflexivity. apply Z.eqb_sym. Qed.

Lemma blk_rtag_match_eq a b : blk_rtag_match a b = true -> a = b.
Proof. destruct a, b; cbn; try discriminate; [|reflexivity]. intros H. f_equal. lia. Qed.

Lemma blk_key_match_refl a : blk_key_match a a = true.
Proof. unfold blk_key_match. rewrite blk_rtag_match_refl, Z.eqb_refl. reflexivity. Qed.

Lemma blk_key_match_sym a b : blk_key_match a b = blk_key_match b a.
Proof. unfold blk_key_match. rewrite blk_rtag_match_sym, Z.eqb_sym. reflexivity. Qed.

Lemma blk_key_match_eq a b : blk_key_match a b = true -> a = b.
Proof.
  unfold blk_key_match. intros H. apply andb_true_iff in H. destruct H as (H1 & H2).
  apply blk_rtag_match_eq in H1. destruct a, b; cbn [fst snd] in *. f_equal; [lia|exact H1].
Qed.

Fixpoint blk_tab_uniq (t : blk_srv_tab) : Prop :=
  match t with
  | [] => True
  | (k, _) :: t' => blk_tab_find t' k = None /\ blk_tab_uniq t'
  end.

Lemma blk_find_remove_other t rt rt' : blk_key_match rt rt' = false ->
  blk_tab_find (blk_tab_remove t rt') rt = blk_tab_find t rt.
Proof.
  intros H. induction t as [|[k s] t IH]; cbn [blk_tab_remove blk_tab_find]; [reflexivity|].
  destruct (blk_key_match rt' k) eqn:E1.
  - apply blk_key_match_eq in E1. subst k. rewrite H. reflexivity.
  - cbn [blk_tab_find]. rewrite IH. reflexivity.
Qed.

Lemma blk_find_replace_other t rt rt' s' : blk_key_match rt rt' = false ->
  blk_tab_find (blk_tab_replace t rt' s') rt = blk_tab_find t rt.
Proof.
  intros H. induction t as [|[k s] t IH]; cbn [blk_tab_replace blk_tab_find]; [reflexivity|].
  destruct (blk_key_match rt' k) eqn:E1; cbn [blk_tab_find].
  - apply blk_key_match_eq in E1. subst k. rewrite H. reflexivity.
  - rewrite IH. reflexivity.
Qed.

Lemma blk_find_remove_same t rt : blk_tab_uniq t -> blk_tab_find (blk_tab_remove t rt) rt = None.
Proof.
  induction t as [|[k s] t IH]; cbn [blk_tab_remove blk_tab_find blk_tab_uniq]; [reflexivity|].
  intros (U1 & U2). destruct (blk_key_match rt k) eqn:E1.
  - apply blk_key_match_eq in E1. subst k. exact U1.
  - cbn [blk_tab_find]. rewrite E1. apply IH, U2.
Qed.

Lemma blk_find_replace_same t rt s' : blk_tab_find t rt <> None ->
  blk_tab_find (blk_tab_replace t rt s') rt = Some s'.
Proof.
  induction t as [|[k s] t IH]; cbn [blk_tab_replace blk_tab_find]; [congruence|].
  intros H. destruct (blk_key_match rt k) eqn:E1; cbn [blk_tab_find]; rewrite E1; [reflexivity|].
  apply IH, H.
Qed.

Lemma blk_uniq_remove t rt : blk_tab_uniq t -> blk_tab_uniq (blk_tab_remove t rt).
Proof.
  induction t as [|[k s] t IH]; cbn [blk_tab_remove blk_tab_uniq]; [tauto|].
  intros (U1 & U2). destruct (blk_key_match rt k) eqn:E1; [exact U2|].
  cbn [blk_tab_uniq]. split; [|apply IH, U2].
  rewrite blk_find_remove_other; [exact U1|]. rewrite blk_key_match_sym. exact E1.
Qed.

Lemma blk_uniq_replace t rt s' : blk_tab_uniq t -> blk_tab_uniq (blk_tab_replace t rt s').
Proof.
  induction t as [|[k s] t IH]; cbn [blk_tab_replace blk_tab_uniq]; [tauto|].
  intros (U1 & U2). destruct (blk_key_match rt k) eqn:E1; cbn [blk_tab_uniq].
  - split; assumption.
  - split; [|apply IH, U2].
    rewrite blk_find_replace_other; [exact U1|]. rewrite blk_key_match_sym. exact E1.
Qed.

(* Pass and Reject are decided before the lg_srcv is looked up: the state is not touched *)
Lemma blk_srv_step_pass_reject junk maxszx st a :
  (snd (blk_srv_step junk maxszx st a) = BoPass \/ snd (blk_srv_step junk maxszx st a) = BoReject) ->
  fst (blk_srv_step junk maxszx st a) = st.
Proof.
  unfold blk_srv_step.
  destruct ((ba_num a =? 0) && (ba_m a =? 0)); [intros _; reflexivity|].
  destruct ((len (ba_data a) <=? blk_chunk (ba_szx a)) && (ba_m a =? 1) &&
            negb (len (ba_data a) =? blk_chunk (ba_szx a))); [intros _; reflexivity|].
  match goal with |- context [blk_update_many ?r ?n ?c] => destruct (blk_update_many r n c) as [[r' upd]|] end.
  - match goal with |- context [if ?b then (None, BoDeliver _) else _] => destruct b end;
      cbn [fst snd]; intros [H|H]; discriminate.
  - cbn [fst snd]. intros [H|H]; discriminate.
Qed.

(* putting the state after a step back: created (LL_PREPEND), replaced, released, or never
   there at all *)
Lemma blk_tab_put tab k st' (o : blk_out) : blk_tab_uniq tab ->
  let r := match blk_tab_find tab k, st' with
           | None, None => (tab, o)
           | None, Some s => ((k, s) :: tab, o)
           | Some _, None => (blk_tab_remove tab k, o)
           | Some _, Some s => (blk_tab_replace tab k s, o)
           end in
  snd r = o /\ blk_tab_find (fst r) k = st' /\
  (forall rt, blk_key_match rt k = false -> blk_tab_find (fst r) rt = blk_tab_find tab rt) /\
  blk_tab_uniq (fst r).
Proof.
  intros U. destruct (blk_tab_find tab k) as [s0|] eqn:F; destruct st' as [s1|]; cbn [fst snd];
    (split; [reflexivity|]).
  - split; [apply blk_find_replace_same; congruence|]. split; [|apply blk_uniq_replace, U].
    intros rt H. apply blk_find_replace_other, H.
  - split; [apply blk_find_remove_same, U|]. split; [|apply blk_uniq_remove, U].
    intros rt H. apply blk_find_remove_other, H.
  - split; [cbn [blk_tab_find]; rewrite blk_key_match_refl; reflexivity|]. split.
    + intros rt H. cbn [blk_tab_find]. rewrite H. reflexivity.
    + cbn [blk_tab_uniq]. split; assumption.
  - split; [exact F|]. split; [intros; reflexivity|exact U].
Qed.

(* what one request does to the table entry of its own Request-Tag, and to the others *)
Lemma blk_srv_recv_entry junk maxszx tab r : blk_tab_uniq tab ->
  snd (blk_srv_recv junk maxszx tab r) =
    snd (blk_srv_step junk maxszx (blk_tab_find tab (rq_key r)) (rq_arr r)) /\
  blk_tab_find (fst (blk_srv_recv junk maxszx tab r)) (rq_key r) =
    fst (blk_srv_step junk maxszx (blk_tab_find tab (rq_key r)) (rq_arr r)) /\
  (forall rt, blk_key_match rt (rq_key r) = false ->
     blk_tab_find (fst (blk_srv_recv junk maxszx tab r)) rt = blk_tab_find tab rt) /\
  blk_tab_uniq (fst (blk_srv_recv junk maxszx tab r)).
Proof.
  intros U. unfold blk_srv_recv.
  pose proof (blk_srv_step_pass_reject junk maxszx (blk_tab_find tab (rq_key r)) (rq_arr r)) as PR.
  destruct (blk_srv_step junk maxszx (blk_tab_find tab (rq_key r)) (rq_arr r)) as [st' o].
  cbn [fst snd] in *.
  destruct o; try exact (blk_tab_put tab (rq_key r) st' _ U);
    (rewrite PR by auto; cbn [fst snd]; split; [reflexivity|]; split; [reflexivity|];
     split; [intros; reflexivity|exact U]).
Qed.

Lemma blk_find_match tab a b : blk_key_match a b = true -> blk_tab_find tab a = blk_tab_find tab b.
Proof. intros H. apply blk_key_match_eq in H. subst. reflexivity. Qed.

(* the requests of one transfer see exactly what they would see if they were alone: the
   outcomes for Request-Tag t are the run of the reassembly core over t's requests only *)
Theorem blk_srv_recv_projection junk maxszx : forall l tab t, blk_tab_uniq tab ->
  map snd (filter (fun p => blk_key_match t (fst p)) (blk_srv_recv_run junk maxszx tab l)) =
  blk_run (blk_srv_step junk maxszx) (blk_tab_find tab t)
          (map rq_arr (filter (fun r => blk_key_match t (rq_key r)) l)).
Proof.
  induction l as [|r l IH]; intros tab t U; [reflexivity|].
  cbn [blk_srv_recv_run filter].
  pose proof (blk_srv_recv_entry junk maxszx tab r U) as S.
  destruct (blk_srv_recv junk maxszx tab r) as [tab' o].
  cbn [fst snd] in S. destruct S as (Eo & S2 & S3 & S4).
  cbn [filter fst].
  destruct (blk_key_match t (rq_key r)) eqn:M.
  - cbn [map snd blk_run]. rewrite (blk_find_match tab t (rq_key r) M).
    destruct (blk_srv_step junk maxszx (blk_tab_find tab (rq_key r)) (rq_arr r)) as [st' o'] eqn:E.
    cbn [fst snd] in *. f_equal; [exact Eo|].
    rewrite (IH tab' t S4). rewrite (blk_find_match tab' t (rq_key r) M), S2. reflexivity.
  - rewrite (IH tab' t S4). rewrite (S3 t M). reflexivity.
Qed.

(* Two concurrent uploads on one session and resource, told apart by their Request-Tags, do
   not mix: whatever the interleaving, loss and duplication, every body delivered for
   Request-Tag t is the body of transfer t, and is delivered no more often than any of its
   blocks arrived. *)
Theorem blk_srv_no_mix (bodies : Z -> bytes) (sizes : Z -> option Z) u junk maxszx res l :
  0 <= u ->
  Forall (fun r => exists t s k, rq_rtag r = Some t /\ rq_res r = res /\
                    u <= s /\ 0 <= k < blk_nblocks (bodies t) s /\
                    rq_arr r = blk_arr_of (bodies t) s (sizes t) k /\
                    blk_srv_init_szx maxszx (rq_arr r) = u) l ->
  forall t, 0 < len (bodies t) -> sizes t = None \/ sizes t = Some (len (bodies t)) ->
  let outs := map snd (filter (fun p => blk_key_match (res, Some t) (fst p))
                         (blk_srv_recv_run junk maxszx [] l)) in
  Forall (fun o => match o with BoDeliver d => d = bodies t | BoReject => False | _ => True end) outs /\
  forall j, 0 <= j < blk_nblocks (bodies t) u ->
    blk_count_deliveries outs <=
    blk_count_cover u j (map rq_arr (filter (fun r => blk_key_match (res, Some t) (rq_key r)) l)).
Proof.
  intros Hu Hl t Ht Hsz outs. unfold outs. rewrite (blk_srv_recv_projection junk maxszx l [] (res, Some t) I).
  cbn [blk_tab_find].
  apply (blk_srv_reassembly (bodies t) u junk maxszx Hu Ht (sizes t)); [exact Hsz|].
  unfold rs_srv_arrivals. rewrite Forall_forall in *. intros a Ha.
  apply in_map_iff in Ha. destruct Ha as (r & <- & Hr). apply filter_In in Hr. destruct Hr as (Hr & M).
  destruct (Hl r Hr) as (t' & s & k & E1 & Er & E2 & E3 & E4 & E5).
  unfold blk_key_match, rq_key in M. cbn [fst snd] in M. rewrite E1 in M. cbn [blk_rtag_match] in M.
  assert (t' = t) by lia. subst t'.
  exists s, k. split; [exact E2|]. split; [exact E3|]. split; [exact E4|exact E5].
Qed.

(* Without Request-Tags the lookup cannot tell two uploads to one resource apart: their
   blocks go into one lg_srcv and the delivered "body" is a mixture.  (A libcoap client adds a
   Request-Tag to every Block1 transfer; this is what it protects against.) *)
Example blk_srv_mix_without_rtag :
  let b1 := map (fun i => Z.of_nat i) (seq 0 40) in
  let b2 := map (fun i => 100 + Z.of_nat i) (seq 0 40) in
  let rq b k := {| rq_res := 1; rq_rtag := None; rq_arr := blk_arr_of b 0 (Some 40) k |} in
  exists d, In ((1, None), BoDeliver d)
              (blk_srv_recv_run (fun _ => 0) 0 [] [rq b1 0; rq b2 1; rq b1 2]) /\
            d <> b1 /\ d <> b2.
Proof.
  eexists. split.
  - vm_compute. right. right. left. reflexivity.
  - split; vm_compute; discriminate.
Qed.

Section Epochs.
  Variable bodies : Z -> bytes.          (* the representation that goes with each ETag *)
  Variable sizes : Z -> option Z.        (* Size2 option sent with it (absent or exact) *)
  Variable szx : Z.
  Variable junk : Z -> Z.
  Hypothesis Hszx : 0 <= szx.

  Definition ep_ok (e : Z) : Prop :=
    0 < len (bodies e) /\ (sizes e = None \/ sizes e = Some (len (bodies e))).

  (* a block response as a server produces it for the representation with ETag e *)
  Definition ep_arrival (r : blk_rsp) : Prop :=
    exists e k, rs_etag r = Some e /\ ep_ok e /\ 0 <= k < blk_nblocks (bodies e) szx /\
                rs_arr r = blk_arr_of (bodies e) szx (sizes e) k.

  Definition ep_inv (c : blk_crcv) : Prop :=
    match cr_st c with
    | None => True
    | Some s => exists e seen, cr_etag c = Some e /\ ep_ok e /\
                               rs_cli_inv (bodies e) szx (sizes e) (Some s) seen
    end.

  Lemma ep_step c r : ep_inv c -> ep_arrival r ->
    let '(c', o, _) := blk_cli_recv junk c r in
    ep_inv c' /\
    match o with
    | BoDeliver d => exists e, rs_etag r = Some e /\ d = bodies e
    | BoReject | BoPass => False
    | _ => True
    end.
  Proof.
    intros Hinv (e & k & Ee & (Hb & Hsz) & Hk & Ea).
    destruct (blk_slice_tests (bodies e) szx k Hszx Hk) as (T1 & T2 & T3).
    unfold blk_cli_recv. rewrite Ea, Ee.
    cbn [blk_arr_of ba_num ba_m ba_szx ba_size ba_data].
    rewrite !blk_m_eqb_1, T1, T2, T3, orb_true_r. cbn [negb].
    fold (blk_arr_of (bodies e) szx (sizes e) k).
    destruct (cr_restart c && negb (k =? 0)); [split; [exact Hinv|exact I]|].
    (* either this block's ETag is (or becomes) the reference one, or the transfer restarts *)
    assert (Href : (match cr_st c with None => Some e | Some _ => cr_etag c end = Some e /\
                    exists seen, rs_cli_inv (bodies e) szx (sizes e) (cr_st c) seen) \/
                   blk_etag_eq (Some e) match cr_st c with None => Some e | Some _ => cr_etag c end
                   = false).
    { unfold ep_inv in Hinv. destruct (cr_st c) as [s|]; [|left; split; [|exists []]; reflexivity].
      destruct Hinv as (e' & seen & -> & _ & Hi). cbn [blk_etag_eq].
      destruct (e =? e') eqn:Eeq; [left|right; reflexivity].
      replace e' with e in * by lia. split; [reflexivity|exists seen; exact Hi]. }
    destruct Href as [(-> & seen & Hi)| ->]; [|split; exact I].
    cbn [blk_etag_eq]. rewrite Z.eqb_refl.
    pose proof (rs_cli_step (bodies e) szx junk Hszx Hb (sizes e) (cr_st c) seen k Hsz Hi Hk) as S.
    pose proof (rs_cli_no_pass (bodies e) szx junk Hszx (sizes e) (cr_st c) k Hk) as NP.
    destruct (blk_cli_step junk (cr_st c) (blk_arr_of (bodies e) szx (sizes e) k)) as [st' o].
    assert (Hok : forall seen', rs_cli_inv (bodies e) szx (sizes e) st' seen' ->
                  ep_inv {| cr_etag := Some e; cr_st := st'; cr_restart := false |}).
    { intros seen' Hi'. unfold ep_inv. cbn [cr_st cr_etag]. destruct st' as [s'|]; [|exact I].
      exists e, seen'. split; [reflexivity|]. split; [split; assumption|exact Hi']. }
    destruct o as [| | |dd|]; cbn [rs_step_ok] in S.
    - destruct S as (S & _). split; [exact (Hok _ S)|exact I].
    - destruct S.
    - destruct S as ((seen' & S & _) & _). split; [exact (Hok _ S)|exact I].
    - destruct S as (-> & -> & _). split; [exact I|]. exists e. split; reflexivity.
    - destruct (NP eq_refl).
  Qed.

  (* Whatever mixture of blocks of different representations reaches the client - in any
     order, with duplicates and gaps - a body it delivers is one of the representations,
     complete and unmixed: that of the ETag of the block that completed it. *)
  Theorem blk_cli_epochs l : Forall ep_arrival l -> forall c, ep_inv c ->
    Forall (fun o => match o with
                     | BoDeliver d => exists e, ep_ok e /\ d = bodies e
                     | BoReject | BoPass => False
                     | _ => True
                     end) (blk_cli_recv_run junk c l).
  Proof.
    induction 1 as [|r l Hr Hl IH]; intros c Hc; cbn [blk_cli_recv_run]; [constructor|].
    pose proof (ep_step c r Hc Hr) as S.
    destruct (blk_cli_recv junk c r) as [[c' o] rs]. destruct S as (S1 & S2).
    constructor; [|apply IH, S1].
    destruct o; try exact S2. destruct S2 as (e & E1 & E2).
    destruct Hr as (e' & k & Ee & Hok & _). rewrite Ee in E1. inversion E1; subst e'.
    exists e. split; assumption.
  Qed.
End Epochs.

Section Lossless.
  Variable body : bytes.
  Variable szx : Z.
  Variable junk : Z -> Z.
  Variable size : option Z.
  Hypothesis Hszx : 0 <= szx.
  Hypothesis Hbody : 0 < len body.
  Hypothesis Hsize : size = None \/ size = Some (len body).

  Let c := blk_chunk szx.
  Let L := len body.
  Let K := blk_nblocks body szx.

  Lemma ll_K_bounds : 0 < c /\ (K - 1) * c < L <= K * c /\ 1 <= K.
  Proof. split; [apply rs_c_pos, Hszx|apply rs_K_bounds; assumption]. Qed.

  Lemma ll_cli_recv_same (cst : blk_crcv) e k : 0 <= k < K ->
    (cr_st cst = None \/ cr_etag cst = Some e) -> cr_restart cst = false ->
    blk_cli_recv junk cst {| rs_etag := Some e; rs_arr := blk_arr_of body szx size k |} =
    ({| cr_etag := Some e; cr_st := fst (blk_cli_step junk (cr_st cst) (blk_arr_of body szx size k));
        cr_restart := false |},
     snd (blk_cli_step junk (cr_st cst) (blk_arr_of body szx size k)), false).
  Proof.
    intros Hk Hst Hrs.
    destruct (blk_slice_tests body szx k Hszx Hk) as (T1 & T2 & T3).
    unfold blk_cli_recv. cbn [rs_arr rs_etag].
    cbn [blk_arr_of ba_num ba_m ba_szx ba_size ba_data].
    rewrite !blk_m_eqb_1, T1, T2, T3, orb_true_r. cbn [negb].
    fold (blk_arr_of body szx size k). rewrite Hrs. cbn [andb].
    assert (R : match cr_st cst with None => Some e | Some _ => cr_etag cst end = Some e).
    { destruct (cr_st cst); [destruct Hst as [X|X]; [discriminate|exact X]|reflexivity]. }
    rewrite R. cbn [blk_etag_eq]. rewrite Z.eqb_refl.
    destruct (blk_cli_step junk (cr_st cst) (blk_arr_of body szx size k)) as [st' o]. reflexivity.
  Qed.

  (* the loop follows the run of the reassembly core over the blocks j, j+1, ... in order *)
  Lemma ll_b2_follow e : forall (n : nat) j (cst : blk_crcv) (extra : nat),
    0 <= j -> j + Z.of_nat n = K - 1 ->
    (cr_st cst = None \/ cr_etag cst = Some e) -> cr_restart cst = false ->
    blk_run (blk_cli_step junk) (cr_st cst)
      (map (blk_arr_of body szx size) (blk_range_from j (Z.of_nat (S n))))
      = repeat BoContinue n ++ [BoDeliver body] ->
    blk_b2_loop (S n + extra) junk body szx size (Some e) cst j
      = repeat BoContinue n ++ [BoDeliver body].
  Proof.
    induction n as [|n IH]; intros j cst extra Hj Hn Hst Hrs Hrun;
      cbn [Nat.add blk_b2_loop]; rewrite ll_cli_recv_same by (try assumption; lia);
      rewrite blk_range_from_cons in Hrun by lia; cbn [map blk_run] in Hrun;
      destruct (blk_cli_step junk (cr_st cst) (blk_arr_of body szx size j)) as [st' o];
      cbn [fst snd repeat app] in *; [injection Hrun as ->; reflexivity|].
    replace (Z.of_nat (S (S n)) - 1) with (Z.of_nat (S n)) in Hrun by lia. injection Hrun as -> Hrest.
    cbn [blk_arr_of ba_m].
    rewrite (proj2 (blk_more_iff body szx j Hszx ltac:(fold K; lia))) by (fold K; lia).
    cbn [Z.eqb Pos.eqb]. f_equal.
    exact (IH (j + 1) {| cr_etag := Some e; cr_st := st'; cr_restart := false |} extra
             ltac:(lia) ltac:(lia) (or_intror eq_refl) eq_refl Hrest).
  Qed.

  (* Block2 without loss: the client asks for block after block; exactly one delivery, of the
     body, and nothing else *)
  Theorem blk_b2_lossless e :
    blk_b2_loop (Z.to_nat K) junk body szx size (Some e)
      {| cr_etag := None; cr_st := None; cr_restart := false |} 0
    = repeat BoContinue (Z.to_nat (K - 1)) ++ [BoDeliver body].
  Proof.
    destruct ll_K_bounds as (Hc & B & K1).
    replace (Z.to_nat K) with (S (Z.to_nat (K - 1)) + 0)%nat by lia.
    apply ll_b2_follow; [lia|lia|left; reflexivity|reflexivity|].
    cbn [cr_st]. replace (Z.of_nat (S (Z.to_nat (K - 1)))) with K by lia.
    rewrite blk_range_from_0. apply blk_cli_inorder; assumption.
  Qed.

  Variable maxszx : Z.

  (* the 2.31 names the size the server counts in *)
  Lemma ll_resp_szx j : 0 <= j ->
    blk_srv_init_szx maxszx (blk_arr_of body szx size 0) = szx ->
    blk_srv_resp_szx maxszx j szx = szx.
  Proof.
    intros Hj Hcfg. destruct (Z.eq_dec j 0) as [->|Hne]; [exact Hcfg|].
    unfold blk_srv_resp_szx. rewrite (proj2 (Z.eqb_neq j 0) Hne). reflexivity.
  Qed.

  Lemma ll_b1_follow : blk_srv_init_szx maxszx (blk_arr_of body szx size 0) = szx ->
    forall (n : nat) j srv (extra : nat),
    0 <= j -> j + Z.of_nat n = K - 1 ->
    blk_run (blk_srv_step junk maxszx) srv
      (map (blk_arr_of body szx size) (blk_range_from j (Z.of_nat (S n))))
      = repeat BoContinue n ++ [BoDeliver body] ->
    blk_b1_loop (S n + extra) junk maxszx body size
      {| sn_szx := szx; sn_last := j - 1; sn_off := j * c |} srv j szx
      = repeat BoContinue n ++ [BoDeliver body].
  Proof.
    intros Hcfg. destruct ll_K_bounds as (Hc & B & K1).
    induction n as [|n IH]; intros j srv extra Hj Hn Hrun;
      cbn [Nat.add blk_b1_loop]; rewrite blk_range_from_cons in Hrun by lia;
      cbn [map blk_run] in Hrun;
      destruct (blk_srv_step junk maxszx srv (blk_arr_of body szx size j)) as [st' o];
      cbn [repeat app] in *; [injection Hrun as ->; reflexivity|].
    replace (Z.of_nat (S (S n)) - 1) with (Z.of_nat (S n)) in Hrun by lia. injection Hrun as -> Hrest.
    rewrite (ll_resp_szx j Hj Hcfg).
    unfold blk_snd_ack. cbn [sn_szx sn_last sn_off]. rewrite Z.eqb_refl.
    destruct (j <=? j - 1) eqn:E1; [lia|]. fold c L.
    rewrite (proj2 (Z.ltb_lt ((j + 1) * c) L)) by (apply (rs_K_gt body szx Hszx); fold K; lia).
    f_equal.
    pose proof (IH (j + 1) st' extra ltac:(lia) ltac:(lia) Hrest) as G.
    replace (j + 1 - 1) with j in G by lia. exact G.
  Qed.

  (* Block1 without loss, client and server agreeing on the block size from the start *)
  Theorem blk_b1_lossless : 2 <= K ->
    blk_srv_init_szx maxszx (blk_arr_of body szx size 0) = szx ->
    blk_b1_loop (Z.to_nat K) junk maxszx body size
      {| sn_szx := szx; sn_last := -1; sn_off := 0 |} None 0 szx
    = repeat BoContinue (Z.to_nat (K - 1)) ++ [BoDeliver body].
  Proof.
    intros HK Hcfg.
    replace (Z.to_nat K) with (S (Z.to_nat (K - 1)) + 0)%nat by lia.
    change (-1) with (0 - 1). replace 0 with (0 * c) at 3 by lia.
    apply (ll_b1_follow Hcfg); [lia|lia|].
    replace (Z.of_nat (S (Z.to_nat (K - 1)))) with K by lia.
    rewrite blk_range_from_0. apply blk_srv_inorder; assumption.
  Qed.

  (* Block1 without loss when the server's maximum block size [szx] is below the size s0 of
     the client's first block: the 2.31 carries the smaller size, the client recomputes the
     block number (blk_snd_ack = coap_handle_response_send_block) and continues in the
     server's size; exactly one delivery, of the body *)
  Theorem blk_b1_lossless_renegotiated s0 : szx < s0 ->
    blk_srv_init_szx maxszx (blk_arr_of body s0 size 0) = szx ->
    let q := 2 ^ (s0 - szx) in q < K ->
    blk_b1_loop (Z.to_nat K) junk maxszx body size
      {| sn_szx := s0; sn_last := -1; sn_off := 0 |} None 0 s0
    = repeat BoContinue (Z.to_nat (K - q)) ++ [BoDeliver body].
  Proof.
    intros Hs0 Hcfg q Hq. destruct ll_K_bounds as (Hc & B & K1).
    assert (Hq1 : 0 < q) by (apply Z.pow_pos_nonneg; lia).
    pose proof (blk_srv_inorder_renegotiated body szx junk maxszx Hszx Hbody size s0 Hsize Hs0 Hcfg Hq)
      as Hrun.
    fold K q in Hrun. cbn [blk_run] in Hrun.
    replace (Z.to_nat K) with (S (Z.to_nat (K - 1))) by lia. cbn [blk_b1_loop].
    destruct (blk_srv_step junk maxszx None (blk_arr_of body s0 size 0)) as [st' o].
    replace (Z.to_nat (K - q)) with (S (Z.to_nat (K - q - 1))) in * by lia.
    cbn [repeat app] in *. injection Hrun as -> Hrest.
    (* the server's 2.31 asks for its own size; the client renumbers: block q-1 is done *)
    change (blk_srv_resp_szx maxszx 0 s0) with (blk_srv_init_szx maxszx (blk_arr_of body s0 size 0)).
    rewrite Hcfg. unfold blk_snd_ack. cbn [sn_szx sn_last sn_off].
    rewrite (proj2 (Z.eqb_neq szx s0)), (proj2 (Z.ltb_ge s0 szx)) by lia.
    fold c. replace (blk_chunk s0) with (q * c)
      by (unfold c, q; rewrite (blk_chunk_divides szx s0) by lia; ring).
    rewrite Z.add_0_l, Z.mod_mul, Z.eqb_refl, Z.div_mul by lia.
    destruct (q - 1 <=? -1) eqn:X3; [lia|].
    replace (q - 1 + 1) with q by lia. fold c L.
    rewrite (proj2 (Z.ltb_lt (q * c) L)) by (apply (rs_K_gt body szx Hszx); fold K; lia).
    f_equal.
    (* from here on in the server's size *)
    replace (Z.to_nat (K - 1)) with (S (Z.to_nat (K - q - 1)) + Z.to_nat (q - 1))%nat by lia.
    apply (ll_b1_follow (blk_srv_init_szx_fix maxszx body s0 szx size Hcfg)); [lia|lia|].
    replace (Z.of_nat (S (Z.to_nat (K - q - 1)))) with (K - q) by lia. exact Hrest.
  Qed.
End Lossless.

(* events in time order, every event less than [wait] after the previous progress *)
Fixpoint blk_tev_paced (wait last : Z) (l : list blk_tev) : Prop :=
  match l with
  | [] => True
  | TvProgress t :: l' => last <= t < last + wait /\ blk_tev_paced wait t l'
  | TvCheck t :: l' => last <= t < last + wait /\ blk_tev_paced wait last l'
  end.

(* state is kept while the transfer makes progress: if every block follows the previous one
   within MAX_TRANSMIT_WAIT (which the message layer guarantees for an exchange that is not
   abandoned), no run of the timeout function deletes the state, however long the whole
   transfer takes *)
Theorem blk_timed_kept wait : forall l last, blk_tev_paced wait last l ->
  fst (blk_timed_run wait true last l) = true.
Proof.
  induction l as [|[t|t] l IH]; intros last Hp; cbn [blk_timed_run blk_tev_paced] in *.
  - reflexivity.
  - destruct Hp as (H1 & H2). apply IH, H2.
  - destruct Hp as (H1 & H2). destruct (last + wait <=? t) eqn:E; [lia|]. cbn [andb negb]. apply IH, H2.
Qed.

(* without the refresh the same paced transfer is cut off once it lasts longer than [wait] *)
Theorem blk_timed_norefresh_refuted :
  exists l, blk_tev_paced 93 0 l /\ fst (blk_timed_run_norefresh 93 true 0 l) = false.
Proof.
  exists [TvProgress 40; TvCheck 41; TvProgress 80; TvCheck 81; TvProgress 120; TvCheck 121].
  split; [cbn; lia|vm_compute; reflexivity].
Qed.

Definition blk_xtab_ok (bodies : Z -> bytes) (t : blk_xtab) : Prop :=
  Forall (fun x => xm_body x = bodies (xm_key x)) t.

Lemma blk_xtab_find_ok bodies t k x : blk_xtab_ok bodies t -> blk_xtab_find t k = Some x ->
  xm_key x = k /\ xm_body x = bodies k.
Proof.
  induction t as [|y t IH]; cbn [blk_xtab_find]; [discriminate|].
  intros Hok. inversion Hok as [|? ? Hy Ht]; subst.
  destruct (xm_key y =? k) eqn:E; [|apply IH, Ht].
  intros H. inversion H; subst. split; [lia|]. rewrite Hy. f_equal. lia.
Qed.

Lemma blk_xtab_remove_ok bodies t k : blk_xtab_ok bodies t -> blk_xtab_ok bodies (blk_xtab_remove t k).
Proof.
  induction t as [|y t IH]; cbn [blk_xtab_remove]; [tauto|].
  intros Hok. inversion Hok as [|? ? Hy Ht]; subst.
  destruct (xm_key y =? k); [exact Ht|]. constructor; [exact Hy|apply IH, Ht].
Qed.

(* what a response may carry: a block of the body that belongs to the REQUEST's key - never of a
   body stored for another query / Request-Tag; and at the offset the request named whenever the
   requested size is within the server's maximum *)
Definition blk_gresp_ok (bodies : Z -> bytes) (maxszx : Z) (g : blk_greq) (r : blk_gresp) : Prop :=
  match r with
  | GrError _ => True
  | GrBlock num m szx data =>
      exists s, data = blk_slice_c (bodies (gq_key g)) (blk_chunk s) num /\ num = gq_num g /\
                ((maxszx = 0 \/ gq_szx g <= maxszx) -> gq_num g <> 0 -> s = gq_szx g /\ szx = gq_szx g)
  end.

Lemma blk_srv2_recv_ok bodies maxszx t g : blk_xtab_ok bodies t ->
  blk_xtab_ok bodies (fst (blk_srv2_recv bodies maxszx t g)) /\
  blk_gresp_ok bodies maxszx g (snd (blk_srv2_recv bodies maxszx t g)).
Proof.
  intros Hok.
  assert (App : blk_xtab_ok bodies (fst (blk_srv2_app bodies maxszx t g)) /\
                blk_gresp_ok bodies maxszx g (snd (blk_srv2_app bodies maxszx t g))).
  { unfold blk_srv2_app.
    destruct (negb (gq_num g =? 0) && (len (bodies (gq_key g)) <=? gq_num g * blk_chunk (gq_szx g)));
      cbn [fst snd]; [split; [exact Hok|exact I]|].
    pose proof (blk_xtab_remove_ok bodies t (gq_key g) Hok) as Hr.
    set (s := if negb (maxszx =? 0) && (maxszx <? gq_szx g) then maxszx else gq_szx g).
    destruct (negb (gq_num g =? 0)) eqn:En; cbn [fst snd].
    - split; [exact Hr|]. exists s. split; [reflexivity|]. split; [reflexivity|].
      intros Hm _. split; [|reflexivity]. unfold s.
      destruct (negb (maxszx =? 0) && (maxszx <? gq_szx g)) eqn:E; [lia|reflexivity].
    - assert (gq_num g = 0) as E0 by lia.
      destruct (blk_chunk s <? len (bodies (gq_key g))) eqn:Ec; cbn [fst snd].
      + split; [constructor; [reflexivity|exact Hr]|]. exists s. split; [reflexivity|].
        split; [lia|]. intros _ X. lia.
      + split; [exact Hr|]. exists s. split; [|split; [lia|intros _ X; lia]].
        unfold blk_slice_c. rewrite Z.mul_0_l. unfold drop. cbn [Z.to_nat skipn].
        symmetry. apply take_all. lia. }
  unfold blk_srv2_recv. destruct (gq_num g =? 0) eqn:E0; [exact App|].
  destruct (blk_xtab_find t (gq_key g)) as [x|] eqn:Ef; [|exact App].
  destruct (blk_xtab_find_ok bodies t (gq_key g) x Hok Ef) as (Ek & Eb).
  destruct (negb (gq_szx g =? xm_szx x)) eqn:Es; cbn [fst snd]; [split; [exact Hok|exact I]|].
  destruct (len (xm_body x) <=? gq_num g * blk_chunk (xm_szx x)); cbn [fst snd];
    [split; [exact Hok|exact I]|].
  split; [exact Hok|]. exists (xm_szx x). rewrite Eb. split; [reflexivity|]. split; [reflexivity|].
  intros _ _. split; lia.
Qed.

(* Downloads of one resource that differ in the query (or Request-Tag), interleaved in any way,
   restarted, continued after the stored body is gone: every block the server sends in reply to
   a request is cut from the body of THAT request's key *)
Theorem blk_srv2_no_mix bodies maxszx : forall l t, blk_xtab_ok bodies t ->
  Forall (fun gr => blk_gresp_ok bodies maxszx (fst gr) (snd gr)) (blk_srv2_run bodies maxszx t l).
Proof.
  induction l as [|g l IH]; intros t Hok; cbn [blk_srv2_run]; [constructor|].
  pose proof (blk_srv2_recv_ok bodies maxszx t g Hok) as (H1 & H2).
  destruct (blk_srv2_recv bodies maxszx t g) as [t' r]. cbn [fst snd] in *.
  constructor; [exact H2|apply IH, H1].
Qed.

(* ... and the single-block path does cut at the wrong place when the server's maximum block
   size is below the requested one (random access to block NUM > 0 without a stored body):
   the option says block 1 of size 64, the payload is bytes 32..63 *)
Example blk_srv2_single_block_quirk :
  let body := map (fun i => Z.of_nat i) (seq 0 200) in
  snd (blk_srv2_recv (fun _ => body) 1 [] {| gq_key := 0; gq_num := 1; gq_szx := 2 |})
  = GrBlock 1 1 2 (map (fun i => Z.of_nat i) (seq 32 32)).
Proof. vm_compute. reflexivity. Qed.
