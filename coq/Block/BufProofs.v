(* C09 layer 2: facts about the body buffer (memcpy at an offset, realloc, fresh storage). *)
From LibcoapV Require Import Base.Tactics Base.Bytes Base.BytesProofs Block.Slices
  Block.SlicesProofs Block.RecBlocks.
Local Open Scope Z_scope.

Lemma blk_get_app_l a b i : 0 <= i < len a -> blk_get (a ++ b) i = blk_get a i.
Proof. intros. unfold blk_get. apply app_nth1. unfold len in *. lia. Qed.

Lemma blk_get_app_r a b i : len a <= i -> blk_get (a ++ b) i = blk_get b (i - len a).
Proof.
  intros. pose proof (len_nonneg a). unfold blk_get. rewrite app_nth2 by (unfold len in *; lia).
  f_equal. unfold len in *. lia.
Qed.

Lemma blk_get_take n l i : 0 <= i < n -> blk_get (take n l) i = blk_get l i.
Proof. intros. unfold blk_get. apply nth_take. lia. Qed.

Lemma blk_get_drop n l i : 0 <= n -> 0 <= i -> blk_get (drop n l) i = blk_get l (n + i).
Proof. intros. unfold blk_get. rewrite blk_nth_drop. f_equal. lia. Qed.

Lemma blk_ext (a b : bytes) : len a = len b ->
  (forall i, 0 <= i < len a -> blk_get a i = blk_get b i) -> a = b.
Proof.
  intros Hl H. apply (nth_ext a b 0 0); [unfold len in Hl; lia|].
  intros n Hn. specialize (H (Z.of_nat n)). unfold blk_get in H. rewrite Nat2Z.id in H.
  apply H. unfold len. lia.
Qed.

Lemma blk_get_slice_c body c k i : 0 < c -> 0 <= k -> 0 <= i < c ->
  blk_get (blk_slice_c body c k) i = blk_get body (k * c + i).
Proof. intros. unfold blk_get. apply blk_slice_c_nth; auto. Qed.

Lemma blk_len_write b off data : 0 <= off -> off + len data <= len b ->
  len (blk_write b off data) = len b.
Proof.
  intros. pose proof (len_nonneg data). unfold blk_write.
  rewrite !len_app, len_take, len_drop by lia. lia.
Qed.

Lemma blk_get_write b off data i : 0 <= off -> off + len data <= len b -> 0 <= i ->
  blk_get (blk_write b off data) i =
  if (off <=? i) && (i <? off + len data) then blk_get data (i - off) else blk_get b i.
Proof.
  intros Ho Hl Hi. pose proof (len_nonneg data). unfold blk_write.
  assert (Lt : len (take off b) = off) by (apply len_take; lia).
  destruct (off <=? i) eqn:E1; cbn [andb].
  - rewrite blk_get_app_r by lia. rewrite Lt.
    destruct (i <? off + len data) eqn:E2.
    + apply blk_get_app_l. lia.
    + rewrite blk_get_app_r by lia. rewrite blk_get_drop by lia. f_equal. lia.
  - rewrite blk_get_app_l by lia. apply blk_get_take. lia.
Qed.

Lemma blk_len_fill junk a n : len (blk_fill junk a n) = Z.max 0 n.
Proof. unfold blk_fill, blk_range_from, len. rewrite !map_length, seq_length. lia. Qed.

Lemma blk_len_resize_buf junk b n : 0 <= n -> len (blk_resize_buf junk b n) = n.
Proof.
  intros. unfold blk_resize_buf. destruct (n <=? len b) eqn:E.
  - apply len_take. lia.
  - rewrite len_app, blk_len_fill. lia.
Qed.

Lemma blk_get_resize_buf junk b n i : 0 <= i < len b -> i < n ->
  blk_get (blk_resize_buf junk b n) i = blk_get b i.
Proof.
  intros. unfold blk_resize_buf. destruct (n <=? len b) eqn:E.
  - apply blk_get_take. lia.
  - apply blk_get_app_l. lia.
Qed.

(* what coap_block_build_body does to the buffer, when it does not have to shrink it *)
Lemma blk_build_body_effect junk bo data off total :
  0 <= off -> 0 < len data -> off + len data <= total ->
  (forall b, bo = Some b -> total <= len b \/ len b <= off + len data) ->
  exists b', blk_build_body junk bo data off total = Some b' /\
    off + len data <= len b' /\
    (forall i, off <= i < off + len data -> blk_get b' i = blk_get data (i - off)) /\
    (forall b, bo = Some b -> len b <= len b' /\
       (total <= len b -> len b' = len b) /\ (len b < total -> len b' = off + len data) /\
       forall i, 0 <= i < len b -> ~ (off <= i < off + len data) -> blk_get b' i = blk_get b i) /\
    (bo = None -> len b' = total).
Proof.
  intros Ho Hd Ht Hb. unfold blk_build_body.
  destruct bo as [b|].
  - specialize (Hb b eq_refl).
    destruct ((off + len data <=? total) && (total <=? len b)) eqn:C.
    + exists (blk_write b off data).
      assert (Hl : off + len data <= len b) by lia.
      split; [reflexivity|]. rewrite blk_len_write by lia. split; [lia|]. split.
      * intros i Hi. rewrite blk_get_write by lia.
        destruct ((off <=? i) && (i <? off + len data)) eqn:E; [reflexivity|lia].
      * split; [|discriminate]. intros b0 Eb. inversion Eb; subst b0.
        split; [lia|]. split; [lia|]. split; [lia|]. intros i Hi Hn. rewrite blk_get_write by lia.
        destruct ((off <=? i) && (i <? off + len data)) eqn:E; [lia|reflexivity].
    + assert (Hs : len b <= off + len data) by lia.
      set (b1 := blk_resize_buf junk b (off + len data)).
      assert (L1 : len b1 = off + len data) by (apply blk_len_resize_buf; lia).
      exists (blk_write b1 off data). split; [reflexivity|].
      rewrite blk_len_write by lia. split; [lia|]. split.
      * intros i Hi. rewrite blk_get_write by lia.
        destruct ((off <=? i) && (i <? off + len data)) eqn:E; [reflexivity|lia].
      * split; [|discriminate]. intros b0 Eb. inversion Eb; subst b0.
        split; [lia|]. split; [lia|]. split; [lia|]. intros i Hi Hn. rewrite blk_get_write by lia.
        destruct ((off <=? i) && (i <? off + len data)) eqn:E; [lia|].
        apply blk_get_resize_buf; lia.
  - destruct (total =? 0) eqn:E0; [lia|].
    assert (Lf : len (blk_fill junk 0 total) = total) by (rewrite blk_len_fill; lia).
    rewrite Lf. destruct ((off + len data <=? total) && (total <=? total)) eqn:C; [|lia].
    exists (blk_write (blk_fill junk 0 total) off data). split; [reflexivity|].
    rewrite blk_len_write by lia. split; [lia|]. split.
    + intros i Hi. rewrite blk_get_write by lia.
      destruct ((off <=? i) && (i <? off + len data)) eqn:E; [reflexivity|lia].
    + split; [discriminate|]. intros _. exact Lf.
Qed.
