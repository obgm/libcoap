(* C12 - sessions map 1:1 to peers, live while referenced; everything is released.

   Model: Sessions/Sessions.v (session table of one UDP endpoint: coap_endpoint_get_session,
   reference/release, the idle scan of coap_io_prepare_io_lkd, coap_free_context),
   Sessions/Client.v (lifetime of client sessions) and Mem/AllocTrace.v (allocation-trace
   checker).  A history is any list of operations
   (datagram arrivals from arbitrary peers at arbitrary times, reference / release by the
   application or the library, delay-queue and state changes, transmissions, idle scans,
   coap_free_context) that respects the API preconditions (se_op_ok: the context is alive, a
   named session exists, a holder releases only what it holds); se_run returns None otherwise.
   No bound on the number of peers, sessions, operations or on the times.
   Statements only: each is the theorem of Sessions/SessionsProofs.v, Sessions/ClientProofs.v or
   Mem/AllocTraceProofs.v that proves it, or an instance of it. *)
From LibcoapV Require Import Base.Tactics Sessions.Sessions Sessions.SessionsProofs
  Sessions.Client Sessions.ClientProofs Mem.AllocTrace Mem.AllocTraceProofs.
Local Open Scope Z_scope.

(* Same peer -> same live session; different peers -> different sessions.
   (1) the event log of every history: a datagram is handed to a session that was created for
   exactly that peer and has not been deleted; one session never serves two peers; two datagrams
   of one peer go to the same session unless that session was deleted in between;
   (2) the table of every reachable state holds at most one session per peer and identities
   are unique. *)
Theorem C12_functional_injective : forall c ops st,
  se_run c se_init ops = Some st ->
  ((forall pre k s post, st_log st = pre ++ SeRx k s :: post ->
      In (SeNew s k) pre /\ ~ In (SeDel s) pre) /\
   (forall k1 k2 s, In (SeRx k1 s) (st_log st) -> In (SeRx k2 s) (st_log st) -> k1 = k2) /\
   (forall l1 k s1 l2 s2 l3, st_log st = l1 ++ SeRx k s1 :: l2 ++ SeRx k s2 :: l3 ->
      ~ In (SeDel s1) l2 -> s1 = s2)) /\
  (forall s1 s2, In s1 (st_tbl st) -> In s2 (st_tbl st) ->
     (ss_key s1 = ss_key s2 <-> s1 = s2) /\ (ss_id s1 = ss_id s2 <-> s1 = s2)).
Proof.
  intros c ops st H. split.
  - exact (proj2 (se_log_ok_sound _ (se_run_log_ok c ops st H))).
  - intros s1 s2. exact (se_table_injective c ops st s1 s2 H).
Qed.
Print Assumptions C12_functional_injective.

(* ... stated on the next arrival: a datagram of a peer whose session still exists is handled
   by that very session (no new session, no event) *)
Theorem C12_same_peer_same_session : forall c ops st key sid now,
  se_run c se_init ops = Some st -> st_alive st = true ->
  In (SeRx key sid) (st_log st) -> ~ In (SeDel sid) (st_log st) ->
  se_new_events c st (OpRx key now) = [SeRx key sid].
Proof. exact se_rx_same_session. Qed.
Print Assumptions C12_same_peer_same_session.

(* Per server session exactly one SESSION_NEW, then at most one SESSION_DEL, and the DEL is
   given exactly at the release: DEL is immediately followed by the release of that session and
   nothing is released without its DEL immediately before. *)
Theorem C12_events_bracketed : forall c ops st,
  se_run c se_init ops = Some st ->
  (forall l1 s k1 l2 k2 l3, st_log st = l1 ++ SeNew s k1 :: l2 ++ SeNew s k2 :: l3 -> False) /\
  (forall l1 s l2 l3, st_log st = l1 ++ SeDel s :: l2 ++ SeDel s :: l3 -> False) /\
  (forall pre s rest, st_log st = pre ++ SeDel s :: rest ->
     (exists rest', rest = SeFree s :: rest') /\ (exists k, In (SeNew s k) pre)) /\
  (forall pre s rest, st_log st = pre ++ SeFree s :: rest -> exists pre', pre = pre' ++ [SeDel s]).
Proof. intros c ops st H. exact (proj1 (se_log_ok_sound _ (se_run_log_ok c ops st H))). Qed.
Print Assumptions C12_events_bracketed.

(* ref = number of holders in every reachable state *)
Theorem C12_ref_counts_holders : forall c ops st s,
  se_run c se_init ops = Some st -> In s (st_tbl st) ->
  ss_ref s = Z.of_nat (length (ss_holders s)).
Proof. exact se_ref_counts_holders. Qed.
Print Assumptions C12_ref_counts_holders.

(* The reclaim rule, and "a session with a holder is never released": whenever an operation
   releases a session, that session was in the table and
   - idle scan: ref = 0 (no holder at all), no delayed message, and timed out or state NONE;
   - arrival of a new peer (OpRx: the code's own choice; OpRxV: any choice the property allows,
     the operation names the victim): the idle limit is reached, the session is idle and no idle
     session is older;
   - coap_free_context: no application reference (the library's own holders - queue nodes,
     observers, async entries - are destroyed by the teardown itself);
   no other operation releases anything. *)
Theorem C12_reclaim_rule : forall c ops st op sid,
  se_run c se_init ops = Some st -> se_op_ok c st op = true ->
  In (SeFree sid) (se_new_events c st op) ->
  exists s, In s (st_tbl st) /\ ss_id s = sid /\
    match op with
    | OpPrepare now =>
        ss_ref s = 0 /\ ss_holders s = [] /\ ss_dq s = true /\
        (ss_last s + se_timeout_ticks c <= now \/ ss_state s = se_state_none)
    | OpRx key now =>
        se_find key (st_tbl st) = None /\
        0 < cf_max_idle c <= se_count_idle (st_tbl st) /\
        ss_ref s = 0 /\ ss_holders s = [] /\ ss_dq s = true /\
        (forall s', In s' (st_tbl st) -> se_idle s' = true -> ss_last s <= ss_last s')
    | OpRxV key now v =>
        v = sid /\ se_find key (st_tbl st) = None /\
        0 < cf_max_idle c <= se_count_idle (st_tbl st) /\
        ss_ref s = 0 /\ ss_holders s = [] /\ ss_dq s = true /\
        (forall s', In s' (st_tbl st) -> se_idle s' = true -> ss_last s <= ss_last s')
    | OpFreeContext => ~ In se_h_app (ss_holders s)
    | _ => False
    end.
Proof. exact se_reclaim_rule. Qed.
Print Assumptions C12_reclaim_rule.

(* [se_new_events] is what the step appends to the log *)
Theorem C12_step_log : forall c st op,
  st_log (se_step c st op) = st_log st ++ se_new_events c st op.
Proof. exact se_step_log. Qed.
Print Assumptions C12_step_log.

(* ... and the rule is applied: the scan reclaims every session it names and keeps the rest *)
Theorem C12_scan_reclaims : forall c st now s,
  In s (st_tbl st) ->
  (se_expired c now s = true ->
     In (SeDel (ss_id s)) (se_new_events c st (OpPrepare now)) /\
     In (SeFree (ss_id s)) (se_new_events c st (OpPrepare now))) /\
  (se_expired c now s = false -> In s (st_tbl (se_step c st (OpPrepare now)))) /\
  (forall s', In s' (st_tbl (se_step c st (OpPrepare now))) ->
              In s' (st_tbl st) /\ se_expired c now s' = false).
Proof. exact se_prepare_complete. Qed.
Print Assumptions C12_scan_reclaims.

(* ... and a new peer pushes out the oldest idle session exactly when the limit is reached *)
Theorem C12_idle_limit_evicts_oldest : forall c st key now,
  se_find key (st_tbl st) = None ->
  (0 < cf_max_idle c <= se_count_idle (st_tbl st) ->
     exists o, se_oldest (st_tbl st) = Some o /\
       se_new_events c st (OpRx key now) =
       [SeDel (ss_id o); SeFree (ss_id o); SeNew (st_next st) key; SeRx key (st_next st)]) /\
  (~ (0 < cf_max_idle c <= se_count_idle (st_tbl st)) ->
     se_new_events c st (OpRx key now) = [SeNew (st_next st) key; SeRx key (st_next st)]).
Proof. exact se_evict_complete. Qed.
Print Assumptions C12_idle_limit_evicts_oldest.

(* the code's choice (the first of the oldest idle sessions in iteration order) is one of the
   victims the property allows, and naming it gives the same step: when several idle sessions are
   equally old the theorems above hold for whichever of them an implementation evicts *)
Theorem C12_code_choice_is_allowed : forall c tbl o,
  se_rx_evict c tbl = Some o -> se_valid_victim c tbl o = true.
Proof. exact se_evict_is_valid. Qed.
Print Assumptions C12_code_choice_is_allowed.

Theorem C12_named_victim_same_step : forall c st key now o,
  NoDup (map ss_id (st_tbl st)) ->
  se_find key (st_tbl st) = None -> se_rx_evict c (st_tbl st) = Some o ->
  se_step c st (OpRxV key now (ss_id o)) = se_step c st (OpRx key now).
Proof. exact se_rx_victim_same. Qed.
Print Assumptions C12_named_victim_same_step.

(* After coap_free_context nothing remains in the endpoint; what is left behind are exactly
   sessions on which the application still holds a reference; if there is none, nothing is left
   and every session that was ever announced got its DEL and its release. *)
Theorem C12_teardown_empty : forall c ops st,
  se_run c se_init ops = Some st -> se_op_ok c st OpFreeContext = true ->
  let st' := se_step c st OpFreeContext in
  st_tbl st' = [] /\ st_alive st' = false /\
  (forall s, In s (st_leaked st') ->
     exists s0, In s0 (st_tbl st) /\ ss_id s0 = ss_id s /\ In se_h_app (ss_holders s0)) /\
  ((forall s, In s (st_tbl st) -> ~ In se_h_app (ss_holders s)) ->
     st_leaked st' = [] /\ se_log_closed (st_log st') = true).
Proof. exact se_teardown_empty. Qed.
Print Assumptions C12_teardown_empty.

Theorem C12_closed_all_deleted : forall log s k,
  se_log_closed log = true -> In (SeNew s k) log -> In (SeDel s) log /\ In (SeFree s) log.
Proof. exact se_closed_all_deleted. Qed.
Print Assumptions C12_closed_all_deleted.

(* With an application reference outstanding "everything is released" fails: the faithful model
   (and libcoap: coap_free_endpoint_lkd skips sessions with ref > 0) leaves the session behind.
   Known finding F-C12-2. *)
Theorem C12_teardown_with_app_reference_refuted :
  exists ops st, se_run se_example_cfg se_init ops = Some st /\ st_alive st = false /\
                 st_leaked st <> [] /\ se_log_closed (st_log st) = false.
Proof. exact se_teardown_with_app_reference_refuted. Qed.
Print Assumptions C12_teardown_with_app_reference_refuted.

(* The event-log monitor that is run on the implementation's log: acceptance of ANY log means
   the bracketing and the 1:1 mapping above (so the check of the C code does not rest on the
   model's transition function for these two parts). *)
Theorem C12_monitor_sound : forall log,
  se_log_ok log = true ->
  ((forall l1 s k1 l2 k2 l3, log = l1 ++ SeNew s k1 :: l2 ++ SeNew s k2 :: l3 -> False) /\
   (forall l1 s l2 l3, log = l1 ++ SeDel s :: l2 ++ SeDel s :: l3 -> False) /\
   (forall pre s rest, log = pre ++ SeDel s :: rest ->
      (exists rest', rest = SeFree s :: rest') /\ (exists k, In (SeNew s k) pre)) /\
   (forall pre s rest, log = pre ++ SeFree s :: rest -> exists pre', pre = pre' ++ [SeDel s])) /\
  ((forall pre k s post, log = pre ++ SeRx k s :: post -> In (SeNew s k) pre /\ ~ In (SeDel s) pre) /\
   (forall k1 k2 s, In (SeRx k1 s) log -> In (SeRx k2 s) log -> k1 = k2) /\
   (forall l1 k s1 l2 s2 l3, log = l1 ++ SeRx k s1 :: l2 ++ SeRx k s2 :: l3 ->
      ~ In (SeDel s1) l2 -> s1 = s2)).
Proof. exact se_log_ok_sound. Qed.
Print Assumptions C12_monitor_sound.

(* every history of the model is accepted by that monitor *)
Theorem C12_model_log_accepted : forall c ops st,
  se_run c se_init ops = Some st -> se_log_ok (st_log st) = true.
Proof. exact se_run_log_ok. Qed.
Print Assumptions C12_model_log_accepted.

(* non-vacuity: a history with three peers, an idle limit of two, an application reference, a
   library reference, timeouts on the boundary and the teardown satisfies all preconditions *)
Theorem C12_example_history :
  match se_run se_example_cfg se_init se_example_ops with
  | Some st =>
      st_log st =
      [SeNew 1 10; SeRx 10 1; SeNew 2 11; SeRx 11 2; SeNew 3 12; SeRx 12 3;
       SeNew 4 13; SeRx 13 4; SeRx 10 1; SeDel 2; SeFree 2; SeDel 3; SeFree 3; SeDel 4; SeFree 4;
       SeDel 1; SeFree 1; SeNew 5 11; SeRx 11 5; SeDel 5; SeFree 5] /\
      st_leaked st = [] /\ se_log_closed (st_log st) = true
  | None => False
  end.
Proof. exact se_example_run. Qed.
Print Assumptions C12_example_history.

(* Client sessions (Sessions/Client.v): created with one reference owned by the application, no
   idle state. *)

(* ref = number of holders, and a client session that exists is referenced *)
Theorem C12_client_ref_counts_holders : forall ops st s,
  sec_run sec_init ops = Some st -> In s (ct_tbl st) ->
  cs_ref s = Z.of_nat (length (cs_holders s)) /\ 1 <= cs_ref s.
Proof. exact sec_ref_counts_holders. Qed.
Print Assumptions C12_client_ref_counts_holders.

(* a client session is released only when its last holder (application, queued message) lets go,
   or by coap_free_context when the application holds at most the one reference the context
   consumes: never while something still refers to it *)
Theorem C12_client_free_rule : forall ops st op sid,
  sec_run sec_init ops = Some st -> sec_op_ok st op = true ->
  In (CFree sid) (sec_new_events st op) ->
  exists s, In s (ct_tbl st) /\ cs_id s = sid /\
    match op with
    | COpRem sid' h => sid' = sid /\ cs_holders s = [h]
    | COpFreeContext => (length (sec_keep_app s) <= 1)%nat
    | _ => False
    end.
Proof. exact sec_free_rule. Qed.
Print Assumptions C12_client_free_rule.

(* ... and it is released at once when that happens (freed at 0), otherwise it stays *)
Theorem C12_client_freed_at_zero : forall st sid h s,
  sec_get sid (ct_tbl st) = Some s -> cs_ref s = Z.of_nat (length (cs_holders s)) ->
  NoDup (map cs_id (ct_tbl st)) ->
  (cs_holders s = [h] ->
     sec_new_events st (COpRem sid h) = [CFree sid] /\
     forall s', In s' (ct_tbl (sec_step st (COpRem sid h))) -> cs_id s' <> sid) /\
  (se_has h (cs_holders s) = true -> (2 <= length (cs_holders s))%nat ->
     sec_new_events st (COpRem sid h) = [] /\
     exists s', In s' (ct_tbl (sec_step st (COpRem sid h))) /\ cs_id s' = sid /\
                cs_ref s' = cs_ref s - 1).
Proof. exact sec_freed_at_zero. Qed.
Print Assumptions C12_client_freed_at_zero.

(* every client session is created once and released at most once, after its creation *)
Theorem C12_client_log_bracketed : forall ops st,
  sec_run sec_init ops = Some st ->
  NoDup (sec_news (ct_log st)) /\ NoDup (sec_frees (ct_log st)) /\
  (forall sid, In (CFree sid) (ct_log st) -> In (CNew sid) (ct_log st)).
Proof. exact sec_log_bracketed. Qed.
Print Assumptions C12_client_log_bracketed.

(* coap_free_context: nothing stays in the context; left behind are only sessions on which the
   application holds two or more references; otherwise every session ever created is released *)
Theorem C12_client_teardown_empty : forall ops st,
  sec_run sec_init ops = Some st -> sec_op_ok st COpFreeContext = true ->
  let st' := sec_step st COpFreeContext in
  ct_tbl st' = [] /\ ct_alive st' = false /\
  (forall s, In s (ct_left st') ->
     exists s0, In s0 (ct_tbl st) /\ cs_id s0 = cs_id s /\ (2 <= length (sec_keep_app s0))%nat) /\
  ((forall s, In s (ct_tbl st) -> (length (sec_keep_app s) <= 1)%nat) ->
     ct_left st' = [] /\
     forall sid, In (CNew sid) (ct_log st') -> In (CFree sid) (ct_log st')).
Proof. exact sec_teardown_empty. Qed.
Print Assumptions C12_client_teardown_empty.

(* non-vacuity: a request in flight while the application lets go; teardown consumes the
   application's one reference *)
Theorem C12_client_example :
  match sec_run sec_init [COpNew; COpNew; COpAdd 1 se_h_lib; COpRem 1 se_h_app; COpAdd 2 se_h_app;
                          COpRem 1 se_h_lib; COpNew; COpRem 2 se_h_app; COpFreeContext] with
  | Some st => ct_log st = [CNew 1; CNew 2; CFree 1; CNew 3; CFree 2; CFree 3] /\ ct_left st = []
  | None => False
  end.
Proof. exact sec_example_run. Qed.
Print Assumptions C12_client_example.

(* The allocation-trace oracle decides balancedness: every allocated block released exactly
   once, nothing released twice or without having been allocated, nothing left. *)
Theorem C12_alloc_verdict_clean_iff : forall tr, at_verdict tr = AtClean <-> at_spec tr.
Proof. exact at_verdict_clean_iff. Qed.
Print Assumptions C12_alloc_verdict_clean_iff.

Theorem C12_alloc_clean_freed_once : forall tr id,
  at_verdict tr = AtClean -> In id (at_new_ids tr) -> at_nfree id tr = 1 /\ at_nalloc id tr = 1.
Proof. exact at_clean_freed_once. Qed.
Print Assumptions C12_alloc_clean_freed_once.

Theorem C12_alloc_clean_no_double_free : forall tr id, at_verdict tr = AtClean -> at_nfree id tr <= 1.
Proof. exact at_clean_no_double_free. Qed.
Print Assumptions C12_alloc_clean_no_double_free.

Theorem C12_alloc_clean_free_after_alloc : forall tr pre e post id,
  at_verdict tr = AtClean -> tr = pre ++ e :: post -> at_fr id e = 1 -> In id (at_new_ids pre).
Proof. exact at_clean_free_after_alloc. Qed.
Print Assumptions C12_alloc_clean_free_after_alloc.

Theorem C12_alloc_leak_sound : forall tr l id,
  at_verdict tr = AtLeak l -> l <> [] /\ (In id l <-> at_nalloc id tr - at_nfree id tr = 1).
Proof. exact at_leak_sound. Qed.
Print Assumptions C12_alloc_leak_sound.

Theorem C12_alloc_bad_free_sound : forall tr id,
  (at_verdict tr = AtDoubleFree id \/ at_verdict tr = AtFreeUnalloc id) ->
  exists pre e post, tr = pre ++ e :: post /\ at_fr id e = 1 /\ at_nalloc id pre = at_nfree id pre.
Proof. exact at_bad_free_sound. Qed.
Print Assumptions C12_alloc_bad_free_sound.
