(* C06 - Confirmable messages are retransmitted on schedule and end in one outcome.
   Statements, each an instance of a lemma of Sched/*Proofs.v or Sched/RetransmitSteps.v.
   Models: Sched/FixedPoint.v (coap_calc_timeout), Sched/SendQueue.v (coap_insert_node, coap_pop_next,
   coap_remove_from_queue, coap_adjust_basetime), Sched/Retransmit.v (coap_send of a CON,
   coap_wait_ack, coap_retransmit, the retransmit loop and wait computation of
   coap_io_prepare_io, ACK / RST branches of coap_dispatch). *)
From LibcoapV Require Import Base.Tactics Sched.FixedPoint Sched.FixedPointProofs
  Sched.SendQueue Sched.SendQueueProofs Sched.Retransmit Sched.RetransmitProofs
  Sched.RetransmitTimeProofs Sched.RetransmitSpacingProofs Sched.RetransmitProvenanceProofs.
From Coq Require Import Sorting.Permutation.
Local Open Scope Z_scope.

(* For every random byte and ALL settings the setters accept (integer part 1..65535, fraction
   0..999): lo <= T <= hi where lo / hi are ACK_TIMEOUT and ACK_TIMEOUT * ACK_RANDOM_FACTOR
   computed from the settings quantised to 1/64 s; the distance of lo / hi from the unquantised
   values in ms is bounded explicitly; r = 0 gives lo, r = 255 gives hi (factor <= 3.0); T is the
   exact fixed-point value unless that exceeds UINT_MAX ticks (then UINT_MAX, 49.7 days). *)
Theorem C06_timeout_range : forall at_ip at_fp arf_ip arf_fp r,
  fp_setting_ok at_ip at_fp -> fp_setting_ok arf_ip arf_fp -> 0 <= r <= 255 ->
  let A := fp_Q at_ip at_fp in
  let F := fp_Q arf_ip arf_fp in
  let T := fp_calc_timeout at_ip at_fp arf_ip arf_fp r in
  fp_lo A <= T <= fp_hi A F /\
  fp_ms at_ip at_fp - 8 <= fp_lo A <= fp_ms at_ip at_fp + 8 /\
  1000 * fp_hi A F <= (fp_ms at_ip at_fp + 8) * (fp_ms arf_ip arf_fp + 8) + 8313 /\
  fp_calc_timeout at_ip at_fp arf_ip arf_fp 0 = fp_lo A /\
  (F <= 192 -> fp_calc_timeout at_ip at_fp arf_ip arf_fp 255 = fp_hi A F) /\
  T = Z.min (fp_calc_plain A F r) fp_uint_max.
Proof. exact fp_timeout_range. Qed.
Print Assumptions C06_timeout_range.

(* settings with fractions that are multiples of 1/8 (representable in Q.6): the lower end is
   exactly ACK_TIMEOUT, the upper end ACK_TIMEOUT * ACK_RANDOM_FACTOR up to 8.4 ms of rounding *)
Theorem C06_timeout_range_exact : forall at_ip at_fp arf_ip arf_fp r,
  fp_setting_ok at_ip at_fp -> fp_setting_ok arf_ip arf_fp -> 0 <= r <= 255 ->
  at_fp mod 125 = 0 -> arf_fp mod 125 = 0 ->
  let T := fp_calc_timeout at_ip at_fp arf_ip arf_fp r in
  fp_ms at_ip at_fp <= T /\
  1000 * T <= fp_ms at_ip at_fp * fp_ms arf_ip arf_fp + 8313 /\
  fp_calc_timeout at_ip at_fp arf_ip arf_fp 0 = fp_ms at_ip at_fp.
Proof. exact fp_timeout_range_exact. Qed.
Print Assumptions C06_timeout_range_exact.

(* the defaults 2.0 / 1.5: T in [2000, 3000] ms for every byte, both ends taken *)
Theorem C06_timeout_default : forall r, 0 <= r <= 255 ->
  2000 <= fp_calc_timeout 2 0 1 500 r <= 3000.
Proof.
  exact (fun r Hr => proj1 (fp_timeout_range 2 0 1 500 r (proj1 fp_setting_ok_default)
                                             (proj2 fp_setting_ok_default) Hr)).
Qed.
Print Assumptions C06_timeout_default.

Theorem C06_timeout_default_ends :
  fp_calc_timeout 2 0 1 500 0 = 2000 /\ fp_calc_timeout 2 0 1 500 255 = 3000.
Proof. exact fp_timeout_default_ends. Qed.
Print Assumptions C06_timeout_default_ends.

(* the hypothesis is exactly what coap_session_set_ack_timeout / _ack_random_factor accept *)
Theorem C06_setting_ok_nonvacuous :
  fp_setting_ok 2 0 /\ fp_setting_ok 1 500 /\
  (forall ip fp, fp_setting_ok ip fp <-> (0 < ip < 65536 /\ 0 <= fp < 1000)).
Proof. exact fp_setting_ok_nonvacuous. Qed.
Print Assumptions C06_setting_ok_nonvacuous.

(* Before /repo ca7875d the Q.6 values were cast to uint16_t:
   ACK_TIMEOUT = 1024.000 s gave T = 0 (finding F06-4, fixed; replay `calcrow 1024 0 1 500`);
   where nothing wrapped the old and the new function agree. *)
Theorem C06_timeout_range_old_refuted : exists at_ip at_fp arf_ip arf_fp r,
  fp_setting_ok at_ip at_fp /\ fp_setting_ok arf_ip arf_fp /\ 0 <= r <= 255 /\
  fp_calc_timeout_old at_ip at_fp arf_ip arf_fp r < fp_ms at_ip at_fp - 8.
Proof. exact fp_timeout_range_old_refuted. Qed.
Print Assumptions C06_timeout_range_old_refuted.

Theorem C06_timeout_old_agrees : forall at_ip at_fp arf_ip arf_fp r,
  fp_setting_ok at_ip at_fp -> fp_setting_ok arf_ip arf_fp -> 0 <= r <= 255 ->
  fp_Qraw at_ip at_fp < 65536 -> fp_Qraw arf_ip arf_fp < 65536 ->
  fp_calc_timeout_old at_ip at_fp arf_ip arf_fp r = fp_calc_timeout at_ip at_fp arf_ip arf_fp r.
Proof. exact fp_calc_old_eq. Qed.
Print Assumptions C06_timeout_old_agrees.

(* insertion = ordered insertion on absolute deadlines ... *)
Theorem C06_queue_insert : forall q base t n,
  sq_abs base (sq_insert q t n) = sq_spec_insert (base + t) n (sq_abs base q).
Proof. exact sq_abs_insert. Qed.
Print Assumptions C06_queue_insert.

(* ... which keeps the order, adds exactly the new entry, changes no other deadline, and puts
   the new entry behind all entries that are not later (FIFO among equal deadlines) *)
Theorem C06_queue_insert_ordered : forall l d n, sq_sorted l ->
  sq_sorted (sq_spec_insert d n l) /\
  Permutation ((d, n) :: l) (sq_spec_insert d n l) /\
  exists l1 l2, l = l1 ++ l2 /\ sq_spec_insert d n l = l1 ++ (d, n) :: l2 /\
    Forall (fun e => fst e <= d) l1 /\ Forall (fun e => d < fst e) l2.
Proof.
  exact (fun l d n S => conj (sq_spec_insert_sorted l d n S)
                             (conj (sq_spec_insert_perm l d n) (sq_spec_insert_stable l d n S))).
Qed.
Print Assumptions C06_queue_insert_ordered.

(* queues built by the three operations are well-formed, and well-formed queues are sorted *)
Theorem C06_queue_sorted : forall q base, sq_wf q -> sq_sorted (sq_abs base q).
Proof. exact sq_abs_sorted. Qed.
Print Assumptions C06_queue_sorted.

Theorem C06_queue_wf_preserved :
  (forall q t n, sq_wf q -> sq_wf (sq_insert q t n)) /\
  (forall q e q', sq_wf q -> sq_pop q = Some (e, q') -> sq_wf q') /\
  (forall q s m e q', sq_wf q -> sq_remove q s m = Some (e, q') -> sq_wf q').
Proof. exact (conj sq_insert_wf (conj sq_pop_wf sq_remove_wf)). Qed.
Print Assumptions C06_queue_wf_preserved.

(* pop takes the earliest entry and leaves the other deadlines alone *)
Theorem C06_queue_pop : forall q base t n q',
  sq_pop q = Some ((t, n), q') ->
  sq_abs base q = (base + t, n) :: sq_abs base q' /\
  (sq_wf q -> Forall (fun e => base + t <= fst e) (sq_abs base q')).
Proof.
  exact (fun q base t n q' H => conj (sq_abs_pop q base t n q' H)
                                     (fun W => sq_pop_min q base t n q' W H)).
Qed.
Print Assumptions C06_queue_pop.

(* removal by (session, mid) takes exactly the first matching node, the others keep deadline
   and place; nothing matches <-> nothing happens *)
Theorem C06_queue_remove : forall q base s m,
  (forall t n q', sq_remove q s m = Some ((t, n), q') ->
     exists l1 l2 d, sq_abs base q = l1 ++ (d, n) :: l2 /\ sq_abs base q' = l1 ++ l2 /\
       sq_match s m n = true /\ Forall (fun x => sq_match s m (snd x) = false) l1) /\
  (sq_remove q s m = None <-> Forall (fun x => sq_match s m (snd x) = false) (sq_abs base q)).
Proof.
  exact (fun q base s m => conj (fun t n q' H => sq_remove_others q base s m t n q' H)
                                (sq_remove_none_iff q base s m)).
Qed.
Print Assumptions C06_queue_remove.

(* coap_cancel_all_messages / coap_cancel_session_messages (cancel by session + token, by session):
   exactly the matching nodes disappear, every other node keeps its deadline and place *)
Theorem C06_queue_cancel : forall p q base,
  sq_abs base (snd (sq_cancel p q)) = filter (fun e => negb (p (snd e))) (sq_abs base q) /\
  fst (sq_cancel p q) = filter p (map snd q).
Proof. exact sq_abs_cancel. Qed.
Print Assumptions C06_queue_cancel.

(* as the two functions were before /repo f424a16 (plain unlinking) this failed: the nodes behind
   a cancelled one - of any session - became due earlier (finding F06-1, fixed) *)
Theorem C06_queue_cancel_prefix_refuted : exists p q base,
  sq_wf q /\
  sq_abs base (snd (sq_cancel_nobump p q)) <> filter (fun e => negb (p (snd e))) (sq_abs base q).
Proof. exact sq_cancel_nobump_shifts. Qed.
Print Assumptions C06_queue_cancel_prefix_refuted.

(* coap_adjust_basetime: moving the base backwards keeps every deadline ... *)
Theorem C06_adjust_basetime_back : forall base q now c b' q',
  now <= base -> sq_adjust_basetime base q now = (c, b', q') ->
  c = 0 /\ b' = now /\ sq_abs b' q' = sq_abs base q.
Proof. exact sq_adjust_back. Qed.
Print Assumptions C06_adjust_basetime_back.

(* ... moving it forwards does not (finding K06-2; the function has no caller in the library,
   the retransmission path sets the base time only when the queue is empty) *)
Theorem C06_adjust_basetime_refuted : exists base q now c b' q',
  sq_wf q /\ base < now /\ sq_adjust_basetime base q now = (c, b', q') /\
  Forall (fun e => now < fst e) (sq_abs base q) /\
  sq_abs b' q' <> sq_abs base q.
Proof. exact sq_adjust_shifts_deadline. Qed.
Print Assumptions C06_adjust_basetime_refuted.

(* coap_send at t0 on an idle context, nobody answers, punctual driver: transmissions of the same
   bytes exactly at t0 + T (2^j - 1), j = 0 .. MAX_RETRANSMIT, then exactly one NACK
   TOO_MANY_RETRIES at t0 + T (2^(MAX_RETRANSMIT+1) - 1); afterwards the queue is empty and the
   reported wait is 0.  T = coap_calc_timeout(settings, r) is computed once. *)
Theorem C06_schedule : forall t0 base0 k s m b cfg r fuel ns tbl0,
  let T := fp_calc_timeout (rc_at_ip cfg) (rc_at_fp cfg) (rc_arf_ip cfg) (rc_arf_fp cfg) r in
  let mx := rc_max cfg in
  1 <= T -> 1 <= mx <= 255 -> T * 2 ^ mx < 4294967296 -> (Z.to_nat mx + 1 < fuel)%nat ->
  (* the session is idle: NSTART ns, no Confirmable in flight, none waiting *)
  1 <= ns -> rt_sget s tbl0 = rt_mk_sinfo ns 0 [] ->
  let (st1, o1) := rt_send (rt_mk_state t0 base0 [] k tbl0) s m b cfg r in
  let (st2, o2) := rt_punctual fuel st1 in
  filter rt_is_tx_nack (o1 ++ o2) =
    map (fun j => RoTx (rt_sched_time t0 T j) k s b (Z.of_nat j) T) (seq 0 (S (Z.to_nat mx))) ++
    [RoNack (rt_sched_time t0 T (S (Z.to_nat mx))) k s rt_NACK_TOO_MANY_RETRIES m mx mx] /\
  rs_q st2 = [] /\ rs_now st2 = rt_sched_time t0 T (S (Z.to_nat mx)) /\
  (exists o', o2 = o' ++ [RoWait (rs_now st2) 0 (-1)]).
Proof. exact rt_schedule. Qed.
Print Assumptions C06_schedule.

(* The same law for EVERY driver and every traffic (ticks at any times, late or early, other
   messages, answers of the peer): transmission number i of a message carries retransmit
   counter i, and transmission i+1 comes with the same T, never earlier than T * 2^i after
   transmission i ... *)
Theorem C06_spacing : forall t0 nst evs u,
  rt_nst_ok nst -> Forall rt_ev_ok evs ->
  let tr := snd (rt_run (rt_init t0 nst) evs) in
  forall i t c T, nth_error (rt_tproj u tr) i = Some (t, c, T) ->
    c = Z.of_nat i /\
    forall t' c' T', nth_error (rt_tproj u tr) (S i) = Some (t', c', T') ->
      T' = T /\ t + T * 2 ^ Z.of_nat i <= t'.
Proof. exact (fun t0 nst evs u Hn F => rt_chain_nth _ (rt_run_chain t0 nst evs Hn F u)). Qed.
Print Assumptions C06_spacing.

(* ... the deadline of every queued message is its last transmission + T * 2^retransmit_cnt
   (C06_wait_sound: a prepare call leaves nothing behind that is due, so the retransmission
   happens at the first prepare call or datagram arrival at or after that deadline) ... *)
Theorem C06_deadline_law : forall t0 nst evs d n,
  rt_nst_ok nst -> Forall rt_ev_ok evs ->
  let st := fst (rt_run (rt_init t0 nst) evs) in
  let tr := snd (rt_run (rt_init t0 nst) evs) in
  In (d, n) (sq_abs (rs_base st) (rs_q st)) ->
  exists l t, rt_tproj (qn_uid n) tr = l ++ [(t, qn_cnt n, qn_timeout n)] /\
              d = t + qn_timeout n * 2 ^ qn_cnt n.
Proof. exact (fun t0 nst evs d n Hn F => rt_run_entries t0 nst evs Hn F (d, n)). Qed.
Print Assumptions C06_deadline_law.

(* ... giving up is never early either: a NACK TOO_MANY_RETRIES comes no sooner than T * 2^cnt
   after the last transmission (cnt = MAX_RETRANSMIT by C06_one_outcome) ... *)
Theorem C06_giveup_not_early : forall t0 nst evs tr1 t u s m c mx tr2,
  rt_nst_ok nst -> Forall rt_ev_ok evs ->
  snd (rt_run (rt_init t0 nst) evs) = tr1 ++ RoNack t u s rt_NACK_TOO_MANY_RETRIES m c mx :: tr2 ->
  exists l tl T, rt_tproj u tr1 = l ++ [(tl, c, T)] /\ tl + T * 2 ^ c <= t.
Proof.
  exact (fun t0 nst evs tr1 t u s m c mx tr2 Hn F E => rt_run_giveups t0 nst evs Hn F tr1 _ tr2 E eq_refl).
Qed.
Print Assumptions C06_giveup_not_early.

(* ... a Confirmable that finds no free NSTART slot waits: it has not been transmitted; its
   timeout is computed THEN (coap_session_delay_pdu: the second place where the byte is drawn) from
   the same settings, and when a slot is released it goes out and is from there on subject to
   C06_spacing / C06_deadline_law / C06_tx_provenance like every other message ... *)
Theorem C06_held_not_sent : forall t0 nst evs n,
  rt_nst_ok nst -> Forall rt_ev_ok evs ->
  let st := fst (rt_run (rt_init t0 nst) evs) in
  let tr := snd (rt_run (rt_init t0 nst) evs) in
  In n (rt_held (rs_sess st)) -> rt_tproj (qn_uid n) tr = [].
Proof.
  exact (fun t0 nst evs n Hn F =>
           rt_inv_held_unsent _ _ n (rt_run_rel evs (rt_init t0 nst) [] F (rt_inv_init t0 nst Hn))).
Qed.
Print Assumptions C06_held_not_sent.

Theorem C06_T_drawn_when_held : forall st s m b cfg r,
  let si := rt_sget s (rs_sess st) in
  si_nstart si <= si_active si ->
  existsb (fun n => qn_mid n =? m) (si_hold si) = false ->
  let st' := fst (rt_send st s m b cfg r) in
  snd (rt_send st s m b cfg r) = [RoSent m] /\ rs_q st' = rs_q st /\
  si_hold (rt_sget s (rs_sess st')) =
    si_hold si ++ [sq_mk_node (rs_uid st) s m (-1)
                     (fp_calc_timeout (rc_at_ip cfg) (rc_at_fp cfg) (rc_arf_ip cfg) (rc_arf_fp cfg) r)
                     (rc_max cfg) b].
Proof. exact rt_send_held_spec. Qed.
Print Assumptions C06_T_drawn_when_held.

(* ... and T is computed once, from the session's settings and one random byte, when the
   message is accepted *)
Theorem C06_T_drawn_once : forall st s m b cfg r,
  si_active (rt_sget s (rs_sess st)) < si_nstart (rt_sget s (rs_sess st)) ->
  snd (rt_send st s m b cfg r) =
  [RoTx (rs_now st) (rs_uid st) s b 0
        (fp_calc_timeout (rc_at_ip cfg) (rc_at_fp cfg) (rc_arf_ip cfg) (rc_arf_fp cfg) r);
   RoSent m].
Proof. exact rt_send_free_spec. Qed.
Print Assumptions C06_T_drawn_once.

(* Every datagram of every trace is the unchanged byte string of a submitted message, sent on the
   session it was submitted on, scheduled with T = coap_calc_timeout(that session's settings, the
   byte drawn at submission) - so (C06_timeout_range) every T of every trace lies in
   [ACK_TIMEOUT, ACK_TIMEOUT * ACK_RANDOM_FACTOR] of its session, at Q.6 resolution. *)
Theorem C06_tx_provenance : forall t0 nst evs t u s b c T,
  In (RoTx t u s b c T) (snd (rt_run (rt_init t0 nst) evs)) ->
  exists m cfg r, In (RtSend s m b cfg r) evs /\ T = rt_cfg_T cfg r.
Proof. exact rt_tx_provenance. Qed.
Print Assumptions C06_tx_provenance.

Theorem C06_tx_timeout_in_range : forall t0 nst evs t u s b c T,
  (forall s' m b' cfg r, In (RtSend s' m b' cfg r) evs ->
     fp_setting_ok (rc_at_ip cfg) (rc_at_fp cfg) /\ fp_setting_ok (rc_arf_ip cfg) (rc_arf_fp cfg) /\
     0 <= r <= 255) ->
  In (RoTx t u s b c T) (snd (rt_run (rt_init t0 nst) evs)) ->
  exists m cfg r, In (RtSend s m b cfg r) evs /\
    fp_lo (fp_Q (rc_at_ip cfg) (rc_at_fp cfg)) <= T <=
    fp_hi (fp_Q (rc_at_ip cfg) (rc_at_fp cfg)) (fp_Q (rc_arf_ip cfg) (rc_arf_fp cfg)) /\
    fp_ms (rc_at_ip cfg) (rc_at_fp cfg) - 8 <= T /\
    1000 * T <= (fp_ms (rc_at_ip cfg) (rc_at_fp cfg) + 8) * (fp_ms (rc_arf_ip cfg) (rc_arf_fp cfg) + 8) + 8313.
Proof. exact rt_tx_timeout_in_range. Qed.
Print Assumptions C06_tx_timeout_in_range.

(* For every event sequence - any number of messages and sessions, ACK / RST at any time,
   repeated, for unknown ids, any tick times - and every message u: its history is empty (never
   accepted), or transmissions of the same bytes only (then it is still queued and was sent
   retransmit_cnt + 1 <= max_retransmit + 1 times), or transmissions of the same bytes followed by
   exactly one outcome: removed by an ACK, or one NACK call with reason RST, or one with reason
   TOO_MANY_RETRIES after exactly max_retransmit retransmissions. *)
Theorem C06_one_outcome : forall t0 nst evs u,
  rt_nst_ok nst -> Forall rt_ev_ok evs ->
  let (st, tr) := rt_run (rt_init t0 nst) evs in
  rt_shape (rt_proj u tr) /\
  (* pending = queued or waiting for an NSTART slot (counter -1: not transmitted yet) *)
  (forall n, In n (rt_live st) -> qn_uid n = u ->
     rt_proj u tr = repeat (PTx (qn_bytes n)) (Z.to_nat (qn_cnt n + 1)) /\
     -1 <= qn_cnt n <= qn_max n) /\
  (~ In u (map qn_uid (rt_live st)) -> rt_proj u tr = [] \/ rt_closed (rt_proj u tr)).
Proof. exact rt_one_outcome. Qed.
Print Assumptions C06_one_outcome.

(* after its outcome a message never appears again, whatever happens later *)
Theorem C06_nothing_after_outcome : forall t0 nst e1 e2 u,
  rt_nst_ok nst -> Forall rt_ev_ok (e1 ++ e2) ->
  rt_closed (rt_proj u (snd (rt_run (rt_init t0 nst) e1))) ->
  rt_proj u (snd (rt_run (rt_init t0 nst) (e1 ++ e2))) = rt_proj u (snd (rt_run (rt_init t0 nst) e1)).
Proof. exact rt_nothing_after_outcome. Qed.
Print Assumptions C06_nothing_after_outcome.

(* an ACK / RST with another mid or from another session changes nothing for a message *)
Theorem C06_unknown_ack_rst : forall st s m,
  sq_remove (rs_q st) s m = None ->
  rt_step st (RtAck s m) = rt_fire_all st /\
  rt_step st (RtRst s m) =
    (fst (rt_fire_all st), RoNackNoPdu (rs_now st) s rt_NACK_RST m :: snd (rt_fire_all st)).
Proof. exact rt_unknown_ack_rst. Qed.
Print Assumptions C06_unknown_ack_rst.

Theorem C06_known_ack_rst : forall st s m t n q',
  sq_remove (rs_q st) s m = Some ((t, n), q') ->
  qn_sess n = s /\ qn_mid n = m /\
  (exists l1 l2 d, sq_abs (rs_base st) (rs_q st) = l1 ++ (d, n) :: l2 /\
                   sq_abs (rs_base st) q' = l1 ++ l2 /\
                   Forall (fun x => sq_match s m (snd x) = false) l1) /\
  (* the freed NSTART slot goes to a waiting message of that session (if any), then a prepare *)
  rt_step st (RtAck s m) =
    (let (st1, o1) := rt_free_slot (rt_set_q st q') s in
     let (st2, o2) := rt_fire_all st1 in
     (st2, RoAcked (rs_now st) (qn_uid n) :: o1 ++ o2)) /\
  rt_step st (RtRst s m) =
    (let (st1, o1) := rt_free_slot (rt_set_q st q') s in
     let (st2, o2) := rt_fire_all st1 in
     (st2, o1 ++ RoNack (rs_now st) (qn_uid n) (qn_sess n) rt_NACK_RST (qn_mid n) (qn_cnt n) (qn_max n) :: o2)).
Proof. exact rt_known_ack_rst. Qed.
Print Assumptions C06_known_ack_rst.

(* coap_session_disconnected (reason other than ICMP_ISSUE): exactly the messages of that session
   leave the queue, one NACK call each, in queue order; every message of every other session keeps
   its deadline and place (this is C06_queue_cancel at work); covered by C06_one_outcome too *)
Theorem C06_disconnect : forall st s reason,
  let (st', o) := rt_disconnect st s reason in
  sq_abs (rs_base st') (rs_q st') =
    filter (fun e => negb (rt_sess_match s (snd e))) (sq_abs (rs_base st) (rs_q st)) /\
  rs_now st' = rs_now st /\
  (* first the messages of the session that wait for a slot, then its queued ones *)
  let rm := si_hold (rt_sget s (rs_sess st)) ++ filter (rt_sess_match s) (rt_nodes (rs_q st)) in
  o = match rm with
      | [] => [RoNackNoPdu (rs_now st) s reason 0]
      | _ => map (rt_nack_of (rs_now st) reason) rm
      end /\
  si_hold (rt_sget s (rs_sess st')) = [] /\ si_active (rt_sget s (rs_sess st')) = 0.
Proof. exact rt_disconnect_spec. Qed.
Print Assumptions C06_disconnect.

(* as the function was before the repair, the first queued message of the session got two NACK
   calls (finding F06-3, fixed) *)
Theorem C06_disconnect_old_refuted : exists st s reason u,
  reason <> rt_NACK_TOO_MANY_RETRIES /\ reason <> rt_NACK_ICMP_ISSUE /\
  rt_proj u (snd (rt_disconnect_old st s reason)) = [PNack reason 0 4; PNack reason 0 4].
Proof. exact rt_disconnect_old_double_nack. Qed.
Print Assumptions C06_disconnect_old_refuted.

(* coap_delete_node on a node that is still linked into the queue (inside the library: the delayed
   multicast response that has just been sent): only that node leaves, all other messages keep
   deadline and place (finding F06-5, fixed in /repo 99e3a61: LL_DELETE alone lost the node's time) *)
Theorem C06_delete_linked_node : forall st s m,
  (forall t n q', sq_remove (rs_q st) s m = Some ((t, n), q') ->
     rt_delete st s m = (rt_set_q st q', [RoAcked (rs_now st) (qn_uid n)]) /\
     exists l1 l2 d, sq_abs (rs_base st) (rs_q st) = l1 ++ (d, n) :: l2 /\
                     sq_abs (rs_base st) q' = l1 ++ l2) /\
  (sq_remove (rs_q st) s m = None -> rt_delete st s m = (st, [])).
Proof. exact rt_delete_spec. Qed.
Print Assumptions C06_delete_linked_node.

(* In every reachable state a prepare call fires everything that is due (its loop bound is never
   hit) and reports 0 iff nothing is pending, else the distance to the earliest pending deadline,
   cut to 32 bits - never more than that distance. *)
Theorem C06_wait_sound : forall t0 nst evs,
  rt_nst_ok nst -> Forall rt_ev_ok evs ->
  let st := fst (rt_run (rt_init t0 nst) evs) in
  let (st', o) := rt_tick st in
  exists o' w hd, o = o' ++ [RoWait (rs_now st) w hd] /\ ~ In RoFuel o' /\
                  rs_now st' = rs_now st /\ rt_wait_ok st' w hd.
Proof.
  exact (fun t0 nst evs Hn F =>
           rt_tick_wait_sound _ (proj1 (rt_run_tinv evs (rt_init t0 nst) F (rt_tinv_init t0 nst Hn)))).
Qed.
Print Assumptions C06_wait_sound.

(* a Confirmable accepted at the start of a prepare call (an Observe notification generated by
   coap_check_notify inside coap_io_prepare_io) is covered by the wait that very call reports *)
Theorem C06_wait_after_accept : forall st s m b cfg r,
  rt_tinv st -> 1 <= rc_max cfg <= 255 ->
  let st1 := fst (rt_send st s m b cfg r) in
  let (st', o) := rt_tick st1 in
  exists o' w hd, o = o' ++ [RoWait (rs_now st1) w hd] /\ ~ In RoFuel o' /\
                  rs_now st' = rs_now st1 /\ rt_wait_ok st' w hd.
Proof.
  exact (fun st s m b cfg r T Hm => rt_tick_wait_sound _ (proj1 (rt_step_tinv st (RtSend s m b cfg r) Hm T))).
Qed.
Print Assumptions C06_wait_after_accept.

(* coap_io_process (the library's own loop, epoll build, no datagram arriving): fires what is
   due, sleeps never longer than the reported wait - hence never past the earliest pending
   deadline - and "for ever" only when nothing is pending and the caller allowed it; afterwards
   again nothing due is left; returns the time it slept *)
Theorem C06_io_process_sound : forall st tmo,
  rt_tinv st -> 0 <= tmo < 4294967296 ->
  let (st', o) := rt_io_process st tmo in
  exists st1 o1 w hd o3,
    rt_fire_all st = (st1, o1) /\ rt_wait st1 = (w, hd) /\ rt_wait_ok st1 w hd /\
    let et := rt_epoll_timeout w tmo in
    o = o1 ++ RoEpoll (rs_now st) et :: o3 ++ [RoIoRet (rs_now st') (rs_now st' - rs_now st)] /\
    ~ In RoFuel o /\ rt_due st' = false /\ rt_tinv st' /\
    rs_now st' = rs_now st + (if 0 <? et then et else 0) /\
    (et = -1 -> w = 0 /\ tmo = rt_IO_WAIT) /\ (0 < w < 2147483648 -> 0 <= et <= w).
Proof. exact rt_io_process_sound. Qed.
Print Assumptions C06_io_process_sound.

Theorem C06_loop_bound : forall evs st, Forall rt_ev_ok evs -> rt_tinv st ->
  rt_tinv (fst (rt_run st evs)) /\ ~ In RoFuel (snd (rt_run st evs)).
Proof. exact rt_run_tinv. Qed.
Print Assumptions C06_loop_bound.
