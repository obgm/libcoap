(* C19 - (D)TLS sessions exchange application data only after an authenticated handshake.

   Model: coq/Tls/Gate.v (the session gate of libcoap for DTLS: coap_send_pdu, the delay queue,
   coap_session_connected, coap_session_disconnected_lkd, coap_session_mfree,
   coap_handle_dgram_for_proto, coap_dtls_* of src/coap_gnutls.c, the PSK callbacks, the
   ClientHello pre-filter).  The TLS library is an oracle (tg_oracle: the values returned by the
   k-th gnutls_handshake / gnutls_record_send / gnutls_record_recv / gnutls_dtls_cookie_verify
   call); every theorem quantifies over all oracles and all event sequences.  The only fact
   assumed about GnuTLS is the named hypothesis of the theorems that mention credentials:
   gnutls_handshake returns success only if both ends presented the same key.
   Statements only; proofs in Tls/GateProofs.v (cleartext, gate), GateNack.v (failure: NACKs),
   GateFifo.v (success: FIFO flush), GateMisc.v (acceptor, pre-filter, credentials, concrete
   runs), GateTcpProofs.v and GateTcpNack.v (TLS over TCP). *)
From LibcoapV Require Import Base.Tactics Base.Bytes Tls.Gate Tls.GateProofs Tls.GateNack Tls.GateFifo
  Tls.GateMisc Tls.GateTcp Tls.GateTcpProofs Tls.GateTcpNack.
Local Open Scope Z_scope.

(* On a DTLS session the session layer never writes cleartext to the socket: for every oracle,
   session type, NSTART and event sequence (sends before/during/after the handshake, received
   datagrams of any content incl. cleartext CoAP, timeouts, retransmissions, release). *)
Theorem C19_no_clear : forall O t n evs s' tr b,
  tg_steps O (tg_new_session TgDtls t n) evs = (s', tr) -> ~ In (OWireClear b) (tg_outs tr).
Proof. exact tg_no_clear. Qed.
Print Assumptions C19_no_clear.

(* Nothing is handed to CoAP dispatch (ODeliver) and nothing the application sent is handed
   to the TLS record layer (OTlsTx) before a gnutls_handshake call returned GNUTLS_E_SUCCESS. *)
Theorem C19_gate : forall O t n evs s' tr l1 x l2,
  tg_steps O (tg_new_session TgDtls t n) evs = (s', tr) ->
  tg_outs tr = l1 ++ x :: l2 -> tg_is_app x = true -> In (OHs 0) l1.
Proof. exact tg_gate. Qed.
Print Assumptions C19_gate.

(* ESTABLISHED is entered only after such a success *)
Theorem C19_established_after_success : forall O t n evs s' tr,
  tg_steps O (tg_new_session TgDtls t n) evs = (s', tr) ->
  ts_state s' = TgEstablished -> In (OHs 0) (tg_outs tr).
Proof. exact tg_established_after_success. Qed.
Print Assumptions C19_established_after_success.

(* With GnuTLS's contract as the hypothesis: if the configured credentials do not match (key
   differs, identity unknown to the server, hint rejected by the client, SNI rejected), the
   session is never ESTABLISHED and no application data moves in either direction. *)
Theorem C19_mismatch_never_established : forall O cc sc,
  (forall k, or_hs O k = 0 -> tg_creds_match cc sc = true) ->
  forall t n evs s' tr,
  tg_creds_match cc sc = false ->
  tg_steps O (tg_new_session TgDtls t n) evs = (s', tr) ->
  ts_state s' <> TgEstablished /\ (forall x, In x (tg_outs tr) -> tg_is_app x = false).
Proof. exact tg_mismatch_never_established. Qed.
Print Assumptions C19_mismatch_never_established.

(* do_gnutls_handshake reports "established" exactly for GNUTLS_E_SUCCESS *)
Theorem C19_handshake_map : forall sa code,
  (fst (fst (tg_do_handshake sa code)) =? 1) = (code =? 0).
Proof. exact tg_do_handshake_ret. Qed.
Print Assumptions C19_handshake_map.

(* ---- handshake failed or session released first: every queued Confirmable gets exactly one
   NACK and is never transmitted.  Client session, events of the application and the network
   (tg_app_only excludes only messages originated by the stack itself), any oracle whose
   handshake calls never succeed - which GnuTLS's contract gives for credentials that do not
   match (C19_never_ok_of_mismatch). *)
Theorem C19_never_ok_of_mismatch : forall O cc sc,
  (forall k, or_hs O k = 0 -> tg_creds_match cc sc = true) ->
  tg_creds_match cc sc = false -> forall k, or_hs O k <> 0.
Proof. exact tg_never_ok_of_mismatch. Qed.
Print Assumptions C19_never_ok_of_mismatch.

(* conservation, in output order: accepted Confirmables = NACKed ones followed by those still
   queued; and nothing is handed to the record layer *)
Theorem C19_nack_conservation : forall O, (forall k, or_hs O k <> 0) ->
  forall n evs s' tr,
  Forall tg_app_only evs ->
  tg_steps O (tg_new_session TgDtls TgClient n) evs = (s', tr) ->
  tg_dcon_ids (tg_outs tr) = tg_nack_ids (tg_outs tr) ++ tg_qcon_ids s' /\
  (forall i c, ~ In (OTlsTx i c) (tg_outs tr)).
Proof. exact tg_nack_conservation. Qed.
Print Assumptions C19_nack_conservation.

(* with pairwise distinct message ids: exactly one NACK for each accepted Confirmable that is
   no longer queued, none while it is queued *)
Theorem C19_failed_nacks_once : forall O, (forall k, or_hs O k <> 0) ->
  forall n evs s' tr,
  Forall tg_app_only evs ->
  tg_steps O (tg_new_session TgDtls TgClient n) evs = (s', tr) ->
  NoDup (tg_dcon_ids (tg_outs tr)) ->
  forall i, In i (tg_dcon_ids (tg_outs tr)) ->
  (In i (tg_qcon_ids s') /\ count_occ Z.eq_dec (tg_nack_ids (tg_outs tr)) i = 0%nat) \/
  (~ In i (tg_qcon_ids s') /\ count_occ Z.eq_dec (tg_nack_ids (tg_outs tr)) i = 1%nat).
Proof. exact tg_failed_nacks_once. Qed.
Print Assumptions C19_failed_nacks_once.

(* the NoDup hypothesis above follows from pairwise distinct ids of the submitted messages *)
Theorem C19_distinct_ids : forall O, (forall k, or_hs O k <> 0) ->
  forall n evs s' tr,
  Forall tg_app_only evs ->
  tg_steps O (tg_new_session TgDtls TgClient n) evs = (s', tr) ->
  NoDup (tg_send_ids evs) -> NoDup (tg_dcon_ids (tg_outs tr)).
Proof. exact tg_distinct_ids. Qed.
Print Assumptions C19_distinct_ids.

(* at the latest when the handshake is abandoned or the session released (both close the
   socket) nothing is queued any more and every accepted Confirmable has been NACKed *)
Theorem C19_closed_all_nacked : forall O, (forall k, or_hs O k <> 0) ->
  forall n evs s' tr,
  Forall tg_app_only evs ->
  tg_steps O (tg_new_session TgDtls TgClient n) evs = (s', tr) ->
  ts_sock s' = false ->
  ts_delayq s' = [] /\ tg_dcon_ids (tg_outs tr) = tg_nack_ids (tg_outs tr).
Proof. exact tg_closed_all_nacked. Qed.
Print Assumptions C19_closed_all_nacked.

(* ---- success: while the session is not disconnected (no NACK reported) and not freed, the
   messages handed to the record layer out of the delay queue, followed by those still queued,
   are exactly the messages accepted into the queue, in submission order (hence each once). *)
Theorem C19_success_flush : forall O t n evs s' tr,
  Forall tg_fifo_ev evs ->
  tg_steps O (tg_new_session TgDtls t n) evs = (s', tr) ->
  ts_freed s' = false -> tg_nonack (tg_outs tr) = true ->
  tg_flushed tr ++ tg_ids (ts_delayq s') = tg_delayed tr.
Proof. exact tg_success_flush. Qed.
Print Assumptions C19_success_flush.

(* progress: if the record layer accepts every message, coap_session_connected (called when the
   handshake completes and whenever an acknowledgement frees an NSTART slot) leaves the session
   ESTABLISHED with a delay queue that is empty or held back by NSTART only *)
Theorem C19_connected_progress : forall O, (forall k, 0 < or_tx O k) ->
  forall s s' o,
  ts_proto s = TgDtls -> ts_tls s = true -> ts_tls_est s = true -> ts_type s <> TgHello ->
  tg_connected O s = (s', o) ->
  ts_state s' = TgEstablished /\ tg_head_blocked s'.
Proof. exact tg_connected_progress'. Qed.
Print Assumptions C19_connected_progress.

(* ---- the acceptor used by the check on implementation traces is sound: an accepted trace is
   the model's trace for its events and TLS return values, so all theorems above apply to it *)
Theorem C19_accepts_sound : forall O tr s,
  tg_accepts O s tr = true -> snd (tg_steps O s (map fst tr)) = tr.
Proof. exact tg_accepts_sound. Qed.
Print Assumptions C19_accepts_sound.

Theorem C19_accepts_snap_accepts : forall O tr s,
  tg_accepts_snap O s tr = true -> tg_accepts O s (map fst tr) = true.
Proof. exact tg_accepts_snap_accepts. Qed.
Print Assumptions C19_accepts_snap_accepts.

(* ---- ClientHello pre-filter: only a datagram of >= 14 bytes whose first byte is 22 and whose
   14th is 1 opens a session; a CoAP version-1 header never does *)
Theorem C19_prefilter_spec : forall d,
  tg_prefilter d = PreNewHello <-> (14 <= len d /\ nth 0 d 0 = 22 /\ nth 13 d 0 = 1).
Proof. exact tg_prefilter_spec. Qed.
Print Assumptions C19_prefilter_spec.
Theorem C19_prefilter_drops_coap : forall d,
  64 <= nth 0 d 0 < 128 -> tg_prefilter d = PreDrop.
Proof. exact tg_prefilter_drops_coap. Qed.
Print Assumptions C19_prefilter_drops_coap.

(* ---- what "matching credentials" means in terms of what libcoap hands to GnuTLS *)
Theorem C19_creds_match_spec : forall c s,
  tg_creds_match c s = true <->
  exists h sk i ck,
    tg_server_sni s (tg_sni_sent (cc_sni c)) = Some (h, sk) /\
    tg_client_choice c (tg_hint_seen h) = Some (i, ck) /\
    tg_server_key s sk i = Some ck.
Proof. exact tg_creds_match_spec. Qed.
Print Assumptions C19_creds_match_spec.
Theorem C19_creds_default : forall c s,
  cc_ih c = None -> sc_ids s = None -> sc_snis s = None ->
  (tg_creds_match c s = true <-> cc_key c = sc_key s /\ sc_key s <> []).
Proof. exact tg_creds_default. Qed.
Print Assumptions C19_creds_default.
Theorem C19_creds_unknown_identity : forall c s t,
  sc_ids s = Some t -> sc_snis s = None -> cc_ih c = None ->
  tg_lookup (tg_cstr (cc_id c)) t = None -> tg_creds_match c s = false.
Proof. exact tg_creds_unknown_identity. Qed.
Print Assumptions C19_creds_unknown_identity.
Theorem C19_creds_hint_rejected : forall c s t,
  sc_snis s = None -> cc_ih c = Some t -> tg_lookup (tg_hint_seen (sc_hint s)) t = None ->
  tg_creds_match c s = false.
Proof. exact tg_creds_hint_rejected. Qed.
Print Assumptions C19_creds_hint_rejected.

(* SNI: the per-context cache of post_client_hello_gnutls_psk is transparent for every history
   of handshakes, and a match means "the key configured for exactly the name sent" *)
Theorem C19_sni_cache_transparent : forall (cache table : list (list Z * (list Z * list Z))) name,
  tg_cache_ok cache table ->
  fst (tg_sni_cached cache table name) = tg_lookup_ci name table /\
  tg_cache_ok (snd (tg_sni_cached cache table name)) table.
Proof. exact (@tg_sni_cache_transparent (list Z * list Z)). Qed.
Print Assumptions C19_sni_cache_transparent.
Theorem C19_creds_sni_exact : forall c s t,
  sc_snis s = Some t -> sc_ids s = None -> cc_ih c = None ->
  tg_creds_match c s = true ->
  exists h k, tg_lookup_ci (match tg_sni_sent (cc_sni c) with Some n => n | None => [] end) t = Some (h, k) /\
              cc_key c = k.
Proof. exact tg_creds_sni_exact. Qed.
Print Assumptions C19_creds_sni_exact.

(* ---- non-vacuity: concrete runs (a success with NSTART = 1 and three queued messages, a
   failure with two NACKs, an oracle that never succeeds, UDP does write cleartext) *)
Theorem C19_example_success :
  let '(s', tr) := tg_steps tg_ex_oracle_ok (tg_new_session TgDtls TgClient 1) tg_ex_events in
  ts_state s' = TgEstablished /\ tg_flushed tr = [1; 2; 3] /\ tg_delayed tr = [1; 2; 3] /\
  ts_delayq s' = [] /\ tg_nonack (tg_outs tr) = true /\
  In (ODeliver 2 1) (tg_outs tr) /\ In (ODeliver 2 3) (tg_outs tr).
Proof. exact tg_ex_success. Qed.
Print Assumptions C19_example_success.
Theorem C19_example_failure :
  let '(s', tr) := tg_steps tg_ex_oracle_bad (tg_new_session TgDtls TgClient 1) tg_ex_events in
  ts_state s' = TgNone /\ tg_nack_ids (tg_outs tr) = [1; 3] /\ tg_dcon_ids (tg_outs tr) = [1; 3] /\
  tg_tx_ids (tg_outs tr) = [] /\ ts_delayq s' = [] /\ ts_sock s' = false.
Proof. exact tg_ex_failure. Qed.
Print Assumptions C19_example_failure.
Theorem C19_example_never_ok : forall k, or_hs tg_ex_oracle_bad k <> 0.
Proof. exact tg_ex_bad_never_ok. Qed.
Print Assumptions C19_example_never_ok.
Theorem C19_example_udp_clear :
  let '(_, tr) := tg_steps tg_ex_oracle_ok (tg_new_session TgUdp TgClient 1)
                           [EConnect; ESend (tg_m 1 true) true] in
  In (OWireClear [64; 2; 0; 1]) (tg_outs tr).
Proof. exact tg_ex_udp_clear. Qed.
Print Assumptions C19_example_udp_clear.

(* ==================================================================================================
   TLS over TCP: the session machine CONNECTING -> HANDSHAKE -> CSM -> ESTABLISHED (Tls/GateTcp.v:
   coap_connect_session / coap_new_server_session, coap_tls_establish, coap_session_send_csm,
   handle_signaling, coap_client_delay_first, coap_send_pdu, coap_session_connected,
   coap_tls_read / coap_tls_write, coap_read_session, coap_session_disconnected_lkd,
   coap_session_mfree), same oracle. c = client session / server session. *)

Theorem C19_tcp_no_clear : forall O c evs s' tr b,
  tgt_steps O (tgt_new_session c) evs = (s', tr) -> ~ In (OWireClear b) (tgt_outs tr).
Proof. exact tgt_no_clear. Qed.
Print Assumptions C19_tcp_no_clear.

(* nothing is dispatched and nothing is handed to the record layer before gnutls_handshake
   succeeded; no application message (anything but the CSM) before the session was declared
   connected *)
Theorem C19_tcp_gate : forall O c evs s' tr l1 x l2,
  tgt_steps O (tgt_new_session c) evs = (s', tr) -> tgt_outs tr = l1 ++ x :: l2 ->
  (tg_is_app x = true -> In (OHs 0) l1) /\
  (tgt_is_apptx x = true -> In (OEvent tg_EV_SESSION_CONNECTED) l1).
Proof. exact tgt_gate. Qed.
Print Assumptions C19_tcp_gate.

(* ESTABLISHED needs the handshake success AND the connected declaration ... *)
Theorem C19_tcp_established_after : forall O c evs s' tr,
  tgt_steps O (tgt_new_session c) evs = (s', tr) -> tt_state s' = TgEstablished ->
  In (OHs 0) (tgt_outs tr) /\ In (OEvent tg_EV_SESSION_CONNECTED) (tgt_outs tr).
Proof. exact tgt_established_after. Qed.
Print Assumptions C19_tcp_established_after.

(* ... which only the peer's CSM or the CSM time-out of coap_client_delay_first make *)
Theorem C19_tcp_connected_only_by : forall O s e s' o,
  tgt_step O s e = (s', o) -> In (OEvent tg_EV_SESSION_CONNECTED) o ->
  e = TDispatch 3 \/ e = TFirstTimeout.
Proof. exact tgt_connected_only_by. Qed.
Print Assumptions C19_tcp_connected_only_by.

Theorem C19_tcp_mismatch_never_established : forall O cc sc,
  (forall k, or_hs O k = 0 -> tg_creds_match cc sc = true) ->
  forall c evs s' tr,
  tg_creds_match cc sc = false ->
  tgt_steps O (tgt_new_session c) evs = (s', tr) ->
  tt_state s' <> TgEstablished /\ (forall x, In x (tgt_outs tr) -> tg_is_app x = false).
Proof. exact tgt_mismatch_never_established. Qed.
Print Assumptions C19_tcp_mismatch_never_established.

(* failure: every message the application got queued is NACKed exactly once or is still queued
   (conservation, in order; count form in Tls/GateTcpNack.v), nothing reaches the record layer,
   and once the socket is closed (handshake failed / session released) nothing is queued *)
Theorem C19_tcp_nack_conservation : forall O, (forall k, or_hs O k <> 0) ->
  forall evs s' tr,
  Forall tgt_app_only evs -> tgt_steps O (tgt_new_session true) evs = (s', tr) ->
  tg_dcon_ids (tgt_outs tr) = tg_nack_ids (tgt_outs tr) ++ tgt_qcon_ids s' /\
  (forall i c, ~ In (OTlsTx i c) (tgt_outs tr)) /\ tt_state s' <> TgEstablished.
Proof. exact tgt_nack_conservation. Qed.
Print Assumptions C19_tcp_nack_conservation.
Theorem C19_tcp_nack_count : forall O, (forall k, or_hs O k <> 0) ->
  forall evs s' tr i,
  Forall tgt_app_only evs -> tgt_steps O (tgt_new_session true) evs = (s', tr) ->
  count_occ Z.eq_dec (tg_dcon_ids (tgt_outs tr)) i =
  (count_occ Z.eq_dec (tg_nack_ids (tgt_outs tr)) i + count_occ Z.eq_dec (tgt_qcon_ids s') i)%nat.
Proof. exact tgt_nack_count. Qed.
Print Assumptions C19_tcp_nack_count.
Theorem C19_tcp_closed_all_nacked : forall O, (forall k, or_hs O k <> 0) ->
  forall evs s' tr,
  Forall tgt_app_only evs -> tgt_steps O (tgt_new_session true) evs = (s', tr) ->
  tt_sock s' = false ->
  tt_delayq s' = [] /\ tg_dcon_ids (tgt_outs tr) = tg_nack_ids (tgt_outs tr).
Proof. exact tgt_closed_all_nacked. Qed.
Print Assumptions C19_tcp_closed_all_nacked.

(* success: FIFO flush *)
Theorem C19_tcp_success_flush : forall O c evs s' tr,
  Forall tgt_fifo_ev evs -> tgt_steps O (tgt_new_session c) evs = (s', tr) ->
  tt_freed s' = false -> tg_nonack (tgt_outs tr) = true ->
  tgt_flushed tr ++ tg_ids (tt_delayq s') = tgt_delayed tr.
Proof. exact tgt_success_flush. Qed.
Print Assumptions C19_tcp_success_flush.

Theorem C19_tcp_accepts_sound : forall O tr s,
  tgt_accepts O s tr = true -> snd (tgt_steps O s (map (fun x => fst (fst x)) tr)) = map fst tr.
Proof. exact tgt_accepts_sound. Qed.
Print Assumptions C19_tcp_accepts_sound.

(* concrete runs: queued during connection set-up and flushed in order after the CSM exchange;
   failed handshake with two NACKs; a request dispatched in state CSM (libcoap does not look at
   the session state when it dispatches: delivery needs the handshake, not ESTABLISHED); the CSM
   time-out declares the session connected without the peer's CSM *)
Theorem C19_tcp_example_success :
  let '(s', tr) := tgt_steps tgt_ex_ok (tgt_new_session true)
      [TConnect; TConnected true; TFirstTimeout; TSend (tgt_m 1) true; TSend (tgt_m 2) true;
       TRead; TRead; TDispatch 3; TSend (tgt_m 3) true] in
  tt_state s' = TgEstablished /\ tgt_flushed tr = [1; 2] /\ tgt_delayed tr = [1; 2] /\
  tt_delayq s' = [] /\ tg_nonack (tgt_outs tr) = true /\
  In (OTlsTx 3 40) (tgt_outs tr) /\ In (OTlsTx tgt_CSM_ID 40) (tgt_outs tr).
Proof. exact tgt_ex_success. Qed.
Print Assumptions C19_tcp_example_success.
Theorem C19_tcp_example_failure :
  let '(s', tr) := tgt_steps tg_ex_oracle_bad (tgt_new_session true)
      [TConnect; TConnected true; TFirstTimeout; TSend (tgt_m 1) true; TSend (tgt_m 2) true;
       TRead; TSend (tgt_m 3) true] in
  tt_state s' = TgNone /\ tg_nack_ids (tgt_outs tr) = [1; 2] /\ tg_dcon_ids (tgt_outs tr) = [1; 2] /\
  tgt_txok_ids (tgt_outs tr) = [] /\ tt_delayq s' = [] /\ tt_sock s' = false.
Proof. exact tgt_ex_failure. Qed.
Print Assumptions C19_tcp_example_failure.
Theorem C19_tcp_example_deliver_in_csm :
  let '(s', tr) := tgt_steps tgt_ex_ok (tgt_new_session false) [TAccept; TRead; TDispatch 1] in
  tt_state s' = TgCsm /\ In (ODeliver 1 0) (tgt_outs tr).
Proof. exact tgt_ex_deliver_in_csm. Qed.
Print Assumptions C19_tcp_example_deliver_in_csm.
Theorem C19_tcp_example_csm_timeout :
  let '(s', tr) := tgt_steps tgt_ex_ok (tgt_new_session true)
      [TConnect; TConnected true; TRead; TFirstTimeout; TSend (tgt_m 1) true] in
  tt_state s' = TgEstablished /\ In (OTlsTx 1 40) (tgt_outs tr) /\
  ~ In (ODeliver 3 0) (tgt_outs tr).
Proof. exact tgt_ex_csm_timeout. Qed.
Print Assumptions C19_tcp_example_csm_timeout.
