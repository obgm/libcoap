(* Mem/AllocTraceProofs.v - the allocation-trace checker decides balancedness.

   The checker and [at_live] move through the same states; [at_next] is that move, and
   [at_next_some] says what one event does to the counts of every serial.  The theorems are
   inductions over the trace that only look at [at_next]. *)
From LibcoapV Require Import Base.Tactics Mem.AllocTrace.
Local Open Scope Z_scope.

Definition at_in (id : Z) (live : list Z) : Z := if at_mem id live then 1 else 0.

Lemma at_mem_In : forall x l, at_mem x l = true <-> In x l.
Proof.
  induction l as [|y r IH]; cbn [at_mem In].
  - split; [discriminate | tauto].
  - destruct (Z.eqb_spec x y).
    + split; auto.
    + rewrite IH. split; [auto | intros [H|H]; [congruence | exact H]].
Qed.

Lemma at_mem_false : forall x l, at_mem x l = false <-> ~ In x l.
Proof.
  intros. rewrite <- at_mem_In. destruct (at_mem x l); split; congruence.
Qed.

Lemma at_remove_In : forall x y l, In y (at_remove x l) -> In y l.
Proof.
  induction l as [|z r IH]; cbn [at_remove In]; auto.
  destruct (Z.eqb_spec x z); cbn [In]; tauto.
Qed.

Lemma at_remove_NoDup : forall x l, NoDup l -> NoDup (at_remove x l).
Proof.
  induction l as [|z r IH]; cbn [at_remove]; intros H; auto.
  inversion H; subst. destruct (Z.eqb_spec x z); auto.
  constructor; auto. intro Hin. apply at_remove_In in Hin. contradiction.
Qed.

Lemma at_in_remove : forall i id l, NoDup l -> at_mem i l = true ->
  at_in id l = (if i =? id then 1 else 0) + at_in id (at_remove i l).
Proof.
  intros i id. unfold at_in. induction l as [|z r IH]; cbn [at_mem at_remove]; intros ND Hm; [discriminate|].
  inversion ND as [|? ? Hz NDr]; subst. apply at_mem_false in Hz.
  destruct (Z.eqb_spec i z) as [->|Hne].
  - destruct (Z.eqb_spec z id) as [->|]; [rewrite Z.eqb_refl, Hz; reflexivity|].
    destruct (Z.eqb_spec id z); [congruence | reflexivity].
  - cbn [at_mem]. destruct (Z.eqb_spec id z) as [->|]; [|exact (IH NDr Hm)].
    destruct (Z.eqb_spec i z); [contradiction | reflexivity].
Qed.

Lemma at_in_cons : forall i id l,
  at_mem i l = false -> at_in id (i :: l) = (if i =? id then 1 else 0) + at_in id l.
Proof.
  intros i id l Hm. unfold at_in. cbn [at_mem].
  destruct (Z.eqb_spec id i); destruct (Z.eqb_spec i id); try congruence; subst.
  - rewrite Hm. reflexivity.
  - destruct (at_mem id l); reflexivity.
Qed.

Lemma at_in_range : forall id l, 0 <= at_in id l <= 1.
Proof. intros. unfold at_in. destruct (at_mem id l); lia. Qed.

Definition at_inv (live : list Z) (last : Z) : Prop :=
  0 <= last /\ NoDup live /\ Forall (fun i => 0 < i <= last) live.

Lemma at_inv_init : at_inv [] 0.
Proof. repeat split; try lia; constructor. Qed.

Lemma at_inv_fresh : forall live last i, at_inv live last -> last < i -> at_mem i live = false.
Proof.
  intros live last i (_ & _ & HF) Hlt. apply at_mem_false. intro Hin.
  rewrite Forall_forall in HF. apply HF in Hin. lia.
Qed.

Lemma at_inv_alloc : forall live last i, at_inv live last -> last < i -> at_inv (i :: live) i.
Proof.
  intros live last i Hinv Hlt. pose proof (at_inv_fresh _ _ _ Hinv Hlt) as Hf.
  destruct Hinv as (H0 & ND & HF). repeat split; try lia.
  - constructor; auto. apply at_mem_false. exact Hf.
  - constructor; [lia|]. eapply Forall_impl; [|exact HF]. cbn. intros; lia.
Qed.

Lemma at_inv_remove : forall live last i, at_inv live last -> at_inv (at_remove i live) last.
Proof.
  intros live last i (H0 & ND & HF). repeat split; auto.
  - apply at_remove_NoDup; auto.
  - rewrite Forall_forall in *. intros x Hx. apply HF. eapply at_remove_In; eauto.
Qed.

(* the checker state after an event; None where the checker stops with an error verdict *)
Definition at_next (live : list Z) (last : Z) (e : at_ev) : option (list Z * Z) :=
  match e with
  | AtAlloc id _ _ => if id <=? last then None else Some (id :: live, id)
  | AtFree id => if at_mem id live then Some (at_remove id live, last) else None
  | AtRealloc old new _ =>
      if at_mem old live then
        if new <=? last then None else Some (new :: at_remove old live, new)
      else None
  end.

Lemma at_go_cons : forall live last e r,
  at_go live last (e :: r) =
  match at_next live last e with Some (l, n) => at_go l n r | None => at_go live last [e] end.
Proof.
  intros live last [i ty sz | o n sz | i] r; cbn [at_go at_next].
  - destruct (i <=? last); reflexivity.
  - destruct (at_mem o live); [destruct (n <=? last)|]; reflexivity.
  - destruct (at_mem i live); reflexivity.
Qed.

Lemma at_live_go_cons : forall live last e r,
  at_live_go live last (e :: r) =
  match at_next live last e with Some (l, n) => at_live_go l n r | None => None end.
Proof.
  intros live last [i ty sz | o n sz | i] r; cbn [at_live_go at_next].
  - destruct (i <=? last); reflexivity.
  - destruct (at_mem o live); [destruct (n <=? last)|]; reflexivity.
  - destruct (at_mem i live); reflexivity.
Qed.

(* an event the checker accepts: the block it releases is live, the serial it issues is new,
   and the live set changes by exactly what the event allocates and releases *)
Lemma at_next_some : forall live last e l n,
  at_inv live last -> at_next live last e = Some (l, n) ->
  at_inv l n /\
  (forall id, at_in id l = at_in id live + at_al id e - at_fr id e) /\
  (forall id, at_fr id e = 1 -> at_in id live = 1) /\
  (forall r, at_incr last (at_new_ids (e :: r)) <-> at_incr n (at_new_ids r)).
Proof.
  intros live last [i ty sz | o m sz | i] l n Hinv H; cbn [at_next] in H.
  - destruct (Z.leb_spec i last) as [|Hlt]; [discriminate|]. inversion H; subst.
    split; [exact (at_inv_alloc _ _ _ Hinv Hlt)|]. split; [|split].
    + intros id. rewrite (at_in_cons _ _ _ (at_inv_fresh _ _ _ Hinv Hlt)). cbn [at_al at_fr]. lia.
    + intros id Hf. cbn [at_fr] in Hf. lia.
    + intros r. cbn [at_new_ids at_incr]. tauto.
  - destruct (at_mem o live) eqn:Hm; [|discriminate].
    destruct (Z.leb_spec m last) as [|Hlt]; [discriminate|]. inversion H; subst.
    pose proof (at_inv_remove _ _ o Hinv) as Hinv'. destruct Hinv as (_ & ND & _).
    split; [exact (at_inv_alloc _ _ _ Hinv' Hlt)|]. split; [|split].
    + intros id. rewrite (at_in_cons _ _ _ (at_inv_fresh _ _ _ Hinv' Hlt)), (at_in_remove o id live ND Hm).
      cbn [at_al at_fr]. lia.
    + intros id Hf. cbn [at_fr] in Hf. destruct (Z.eqb_spec o id); [subst|lia].
      unfold at_in. rewrite Hm. reflexivity.
    + intros r. cbn [at_new_ids at_incr]. tauto.
  - destruct (at_mem i live) eqn:Hm; [|discriminate]. inversion H; subst.
    split; [exact (at_inv_remove _ _ i Hinv)|]. destruct Hinv as (_ & ND & _). split; [|split].
    + intros id. rewrite (at_in_remove i id live ND Hm). cbn [at_al at_fr]. lia.
    + intros id Hf. cbn [at_fr] in Hf. destruct (Z.eqb_spec i id); [subst|lia].
      unfold at_in. rewrite Hm. reflexivity.
    + intros r. cbn [at_new_ids]. tauto.
Qed.

(* an event the checker stops at: the serial it issues is not new, or the block it releases
   is not live *)
Lemma at_next_none : forall live last e,
  at_next live last e = None ->
  (exists id, at_go live last [e] = AtBadLog id /\ forall r, ~ at_incr last (at_new_ids (e :: r))) \/
  (exists id, at_go live last [e] = at_bad_free id last /\ at_fr id e = 1 /\ at_in id live = 0).
Proof.
  intros live last [i ty sz | o m sz | i] H; cbn [at_next] in H; cbn [at_go at_fr at_new_ids at_incr].
  - destruct (Z.leb_spec i last); [|discriminate]. left. exists i. split; [reflexivity|]. intros r. lia.
  - destruct (at_mem o live) eqn:Hm.
    + destruct (Z.leb_spec m last); [|discriminate]. left. exists m. split; [reflexivity|]. intros r. lia.
    + right. exists o. unfold at_in. rewrite Z.eqb_refl, Hm. auto.
  - destruct (at_mem i live) eqn:Hm; [discriminate|]. right. exists i. unfold at_in.
    rewrite Z.eqb_refl, Hm. auto.
Qed.

Lemma at_bad_free_cases : forall id last,
  at_bad_free id last = AtDoubleFree id \/ at_bad_free id last = AtFreeUnalloc id.
Proof. intros. unfold at_bad_free. destruct ((0 <? id) && (id <=? last)); auto. Qed.

(* quantification over (prefix, event) splits, one event at a time *)
Lemma at_split_cons : forall (Q : list at_ev -> at_ev -> Prop) x r,
  (forall pre e post, x :: r = pre ++ e :: post -> Q pre e) <->
  (Q [] x /\ forall pre e post, r = pre ++ e :: post -> Q (x :: pre) e).
Proof.
  intros Q x r. split.
  - intros H. split.
    + apply (H [] x r). reflexivity.
    + intros pre e post E. apply (H (x :: pre) e post). cbn. rewrite E. reflexivity.
  - intros [H0 H1] pre e post E. destruct pre as [|e' pre].
    + cbn in E. inversion E; subst. exact H0.
    + cbn in E. inversion E; subst. apply (H1 pre e post). reflexivity.
Qed.

(* the specification relative to a checker state *)
Definition at_Q (live : list Z) (pre : list at_ev) (e : at_ev) : Prop :=
  forall id, at_fr id e = 1 -> at_nfree id pre + 1 <= at_nalloc id pre + at_in id live.

Definition at_gspec (live : list Z) (last : Z) (tr : list at_ev) : Prop :=
  at_incr last (at_new_ids tr) /\
  (forall pre e post, tr = pre ++ e :: post -> at_Q live pre e) /\
  (forall id, at_nalloc id tr + at_in id live = at_nfree id tr).

(* one event that keeps the checker going: the specification moves along with the state *)
Lemma at_gspec_step : forall live last live' last' x r,
  (forall id, at_in id live' = at_in id live + at_al id x - at_fr id x) ->
  (forall id, at_fr id x = 1 -> at_in id live = 1) ->
  (at_incr last (at_new_ids (x :: r)) <-> at_incr last' (at_new_ids r)) ->
  (at_gspec live' last' r <-> at_gspec live last (x :: r)).
Proof.
  intros live last live' last' x r Hin Hq0 Hincr. unfold at_gspec.
  rewrite (at_split_cons (at_Q live)). rewrite Hincr. unfold at_Q, at_nfree, at_nalloc. cbn [at_sum].
  split.
  - intros (Hi & Hp & He). repeat split; [exact Hi | | |].
    + intros id Hf. rewrite (Hq0 id Hf). lia.
    + intros pre e post E id Hf. specialize (Hp pre e post E id Hf). rewrite Hin in Hp. lia.
    + intros id. specialize (He id). rewrite Hin in He. lia.
  - intros (Hi & (_ & Hp) & He). repeat split; [exact Hi | |].
    + intros pre e post E id Hf. specialize (Hp pre e post E id Hf). rewrite Hin. lia.
    + intros id. specialize (He id). rewrite Hin. lia.
Qed.

Lemma at_go_spec : forall tr live last,
  at_inv live last -> (at_go live last tr = AtClean <-> at_gspec live last tr).
Proof.
  induction tr as [|e r IH]; intros live last Hinv.
  - cbn [at_go]. unfold at_gspec. cbn [at_new_ids at_incr].
    destruct live as [|x l].
    + split; auto. intros _. split; auto. split.
      * intros pre e post E. destruct pre; discriminate.
      * intros id. cbn. reflexivity.
    + split; [discriminate|]. intros (_ & _ & H). specialize (H x).
      unfold at_nalloc, at_nfree, at_in in H. cbn [at_sum at_mem] in H.
      rewrite Z.eqb_refl in H. lia.
  - rewrite at_go_cons. destruct (at_next live last e) as [[l n]|] eqn:N.
    + destruct (at_next_some _ _ _ _ _ Hinv N) as (Hinv' & Hin & Hlive & Hincr).
      rewrite (IH l n Hinv'). apply at_gspec_step; auto.
    + destruct (at_next_none _ _ _ N) as [(id & -> & Hni) | (id & -> & Hf & Hl)].
      * split; [discriminate|]. intros (Hincr & _). destruct (Hni r Hincr).
      * split; [destruct (at_bad_free_cases id last) as [-> | ->]; discriminate|].
        intros (_ & Hp & _). specialize (Hp [] e r eq_refl id Hf).
        unfold at_nfree, at_nalloc in Hp. cbn [at_sum] in Hp. lia.
Qed.

(* the checker answers AtClean exactly on the balanced traces *)
Theorem at_verdict_clean_iff : forall tr, at_verdict tr = AtClean <-> at_spec tr.
Proof.
  intros tr. unfold at_verdict. rewrite (at_go_spec tr [] 0 at_inv_init).
  unfold at_gspec, at_spec, at_log_wf, at_Q, at_in. cbn [at_mem].
  setoid_rewrite Z.add_0_r. reflexivity.
Qed.

Theorem at_balanced_iff : forall tr, at_balanced tr = true <-> at_spec tr.
Proof.
  intros tr. rewrite <- at_verdict_clean_iff. unfold at_balanced.
  destruct (at_verdict tr); split; congruence.
Qed.

Lemma at_nalloc_count : forall id tr,
  at_nalloc id tr = Z.of_nat (count_occ Z.eq_dec (at_new_ids tr) id).
Proof.
  unfold at_nalloc. induction tr as [|e r IH]; [reflexivity|].
  destruct e as [i ty sz | o i sz | i]; cbn [at_sum at_al at_new_ids count_occ]; rewrite IH;
    [| |lia]; destruct (Z.eq_dec i id); destruct (Z.eqb_spec i id); try contradiction; lia.
Qed.

Lemma at_nfree_nonneg : forall id tr, 0 <= at_nfree id tr.
Proof.
  induction tr as [|e r IH]; unfold at_nfree in *; cbn [at_sum]; [lia|].
  destruct e as [i ty sz | o n sz | i]; cbn [at_fr]; [| destruct (o =? id) | destruct (i =? id)]; lia.
Qed.

Lemma at_incr_lower : forall l last x, at_incr last l -> In x l -> last < x.
Proof.
  induction l as [|y r IH]; cbn [at_incr In]; intros last x H Hin; [tauto|].
  destruct H as [H1 H2]. destruct Hin as [E|Hin]; [lia|].
  specialize (IH y x H2 Hin). lia.
Qed.

Lemma at_incr_nodup : forall l last, at_incr last l -> NoDup l.
Proof.
  induction l as [|y r IH]; intros last H; [constructor|]. destruct H as [H1 H2].
  constructor; [|eauto].
  intro Hin. pose proof (at_incr_lower _ _ _ H2 Hin). lia.
Qed.

Lemma at_nalloc_le1 : forall tr id, at_log_wf tr -> at_nalloc id tr <= 1.
Proof.
  intros tr id H. rewrite at_nalloc_count. apply at_incr_nodup in H.
  pose proof (proj1 (NoDup_count_occ Z.eq_dec _) H id). lia.
Qed.

(* every allocated block is released exactly once *)
Theorem at_clean_freed_once : forall tr id,
  at_verdict tr = AtClean -> In id (at_new_ids tr) -> at_nfree id tr = 1 /\ at_nalloc id tr = 1.
Proof.
  intros tr id H Hin. apply at_verdict_clean_iff in H. destruct H as (Hwf & _ & He).
  pose proof (at_nalloc_le1 tr id Hwf). rewrite <- (He id).
  apply (count_occ_In Z.eq_dec) in Hin. rewrite at_nalloc_count in *. lia.
Qed.

(* nothing is released twice *)
Theorem at_clean_no_double_free : forall tr id, at_verdict tr = AtClean -> at_nfree id tr <= 1.
Proof.
  intros tr id H. apply at_verdict_clean_iff in H. destruct H as (Hwf & _ & He).
  rewrite <- (He id). exact (at_nalloc_le1 tr id Hwf).
Qed.

(* nothing is released that was not allocated before *)
Theorem at_clean_free_after_alloc : forall tr pre e post id,
  at_verdict tr = AtClean -> tr = pre ++ e :: post -> at_fr id e = 1 -> In id (at_new_ids pre).
Proof.
  intros tr pre e post id H E Hfr. apply at_verdict_clean_iff in H. destruct H as (_ & Hp & _).
  specialize (Hp pre e post E id Hfr). pose proof (at_nfree_nonneg id pre) as Hn.
  apply (count_occ_In Z.eq_dec). rewrite at_nalloc_count in Hp. lia.
Qed.

(* the leak verdict lists exactly the blocks still live *)
Lemma at_go_leak : forall tr live last l,
  at_go live last tr = AtLeak l -> at_live_go live last tr = Some l /\ l <> [].
Proof.
  induction tr as [|e r IH]; intros live last l.
  - cbn. destruct live; [discriminate|]. intros H; inversion H; subst. split; [auto|discriminate].
  - rewrite at_go_cons, at_live_go_cons. destruct (at_next live last e) as [[l' n]|] eqn:N; [apply IH|].
    destruct (at_next_none _ _ _ N) as [(id & -> & _) | (id & -> & _)]; [discriminate|].
    destruct (at_bad_free_cases id last) as [-> | ->]; discriminate.
Qed.

Lemma at_live_go_sound : forall tr live last l,
  at_inv live last -> at_live_go live last tr = Some l ->
  forall id, at_in id l = at_nalloc id tr + at_in id live - at_nfree id tr.
Proof.
  induction tr as [|e r IH]; intros live last l Hinv.
  - cbn. intros H id; inversion H; subst. lia.
  - rewrite at_live_go_cons. destruct (at_next live last e) as [[l' n]|] eqn:N; [|discriminate].
    destruct (at_next_some _ _ _ _ _ Hinv N) as (Hinv' & Hin & _). intros H id.
    rewrite (IH _ _ _ Hinv' H id), Hin. unfold at_nalloc, at_nfree. cbn [at_sum]. lia.
Qed.

Theorem at_leak_sound : forall tr l id,
  at_verdict tr = AtLeak l ->
  l <> [] /\ (In id l <-> at_nalloc id tr - at_nfree id tr = 1).
Proof.
  intros tr l id H. unfold at_verdict in H. apply at_go_leak in H. destruct H as [H Hne].
  split; auto.
  pose proof (at_live_go_sound tr [] 0 l at_inv_init H id) as E.
  unfold at_in in E. cbn [at_mem] in E. rewrite <- at_mem_In.
  destruct (at_mem id l); split; intros; try lia; try congruence.
Qed.

(* an error verdict points at a release of something that is not live at that point *)
Lemma at_go_bad_free : forall tr live last id,
  at_inv live last ->
  (at_go live last tr = AtDoubleFree id \/ at_go live last tr = AtFreeUnalloc id) ->
  exists pre e post, tr = pre ++ e :: post /\ at_fr id e = 1 /\
                     at_nalloc id pre + at_in id live - at_nfree id pre = 0.
Proof.
  induction tr as [|e r IH]; intros live last id Hinv H.
  - cbn in H. destruct live; destruct H; discriminate.
  - rewrite at_go_cons in H. destruct (at_next live last e) as [[l n]|] eqn:N.
    + destruct (at_next_some _ _ _ _ _ Hinv N) as (Hinv' & Hin & _).
      destruct (IH _ _ _ Hinv' H) as (pre & e' & post & -> & Hf & Hc).
      exists (e :: pre), e', post. split; [reflexivity|]. split; [exact Hf|].
      rewrite Hin in Hc. unfold at_nalloc, at_nfree in *. cbn [at_sum]. lia.
    + exists [], e, r. destruct (at_next_none _ _ _ N) as [(i & E & _) | (i & E & Hf & Hl)];
        rewrite E in H; [destruct H; discriminate|].
      assert (i = id) as <- by (destruct (at_bad_free_cases i last) as [E'|E']; rewrite E' in H;
                                destruct H as [H|H]; congruence).
      split; [reflexivity|]. split; [exact Hf|]. rewrite Hl. reflexivity.
Qed.

Theorem at_bad_free_sound : forall tr id,
  (at_verdict tr = AtDoubleFree id \/ at_verdict tr = AtFreeUnalloc id) ->
  exists pre e post, tr = pre ++ e :: post /\ at_fr id e = 1 /\
                     at_nalloc id pre = at_nfree id pre.
Proof.
  intros tr id H. destruct (at_go_bad_free tr [] 0 id at_inv_init H) as (pre & e & post & E & Hf & Hc).
  exists pre, e, post. repeat split; auto. unfold at_in in Hc. cbn in Hc. lia.
Qed.

(* non-vacuity: a balanced trace with a realloc chain is accepted, its variants are not *)
Example at_example_clean :
  at_verdict [AtAlloc 1 5 100; AtAlloc 2 3 40; AtRealloc 2 3 80; AtFree 1; AtFree 3] = AtClean.
Proof. reflexivity. Qed.
Example at_example_leak :
  at_verdict [AtAlloc 1 5 100; AtAlloc 2 3 40; AtRealloc 2 3 80; AtFree 1] = AtLeak [3].
Proof. reflexivity. Qed.
Example at_example_double :
  at_verdict [AtAlloc 1 5 100; AtFree 1; AtFree 1] = AtDoubleFree 1.
Proof. reflexivity. Qed.
Example at_example_unalloc :
  at_verdict [AtAlloc 1 5 100; AtFree 0; AtFree 1] = AtFreeUnalloc 0.
Proof. reflexivity. Qed.
Example at_example_stale_realloc :
  at_verdict [AtAlloc 1 5 100; AtRealloc 1 2 10; AtFree 1; AtFree 2] = AtDoubleFree 1.
Proof. reflexivity. Qed.
