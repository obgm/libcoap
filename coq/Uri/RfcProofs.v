(* RFC 3986 5.2.4 remove_dot_segments, transcribed literally on strings (Spec.uri_rfc_rds), equals
   the segment-level resolution uri_rfc_resolve used in the theorems about paths; and where
   libcoap's resolution differs from it. *)
From LibcoapV Require Import Base.Tactics Base.Bytes Uri.Uri Uri.Split Uri.Spec Uri.PathProofs.
Local Open Scope Z_scope.

Lemma uri_ends_in_dot_cons d x t : uri_ends_in_dot (d :: x :: t) = uri_ends_in_dot (x :: t).
Proof.
  unfold uri_ends_in_dot. cbn [rev].
  destruct (rev t ++ [x]) as [|a l] eqn:E; [destruct (rev t); discriminate|reflexivity].
Qed.

(* libcoap's dot resolution against RFC 3986 5.2.4: the same unless the last segment is a dot
   segment, which the RFC replaces by an empty one *)
Lemma uri_rfc_resolve_eq : forall ds stack,
  uri_rfc_resolve ds stack =
  if uri_ends_in_dot ds then [] :: uri_resolve ds stack else uri_resolve ds stack.
Proof.
  induction ds as [|d t IH]; intros stack; [reflexivity|].
  destruct t as [|x t].
  - unfold uri_ends_in_dot. cbn [rev app uri_rfc_resolve uri_resolve].
    destruct (uri_is_dot d); [reflexivity|]. destruct (uri_is_dotdot d); reflexivity.
  - rewrite uri_ends_in_dot_cons. cbn [uri_rfc_resolve uri_resolve].
    destruct (uri_is_dot d); [apply IH|]. destruct (uri_is_dotdot d); apply IH.
Qed.

Definition uri_noslash (s : bytes) : Prop := forall x, In x s -> x <> 47.

Lemma uri_render_app a b : uri_render (a ++ b) = uri_render a ++ uri_render b.
Proof.
  induction a as [|s a IH]; [reflexivity|]. cbn [app uri_render]. rewrite IH, <- app_assoc.
  reflexivity.
Qed.

Lemma uri_render_head t : (t = [] /\ uri_render t = []) \/ (t <> [] /\ exists r, uri_render t = 47 :: r).
Proof. destruct t as [|s t]; [left; auto|right]. split; [discriminate|]. cbn [uri_render]. eauto. Qed.

Lemma uri_noslash_sep s : uri_noslash s -> forall x, In x s -> uri_path_sep x = false.
Proof.
  intros H x Hx. unfold uri_path_sep, uri_c_slash. specialize (H x Hx). lia.
Qed.

(* 2C: dropping the last segment of the output buffer *)
Lemma uri_remove_last_render l s :
  uri_noslash s -> uri_rfc_remove_last (uri_render (l ++ [s])) = uri_render l.
Proof.
  intros Hs. unfold uri_rfc_remove_last. rewrite uri_render_app. cbn [uri_render].
  rewrite app_nil_r, rev_app_distr. cbn [rev]. rewrite <- app_assoc. cbn [app].
  assert (Hr : forall x, In x (rev s) -> uri_path_sep x = false).
  { intros x Hx. apply (uri_noslash_sep s Hs). apply in_rev. exact Hx. }
  destruct (uri_span uri_path_sep (rev s) (47 :: rev (uri_render l)) Hr) as [_ E];
    [right; eauto|].
  rewrite E. cbn [tl]. apply rev_involutive.
Qed.

Lemma uri_remove_last_stack stack :
  Forall uri_noslash stack ->
  uri_rfc_remove_last (uri_render (rev stack)) = uri_render (rev (tl stack)).
Proof.
  intros H. destruct stack as [|s st]; [reflexivity|].
  cbn [rev tl]. inversion H; subst. apply uri_remove_last_render. assumption.
Qed.

(* the last iteration: the input buffer is "/" *)
Lemma uri_rds_slash f o : uri_rfc_rds (S f) [47] o = o ++ [47].
Proof. cbn. destruct f; reflexivity. Qed.

Lemma uri_starts_spec pat : forall i, uri_starts pat i = true -> exists t, i = pat ++ t.
Proof.
  induction pat as [|p pt IH]; intros i H; [exists i; reflexivity|].
  destruct i as [|c r]; [discriminate|]. cbn [uri_starts] in H.
  apply andb_true_iff in H. destruct H as [Hc H]. destruct (IH r H) as [t ->].
  exists t. cbn [app]. f_equal. lia.
Qed.

(* the input buffer s ++ r, with r empty or starting with "/", is the segment p or starts with
   p ++ "/" only if s is p: the span up to the first "/" is unique *)
Lemma uri_seg_is s r p :
  uri_noslash s -> uri_stops_here uri_path_sep r -> uri_noslash p ->
  uri_starts (p ++ [47]) (s ++ r) = true \/ uri_beq (s ++ r) p = true -> s = p.
Proof.
  intros Hs Hr Hp H.
  assert (E : exists q, uri_stops_here uri_path_sep q /\ s ++ r = p ++ q).
  { destruct H as [H|H].
    - apply uri_starts_spec in H. destruct H as [t H]. rewrite <- app_assoc in H.
      exists (47 :: t). split; [right; eauto|exact H].
    - apply uri_beq_eq in H. exists []. split; [left; reflexivity|]. rewrite app_nil_r. exact H. }
  destruct E as [q [Hq E]].
  destruct (uri_span uri_path_sep s r (uri_noslash_sep s Hs) Hr) as [<- _].
  destruct (uri_span uri_path_sep p q (uri_noslash_sep p Hp) Hq) as [<- _].
  rewrite E. reflexivity.
Qed.

(* 2E applies to a segment that is neither "." nor "..", whatever follows *)
Lemma uri_rds_plain f s r o :
  uri_noslash s -> uri_is_dot s = false -> uri_is_dotdot s = false ->
  (r = [] \/ exists r', r = 47 :: r') ->
  uri_rfc_rds (S f) (47 :: s ++ r) o = uri_rfc_rds f r (o ++ 47 :: s).
Proof.
  intros Hs D1 D2 Hr.
  assert (Hst : uri_stops_here uri_path_sep r).
  { destruct Hr as [->|[r' ->]]; [left; reflexivity|right; eauto]. }
  destruct (uri_span uri_path_sep s r (uri_noslash_sep s Hs) Hst) as [E1 E2].
  (* 2B and 2C apply to the segments "." and ".." only; 2A and 2D not to an input that starts
     with "/" *)
  assert (N : forall p, uri_noslash p -> s <> p ->
              uri_starts (p ++ [47]) (s ++ r) = false /\ uri_beq (s ++ r) p = false).
  { intros p Hp Hne. split; apply not_true_is_false; intros H; apply Hne, (uri_seg_is s r p); auto. }
  destruct (N [46]) as [B1 B2]; [intros x [<-|[]]; discriminate|intros ->; discriminate|].
  destruct (N [46; 46]) as [C1 C2]; [intros x [<-|[<-|[]]]; discriminate|intros ->; discriminate|].
  cbn [app uri_rfc_rds uri_starts uri_beq Z.eqb Pos.eqb andb orb] in *.
  rewrite B1, B2, C1, C2, E1, E2. reflexivity.
Qed.

Lemma uri_len_render_cons s t : length (uri_render (s :: t)) = S (length s + length (uri_render t)).
Proof. cbn [uri_render length]. rewrite app_length. reflexivity. Qed.

Theorem uri_rds_segments : forall l stack fuel,
  Forall uri_noslash l -> Forall uri_noslash stack ->
  (length (uri_render l) < fuel)%nat ->
  uri_rfc_rds fuel (uri_render l) (uri_render (rev stack)) =
  uri_render (rev (uri_rfc_resolve l stack)).
Proof.
  induction l as [|s t IH]; intros stack fuel Hl Hst Hf.
  - destruct fuel; reflexivity.
  - inversion Hl as [|? ? Hs Ht]; subst.
    destruct fuel as [|f]; [lia|].
    rewrite uri_len_render_cons in Hf.
    cbn [uri_render uri_rfc_resolve].
    destruct (uri_is_dot s) eqn:D1.
    + (* "." *)
      destruct s as [|a [|? ?]]; try discriminate. cbn in D1. apply Z.eqb_eq in D1. subst a.
      destruct (uri_render_head t) as [[-> Er]|[Hne [r Er]]].
      * cbn [uri_render app]. change (uri_rfc_rds (S f) [47; 46] (uri_render (rev stack)))
          with (uri_rfc_rds f [47] (uri_render (rev stack))).
        destruct f as [|f]; [cbn in Hf; lia|]. rewrite uri_rds_slash.
        cbn [rev]. rewrite uri_render_app. cbn [uri_render]. reflexivity.
      * destruct t as [|s2 t2]; [contradiction|].
        cbn [app]. rewrite Er.
        change (uri_rfc_rds (S f) (47 :: 46 :: 47 :: r) (uri_render (rev stack)))
          with (uri_rfc_rds f (47 :: r) (uri_render (rev stack))).
        rewrite <- Er. apply IH; [exact Ht|exact Hst|]. cbn [length] in Hf. lia.
    + destruct (uri_is_dotdot s) eqn:D2.
      * (* ".." *)
        destruct s as [|a [|b [|? ?]]]; try discriminate. cbn in D2.
        apply andb_true_iff in D2. destruct D2 as [Da Db].
        apply Z.eqb_eq in Da, Db. subst a b.
        destruct (uri_render_head t) as [[-> Er]|[Hne [r Er]]].
        -- cbn [uri_render app].
           change (uri_rfc_rds (S f) [47; 46; 46] (uri_render (rev stack)))
             with (uri_rfc_rds f [47] (uri_rfc_remove_last (uri_render (rev stack)))).
           destruct f as [|f]; [cbn in Hf; lia|]. rewrite uri_rds_slash.
           rewrite (uri_remove_last_stack stack Hst).
           cbn [rev]. rewrite uri_render_app. cbn [uri_render]. reflexivity.
        -- destruct t as [|s2 t2]; [contradiction|].
           cbn [app]. rewrite Er.
           change (uri_rfc_rds (S f) (47 :: 46 :: 46 :: 47 :: r) (uri_render (rev stack)))
             with (uri_rfc_rds f (47 :: r) (uri_rfc_remove_last (uri_render (rev stack)))).
           rewrite <- Er. rewrite (uri_remove_last_stack stack Hst).
           apply IH; [exact Ht| |cbn [length] in Hf; lia].
           destruct stack; [constructor|inversion Hst; assumption].
      * (* an ordinary segment *)
        assert (Hr : uri_render t = [] \/ exists r', uri_render t = 47 :: r').
        { destruct (uri_render_head t) as [[_ E]|[_ [r E]]]; [left; exact E|right; eauto]. }
        rewrite (uri_rds_plain f s (uri_render t) _ Hs D1 D2 Hr).
        assert (Eo : uri_render (rev stack) ++ 47 :: s = uri_render (rev (s :: stack))).
        { cbn [rev]. rewrite uri_render_app. cbn [uri_render]. rewrite app_nil_r. reflexivity. }
        rewrite Eo.
        destruct t as [|s2 t2].
        -- cbn [uri_render]. destruct f; reflexivity.
        -- apply IH; [exact Ht|constructor; assumption|lia].
Qed.

Theorem uri_rfc_remove_dot_segments_spec l :
  Forall uri_noslash l ->
  uri_rfc_remove_dot_segments (uri_render l) = uri_render (rev (uri_rfc_resolve l [])).
Proof.
  intros Hl. unfold uri_rfc_remove_dot_segments.
  apply (uri_rds_segments l [] _ Hl (Forall_nil _)). lia.
Qed.

Lemma uri_split_on_noslash s : Forall uri_noslash (uri_split_on uri_path_sep s).
Proof.
  induction s as [|c r IH]; [constructor; [intros x []|constructor]|].
  cbn [uri_split_on]. destruct (uri_path_sep c) eqn:E.
  - constructor; [intros x []|exact IH].
  - destruct (uri_split_on uri_path_sep r) as [|h t]; [constructor; [|constructor]|].
    + intros x [<-|[]]. unfold uri_path_sep, uri_c_slash in E. lia.
    + inversion IH; subst. constructor; [|assumption].
      intros x [<-|Hx]; [unfold uri_path_sep, uri_c_slash in E; lia|auto].
Qed.

Lemma uri_render_split s : uri_render (uri_split_on uri_path_sep s) = 47 :: s.
Proof.
  induction s as [|c r IH]; [reflexivity|]. cbn [uri_split_on].
  destruct (uri_path_sep c) eqn:E.
  - cbn [uri_render app]. rewrite IH. unfold uri_path_sep, uri_c_slash in E.
    apply Z.eqb_eq in E. subst c. reflexivity.
  - destruct (uri_split_on uri_path_sep r) as [|h t] eqn:Es.
    + cbn in IH. discriminate IH.
    + cbn [uri_render app] in *. injection IH as IH. rewrite IH. reflexivity.
Qed.

(* for any path text (no '?', '#' handling here: the path component itself): running the RFC
   algorithm on "/" ++ path gives the rendering of the RFC-resolved raw segments *)
Theorem uri_rfc_remove_dot_segments_path p :
  uri_rfc_remove_dot_segments (47 :: p) =
  uri_render (rev (uri_rfc_resolve (uri_split_on uri_path_sep p) [])).
Proof.
  rewrite <- (uri_render_split p). apply uri_rfc_remove_dot_segments_spec.
  apply uri_split_on_noslash.
Qed.
