(* What coap_split_path / coap_split_query leave in the buffer reads back, with the option parser
   of Wire/OptCodec.v (coap_opt_parse), as exactly the list of values - so the buffer determines
   the options. *)
From LibcoapV Require Import Base.Tactics Base.Bytes Base.BytesProofs Wire.OptCodec Wire.OptCodecProofs
  Uri.Uri Uri.Spec Uri.SegProofs Uri.PathProofs.
Local Open Scope Z_scope.

Lemma uri_opt_enc0_head v : exists b r, opt_enc 0 v = b :: r /\ 0 <= b <= 14.
Proof.
  unfold opt_enc, opt_hdr. cbn [app].
  eexists. eexists. split; [reflexivity|].
  pose proof (ext_nib_range (len v) (len_nonneg v)). unfold ext_nib at 1. cbn. lia.
Qed.

Theorem uri_buffer_parses : forall l fuel,
  Forall (fun v => len v <= 65804) l -> (length l <= fuel)%nat ->
  opts_parse fuel 0 (concat (uri_encs l)) = Some (map (fun v => (0, v)) l, []).
Proof.
  induction l as [|v l IH]; intros fuel Hl Hf.
  - destruct fuel; reflexivity.
  - inversion Hl as [|? ? Hv Hl']; subst. cbn [uri_encs map concat].
    destruct (uri_opt_enc0_head v) as [b [r [Eb Hb]]].
    destruct fuel as [|fuel]; [cbn [length] in Hf; lia|].
    unfold opts_parse; fold opts_parse. rewrite Eb. cbn [app].
    unfold PAYLOAD_START. destruct (b =? 255) eqn:E; [lia|].
    change (b :: r ++ concat (map (opt_enc 0) l)) with ((b :: r) ++ concat (map (opt_enc 0) l)).
    rewrite <- Eb. rewrite opt_parse_enc by lia.
    unfold MAX_OPT. cbn [Z.add Z.leb Z.compare].
    fold (uri_encs l). rewrite (IH fuel Hl' ltac:(cbn [length] in Hf; lia)). reflexivity.
Qed.

Corollary uri_buffer_injective l1 l2 :
  Forall (fun v => len v <= 65804) l1 -> Forall (fun v => len v <= 65804) l2 ->
  concat (uri_encs l1) = concat (uri_encs l2) -> l1 = l2.
Proof.
  intros H1 H2 E.
  pose proof (uri_buffer_parses l1 (length l1 + length l2) H1 ltac:(lia)) as P1.
  pose proof (uri_buffer_parses l2 (length l1 + length l2) H2 ltac:(lia)) as P2.
  rewrite E, P2 in P1. injection P1 as P. apply (f_equal (map snd)) in P.
  rewrite !map_map, !map_id in P. symmetry. exact P.
Qed.

Lemma uri_sumlen_concat l : uri_sumlen l = len (concat l).
Proof.
  induction l as [|x l IH]; [reflexivity|]. cbn [uri_sumlen concat]. rewrite len_app, IH.
  reflexivity.
Qed.

(* every result of the buffer functions - any input, any buffer size - is a list of values that
   the option parser reads back from the bytes written *)
Lemma uri_buf_safe_parses dotcheck raws buflen r :
  uri_buf_safe dotcheck raws buflen r ->
  exists vals used,
    r = UOk (uri_encs vals, used) /\ 0 <= used <= buflen /\
    used = len (concat (uri_encs vals)) /\
    (dotcheck = true -> Forall (fun v => uri_kind v = 0) vals) /\
    opts_parse (S (length vals)) 0 (concat (uri_encs vals)) = Some (map (fun v => (0, v)) vals, []).
Proof.
  intros [opts [used [-> [Hu [-> Hg]]]]].
  assert (V : exists vals, opts = uri_encs vals /\ Forall (fun v => len v <= 65804) vals /\
                           (dotcheck = true -> Forall (fun v => uri_kind v = 0) vals)).
  { clear Hu. induction Hg as [|o opts Ho _ IH]; [exists []; repeat split; constructor|].
    destruct Ho as [seg [d [_ [_ [Hd [Hkd ->]]]]]]. destruct IH as [vals [-> [Hl Hk]]].
    exists (d :: vals). repeat split; [constructor; assumption|]. intros Hc. constructor; auto. }
  destruct V as [vals [-> [Hl Hk]]]. exists vals, (uri_sumlen (uri_encs vals)).
  split; [reflexivity|]. split; [exact Hu|]. split; [apply uri_sumlen_concat|]. split; [exact Hk|].
  apply uri_buffer_parses; [exact Hl|apply Nat.le_succ_diag_r].
Qed.

Theorem uri_split_path_parses s buflen :
  0 <= buflen ->
  exists vals used,
    uri_split_path s buflen = UOk (uri_encs vals, used) /\ 0 <= used <= buflen /\
    used = len (concat (uri_encs vals)) /\
    Forall (fun v => uri_kind v = 0) vals /\
    opts_parse (S (length vals)) 0 (concat (uri_encs vals)) = Some (map (fun v => (0, v)) vals, []).
Proof.
  intros Hb.
  destruct (uri_buf_safe_parses _ _ _ _ (uri_split_path_safe s buflen Hb))
    as [vals [used [E [Hu [Hl [Hk P]]]]]].
  exists vals, used. auto using (Hk eq_refl).
Qed.

Theorem uri_split_query_parses s buflen :
  0 <= buflen ->
  exists vals used,
    uri_split_query s buflen = UOk (uri_encs vals, used) /\ 0 <= used <= buflen /\
    used = len (concat (uri_encs vals)) /\
    opts_parse (S (length vals)) 0 (concat (uri_encs vals)) = Some (map (fun v => (0, v)) vals, []).
Proof.
  intros Hb.
  destruct (uri_buf_safe_parses _ _ _ _ (uri_split_query_safe s buflen Hb))
    as [vals [used [E [Hu [Hl [_ P]]]]]].
  exists vals, used. auto.
Qed.
