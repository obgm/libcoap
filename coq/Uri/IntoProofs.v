(* coap_uri_into_optlist = Uri-Host/Uri-Port decision ++ specified Uri-Path ++ specified Uri-Query,
   appended to whatever was in the chain. *)
From LibcoapV Require Import Base.Tactics Base.Bytes Base.BytesProofs Wire.OptCodec Uri.Uri Uri.Split
  Uri.Spec Uri.DotsProofs Uri.SegProofs Uri.PathProofs Uri.SplitProofs Uri.Into.
Local Open Scope Z_scope.

(* coap_host_is_unix_domain reads only the host->length bytes of the host, for every host *)
Lemma uri_host_is_unix_chk_ok h : uri_host_is_unix_chk uri_UNIX_K h = UOk (uri_host_is_unix h).
Proof.
  unfold uri_host_is_unix_chk, uri_host_is_unix, uri_UNIX_K.
  rewrite uri_is_unix_host_reads. cbn [uri_bind].
  destruct (uri_is_unix_host h); [reflexivity|].
  destruct h as [|c r]; [reflexivity|].
  replace (1 <=? len (c :: r)) with true by (rewrite len_cons; pose proof (len_nonneg r); lia).
  reflexivity.
Qed.

(* with the guard constant 2 the host "%2" is read one byte past its end *)
Lemma uri_host_is_unix_k2_overreads : uri_host_is_unix_chk 2 [37; 50] = UOob.
Proof. reflexivity. Qed.

(* the Uri-Path and the Uri-Query step of coap_uri_into_optlist: nothing for an empty component *)
Definition uri_path_part (p : bytes) (chain : list opt) : uri_res (list opt) :=
  if 0 <? len p then uri_path_into_optlist p 11 chain else UOk chain.
Definition uri_query_part (q : bytes) (chain : list opt) : uri_res (list opt) :=
  if 0 <? len q then uri_query_into_optlist q 15 chain else UOk chain.

Lemma uri_into_optlist_unfold u dst create chain :
  uri_into_optlist u dst create chain =
  ulet c1 <- uri_path_part (up_path u) (chain ++ uri_hostport_opts u dst create) ;;
  uri_query_part (up_query u) c1.
Proof.
  unfold uri_into_optlist, uri_into_optlist_k, uri_hostport_opts.
  destruct create; [rewrite uri_host_is_unix_chk_ok|]; reflexivity.
Qed.

Lemma uri_path_part_spec p chain po :
  uri_spec_path_opts p = Some po -> uri_path_part p chain = UOk (chain ++ uri_tag 11 po).
Proof.
  unfold uri_path_part. rewrite uri_if_len. destruct p; [|apply uri_path_into_optlist_spec].
  intros [= <-]. cbn [uri_tag map]. rewrite app_nil_r. reflexivity.
Qed.

Lemma uri_query_part_spec q chain qo :
  uri_spec_query_opts q = Some qo -> uri_query_part q chain = UOk (chain ++ uri_tag 15 qo).
Proof.
  unfold uri_query_part. rewrite uri_if_len. destruct q; [|apply uri_query_into_optlist_spec].
  intros [= <-]. cbn [uri_tag map]. rewrite app_nil_r. reflexivity.
Qed.

Lemma uri_path_part_safe p chain :
  exists pa, uri_path_part p chain = UOk (chain ++ uri_tag 11 pa) /\
             Forall (fun v => uri_kind v = 0) pa.
Proof.
  unfold uri_path_part. rewrite uri_if_len. destruct p; [|apply uri_path_into_optlist_safe].
  exists []. split; [|constructor]. cbn [uri_tag map]. rewrite app_nil_r. reflexivity.
Qed.

Lemma uri_query_part_safe q chain :
  exists qa, uri_query_part q chain = UOk (chain ++ uri_tag 15 qa).
Proof.
  unfold uri_query_part. rewrite uri_if_len. destruct q; [|apply uri_query_into_optlist_safe].
  exists []. cbn [uri_tag map]. rewrite app_nil_r. reflexivity.
Qed.

Theorem uri_into_optlist_spec u dst create chain po qo :
  uri_spec_path_opts (up_path u) = Some po -> uri_spec_query_opts (up_query u) = Some qo ->
  uri_into_optlist u dst create chain =
  UOk (chain ++ uri_hostport_opts u dst create ++ uri_tag 11 po ++ uri_tag 15 qo).
Proof.
  intros Hp Hq. rewrite uri_into_optlist_unfold, (uri_path_part_spec _ _ po Hp). cbn [uri_bind].
  rewrite (uri_query_part_spec _ _ qo Hq), <- !app_assoc. reflexivity.
Qed.

(* every split URI, malformed escapes included: no overread, the chain and the host/port
   decision stay, Uri-Path values are never "." or ".." *)
Theorem uri_into_optlist_safe u dst create chain :
  exists pa qa,
    uri_into_optlist u dst create chain =
    UOk (chain ++ uri_hostport_opts u dst create ++ uri_tag 11 pa ++ uri_tag 15 qa) /\
    Forall (fun v => uri_kind v = 0) pa.
Proof.
  rewrite uri_into_optlist_unfold. set (c0 := chain ++ uri_hostport_opts u dst create).
  destruct (uri_path_part_safe (up_path u) c0) as [pa [-> Hpa]]. cbn [uri_bind].
  destruct (uri_query_part_safe (up_query u) (c0 ++ uri_tag 11 pa)) as [qa ->].
  exists pa, qa. unfold c0. rewrite <- !app_assoc. auto.
Qed.

(* default ports: a URI without port gets no Uri-Port option, whatever the scheme *)
Lemma uri_default_port_no_option name dport ponly sch :
  In (name, dport, ponly, sch) uri_schemes -> uri_scheme_default_port sch = dport.
Proof.
  unfold uri_schemes. cbn [In].
  intros [E|[E|[E|[E|[E|[E|[E|[E|[]]]]]]]]]; injection E as <- <- <- <-; reflexivity.
Qed.

(* end to end: a string of the URI grammar goes through coap_split_uri and coap_uri_into_optlist
   to exactly the options RFC 7252 6.4 prescribes *)
Definition uri_to_options (caps : uri_caps) (s : bytes) (dst : option bytes) (create : bool)
           (chain : list opt) : uri_res (option (list opt)) :=
  ulet r <- uri_split caps false s ;;
  match r with
  | USplit u => ulet c <- uri_into_optlist u dst create chain ;; UOk (Some c)
  | UErr _ => UOk None
  end.

Theorem uri_to_options_spec caps s u dst create chain po qo :
  uri_grammar caps false s u ->
  uri_spec_path_opts (up_path u) = Some po -> uri_spec_query_opts (up_query u) = Some qo ->
  uri_to_options caps s dst create chain =
  UOk (Some (chain ++ uri_hostport_opts u dst create ++ uri_tag 11 po ++ uri_tag 15 qo)).
Proof.
  intros G Hp Hq. unfold uri_to_options.
  apply uri_split_iff_grammar in G. rewrite G. cbn [uri_bind].
  rewrite (uri_into_optlist_spec u dst create chain po qo Hp Hq). reflexivity.
Qed.

Theorem uri_to_options_reject caps s dst create chain :
  (forall u, ~ uri_grammar caps false s u) -> uri_to_options caps s dst create chain = UOk None.
Proof.
  intros N. unfold uri_to_options. rewrite uri_split_is_pure. cbn [uri_bind].
  destruct (uri_split_pure caps false s) as [u|rc] eqn:E; [|reflexivity].
  exfalso. apply (N u). apply uri_split_pure_iff. exact E.
Qed.

(* coap_address_set_unix_domain reads only the host_len bytes of the host and decodes exactly the
   complete "%2F" escapes *)
Lemma uri_unix_decode_ok : forall h rest,
  uri_unix_decode 3 (h ++ rest) (len h) = UOk (uri_unix_pure h).
Proof.
  induction h as [h IH] using uri_len_ind. intros rest.
  destruct h as [|c h1]; [destruct rest; reflexivity|].
  cbn [app uri_unix_decode]. rewrite uri_len_cons_nz, uri_len_cons_pred.
  (* the guarded reads answer whether a complete "%2F" starts here *)
  set (b := match h1 with
            | c1 :: c2 :: _ => (c =? 37) && (c1 =? 50) && ((c2 =? 70) || (c2 =? 102))
            | _ => false
            end).
  assert (E : (if (3 <=? len (c :: h1)) && (c =? 37) then
                 ulet c1 <- uri_rd (h1 ++ rest) 0 ;;
                 if c1 =? 50 then ulet c2 <- uri_rd (h1 ++ rest) 1 ;; UOk ((c2 =? 70) || (c2 =? 102))
                 else UOk false
               else UOk false) = UOk b).
  { destruct h1 as [|c1 [|c2 r2]]; [reflexivity..|].
    replace (3 <=? len (c :: c1 :: c2 :: r2)) with true
      by (rewrite !len_cons; pose proof (len_nonneg r2); lia).
    subst b. cbn [andb app uri_rd nth_error uri_bind].
    destruct (c =? 37); [|reflexivity]. destruct (c1 =? 50); reflexivity. }
  rewrite E. cbn [uri_bind]. destruct b eqn:Eb; subst b.
  - destruct h1 as [|c1 [|c2 r2]]; try discriminate. cbn [app].
    replace (len (c :: c1 :: c2 :: r2) - 3) with (len r2) by (rewrite !len_cons; lia).
    rewrite IH by (cbn [length]; lia). cbn [uri_unix_pure]. rewrite Eb. reflexivity.
  - rewrite IH by (cbn [length]; lia). cbn [uri_bind].
    destruct h1 as [|c1 [|c2 r2]]; cbn [uri_unix_pure]; rewrite ?Eb; reflexivity.
Qed.

Theorem uri_unix_path_ok pmax host :
  uri_unix_path pmax host =
  UOk (uri_upto (fun c => c =? 0) (take (pmax - 1) (uri_unix_pure host))).
Proof.
  unfold uri_unix_path, uri_unix_path_k.
  rewrite <- (app_nil_r host) at 1. rewrite uri_unix_decode_ok. reflexivity.
Qed.
