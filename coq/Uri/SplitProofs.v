(* coap_split_uri: the checked scanner never reads outside its input and accepts exactly the
   strings of the grammar in Spec.v, returning their parts.
   Route: checked scanner = UOk (pure scanner)   [span lemmas; gives "no overread"]
          pure scanner accepts  <->  grammar     [stage by stage: the decomposition is unique] *)
From LibcoapV Require Import Base.Tactics Base.Bytes Base.BytesProofs Uri.Uri Uri.Split Uri.Spec
  Uri.DotsProofs Uri.PathProofs.
Local Open Scope Z_scope.

Lemma uri_if_len {A B} (l : list A) (x y : B) :
  (if 0 <? len l then x else y) = match l with [] => y | _ :: _ => x end.
Proof.
  destruct l; [reflexivity|]. rewrite len_cons. pose proof (len_nonneg l).
  destruct (0 <? 1 + len l) eqn:E; [reflexivity|lia].
Qed.

Lemma uri_scan_spec stop : forall q k,
  uri_scan stop q (len q) k =
  UOk (uri_after stop q, len (uri_after stop q), k + len (uri_upto stop q)).
Proof.
  induction q as [|c q IH]; intros k.
  - cbn. f_equal. f_equal. lia.
  - cbn [uri_scan uri_after uri_upto]. rewrite uri_len_cons_nz.
    destruct (stop c).
    + rewrite len_nil, Z.add_0_r. reflexivity.
    + rewrite uri_len_cons_pred, IH, len_cons. f_equal. f_equal. lia.
Qed.

Lemma uri_scan_whole stop q :
  uri_scan stop q (len q) 0 =
  UOk (uri_after stop q, len (uri_after stop q), len (uri_upto stop q)).
Proof. apply uri_scan_spec. Qed.

Lemma uri_copy_all q : uri_copy q (len q) = UOk q.
Proof. rewrite <- (app_nil_r q) at 1. apply uri_copy_ok. Qed.

Lemma uri_copy_upto stop p : uri_copy p (len (uri_upto stop p)) = UOk (uri_upto stop p).
Proof. rewrite <- (uri_upto_after stop p) at 1. apply uri_copy_ok. Qed.

Lemma uri_none_of_1 a s : uri_none_of [a] s <-> (forall x, In x s -> (x =? a) = false).
Proof.
  unfold uri_none_of, uri_in. cbn [existsb].
  split; intros H x Hx; specialize (H x Hx); destruct (x =? a); auto.
Qed.

(* coap_split_uri_sub from the label "path:" on: [ "/" path ] [ "?" query ] *)
Definition uri_is_qm (c : Z) : bool := c =? 63.

Definition uri_tail_pure (q : bytes) : option (bytes * bytes) :=
  match q with
  | [] => Some ([], [])
  | c :: p =>
      if c =? 47 then Some (uri_upto uri_is_qm p, tl (uri_after uri_is_qm p))
      else if c =? 63 then Some ([], p)
      else None
  end.

Definition uri_tail_res (t : option (bytes * bytes)) (sch : Z) (host : bytes) (port : Z)
  : uri_sres :=
  match t with
  | Some (path, query) =>
      USplit {| up_scheme := sch; up_host := host; up_port := port; up_path := path;
                up_query := query |}
  | None => UErr (-1)
  end.

Lemma uri_split_tail_ok q sch host port :
  uri_split_tail q (len q) sch host port = UOk (uri_tail_res (uri_tail_pure q) sch host port).
Proof.
  unfold uri_split_tail, uri_tail_pure.
  destruct q as [|c p]; [reflexivity|].
  rewrite uri_len_cons_nz, uri_len_cons_pred. cbn [uri_rd nth_error uri_bind tl].
  destruct (c =? 47).
  - change (fun c0 : Z => c0 =? 63) with uri_is_qm.
    rewrite uri_scan_whole. cbn [uri_bind]. rewrite uri_copy_upto. cbn [uri_bind].
    destruct (uri_after_stops uri_is_qm p) as [Ea|[c2 [r [Ea Hc]]]]; rewrite Ea; [reflexivity|].
    rewrite uri_len_cons_nz, uri_len_cons_pred. cbn [uri_rd nth_error uri_bind tl].
    unfold uri_is_qm in Hc. rewrite Hc, uri_copy_all. reflexivity.
  - cbn [uri_bind uri_rd nth_error tl]. rewrite uri_len_cons_nz, uri_len_cons_pred.
    destruct (c =? 63); [|reflexivity]. rewrite uri_copy_all. reflexivity.
Qed.

Lemma uri_tail_pure_iff q path query :
  uri_tail_pure q = Some (path, query) <->
  exists pt qt, q = pt ++ qt /\ uri_g_path pt path /\ uri_g_query qt query.
Proof.
  split.
  - unfold uri_tail_pure. destruct q as [|c p].
    + intros [= <- <-]. exists [], []. repeat split; constructor.
    + destruct (c =? 47) eqn:E47.
      * apply Z.eqb_eq in E47. subst c. intros [= <- <-].
        exists (47 :: uri_upto uri_is_qm p), (uri_after uri_is_qm p).
        split; [cbn [app]; rewrite uri_upto_after; reflexivity|]. split.
        -- constructor. apply uri_none_of_1. apply (uri_upto_nostop uri_is_qm).
        -- destruct (uri_after_stops uri_is_qm p) as [->|[c2 [r [-> Hc]]]]; [constructor|].
           apply Z.eqb_eq in Hc. subst c2. constructor.
      * destruct (c =? 63) eqn:E63; [|discriminate]. apply Z.eqb_eq in E63. subst c.
        intros [= <- <-]. exists [], (63 :: p). repeat split; constructor.
  - intros [pt [qt [-> [Hp Hq]]]]. destruct Hp as [|p Hn].
    + destruct Hq; reflexivity.
    + rewrite uri_none_of_1 in Hn. cbn [app uri_tail_pure Z.eqb Pos.eqb].
      destruct (uri_span uri_is_qm p qt Hn) as [-> ->]; [|destruct Hq; reflexivity].
      destruct Hq; [left; reflexivity|right; eauto].
Qed.

(* what follows the authority is empty or starts with '/' or '?' *)
Definition uri_is_tail_start (c : Z) : bool := (c =? 47) || (c =? 63).

Lemma uri_tail_stops pt path qt query :
  uri_g_path pt path -> uri_g_query qt query -> uri_stops_here uri_is_tail_start (pt ++ qt).
Proof.
  intros [|p Hn] [|q]; cbn [app]; [left; reflexivity|right..]; eauto.
Qed.

Lemma uri_stops_here_weaken (stop stop' : Z -> bool) q :
  (forall c, stop c = true -> stop' c = true) -> uri_stops_here stop q -> uri_stops_here stop' q.
Proof. intros H [->|[c [r [-> Hc]]]]; [left; reflexivity|right; eauto]. Qed.

(* the port: [ ":" *DIGIT ] *)
Definition uri_notdigit (c : Z) : bool := negb (uri_isdigit c).

(* inl (port, what follows) / inr (error code) *)
Definition uri_port_pure (q : bytes) (port0 : Z) (unix : bool) : (Z * bytes) + Z :=
  match q with
  | c :: p =>
      if c =? 58 then
        if unix then inr (-5) else
        match uri_upto uri_notdigit p with
        | [] => inl (port0, uri_after uri_notdigit p)
        | _ :: _ =>
            let v := uri_port_acc (uri_upto uri_notdigit p) 0 in
            if 65535 <? v then inr (-4) else inl (v, uri_after uri_notdigit p)
        end
      else inl (port0, q)
  | [] => inl (port0, q)
  end.

Definition uri_port_res (r : (Z * bytes) + Z) (sch : Z) (host : bytes) : uri_sres :=
  match r with
  | inl (port, q) => uri_tail_res (uri_tail_pure q) sch host port
  | inr rc => UErr rc
  end.

Lemma uri_port_stage_ok q sch host port0 unix :
  uri_port_stage q (len q) sch host port0 unix =
  UOk (uri_port_res (uri_port_pure q port0 unix) sch host).
Proof.
  unfold uri_port_stage, uri_port_pure.
  destruct q as [|c p]; [apply (uri_split_tail_ok [])|].
  rewrite uri_len_cons_nz. cbn [uri_rd nth_error uri_bind tl].
  destruct (c =? 58); [|apply uri_split_tail_ok].
  destruct unix; [reflexivity|].
  change (fun c0 : Z => negb (uri_isdigit c0)) with uri_notdigit.
  rewrite uri_len_cons_pred, uri_scan_whole. cbn [uri_bind]. rewrite uri_if_len, uri_copy_upto.
  destruct (uri_upto uri_notdigit p) as [|d ds]; [apply uri_split_tail_ok|].
  cbn [uri_bind]. cbv zeta.
  destruct (65535 <? uri_port_acc (d :: ds) 0); [reflexivity|]. apply uri_split_tail_ok.
Qed.

Lemma uri_decimal_acc_ge : forall ds acc,
  uri_all_digits ds -> 0 <= acc -> acc <= uri_decimal_acc ds acc.
Proof.
  induction ds as [|d r IH]; intros acc Hd Ha; cbn [uri_decimal_acc]; [lia|].
  assert (Hdd : uri_isdigit d = true) by (apply Hd; left; reflexivity).
  unfold uri_isdigit in Hdd.
  specialize (IH (acc * 10 + (d - 48)) (fun c Hc => Hd c (or_intror Hc)) ltac:(lia)). lia.
Qed.

(* the loop that stops accumulating above UINT16_MAX agrees with the decimal value as soon as
   either of them is a port number *)
Lemma uri_port_acc_spec : forall ds acc,
  uri_all_digits ds -> 0 <= acc ->
  uri_port_acc ds acc <= 65535 \/ uri_decimal_acc ds acc <= 65535 ->
  uri_port_acc ds acc = uri_decimal_acc ds acc.
Proof.
  induction ds as [|d r IH]; intros acc Hd Ha; cbn [uri_decimal_acc uri_port_acc]; [reflexivity|].
  assert (Hdd : uri_isdigit d = true) by (apply Hd; left; reflexivity).
  unfold uri_isdigit in Hdd.
  assert (Hr : uri_all_digits r) by (intros c Hc; apply Hd; right; exact Hc).
  destruct (acc <=? 65535) eqn:E.
  - apply IH; [exact Hr|lia].
  - pose proof (uri_decimal_acc_ge r (acc * 10 + (d - 48)) Hr ltac:(lia)). lia.
Qed.

Lemma uri_upto_notdigit_digits p : uri_all_digits (uri_upto uri_notdigit p).
Proof.
  intros c Hc. apply uri_upto_nostop in Hc. unfold uri_notdigit in Hc.
  destruct (uri_isdigit c); [reflexivity|discriminate].
Qed.

Lemma uri_port_pure_sound q port0 unix port r :
  uri_port_pure q port0 unix = inl (port, r) ->
  exists pot, q = pot ++ r /\ uri_g_port pot port0 port /\ (unix = true -> pot = []).
Proof.
  assert (Hnone : @inl _ Z (port0, q) = inl (port, r) ->
                  exists pot, q = pot ++ r /\ uri_g_port pot port0 port /\ (unix = true -> pot = [])).
  { intros [= <- <-]. exists []. repeat split. constructor. }
  unfold uri_port_pure. destruct q as [|c p]; [exact Hnone|].
  destruct (c =? 58) eqn:E58; [|exact Hnone].
  apply Z.eqb_eq in E58. subst c. destruct unix; [discriminate|].
  pose proof (uri_upto_after uri_notdigit p) as Hs.
  pose proof (uri_upto_notdigit_digits p) as Hd.
  destruct (uri_upto uri_notdigit p) as [|d ds].
  - intros [= <- <-]. exists [58]. rewrite <- Hs at 1. repeat split; [constructor|discriminate].
  - cbv zeta. destruct (65535 <? uri_port_acc (d :: ds) 0) eqn:Ev; [discriminate|].
    rewrite (uri_port_acc_spec (d :: ds) 0 Hd) in * by lia.
    intros [= <- <-]. exists (58 :: d :: ds). rewrite <- Hs at 1.
    split; [reflexivity|]. split; [|discriminate].
    apply UGP_num; [discriminate|exact Hd|unfold uri_decimal; lia].
Qed.

Lemma uri_port_pure_complete pot port0 port unix r :
  uri_g_port pot port0 port -> (unix = true -> pot = []) ->
  uri_stops_here uri_is_tail_start r ->
  uri_port_pure (pot ++ r) port0 unix = inl (port, r).
Proof.
  intros Hpo Hu Hr. unfold uri_port_pure.
  assert (Hstop : uri_stops_here uri_notdigit r).
  { revert Hr. apply uri_stops_here_weaken. unfold uri_is_tail_start, uri_notdigit, uri_isdigit.
    intros c Hc. lia. }
  destruct Hpo as [dflt|dflt|ds dflt Hne Hd Hle]; cbn [app Z.eqb Pos.eqb].
  - destruct Hr as [->|[c [r' [-> Hc]]]]; [reflexivity|].
    replace (c =? 58) with false by (unfold uri_is_tail_start in Hc; lia). reflexivity.
  - destruct unix; [specialize (Hu eq_refl); discriminate|].
    destruct (uri_span uri_notdigit [] r ltac:(intros x []) Hstop) as [E1 E2].
    cbn [app] in E1, E2. rewrite E1, E2. reflexivity.
  - destruct unix; [specialize (Hu eq_refl); discriminate|].
    assert (Hnd : forall x, In x ds -> uri_notdigit x = false).
    { intros x Hx. unfold uri_notdigit. rewrite (Hd x Hx). reflexivity. }
    destruct (uri_span uri_notdigit ds r Hnd Hstop) as [-> ->].
    destruct ds as [|d ds]; [contradiction|]. cbv zeta. unfold uri_decimal in *.
    rewrite (uri_port_acc_spec (d :: ds) 0 Hd) by lia.
    replace (65535 <? uri_decimal_acc (d :: ds) 0) with false by lia. reflexivity.
Qed.

Definition uri_is_rbr (c : Z) : bool := c =? 93.

(* inl (what follows, host, is a Unix-domain name) / inr (error code) *)
Definition uri_host_pure (p : bytes) : (bytes * bytes * bool) + Z :=
  match p with
  | [] => inr (-3)
  | c :: p' =>
      if c =? 91 then
        match uri_after uri_is_rbr p', uri_upto uri_is_rbr p' with
        | _ :: q, _ :: _ => inl (q, uri_upto uri_is_rbr p', false)
        | _, _ => inr (-3)
        end
      else
        match uri_upto uri_is_host_end p with
        | [] => inr (-3)
        | _ :: _ => inl (uri_after uri_is_host_end p, uri_upto uri_is_host_end p,
                         uri_is_unix_host p)
        end
  end.

Definition uri_host_res (r : (bytes * bytes * bool) + Z) (dport : Z)
  : bytes * Z * bytes * Z * bool + Z :=
  match r with
  | inl (q, host, unix) => inl (q, len q, host, (if unix then 0 else dport), unix)
  | inr rc => inr rc
  end.

(* the three guarded reads of coap_host_is_unix_domain / of the Unix-domain test in
   coap_split_uri_sub *)
Lemma uri_is_unix_host_reads p :
  (if 3 <=? len p then
     ulet a <- uri_rd p 0 ;;
     if a =? 37 then
       ulet b <- uri_rd p 1 ;;
       if b =? 50 then ulet c <- uri_rd p 2 ;; UOk ((c =? 70) || (c =? 102)) else UOk false
     else UOk false
   else UOk false) = UOk (uri_is_unix_host p).
Proof.
  destruct p as [|a [|b [|c r]]]; [reflexivity..|].
  rewrite !len_cons. pose proof (len_nonneg r).
  destruct (3 <=? 1 + (1 + (1 + len r))) eqn:E; [|lia].
  cbn [uri_rd nth_error uri_bind uri_is_unix_host].
  destruct (a =? 37); [|reflexivity]. destruct (b =? 50); reflexivity.
Qed.

Lemma uri_host_stage_ok p dport :
  uri_host_stage p (len p) dport = UOk (uri_host_res (uri_host_pure p) dport).
Proof.
  unfold uri_host_stage, uri_host_pure.
  destruct p as [|c p']; [reflexivity|].
  rewrite uri_len_cons_nz. cbn [uri_rd nth_error uri_bind].
  destruct (c =? 91) eqn:E91.
  - apply Z.eqb_eq in E91. subst c.
    change (fun c : Z => c =? 93) with uri_is_rbr.
    rewrite uri_scan_whole. cbn [uri_bind uri_after uri_upto].
    change (uri_is_rbr 91) with false. cbv iota.
    destruct (uri_after_stops uri_is_rbr p') as [->|[c2 [r [-> _]]]]; [reflexivity|].
    rewrite uri_len_cons_nz, (uri_len_cons_pred c2). cbn [orb tl].
    rewrite (uri_len_cons_pred 91), uri_copy_upto. cbn [uri_bind].
    destruct (uri_upto uri_is_rbr p') as [|y h]; [reflexivity|].
    replace (len (91 :: y :: h) =? 1) with false
      by (rewrite !len_cons; pose proof (len_nonneg h); lia).
    reflexivity.
  - rewrite uri_is_unix_host_reads. cbn [uri_bind]. rewrite uri_scan_whole. cbn [uri_bind].
    rewrite uri_copy_upto. cbn [uri_bind].
    destruct (uri_upto uri_is_host_end (c :: p')) as [|y h]; [reflexivity|].
    rewrite uri_len_cons_nz. reflexivity.
Qed.

Lemma uri_none_of_host s :
  uri_none_of [58; 47; 63] s <-> (forall x, In x s -> uri_is_host_end x = false).
Proof.
  unfold uri_none_of, uri_in, uri_is_host_end. cbn [existsb].
  split; intros H x Hx; specialize (H x Hx);
    destruct (x =? 58); destruct (x =? 47); destruct (x =? 63); auto.
Qed.

(* the Unix-domain test looks at the first three bytes of what follows "://"; they belong to the
   host, since what ends the host is none of '%', '2', 'F', 'f' *)
Lemma uri_is_unix_host_app h q :
  (forall x, In x h -> uri_is_host_end x = false) -> uri_stops_here uri_is_host_end q ->
  uri_is_unix_host (h ++ q) = uri_is_unix_host h.
Proof.
  intros Hh Hq.
  assert (Hq' : forall c r, q = c :: r -> uri_is_host_end c = true).
  { intros c r ->. destruct Hq as [|[c' [r' [[= <- <-] Hc]]]]; [discriminate|exact Hc]. }
  unfold uri_is_host_end in Hq'.
  destruct h as [|a [|b [|c r]]]; [| | |reflexivity];
    destruct q as [|x [|y [|z q']]]; try reflexivity;
    specialize (Hq' x _ eq_refl); cbn [app uri_is_unix_host]; lia.
Qed.

Lemma uri_host_pure_sound p q host unix :
  uri_host_pure p = inl (q, host, unix) -> exists ht, p = ht ++ q /\ uri_g_host ht host unix.
Proof.
  unfold uri_host_pure. destruct p as [|c p']; [discriminate|].
  destruct (c =? 91) eqn:E91.
  - apply Z.eqb_eq in E91. subst c.
    pose proof (uri_upto_after uri_is_rbr p') as Hs.
    pose proof (uri_upto_nostop uri_is_rbr p') as Hn.
    destruct (uri_after_stops uri_is_rbr p') as [Ea|[c2 [r [Ea Hc]]]]; rewrite Ea in *;
      [discriminate|].
    destruct (uri_upto uri_is_rbr p') as [|y h]; [discriminate|].
    intros [= <- <- <-]. apply Z.eqb_eq in Hc. subst c2.
    exists (91 :: (y :: h) ++ [93]).
    split; [rewrite <- Hs; cbn [app]; rewrite <- app_assoc; reflexivity|].
    constructor; [discriminate|]. apply uri_none_of_1. exact Hn.
  - pose proof (uri_upto_after uri_is_host_end (c :: p')) as Hs.
    pose proof (uri_upto_nostop uri_is_host_end (c :: p')) as Hn.
    pose proof (uri_after_stops uri_is_host_end (c :: p')) as Hq.
    assert (Eu : uri_is_unix_host (c :: p') = uri_is_unix_host (uri_upto uri_is_host_end (c :: p')))
      by (rewrite <- Hs at 1; apply uri_is_unix_host_app; assumption).
    rewrite Eu.
    destruct (uri_upto uri_is_host_end (c :: p')) as [|y h]; [discriminate|].
    intros [= <- <- <-]. exists (y :: h). split; [symmetry; exact Hs|].
    constructor; [discriminate|apply uri_none_of_host; exact Hn|].
    injection Hs as -> _. cbn [hd]. lia.
Qed.

Lemma uri_host_pure_complete ht host unix q :
  uri_g_host ht host unix -> uri_stops_here uri_is_host_end q ->
  uri_host_pure (ht ++ q) = inl (q, host, unix).
Proof.
  intros Hg Hq. unfold uri_host_pure.
  destruct Hg as [h Hne Hn|h Hne Hn Hhd].
  - cbn [app Z.eqb Pos.eqb]. rewrite <- app_assoc. cbn [app]. rewrite uri_none_of_1 in Hn.
    destruct (uri_span uri_is_rbr h (93 :: q) Hn) as [-> ->]; [right; eauto|].
    destruct h; [contradiction|reflexivity].
  - rewrite uri_none_of_host in Hn.
    destruct h as [|c h']; [contradiction|]. cbn [hd] in Hhd. cbn [app].
    replace (c =? 91) with false by lia.
    change (c :: h' ++ q) with ((c :: h') ++ q).
    rewrite (uri_is_unix_host_app (c :: h') q Hn Hq).
    destruct (uri_span uri_is_host_end (c :: h') q Hn Hq) as [-> ->]. reflexivity.
Qed.

(* the scheme: where uri_find_css stops (uri_css_from) and what it has passed (uri_css_before) *)
Definition uri_starts_css (p : bytes) : bool :=
  match p with
  | a :: b :: c :: _ => (a =? 58) && (b =? 47) && (c =? 47)
  | _ => false
  end.

Fixpoint uri_css_from (p : bytes) : bytes :=
  if len p <? 3 then p else
  if uri_starts_css p then p else
  match p with [] => [] | _ :: p' => uri_css_from p' end.

Fixpoint uri_css_before (p : bytes) : bytes :=
  if len p <? 3 then [] else
  if uri_starts_css p then [] else
  match p with [] => [] | c :: p' => c :: uri_css_before p' end.

Lemma uri_css_split p : uri_css_before p ++ uri_css_from p = p.
Proof.
  induction p as [|c p IH]; [reflexivity|]. cbn [uri_css_before uri_css_from].
  destruct (len (c :: p) <? 3); [reflexivity|].
  destruct (uri_starts_css (c :: p)); [reflexivity|]. cbn [app]. rewrite IH. reflexivity.
Qed.

Lemma uri_css_from_head p :
  len (uri_css_from p) < 3 \/ exists r, uri_css_from p = 58 :: 47 :: 47 :: r.
Proof.
  induction p as [|c p IH]; [left; cbn; lia|]. cbn [uri_css_from].
  destruct (len (c :: p) <? 3) eqn:E; [left; lia|].
  destruct (uri_starts_css (c :: p)) eqn:Es; [|exact IH].
  right. destruct p as [|b [|d r]]; try discriminate. cbn [uri_starts_css] in Es.
  assert (c = 58 /\ b = 47 /\ d = 47) as [-> [-> ->]] by lia. eauto.
Qed.

Lemma uri_find_css_spec : forall p k,
  uri_find_css p (len p) k =
  UOk (uri_css_from p, len (uri_css_from p), k + len (uri_css_before p)).
Proof.
  induction p as [|c p IH]; intros k.
  - cbn. f_equal. f_equal. lia.
  - cbn [uri_find_css uri_css_from uri_css_before].
    destruct (len (c :: p) <? 3) eqn:E3.
    + rewrite len_nil, Z.add_0_r. reflexivity.
    + destruct p as [|b [|d r]]; [rewrite !len_cons, len_nil in E3; lia..|].
      cbn [uri_rd nth_error uri_bind uri_starts_css].
      assert (M : (if c =? 58 then (if b =? 47 then UOk (d =? 47) else UOk false) else UOk false)
                  = UOk ((c =? 58) && (b =? 47) && (d =? 47))).
      { destruct (c =? 58); [|reflexivity]. destruct (b =? 47); reflexivity. }
      rewrite M. cbn [uri_bind].
      destruct ((c =? 58) && (b =? 47) && (d =? 47)).
      * rewrite len_nil, Z.add_0_r. reflexivity.
      * rewrite uri_len_cons_pred, IH, (len_cons c (uri_css_before (b :: d :: r))).
        f_equal. f_equal. lia.
Qed.

(* a scheme name followed by "://" : the scan stops exactly behind the name *)
Lemma uri_css_of_name name rest :
  ~ In 58 name ->
  uri_css_before (name ++ uri_css ++ rest) = name /\
  uri_css_from (name ++ uri_css ++ rest) = uri_css ++ rest.
Proof.
  intros Hn. induction name as [|c name IH].
  - cbn [app uri_css uri_css_before uri_css_from uri_starts_css].
    rewrite !len_cons. pose proof (len_nonneg rest).
    destruct (1 + (1 + (1 + len rest)) <? 3) eqn:E; [lia|]. cbn. auto.
  - cbn [app uri_css_before uri_css_from].
    assert (L : 3 <= len (name ++ uri_css ++ rest)).
    { rewrite !len_app. unfold uri_css. rewrite !len_cons, len_nil.
      pose proof (len_nonneg name). pose proof (len_nonneg rest). lia. }
    rewrite len_cons. destruct (1 + len (name ++ uri_css ++ rest) <? 3) eqn:E; [lia|].
    assert (Hc : c <> 58) by (intros ->; apply Hn; left; reflexivity).
    assert (Es : uri_starts_css (c :: name ++ uri_css ++ rest) = false).
    { unfold uri_starts_css. destruct (name ++ uri_css ++ rest) as [|b [|d r]]; try reflexivity.
      replace (c =? 58) with false by lia. reflexivity. }
    rewrite Es. destruct IH as [I1 I2]; [intros H; apply Hn; right; exact H|].
    rewrite I1, I2. auto.
Qed.

Lemma uri_lookup_sound : forall tbl pre dport ponly sch,
  uri_lookup tbl pre = Some (dport, ponly, sch) -> In (pre, dport, ponly, sch) tbl.
Proof.
  induction tbl as [|[[[name port] po] s] t IH]; intros pre dport ponly sch; [discriminate|].
  cbn [uri_lookup]. destruct (uri_beq pre name) eqn:E.
  - intros H. injection H as <- <- <-. apply uri_beq_eq in E. subst. left. reflexivity.
  - intros H. right. apply IH. exact H.
Qed.

(* facts about the table: names are distinct, non-empty, do not start with '/', contain no ':' *)
Lemma uri_schemes_facts name dport ponly sch :
  In (name, dport, ponly, sch) uri_schemes ->
  uri_lookup uri_schemes name = Some (dport, ponly, sch) /\
  ~ In 58 name /\
  exists c r, name = c :: r /\ c <> 47.
Proof.
  intros H. unfold uri_schemes in H. cbn [In] in H.
  destruct H as [E|[E|[E|[E|[E|[E|[E|[E|[]]]]]]]]]; injection E as <- <- <- <-;
    (split; [reflexivity|split; [cbn [In]; lia|eexists; eexists; split; [reflexivity|lia]]]).
Qed.

Definition uri_split_pure (caps : uri_caps) (proxy : bool) (s : bytes) : uri_sres :=
  match s with
  | [] => UErr (-1)
  | c0 :: _ =>
      if c0 =? 47 then (if proxy then UErr (-1) else uri_tail_res (uri_tail_pure s) 0 [] 5683)
      else
        if len (uri_css_from s) <? 3 then UErr (-2) else
        match uri_lookup uri_schemes (uri_css_before s) with
        | None => UErr (-1)
        | Some (dport, ponly, sch) =>
            if negb proxy && ponly then UErr (-1) else
            if negb (uri_cap_ok caps sch) then UErr (-1) else
            match uri_host_pure (drop 3 (uri_css_from s)) with
            | inr rc => UErr rc
            | inl (q, host, unix) =>
                uri_port_res (uri_port_pure q (if unix then 0 else dport) unix) sch host
            end
        end
  end.

Theorem uri_split_is_pure caps proxy s :
  uri_split caps proxy s = UOk (uri_split_pure caps proxy s).
Proof.
  unfold uri_split, uri_split_sub, uri_split_pure.
  destruct s as [|c0 s']; [reflexivity|].
  rewrite uri_len_cons_nz. cbn [uri_rd nth_error uri_bind].
  destruct (c0 =? 47).
  - destruct proxy; [reflexivity|]. apply uri_split_tail_ok.
  - rewrite uri_find_css_spec. cbn [uri_bind].
    set (s := c0 :: s').
    destruct (len (uri_css_from s) <? 3) eqn:E3; [reflexivity|].
    rewrite Z.add_0_l.
    assert (Et : take (len (uri_css_before s)) s = uri_css_before s).
    { rewrite <- (uri_css_split s) at 2. apply take_app_exact. }
    rewrite Et.
    destruct (uri_lookup uri_schemes (uri_css_before s)) as [[[dport ponly] sch]|]; [|reflexivity].
    destruct (negb proxy && ponly); [reflexivity|].
    destruct (negb (uri_cap_ok caps sch)); [reflexivity|].
    assert (Ed : len (uri_css_from s) - 3 = len (drop 3 (uri_css_from s))).
    { rewrite len_drop; [reflexivity|]. pose proof (len_nonneg (uri_css_from s)). lia. }
    rewrite Ed, uri_host_stage_ok. cbn [uri_bind].
    destruct (uri_host_pure (drop 3 (uri_css_from s))) as [[[q host] unix]|rc]; [|reflexivity].
    cbn [uri_host_res]. apply uri_port_stage_ok.
Qed.

Theorem uri_split_no_oob caps proxy s : uri_split caps proxy s <> UOob.
Proof. rewrite uri_split_is_pure. discriminate. Qed.

Theorem uri_split_pure_iff caps proxy s parts :
  uri_split_pure caps proxy s = USplit parts <-> uri_grammar caps proxy s parts.
Proof.
  split.
  - (* the scanner accepts: the string decomposes *)
    unfold uri_split_pure. destruct s as [|c0 s']; [discriminate|].
    set (s := c0 :: s').
    destruct (c0 =? 47) eqn:E47.
    + destruct proxy eqn:Ep; [discriminate|].
      destruct (uri_tail_pure s) as [[path query]|] eqn:Et; [|discriminate]. intros [= <-].
      apply uri_tail_pure_iff in Et. destruct Et as [pt [qt [Eq [Hp Hq]]]].
      rewrite Eq. apply UG_abs; auto.
      intros ->. unfold s in Eq. destruct Hq; [discriminate|]. injection Eq as ->. discriminate.
    + destruct (len (uri_css_from s) <? 3) eqn:E3; [discriminate|].
      destruct (uri_lookup uri_schemes (uri_css_before s)) as [[[dport ponly] sch]|] eqn:El;
        [|discriminate].
      destruct (negb proxy && ponly) eqn:Epo; [discriminate|].
      destruct (negb (uri_cap_ok caps sch)) eqn:Ecap; [discriminate|].
      destruct (uri_host_pure (drop 3 (uri_css_from s))) as [[[q host] unix]|rc] eqn:Eh;
        [|discriminate].
      destruct (uri_port_pure q (if unix then 0 else dport) unix) as [[port r]|rc] eqn:Ept;
        [|discriminate].
      cbn [uri_port_res].
      destruct (uri_tail_pure r) as [[path query]|] eqn:Et; [|discriminate]. intros [= <-].
      destruct (uri_css_from_head s) as [Hlt|[r0 Hr]]; [lia|].
      apply uri_lookup_sound in El.
      apply uri_host_pure_sound in Eh. destruct Eh as [ht [Eht Hgh]].
      apply uri_port_pure_sound in Ept. destruct Ept as [pot [Eq [Hpo Hu]]].
      apply uri_tail_pure_iff in Et. destruct Et as [pt [qt [Er [Hp Hq]]]].
      assert (Es : s = uri_css_before s ++ uri_css ++ ht ++ pot ++ pt ++ qt).
      { rewrite <- (uri_css_split s) at 1. f_equal. rewrite Hr in *.
        change (drop 3 (58 :: 47 :: 47 :: r0)) with r0 in Eht. rewrite Eht, Eq, Er. reflexivity. }
      rewrite Es.
      apply (UG_full caps proxy (uri_css_before s) dport ponly sch ht host unix pot port pt path
                     qt query); auto.
      * intros ->. destruct proxy; [reflexivity|discriminate].
      * destruct (uri_cap_ok caps sch); [reflexivity|discriminate].
  - (* a string of the grammar is accepted, with exactly these parts *)
    intros G. destruct G as [pt path qt query Hpx Hp Hne Hq
                            |name dport ponly sch ht host unix pot port pt path qt query
                                  Hin Hpo Hcap Hgh Hgp Hu Hp Hq].
    + assert (Et : uri_tail_pure (pt ++ qt) = Some (path, query))
        by (apply uri_tail_pure_iff; eauto).
      unfold uri_split_pure. destruct Hp as [|p Hn]; [contradiction|].
      cbn [app Z.eqb Pos.eqb] in *. rewrite Hpx, Et. reflexivity.
    + destruct (uri_schemes_facts name dport ponly sch Hin) as [Hl [Hno [c [r [En Hc]]]]].
      destruct (uri_css_of_name name (ht ++ pot ++ pt ++ qt) Hno) as [Eb Ef].
      pose proof (uri_tail_stops pt path qt query Hp Hq) as Hr.
      assert (Hh : uri_stops_here uri_is_host_end (pot ++ pt ++ qt)).
      { destruct Hgp; cbn [app]; try (right; eexists; eexists; split; reflexivity).
        revert Hr. apply uri_stops_here_weaken.
        unfold uri_is_tail_start, uri_is_host_end. intros x Hx. lia. }
      unfold uri_split_pure.
      set (s := name ++ uri_css ++ ht ++ pot ++ pt ++ qt) in *.
      assert (Es : exists t, s = c :: t) by (unfold s; rewrite En; cbn [app]; eauto).
      destruct Es as [t Es]. rewrite Es. rewrite <- Es.
      replace (c =? 47) with false by lia.
      rewrite Ef, Eb.
      assert (L : len (uri_css ++ ht ++ pot ++ pt ++ qt) <? 3 = false).
      { rewrite len_app. unfold uri_css at 1. rewrite !len_cons, len_nil.
        pose proof (len_nonneg (ht ++ pot ++ pt ++ qt)). lia. }
      rewrite L, Hl.
      assert (P : negb proxy && ponly = false).
      { destruct ponly; [rewrite (Hpo eq_refl); reflexivity|apply andb_false_r]. }
      rewrite P, Hcap. cbn [negb].
      change (drop 3 (uri_css ++ ht ++ pot ++ pt ++ qt)) with (ht ++ pot ++ pt ++ qt).
      rewrite (uri_host_pure_complete ht host unix _ Hgh Hh).
      rewrite (uri_port_pure_complete pot _ port unix _ Hgp Hu Hr). cbn [uri_port_res].
      replace (uri_tail_pure (pt ++ qt)) with (Some (path, query))
        by (symmetry; apply uri_tail_pure_iff; eauto).
      reflexivity.
Qed.

Theorem uri_split_iff_grammar caps proxy s parts :
  uri_split caps proxy s = UOk (USplit parts) <-> uri_grammar caps proxy s parts.
Proof.
  rewrite uri_split_is_pure. rewrite <- uri_split_pure_iff.
  split; [intros E; injection E as E; exact E|intros ->; reflexivity].
Qed.
