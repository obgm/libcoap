(* coap_split_path / coap_split_query / coap_path_into_optlist / coap_query_into_optlist:
   no read outside the input for any byte string and buffer size, and agreement with the
   specification (split, decode once, resolve dot segments). *)
From LibcoapV Require Import Base.Tactics Base.Bytes Base.BytesProofs Wire.OptCodec Wire.OptCodecProofs
  Uri.Uri Uri.Split Uri.Spec Uri.DotsProofs Uri.SegProofs.
Local Open Scope Z_scope.

Lemma uri_beq_eq a b : uri_beq a b = true <-> a = b.
Proof.
  revert b. induction a as [|x a IH]; intros [|y b]; cbn [uri_beq]; split; intros H;
    try reflexivity; try discriminate.
  - apply andb_true_iff in H. destruct H as [H1 H2]. apply Z.eqb_eq in H1. apply IH in H2.
    subst. reflexivity.
  - injection H as -> ->. rewrite Z.eqb_refl. cbn [andb]. apply IH. reflexivity.
Qed.

Lemma uri_upto_after stop s : uri_upto stop s ++ uri_after stop s = s.
Proof.
  induction s as [|c r IH]; [reflexivity|]. cbn [uri_upto uri_after].
  destruct (stop c); [reflexivity|]. cbn [app]. rewrite IH. reflexivity.
Qed.

Lemma uri_upto_nostop stop s x : In x (uri_upto stop s) -> stop x = false.
Proof.
  induction s as [|c r IH]; [intros []|]. cbn [uri_upto].
  destruct (stop c) eqn:E; [intros []|]. intros [<-|H]; auto.
Qed.

Definition uri_stops_here (stop : Z -> bool) (q : bytes) : Prop :=
  q = [] \/ exists c r, q = c :: r /\ stop c = true.

Lemma uri_after_stops stop s : uri_stops_here stop (uri_after stop s).
Proof.
  induction s as [|c r IH]; [left; reflexivity|]. cbn [uri_after].
  destruct (stop c) eqn:E; [right; eauto|exact IH].
Qed.

(* the span is unique: no stop character in front, one (or the end) behind *)
Lemma uri_span stop a q :
  (forall x, In x a -> stop x = false) -> uri_stops_here stop q ->
  uri_upto stop (a ++ q) = a /\ uri_after stop (a ++ q) = q.
Proof.
  intros Ha Hq. induction a as [|y a IH].
  - destruct Hq as [->|[c [r [-> Hc]]]]; cbn [app uri_upto uri_after]; [|rewrite Hc]; auto.
  - cbn [app uri_upto uri_after]. rewrite (Ha y (or_introl eq_refl)).
    destruct IH as [I1 I2]; [intros x Hx; apply Ha; right; exact Hx|].
    rewrite I1, I2. auto.
Qed.

Lemma uri_upto_all stop s : (forall x, In x s -> stop x = false) -> uri_upto stop s = s.
Proof.
  intros H. rewrite <- (app_nil_r s) at 1. apply uri_span; [exact H|left; reflexivity].
Qed.

Lemma uri_split_on_cons sep s : exists h t, uri_split_on sep s = h :: t.
Proof.
  destruct s as [|c r]; cbn [uri_split_on]; [eauto|].
  destruct (sep c); [eauto|]. destruct (uri_split_on sep r); eauto.
Qed.

(* the pieces of [cur ++ body] when [cur] holds no separator *)
Definition uri_segs_from (sep : Z -> bool) (cur body : bytes) : list bytes :=
  match uri_split_on sep body with
  | h :: t => (cur ++ h) :: t
  | [] => [cur]
  end.

Lemma uri_segs_from_nil sep body : uri_segs_from sep [] body = uri_split_on sep body.
Proof.
  unfold uri_segs_from. destruct (uri_split_on_cons sep body) as [h [t E]]. rewrite E. reflexivity.
Qed.

Lemma uri_split_on_app sep a b :
  (forall x, In x a -> sep x = false) -> uri_split_on sep (a ++ b) = uri_segs_from sep a b.
Proof.
  induction a as [|c a IH]; intros Ha; [symmetry; apply uri_segs_from_nil|].
  cbn [app uri_split_on]. rewrite (Ha c (or_introl eq_refl)).
  rewrite IH by (intros x Hx; apply Ha; right; exact Hx). unfold uri_segs_from.
  destruct (uri_split_on_cons sep b) as [h [t E]]. rewrite E. reflexivity.
Qed.

(* the scanning loop is a fold over the raw segments, for a handler [h] that computes a pure [H] of
   the segment whatever follows it in the input *)
Section Loop.
  Context {S : Type} (stop sep : Z -> bool) (h : bytes -> Z -> S -> uri_res S)
          (H : bytes -> S -> S).
  Hypothesis h_ok : forall seg rest st, h (seg ++ rest) (len seg) st = UOk (H seg st).

  Lemma uri_seg_loop_spec : forall q cur st,
    uri_seg_loop stop sep h q (cur ++ q) (len cur) (len q) st =
    UOk (fold_left (fun st seg => H seg st) (uri_segs_from sep cur (uri_upto stop q)) st).
  Proof.
    assert (Hend : forall cur, uri_segs_from sep cur [] = [cur])
      by (intros cur; unfold uri_segs_from; cbn [uri_split_on]; rewrite app_nil_r; reflexivity).
    induction q as [|c q IH]; intros cur st.
    - cbn [uri_seg_loop uri_upto]. rewrite len_nil, h_ok, Hend. reflexivity.
    - cbn [uri_seg_loop uri_upto]. rewrite uri_len_cons_nz, uri_len_cons_pred.
      destruct (stop c); [rewrite h_ok, Hend; reflexivity|].
      unfold uri_segs_from at 1. cbn [uri_split_on].
      destruct (sep c).
      + rewrite h_ok. cbn [uri_bind fold_left]. rewrite (IH []), uri_segs_from_nil, app_nil_r.
        reflexivity.
      + replace (cur ++ c :: q) with ((cur ++ [c]) ++ q) by (rewrite <- app_assoc; reflexivity).
        replace (len cur + 1) with (len (cur ++ [c])) by (rewrite len_app, len_cons, len_nil; lia).
        rewrite IH. unfold uri_segs_from.
        destruct (uri_split_on_cons sep (uri_upto stop q)) as [h0 [t0 E]]. rewrite E.
        rewrite <- app_assoc. reflexivity.
  Qed.

  Lemma uri_seg_loop_whole s st :
    uri_seg_loop stop sep h s s 0 (len s) st =
    UOk (fold_left (fun st seg => H seg st) (uri_split_on sep (uri_upto stop s)) st).
  Proof. rewrite (uri_seg_loop_spec s []), uri_segs_from_nil. reflexivity. Qed.
End Loop.

Lemma uri_sumlen_nonneg l : 0 <= uri_sumlen l.
Proof. induction l; cbn [uri_sumlen]; [lia|]. pose proof (len_nonneg a). lia. Qed.

Lemma uri_sumlen_app a b : uri_sumlen (a ++ b) = uri_sumlen a + uri_sumlen b.
Proof. induction a; cbn [app uri_sumlen]; lia. Qed.

Lemma uri_sumlen_rev l : uri_sumlen (rev l) = uri_sumlen l.
Proof.
  induction l; [reflexivity|]. cbn [rev]. rewrite uri_sumlen_app. cbn [uri_sumlen]. lia.
Qed.

Lemma uri_sumlen_encs_cons d l :
  uri_sumlen (uri_encs (d :: l)) = len (opt_enc 0 d) + uri_sumlen (uri_encs l).
Proof. reflexivity. Qed.

Lemma uri_encs_rev l : rev (uri_encs l) = uri_encs (rev l).
Proof. unfold uri_encs. symmetry. apply map_rev. Qed.

Lemma uri_ext_size_range l : 0 <= ext_size l <= 2.
Proof. unfold ext_size. destruct (l <? 13); [lia|]. destruct (l <? 269); lia. Qed.

Lemma uri_opt_enc0_len v : len (opt_enc 0 v) = 1 + ext_size (len v) + len v.
Proof. rewrite opt_enc_len. unfold opt_encode_size, ext_size at 1. cbn. lia. Qed.

(* coap_opt_setheader writes the header or nothing; it writes it when there is room *)
Lemma uri_sethdr_size_cases m l :
  0 <= l -> uri_sethdr_size m l = 0 \/ uri_sethdr_size m l = 1 + ext_size l.
Proof.
  intros Hl. unfold uri_sethdr_size, ext_size.
  destruct (m =? 0); [auto|]. destruct (l <? 13); [auto|].
  destruct (l <? 269); [destruct (m <? 2)|destruct (m <? 3)]; auto.
Qed.

Lemma uri_sethdr_size_fit m l :
  0 <= l -> 1 + ext_size l <= m -> uri_sethdr_size m l = 1 + ext_size l.
Proof.
  intros Hl Hm. unfold uri_sethdr_size, ext_size in *.
  destruct (m =? 0) eqn:E0; [destruct (l <? 13); [|destruct (l <? 269)]; lia|].
  destruct (l <? 13); [lia|].
  destruct (l <? 269); [destruct (m <? 2) eqn:E|destruct (m <? 3) eqn:E]; lia.
Qed.

Lemma uri_sethdr_size_enough m l :
  0 <= l -> 3 <= m -> uri_sethdr_size m l = 1 + ext_size l.
Proof.
  intros Hl Hm. apply uri_sethdr_size_fit; [exact Hl|]. pose proof (uri_ext_size_range l). lia.
Qed.

Definition uri_push (v : bytes) (st : uri_wst) : uri_wst :=
  {| uw_ropts := opt_enc 0 v :: uw_ropts st; uw_rem := uw_rem st - len (opt_enc 0 v) |}.

(* write_option on a segment: a well-formed segment whose value an option header can carry is
   written when header and value fit into what is left of the buffer; nothing happens otherwise *)
Definition uri_Hwrite (seg : bytes) (st : uri_wst) : uri_wst :=
  match uri_pct_decode seg with
  | Some v =>
      if (len v <=? uri_OPT_MAX) && (len (opt_enc 0 v) <=? uw_rem st) then uri_push v st else st
  | None => st
  end.

Definition uri_Hbuf (base : Z) (seg : bytes) (st : uri_wst) : uri_wst :=
  let d := uri_dots_p seg in
  if d =? 1 then st else if d =? 2 then uri_backup base st else uri_Hwrite seg st.

Lemma uri_write_opt_ok seg rest st :
  uri_write_opt uri_K (seg ++ rest) (len seg) st = UOk (uri_Hwrite seg st).
Proof.
  unfold uri_write_opt, uri_make_opt, uri_Hwrite, uri_K.
  destruct (uri_pct_decode seg) as [v|] eqn:Ed.
  2: { destruct (uw_rem st =? 0); [reflexivity|]. rewrite uri_check_seg_spec, Ed. reflexivity. }
  pose proof (uri_opt_enc0_len v) as Le. pose proof (len_nonneg v) as Hv.
  pose proof (uri_ext_size_range (len v)) as Hx.
  destruct (uw_rem st =? 0) eqn:E0.
  { replace (len (opt_enc 0 v) <=? uw_rem st) with false by lia. rewrite andb_false_r.
    reflexivity. }
  rewrite uri_check_seg_spec, Ed. cbn [uri_bind]. rewrite Z.add_0_l, Z.ltb_antisym.
  destruct (len v <=? uri_OPT_MAX); cbn [negb andb]; [|reflexivity].
  destruct (len (opt_enc 0 v) <=? uw_rem st) eqn:Er.
  - rewrite uri_sethdr_size_fit by lia.
    replace (1 + ext_size (len v) =? 0) with false by lia.
    replace (uw_rem st - (1 + ext_size (len v)) <? len v) with false by lia.
    rewrite (uri_decode_seg_spec seg rest v Ed). unfold uri_push. rewrite Le. reflexivity.
  - destruct (uri_sethdr_size_cases (uw_rem st) (len v) Hv) as [-> | ->]; [reflexivity|].
    replace (1 + ext_size (len v) =? 0) with false by lia.
    replace (uw_rem st - (1 + ext_size (len v)) <? len v) with true by lia. reflexivity.
Qed.

Lemma uri_seg_buf_ok base seg rest st :
  uri_seg_buf uri_K base (seg ++ rest) (len seg) st = UOk (uri_Hbuf base seg st).
Proof.
  unfold uri_seg_buf, uri_Hbuf. rewrite uri_dots_is. cbn [uri_bind].
  destruct (uri_dots_p seg =? 1); [reflexivity|].
  destruct (uri_dots_p seg =? 2); [reflexivity|].
  apply uri_write_opt_ok.
Qed.

(* the buffer holding the encodings of [stack] (newest first) and nothing else *)
Definition uri_wst_of (base : Z) (stack : list bytes) : uri_wst :=
  {| uw_ropts := uri_encs stack; uw_rem := base - uri_sumlen (uri_encs stack) |}.

Lemma uri_wst_of_nil base : uri_wst_of base [] = {| uw_ropts := []; uw_rem := base |}.
Proof. unfold uri_wst_of. cbn [uri_encs map uri_sumlen]. rewrite Z.sub_0_r. reflexivity. Qed.

Definition uri_buf_result (buflen : Z) (st : uri_wst) : uri_res (list bytes * Z) :=
  UOk (rev (uw_ropts st), buflen - uw_rem st).

(* coap_split_path and coap_split_query as folds - for EVERY input and buffer size: no overread *)
Lemma uri_split_path_fold s buflen :
  uri_split_path s buflen =
  uri_buf_result buflen (fold_left (fun st seg => uri_Hbuf buflen seg st) (uri_raw_path_segs s)
                                   (uri_wst_of buflen [])).
Proof.
  unfold uri_split_path, uri_split_path_k.
  rewrite (uri_seg_loop_whole uri_path_stop uri_path_sep _ (uri_Hbuf buflen)
             (uri_seg_buf_ok buflen)), uri_wst_of_nil.
  reflexivity.
Qed.

Lemma uri_split_query_fold s buflen :
  uri_split_query s buflen =
  uri_buf_result buflen (fold_left (fun st seg => uri_Hwrite seg st) (uri_raw_query_items s)
                                   (uri_wst_of buflen [])).
Proof.
  unfold uri_split_query, uri_split_query_k.
  rewrite (uri_seg_loop_whole uri_query_stop uri_query_sep _ uri_Hwrite uri_write_opt_ok),
    uri_wst_of_nil.
  reflexivity.
Qed.

(* an option the buffer API may write: a well-formed raw segment of the input, decoded once,
   that is not a dot segment *)
Definition uri_good_opt (dotcheck : bool) (raws : list bytes) (o : bytes) : Prop :=
  exists seg d, In seg raws /\ uri_pct_decode seg = Some d /\ len d <= uri_OPT_MAX /\
                (dotcheck = true -> uri_kind d = 0) /\ o = opt_enc 0 d.

Definition uri_wst_inv (dotcheck : bool) (base : Z) (raws : list bytes) (st : uri_wst) : Prop :=
  0 <= uw_rem st /\ uw_rem st = base - uri_sumlen (uw_ropts st) /\
  Forall (uri_good_opt dotcheck raws) (uw_ropts st).

Lemma uri_Hwrite_inv dotcheck base raws seg st :
  In seg raws -> (dotcheck = true -> uri_dots_p seg = 0) ->
  uri_wst_inv dotcheck base raws st -> uri_wst_inv dotcheck base raws (uri_Hwrite seg st).
Proof.
  intros Hin Hdots Hinv. unfold uri_Hwrite.
  destruct (uri_pct_decode seg) as [v|] eqn:Ed; [|exact Hinv].
  destruct ((len v <=? uri_OPT_MAX) && (len (opt_enc 0 v) <=? uw_rem st)) eqn:E; [|exact Hinv].
  destruct Hinv as [H0 [H1 H2]]. unfold uri_wst_inv, uri_push. cbn [uw_rem uw_ropts uri_sumlen].
  split; [lia|]. split; [lia|]. constructor; [|exact H2].
  exists seg, v. split; [exact Hin|]. split; [exact Ed|]. split; [lia|]. split; [|reflexivity].
  rewrite <- (uri_dots_p_decode seg v Ed). exact Hdots.
Qed.

Lemma uri_backup_inv dotcheck base raws st :
  0 <= base -> uri_wst_inv dotcheck base raws st -> uri_wst_inv dotcheck base raws (uri_backup base st).
Proof.
  intros Hb Hinv. unfold uri_backup.
  destruct (uw_ropts st) as [|x t] eqn:E; [exact Hinv|].
  destruct Hinv as [H0 [H1 H2]]. rewrite E in H1, H2.
  unfold uri_wst_inv. cbn [uw_rem uw_ropts].
  cbn [uri_sumlen] in H1. pose proof (len_nonneg x). pose proof (uri_sumlen_nonneg t).
  split; [lia|]. split; [reflexivity|]. inversion H2; assumption.
Qed.

Lemma uri_Hbuf_inv base raws seg st :
  0 <= base -> In seg raws ->
  uri_wst_inv true base raws st -> uri_wst_inv true base raws (uri_Hbuf base seg st).
Proof.
  intros Hb Hin Hinv. unfold uri_Hbuf.
  destruct (uri_dots_p seg =? 1) eqn:E1; [assumption|].
  destruct (uri_dots_p seg =? 2) eqn:E2; [apply uri_backup_inv; assumption|].
  apply uri_Hwrite_inv; auto. intros _. pose proof (uri_dots_p_range seg). lia.
Qed.

Lemma uri_fold_inv {A} (P : A -> Prop) (f : A -> bytes -> A) (raws : list bytes) :
  (forall seg st, In seg raws -> P st -> P (f st seg)) ->
  forall st, P st -> P (fold_left f raws st).
Proof.
  induction raws as [|x l IH]; intros Hf st Hp; [exact Hp|].
  cbn [fold_left]. apply IH.
  - intros seg st' Hin. apply Hf. right. exact Hin.
  - apply Hf; [left; reflexivity|exact Hp].
Qed.

(* result of the buffer functions, whatever the input and the buffer size *)
Definition uri_buf_safe (dotcheck : bool) (raws : list bytes) (buflen : Z)
           (r : uri_res (list bytes * Z)) : Prop :=
  exists opts used, r = UOk (opts, used) /\ 0 <= used <= buflen /\ used = uri_sumlen opts /\
                    Forall (uri_good_opt dotcheck raws) opts.

Lemma uri_fold_safe dotcheck (H : bytes -> uri_wst -> uri_wst) raws buflen :
  0 <= buflen ->
  (forall seg st, In seg raws ->
     uri_wst_inv dotcheck buflen raws st -> uri_wst_inv dotcheck buflen raws (H seg st)) ->
  uri_buf_safe dotcheck raws buflen
    (uri_buf_result buflen (fold_left (fun st seg => H seg st) raws (uri_wst_of buflen []))).
Proof.
  intros Hb HH.
  destruct (uri_fold_inv (uri_wst_inv dotcheck buflen raws) (fun st seg => H seg st) raws HH
              (uri_wst_of buflen [])) as [H0 [H1 H2]].
  { rewrite uri_wst_of_nil. unfold uri_wst_inv. cbn [uw_rem uw_ropts uri_sumlen].
    split; [lia|]. split; [lia|constructor]. }
  eexists. eexists. split; [reflexivity|].
  pose proof (uri_sumlen_nonneg (uw_ropts (fold_left (fun st seg => H seg st) raws
                                                     (uri_wst_of buflen [])))).
  split; [lia|]. split; [rewrite uri_sumlen_rev; lia|]. apply Forall_rev. exact H2.
Qed.

Theorem uri_split_path_safe s buflen :
  0 <= buflen -> uri_buf_safe true (uri_raw_path_segs s) buflen (uri_split_path s buflen).
Proof.
  intros Hb. rewrite uri_split_path_fold. apply uri_fold_safe; [exact Hb|].
  intros seg st. apply uri_Hbuf_inv. exact Hb.
Qed.

Theorem uri_split_query_safe s buflen :
  0 <= buflen -> uri_buf_safe false (uri_raw_query_items s) buflen (uri_split_query s buflen).
Proof.
  intros Hb. rewrite uri_split_query_fold. apply uri_fold_safe; [exact Hb|].
  intros seg st Hin. apply uri_Hwrite_inv; [exact Hin|discriminate].
Qed.

Lemma uri_decode_all_Forall2 raws ds :
  uri_decode_all raws = Some ds -> Forall2 (fun seg d => uri_pct_decode seg = Some d) raws ds.
Proof.
  revert ds. induction raws as [|seg raws IH]; intros ds Hd; cbn [uri_decode_all] in Hd.
  - injection Hd as <-. constructor.
  - destruct (uri_pct_decode seg) as [d|] eqn:Ed; [|discriminate].
    destruct (uri_decode_all raws) as [dt|]; [|discriminate].
    injection Hd as <-. constructor; auto.
Qed.

Lemma uri_fits_cons d ds :
  uri_fits (d :: ds) = true -> len d <= uri_OPT_MAX /\ uri_fits ds = true.
Proof.
  unfold uri_fits, uri_OPT_MAX. cbn [forallb]. intros H. apply andb_true_iff in H.
  destruct H as [H1 H2]. split; [lia|exact H2].
Qed.

Lemma uri_resolve_next d t stack : uri_resolve (d :: t) stack = uri_resolve t (uri_next d stack).
Proof.
  unfold uri_next. cbn [uri_resolve]. destruct (uri_is_dot d); [reflexivity|].
  destruct (uri_is_dotdot d); reflexivity.
Qed.

Lemma uri_peak_ge ds stack : uri_sumlen (uri_encs stack) <= uri_peak ds stack.
Proof. destruct ds; cbn [uri_peak]; lia. Qed.

Lemma uri_Hwrite_wst_of base seg d stack :
  uri_pct_decode seg = Some d -> len d <= uri_OPT_MAX ->
  uri_sumlen (uri_encs (d :: stack)) <= base ->
  uri_Hwrite seg (uri_wst_of base stack) = uri_wst_of base (d :: stack).
Proof.
  intros Ed Hm Hr. rewrite uri_sumlen_encs_cons in Hr. unfold uri_Hwrite. rewrite Ed.
  unfold uri_wst_of, uri_push. cbn [uw_rem uw_ropts]. rewrite uri_sumlen_encs_cons.
  replace ((len d <=? uri_OPT_MAX) &&
           (len (opt_enc 0 d) <=? base - uri_sumlen (uri_encs stack))) with true by lia.
  f_equal. lia.
Qed.

Lemma uri_Hbuf_wst_of base seg d stack :
  uri_pct_decode seg = Some d -> len d <= uri_OPT_MAX ->
  uri_sumlen (uri_encs (uri_next d stack)) <= base ->
  uri_Hbuf base seg (uri_wst_of base stack) = uri_wst_of base (uri_next d stack).
Proof.
  intros Ed Hm Hr. unfold uri_Hbuf, uri_next in *. rewrite (uri_dots_p_decode seg d Ed).
  unfold uri_kind. destruct (uri_is_dot d); [reflexivity|].
  destruct (uri_is_dotdot d); cbn [Z.eqb Pos.eqb].
  - destruct stack; reflexivity.
  - apply uri_Hwrite_wst_of; assumption.
Qed.

Lemma uri_fold_Hbuf_spec base raws ds :
  Forall2 (fun seg d => uri_pct_decode seg = Some d) raws ds ->
  forall stack, uri_fits ds = true -> uri_peak ds stack <= base ->
  fold_left (fun st seg => uri_Hbuf base seg st) raws (uri_wst_of base stack) =
  uri_wst_of base (uri_resolve ds stack).
Proof.
  induction 1 as [|seg d raws ds Ed _ IH]; intros stack Hfit Hn; [reflexivity|].
  apply uri_fits_cons in Hfit. destruct Hfit as [Hd Hfit]. cbn [uri_peak] in Hn.
  pose proof (uri_peak_ge ds (uri_next d stack)).
  cbn [fold_left]. rewrite (uri_Hbuf_wst_of base seg d stack Ed Hd) by lia.
  rewrite uri_resolve_next. apply IH; [exact Hfit|lia].
Qed.

Lemma uri_fold_Hwrite_spec base raws ds :
  Forall2 (fun seg d => uri_pct_decode seg = Some d) raws ds ->
  forall stack, uri_fits ds = true ->
  uri_sumlen (uri_encs stack) + uri_sumlen (uri_encs ds) <= base ->
  fold_left (fun st seg => uri_Hwrite seg st) raws (uri_wst_of base stack) =
  uri_wst_of base (rev ds ++ stack).
Proof.
  induction 1 as [|seg d raws ds Ed _ IH]; intros stack Hfit Hn; [reflexivity|].
  apply uri_fits_cons in Hfit. destruct Hfit as [Hd Hfit].
  rewrite uri_sumlen_encs_cons in Hn. pose proof (uri_sumlen_nonneg (uri_encs ds)).
  cbn [fold_left rev]. rewrite (uri_Hwrite_wst_of base seg d stack Ed Hd), <- app_assoc
    by (rewrite uri_sumlen_encs_cons; lia).
  apply (IH (d :: stack)); [exact Hfit|]. rewrite uri_sumlen_encs_cons. lia.
Qed.

Lemma uri_buf_result_wst_of base stack :
  uri_buf_result base (uri_wst_of base stack) =
  UOk (uri_encs (rev stack), uri_sumlen (uri_encs (rev stack))).
Proof.
  unfold uri_buf_result, uri_wst_of. cbn [uw_ropts uw_rem].
  rewrite <- uri_encs_rev, uri_sumlen_rev. f_equal. f_equal. lia.
Qed.

(* coap_split_path on a well-formed path with enough room = the specified Uri-Path values *)
Theorem uri_split_path_spec s buflen opts :
  uri_spec_path s = Some opts -> uri_path_need s <= buflen ->
  uri_split_path s buflen = UOk (uri_encs opts, uri_sumlen (uri_encs opts)).
Proof.
  unfold uri_spec_path, uri_path_need. intros Hs Hn.
  destruct (uri_decode_all (uri_raw_path_segs s)) as [ds|] eqn:Ed; [|discriminate].
  destruct (uri_fits ds) eqn:Hfit; [|discriminate].
  injection Hs as <-.
  rewrite uri_split_path_fold,
    (uri_fold_Hbuf_spec buflen _ ds (uri_decode_all_Forall2 _ _ Ed) [] Hfit Hn).
  apply uri_buf_result_wst_of.
Qed.

Theorem uri_split_query_spec s buflen opts :
  uri_spec_query s = Some opts -> uri_query_need s <= buflen ->
  uri_split_query s buflen = UOk (uri_encs opts, uri_sumlen (uri_encs opts)).
Proof.
  unfold uri_spec_query, uri_query_need. intros Hs Hn.
  destruct (uri_decode_all (uri_raw_query_items s)) as [ds|] eqn:Ed; [|discriminate].
  destruct (uri_fits ds) eqn:Hfit; [|discriminate].
  injection Hs as <-.
  rewrite uri_split_query_fold,
    (uri_fold_Hwrite_spec buflen _ ds (uri_decode_all_Forall2 _ _ Ed) [] Hfit Hn).
  rewrite uri_buf_result_wst_of, app_nil_r, rev_involutive. reflexivity.
Qed.

Lemma uri_write_opt_length_bound seg rest v st :
  uri_pct_decode seg = Some v ->
  (65804 < len v -> uri_write_opt uri_K (seg ++ rest) (len seg) st = UOk st) /\
  (len v <= 65804 -> len (opt_enc 0 v) <= uw_rem st ->
   uri_write_opt uri_K (seg ++ rest) (len seg) st =
   UOk {| uw_ropts := opt_enc 0 v :: uw_ropts st; uw_rem := uw_rem st - len (opt_enc 0 v) |}).
Proof.
  intros Ed. rewrite uri_write_opt_ok. unfold uri_Hwrite, uri_OPT_MAX. rewrite Ed. split.
  - intros Hbig. replace (len v <=? 65804) with false by lia. reflexivity.
  - intros Hle Hroom.
    replace ((len v <=? 65804) && (len (opt_enc 0 v) <=? uw_rem st)) with true by lia.
    reflexivity.
Qed.

Definition uri_Hopt (start : nat) (optnum : Z) (seg : bytes) (chain : list opt) : list opt :=
  let d := uri_dots_p seg in
  if d =? 1 then chain
  else if d =? 2 then uri_backup_optlist start chain
  else chain ++ [(optnum, uri_replace_pct seg)].

Lemma uri_copy_ok seg rest : uri_copy (seg ++ rest) (len seg) = UOk seg.
Proof.
  unfold uri_copy. rewrite len_app. pose proof (len_nonneg rest).
  destruct (len seg <=? len seg + len rest) eqn:E; [|lia].
  rewrite take_app_exact. reflexivity.
Qed.

Lemma uri_seg_optlist_ok start optnum seg rest chain :
  uri_seg_optlist true start optnum (seg ++ rest) (len seg) chain =
  UOk (uri_Hopt start optnum seg chain).
Proof.
  unfold uri_seg_optlist, uri_Hopt. rewrite uri_dots_is. cbn [uri_bind].
  destruct (uri_dots_p seg =? 1); [reflexivity|].
  destruct (uri_dots_p seg =? 2); [reflexivity|].
  rewrite uri_copy_ok. reflexivity.
Qed.

Lemma uri_item_optlist_ok optnum seg rest chain :
  uri_item_optlist true optnum (seg ++ rest) (len seg) chain =
  UOk (chain ++ [(optnum, uri_replace_pct seg)]).
Proof. unfold uri_item_optlist. rewrite uri_copy_ok. reflexivity. Qed.

Definition uri_tag (optnum : Z) (l : list bytes) : list opt := map (fun v => (optnum, v)) l.

Lemma uri_tag_snoc optnum l v : uri_tag optnum (l ++ [v]) = uri_tag optnum l ++ [(optnum, v)].
Proof. apply map_app. Qed.

(* what coap_path_into_optlist does to the values it has added so far, kept newest first:
   the chain is always what was there before the call, then these values *)
Definition uri_Hstack (seg : bytes) (stack : list bytes) : list bytes :=
  let d := uri_dots_p seg in
  if d =? 1 then stack else if d =? 2 then tl stack else uri_replace_pct seg :: stack.

Lemma uri_Hopt_stack pre optnum seg stack :
  uri_Hopt (length pre) optnum seg (pre ++ uri_tag optnum (rev stack)) =
  pre ++ uri_tag optnum (rev (uri_Hstack seg stack)).
Proof.
  unfold uri_Hopt, uri_Hstack. destruct (uri_dots_p seg =? 1); [reflexivity|].
  destruct (uri_dots_p seg =? 2).
  - unfold uri_backup_optlist. rewrite app_length. destruct stack as [|x t]; cbn [rev tl].
    + cbn [uri_tag map length]. rewrite Nat.add_0_r, Nat.ltb_irrefl. reflexivity.
    + rewrite uri_tag_snoc, app_length. cbn [length].
      replace (length pre <? length pre + (length (uri_tag optnum (rev t)) + 1))%nat with true
        by (symmetry; apply Nat.ltb_lt; lia).
      rewrite app_assoc. apply removelast_last.
  - cbn [rev]. rewrite uri_tag_snoc, app_assoc. reflexivity.
Qed.

Lemma uri_fold_Hopt_stack pre optnum raws : forall stack,
  fold_left (fun ch seg => uri_Hopt (length pre) optnum seg ch) raws
            (pre ++ uri_tag optnum (rev stack)) =
  pre ++ uri_tag optnum (rev (fold_left (fun st seg => uri_Hstack seg st) raws stack)).
Proof.
  induction raws as [|seg raws IH]; intros stack; [reflexivity|].
  cbn [fold_left]. rewrite uri_Hopt_stack. apply IH.
Qed.

Lemma uri_path_into_optlist_fold s optnum pre :
  uri_path_into_optlist s optnum pre =
  UOk (pre ++ uri_tag optnum
                 (rev (fold_left (fun st seg => uri_Hstack seg st) (uri_raw_path_segs s) []))).
Proof.
  unfold uri_path_into_optlist, uri_path_into_optlist_g, uri_start_all.
  rewrite (uri_seg_loop_whole uri_path_stop uri_path_sep _ (uri_Hopt (length pre) optnum))
    by (intros; apply uri_seg_optlist_ok).
  rewrite <- uri_fold_Hopt_stack. cbn [rev uri_tag map]. rewrite app_nil_r. reflexivity.
Qed.

Lemma uri_Hstack_kind seg stack :
  Forall (fun v => uri_kind v = 0) stack -> Forall (fun v => uri_kind v = 0) (uri_Hstack seg stack).
Proof.
  intros Hf. unfold uri_Hstack.
  destruct (uri_dots_p seg =? 1) eqn:E1; [exact Hf|].
  destruct (uri_dots_p seg =? 2) eqn:E2.
  - destruct stack; [constructor|inversion Hf; assumption].
  - constructor; [|exact Hf].
    destruct (Z.eq_dec (uri_kind (uri_replace_pct seg)) 0) as [|N]; [assumption|].
    apply uri_replace_pct_kind in N. pose proof (uri_dots_p_range seg). lia.
Qed.

Theorem uri_path_into_optlist_safe s optnum pre :
  exists added, uri_path_into_optlist s optnum pre = UOk (pre ++ uri_tag optnum added) /\
                Forall (fun v => uri_kind v = 0) added.
Proof.
  rewrite uri_path_into_optlist_fold. eexists. split; [reflexivity|]. apply Forall_rev.
  apply uri_fold_inv; [|constructor]. intros seg st _. apply uri_Hstack_kind.
Qed.

Lemma uri_Hstack_decode seg d stack :
  uri_pct_decode seg = Some d -> uri_Hstack seg stack = uri_next d stack.
Proof.
  intros Ed. unfold uri_Hstack, uri_next.
  rewrite (uri_dots_p_decode seg d Ed), (uri_replace_pct_decode seg d Ed). unfold uri_kind.
  destruct (uri_is_dot d); [reflexivity|]. destruct (uri_is_dotdot d); reflexivity.
Qed.

Lemma uri_fold_Hstack_spec raws ds :
  Forall2 (fun seg d => uri_pct_decode seg = Some d) raws ds ->
  forall stack, fold_left (fun st seg => uri_Hstack seg st) raws stack = uri_resolve ds stack.
Proof.
  induction 1 as [|seg d raws ds Ed _ IH]; intros stack; [reflexivity|].
  cbn [fold_left]. rewrite (uri_Hstack_decode seg d stack Ed), uri_resolve_next. apply IH.
Qed.

Theorem uri_path_into_optlist_spec s optnum pre opts :
  uri_spec_path s = Some opts ->
  uri_path_into_optlist s optnum pre = UOk (pre ++ uri_tag optnum opts).
Proof.
  unfold uri_spec_path. intros Hs.
  destruct (uri_decode_all (uri_raw_path_segs s)) as [ds|] eqn:Ed; [|discriminate].
  destruct (uri_fits ds); [|discriminate].
  injection Hs as <-.
  rewrite uri_path_into_optlist_fold, (uri_fold_Hstack_spec _ ds (uri_decode_all_Forall2 _ _ Ed)).
  reflexivity.
Qed.

Lemma uri_query_into_optlist_fold s optnum pre :
  uri_query_into_optlist s optnum pre =
  UOk (pre ++ uri_tag optnum (map uri_replace_pct (uri_raw_query_items s))).
Proof.
  unfold uri_query_into_optlist, uri_query_into_optlist_g.
  rewrite (uri_seg_loop_whole uri_query_stop uri_query_sep _
             (fun seg ch => ch ++ [(optnum, uri_replace_pct seg)]))
    by (intros; apply uri_item_optlist_ok).
  fold (uri_raw_query_items s).
  f_equal. generalize (uri_raw_query_items s). intros raws. revert pre.
  induction raws as [|seg raws IH]; intros pre.
  - symmetry. apply app_nil_r.
  - cbn [fold_left map uri_tag]. rewrite IH, <- app_assoc. reflexivity.
Qed.

Theorem uri_query_into_optlist_safe s optnum pre :
  exists added, uri_query_into_optlist s optnum pre = UOk (pre ++ uri_tag optnum added).
Proof. rewrite uri_query_into_optlist_fold. eexists. reflexivity. Qed.

Lemma uri_map_replace_pct raws ds :
  Forall2 (fun seg d => uri_pct_decode seg = Some d) raws ds -> map uri_replace_pct raws = ds.
Proof.
  induction 1 as [|seg d raws ds Ed _ IH]; [reflexivity|].
  cbn [map]. rewrite (uri_replace_pct_decode seg d Ed), IH. reflexivity.
Qed.

Theorem uri_query_into_optlist_spec s optnum pre opts :
  uri_spec_query s = Some opts ->
  uri_query_into_optlist s optnum pre = UOk (pre ++ uri_tag optnum opts).
Proof.
  unfold uri_spec_query. intros Hs.
  destruct (uri_decode_all (uri_raw_query_items s)) as [ds|] eqn:Ed; [|discriminate].
  destruct (uri_fits ds); [|discriminate].
  injection Hs as <-.
  rewrite uri_query_into_optlist_fold, (uri_map_replace_pct _ ds (uri_decode_all_Forall2 _ _ Ed)).
  reflexivity.
Qed.
