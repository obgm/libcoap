(* dots(): never reads outside the segment; what it computes, for every byte string.  In front, the
   steps shared by the scanner proofs of Uri/. *)
From LibcoapV Require Import Base.Tactics Base.Bytes Base.BytesProofs Uri.Uri.
Local Open Scope Z_scope.

(* one step of a scanning loop whose length variable is the length of what is left *)
Lemma uri_len_cons_nz {A} (c : A) s : (len (c :: s) =? 0) = false.
Proof. rewrite len_cons. pose proof (len_nonneg s). lia. Qed.

Lemma uri_len_cons_pred {A} (c : A) s : len (c :: s) - 1 = len s.
Proof. rewrite len_cons. lia. Qed.

Lemma uri_rd_app seg rest i :
  (i < length seg)%nat -> uri_rd (seg ++ rest) i = uri_rd seg i.
Proof.
  intros H. unfold uri_rd. rewrite nth_error_app1 by exact H. reflexivity.
Qed.

Lemma uri_rd_ok seg i :
  (i < length seg)%nat -> exists c, uri_rd seg i = UOk c.
Proof.
  intros H. unfold uri_rd. destruct (nth_error seg i) eqn:E.
  - eauto.
  - apply nth_error_None in E. lia.
Qed.

Lemma uri_dots_char_app seg rest off n :
  n = len seg - Z.of_nat off -> 1 <= n ->
  uri_dots_char (seg ++ rest) off n = uri_dots_char seg off n /\
  exists c adv n', uri_dots_char seg off n = UOk (c, adv, n') /\
                   ((adv = 0%nat /\ n' = n) \/ (adv = 2%nat /\ n' = n - 2 /\ 3 <= n)).
Proof.
  intros Hn H1. unfold len in Hn.
  assert (H0 : (off < length seg)%nat) by lia.
  unfold uri_dots_char.
  rewrite (uri_rd_app seg rest off H0).
  destruct (uri_rd_ok seg off H0) as [c0 Ec0]. rewrite Ec0. cbn [uri_bind].
  destruct ((c0 =? uri_c_pct) && (3 <=? n)) eqn:E1.
  - assert (H3 : 3 <= n) by lia.
    assert (Ha : (S off < length seg)%nat) by lia.
    assert (Hb : (S (S off) < length seg)%nat) by lia.
    rewrite (uri_rd_app seg rest _ Ha), (uri_rd_app seg rest _ Hb).
    destruct (uri_rd_ok seg _ Ha) as [c1 Ec1]. destruct (uri_rd_ok seg _ Hb) as [c2 Ec2].
    rewrite Ec1, Ec2. cbn [uri_bind].
    split; [reflexivity|].
    destruct (c1 =? 50); [destruct (uri_is_eE c2)|]; eauto 10.
  - split; [reflexivity|]. eauto 10.
Qed.

(* 7: the longest dot segment, "%2e%2e", has 6 bytes *)
Lemma uri_dots_app seg rest :
  uri_dots (seg ++ rest) (len seg) = uri_dots seg (len seg) /\
  exists d, uri_dots seg (len seg) = UOk d /\ 0 <= d <= 2 /\ (7 <= len seg -> d = 0).
Proof.
  unfold uri_dots.
  destruct (len seg =? 0) eqn:E0; [split; [reflexivity|exists 0; split; [reflexivity|lia]]|].
  pose proof (len_nonneg seg) as Hl.
  assert (H1 : 1 <= len seg) by lia.
  destruct (uri_dots_char_app seg rest 0 (len seg) ltac:(lia) H1) as [Ea [c [adv [n1 [Eb Hc]]]]].
  rewrite Ea, Eb. cbn [uri_bind].
  destruct (negb (c =? uri_c_dot)); [split; [reflexivity|exists 0; split; [reflexivity|lia]]|].
  destruct (n1 =? 1) eqn:E1; [split; [reflexivity|exists 1; split; [reflexivity|lia]]|].
  assert (H2 : n1 - 1 = len seg - Z.of_nat (S adv) /\ 1 <= n1 - 1) by lia.
  destruct H2 as [H2 H3].
  destruct (uri_dots_char_app seg rest (S adv) (n1 - 1) H2 H3) as [Ea2 [c2 [adv2 [n2 [Eb2 Hc2]]]]].
  rewrite Ea2, Eb2. cbn [uri_bind].
  destruct (negb (c2 =? uri_c_dot)); [split; [reflexivity|exists 0; split; [reflexivity|lia]]|].
  destruct (n2 =? 1) eqn:E2; split; try reflexivity; [exists 2|exists 0]; split; try reflexivity; lia.
Qed.

(* what dots() answers on a segment; the UOob branch is never taken (uri_dots_app) *)
Definition uri_dots_p (seg : bytes) : Z :=
  match uri_dots seg (len seg) with UOk d => d | UOob => 0 end.

Lemma uri_dots_is seg rest : uri_dots (seg ++ rest) (len seg) = UOk (uri_dots_p seg).
Proof.
  destruct (uri_dots_app seg rest) as [Ea [d [Eb _]]].
  unfold uri_dots_p. rewrite Ea, Eb. reflexivity.
Qed.

Lemma uri_dots_p_range seg : 0 <= uri_dots_p seg <= 2.
Proof.
  destruct (uri_dots_app seg []) as [_ [d [Eb H]]]. unfold uri_dots_p. rewrite Eb. apply H.
Qed.

Lemma uri_dots_p_long seg : 7 <= len seg -> uri_dots_p seg = 0.
Proof.
  destruct (uri_dots_app seg []) as [_ [d [Eb H]]]. unfold uri_dots_p. rewrite Eb. apply H.
Qed.

Definition uri_is_2e (a b c : Z) : bool := (a =? 37) && (b =? 50) && uri_is_eE c.

(* dots() as a table over the shapes of the segment *)
Definition uri_dotkind_raw (seg : bytes) : Z :=
  match seg with
  | [a] => if a =? 46 then 1 else 0
  | [a; b] => if (a =? 46) && (b =? 46) then 2 else 0
  | [a; b; c] => if uri_is_2e a b c then 1 else 0
  | [a; b; c; d] =>
      if ((a =? 46) && uri_is_2e b c d) || (uri_is_2e a b c && (d =? 46))
         || ((a =? 37) && uri_is_2e b c d)         (* "%%2e": malformed, taken for ".." *)
      then 2 else 0
  | [a; b; c; d; e; f] => if uri_is_2e a b c && uri_is_2e d e f then 2 else 0
  | _ => 0
  end.

(* case split on the first [x =? k] of the goal with [x] a variable; where they are equal, [k] is
   put for [x] *)
Ltac zcase :=
  match goal with
  | |- context [Z.eqb ?x ?k] =>
      is_var x; let E := fresh "E" in
      destruct (Z.eqb x k) eqn:E; [apply Z.eqb_eq in E; subst x|]
  end.

Lemma uri_dots_p_table seg : uri_dots_p seg = uri_dotkind_raw seg.
Proof.
  destruct seg as [|a [|b [|c [|d [|e [|f [|g t]]]]]]].
  8: { rewrite uri_dots_p_long; [reflexivity|].
       unfold len. cbn [length]. lia. }
  all: unfold uri_dots_p, uri_dots, uri_dots_char, uri_rd, uri_dotkind_raw, uri_is_2e, uri_is_eE,
         uri_c_pct, uri_c_dot, len; cbn [length Z.of_nat Pos.of_succ_nat Pos.succ nth_error uri_bind];
       try reflexivity.
  all: repeat (zcase; cbn); try reflexivity.
Qed.

Lemma uri_dots_table seg rest : uri_dots (seg ++ rest) (len seg) = UOk (uri_dotkind_raw seg).
Proof. rewrite uri_dots_is, uri_dots_p_table. reflexivity. Qed.
