(* One segment: check_segment / decode_segment / coap_replace_percents against RFC 3986 2.1
   percent-decoding, and the dot test against the decoded value. *)
From LibcoapV Require Import Base.Tactics Base.Bytes Base.BytesProofs Uri.Uri Uri.Spec Uri.DotsProofs.
Local Open Scope Z_scope.

Lemma uri_hexdec_hex x : uri_isxdigit x = true -> uri_hexdec x = uri_hexval x /\ 0 <= uri_hexval x < 16.
Proof.
  unfold uri_isxdigit, uri_isdigit, uri_hexdec, uri_hexval, uri_isdigit. intros H.
  destruct ((48 <=? x) && (x <=? 57)) eqn:E1.
  - assert ((x / 64) mod 2 =? 1 = false) as -> by lia. lia.
  - destruct (x <=? 70) eqn:E2.
    + assert ((x / 64) mod 2 =? 1 = true) as -> by lia. lia.
    + assert ((x / 64) mod 2 =? 1 = true) as -> by lia. lia.
Qed.

Lemma uri_hexpair_hex x1 x2 :
  uri_isxdigit x1 = true -> uri_isxdigit x2 = true ->
  uri_hexpair x1 x2 = uri_hexval x1 * 16 + uri_hexval x2.
Proof.
  intros H1 H2. unfold uri_hexpair.
  destruct (uri_hexdec_hex x1 H1) as [-> ?]. destruct (uri_hexdec_hex x2 H2) as [-> ?].
  rewrite Z.mod_small; lia.
Qed.

Lemma uri_hexpair_byte x1 x2 : 0 <= uri_hexpair x1 x2 < 256.
Proof. unfold uri_hexpair. apply Z.mod_pos_bound. lia. Qed.

(* "%XY" decodes to '.' only for %2e / %2E *)
Lemma uri_hexpair_dot x1 x2 :
  uri_isxdigit x1 = true -> uri_isxdigit x2 = true -> uri_hexpair x1 x2 = 46 ->
  x1 = 50 /\ uri_is_eE x2 = true.
Proof.
  intros H1 H2. rewrite (uri_hexpair_hex x1 x2 H1 H2).
  unfold uri_isxdigit, uri_isdigit, uri_hexval, uri_isdigit, uri_is_eE in *.
  destruct ((48 <=? x1) && (x1 <=? 57)) eqn:E1; destruct ((48 <=? x2) && (x2 <=? 57)) eqn:E2;
    destruct (x1 <=? 70) eqn:E3; destruct (x2 <=? 70) eqn:E4; lia.
Qed.

(* strong induction on the length: the scanners advance by one byte or by three *)
Lemma uri_len_ind (P : list Z -> Prop) :
  (forall s, (forall r, (length r < length s)%nat -> P r) -> P s) -> forall s, P s.
Proof.
  intros H s. remember (length s) as m eqn:Em.
  revert s Em. induction m as [m IH] using lt_wf_ind. intros s ->.
  apply H. intros r Hr. exact (IH _ Hr r eq_refl).
Qed.

Lemma uri_szsub_ge a b : b <= a -> uri_szsub a b = a - b.
Proof. intros H. unfold uri_szsub. destruct (a <? b) eqn:E; lia. Qed.

(* uri_pct_decode s = Some d, by what s starts with: nothing, an escape, any other byte *)
Lemma uri_pct_decode_ind (P : bytes -> bytes -> Prop) :
  P [] [] ->
  (forall x1 x2 s d, uri_isxdigit x1 = true -> uri_isxdigit x2 = true ->
     uri_pct_decode s = Some d -> P s d -> P (37 :: x1 :: x2 :: s) (uri_hexpair x1 x2 :: d)) ->
  (forall c s d, c <> 37 -> uri_pct_decode s = Some d -> P s d -> P (c :: s) (c :: d)) ->
  forall s d, uri_pct_decode s = Some d -> P s d.
Proof.
  intros Hnil Hesc Hplain. induction s as [s IH] using uri_len_ind. intros d Hd.
  destruct s as [|c s1]; [injection Hd as <-; exact Hnil|].
  cbn [uri_pct_decode] in Hd. destruct (c =? 37) eqn:Ec.
  - apply Z.eqb_eq in Ec. subst c. destruct s1 as [|x1 [|x2 s3]]; try discriminate.
    destruct (uri_isxdigit x1) eqn:X1; [|discriminate].
    destruct (uri_isxdigit x2) eqn:X2; [|discriminate].
    cbn [andb] in Hd. destruct (uri_pct_decode s3) as [d3|] eqn:E3; [|discriminate].
    injection Hd as <-. rewrite <- uri_hexpair_hex by assumption.
    apply Hesc; auto. apply IH; [cbn [length]; lia|exact E3].
  - destruct (uri_pct_decode s1) as [d1|] eqn:E1; [|discriminate]. injection Hd as <-.
    apply Hplain; [lia|exact E1|]. apply IH; [cbn [length]; lia|exact E1].
Qed.

(* check_segment with the code's guard constant 3 (with 2 it overreads:
   C16_check_segment_k2_overreads) *)
Lemma uri_check_seg_spec : forall seg rest n,
  uri_check_seg 3 (seg ++ rest) (len seg) n =
  UOk (match uri_pct_decode seg with Some d => Some (n + len d) | None => None end).
Proof.
  induction seg as [seg IH] using uri_len_ind. intros rest n.
  destruct seg as [|c s1].
  - cbn [uri_pct_decode]. rewrite len_nil, Z.add_0_r. destruct rest; reflexivity.
  - cbn [app uri_check_seg uri_pct_decode]. rewrite uri_len_cons_nz. change uri_c_pct with 37.
    destruct (c =? 37).
    + destruct s1 as [|x1 [|x2 s3]]; [reflexivity..|].
      assert (L : len (c :: x1 :: x2 :: s3) = 3 + len s3) by (rewrite !len_cons; lia).
      rewrite L. pose proof (len_nonneg s3) as Hl3.
      destruct (3 + len s3 <? 3) eqn:E3; [lia|]. cbn [app].
      destruct (uri_isxdigit x1); cbn [negb andb]; [|reflexivity].
      destruct (uri_isxdigit x2); cbn [negb andb]; [|reflexivity].
      rewrite (uri_szsub_ge (3 + len s3)), uri_szsub_ge by lia.
      replace (3 + len s3 - 2 - 1) with (len s3) by lia.
      rewrite IH by (cbn [length]; lia).
      destruct (uri_pct_decode s3); [|reflexivity].
      rewrite len_cons. f_equal. f_equal. lia.
    + rewrite uri_len_cons_pred, IH by (cbn [length]; lia).
      destruct (uri_pct_decode s1); [|reflexivity].
      rewrite len_cons. f_equal. f_equal. lia.
Qed.

Lemma uri_decode_seg_spec seg rest d :
  uri_pct_decode seg = Some d -> uri_decode_seg (seg ++ rest) (len seg) = UOk d.
Proof.
  revert seg d. apply uri_pct_decode_ind.
  - rewrite len_nil. destruct rest; reflexivity.
  - intros x1 x2 s d _ _ _ IH. cbn [app uri_decode_seg]. rewrite uri_len_cons_nz.
    change (37 =? uri_c_pct) with true. cbv iota.
    assert (E : uri_szsub (len (37 :: x1 :: x2 :: s) - 1) 2 = len s)
      by (rewrite !len_cons, uri_szsub_ge; pose proof (len_nonneg s); lia).
    rewrite E, IH. reflexivity.
  - intros c s d Hc _ IH. cbn [app uri_decode_seg]. rewrite uri_len_cons_nz, uri_len_cons_pred.
    replace (c =? uri_c_pct) with false by (unfold uri_c_pct; lia).
    rewrite IH. reflexivity.
Qed.

Lemma uri_pct_decode_wfb : forall seg d, wfb seg -> uri_pct_decode seg = Some d -> wfb d.
Proof.
  intros seg d Hw Hd. revert seg d Hd Hw. apply (uri_pct_decode_ind (fun seg d => wfb seg -> wfb d)).
  - auto.
  - intros x1 x2 s d _ _ _ IH Hw. apply wfb_cons. split; [apply uri_hexpair_byte|].
    apply IH. change (wfb ([37; x1; x2] ++ s)) in Hw. apply wfb_app in Hw. apply Hw.
  - intros c s d _ _ IH Hw. apply wfb_cons in Hw. apply wfb_cons. split; [apply Hw|apply IH, Hw].
Qed.

Lemma uri_pct_decode_len : forall seg d,
  uri_pct_decode seg = Some d -> len d <= len seg <= 3 * len d.
Proof.
  apply uri_pct_decode_ind.
  - rewrite len_nil. lia.
  - intros x1 x2 s d _ _ _ IH. rewrite !len_cons. lia.
  - intros c s d _ _ IH. rewrite !len_cons. lia.
Qed.

Lemma uri_replace_pct_decode : forall seg d,
  uri_pct_decode seg = Some d -> uri_replace_pct seg = d.
Proof.
  unfold uri_replace_pct. apply uri_pct_decode_ind.
  - reflexivity.
  - intros x1 x2 s d X1 X2 _ IH. cbn [uri_replace_pct_g]. rewrite X1, X2, IH. reflexivity.
  - intros c s d Hc _ IH. cbn [uri_replace_pct_g].
    replace (c =? uri_c_pct) with false by (unfold uri_c_pct; lia).
    destruct s as [|x1 [|x2 s3]]; cbn [andb]; rewrite IH; reflexivity.
Qed.

(* first output byte and the rest of the input, for any (also malformed) segment *)
Lemma uri_replace_pct_step c s1 :
  exists o r, uri_replace_pct (c :: s1) = o :: uri_replace_pct r /\
    ((o = c /\ r = s1) \/
     (exists x1 x2, c = 37 /\ s1 = x1 :: x2 :: r /\ uri_isxdigit x1 = true /\
                    uri_isxdigit x2 = true /\ o = uri_hexpair x1 x2)).
Proof.
  unfold uri_replace_pct. cbn [uri_replace_pct_g].
  destruct s1 as [|x1 [|x2 s3]]; [eexists; eexists; split; [reflexivity|left; auto]..|].
  destruct ((c =? uri_c_pct) && (negb true || uri_isxdigit x1 && uri_isxdigit x2)) eqn:E.
  - apply andb_true_iff in E. destruct E as [Ec E]. apply andb_true_iff in E.
    apply Z.eqb_eq in Ec. eexists. eexists. split; [reflexivity|right].
    exists x1, x2. tauto.
  - eexists. eexists. split; [reflexivity|left; auto].
Qed.

Lemma uri_replace_pct_nil s : uri_replace_pct s = [] -> s = [].
Proof.
  destruct s as [|c s1]; [reflexivity|].
  destruct (uri_replace_pct_step c s1) as [o [r [E _]]]. rewrite E. discriminate.
Qed.

(* a raw segment that decodes to "." *)
Definition uri_dotform (s : bytes) : Prop :=
  s = [46] \/ exists e, uri_is_eE e = true /\ s = [37; 50; e].

Lemma uri_replace_pct_dot_first c s1 r' :
  uri_replace_pct (c :: s1) = 46 :: r' ->
  exists f r, c :: s1 = f ++ r /\ uri_dotform f /\ uri_replace_pct r = r'.
Proof.
  intros H. destruct (uri_replace_pct_step c s1) as [o [r [E Hc]]].
  rewrite E in H. injection H as Ho Hr. subst o.
  destruct Hc as [[Hoc Hrs]|[x1 [x2 [Hc [Hs [X1 [X2 Ho]]]]]]].
  - subst. exists [46], s1. split; [reflexivity|]. split; [left; reflexivity|reflexivity].
  - symmetry in Ho. destruct (uri_hexpair_dot x1 x2 X1 X2 Ho) as [-> He]. subst.
    exists [37; 50; x2], r. split; [reflexivity|]. split; [right; eauto|reflexivity].
Qed.

Lemma uri_replace_pct_is_dot s :
  uri_is_dot (uri_replace_pct s) = true -> uri_dotform s.
Proof.
  intros H. destruct (uri_replace_pct s) as [|o [|? ?]] eqn:E; try discriminate.
  cbn in H. apply Z.eqb_eq in H. subst o.
  destruct s as [|c s1]; [discriminate|].
  destruct (uri_replace_pct_dot_first c s1 [] E) as [f [r [Es [Hf Hr]]]].
  apply uri_replace_pct_nil in Hr. subst r. rewrite app_nil_r in Es. rewrite Es. exact Hf.
Qed.

Lemma uri_replace_pct_is_dotdot s :
  uri_is_dotdot (uri_replace_pct s) = true ->
  exists f1 f2, s = f1 ++ f2 /\ uri_dotform f1 /\ uri_dotform f2.
Proof.
  intros H. destruct (uri_replace_pct s) as [|o1 [|o2 [|? ?]]] eqn:E; try discriminate.
  cbn in H. apply andb_true_iff in H. destruct H as [H1 H2].
  apply Z.eqb_eq in H1, H2. subst o1 o2.
  destruct s as [|c s1]; [discriminate|].
  destruct (uri_replace_pct_dot_first c s1 [46] E) as [f [r [Es [Hf Hr]]]].
  exists f, r. split; [exact Es|]. split; [exact Hf|].
  apply uri_replace_pct_is_dot. rewrite Hr. reflexivity.
Qed.

(* the kind of a decoded segment: 1 = ".", 2 = "..", 0 = anything else *)
Definition uri_kind (d : bytes) : Z :=
  if uri_is_dot d then 1 else if uri_is_dotdot d then 2 else 0.

Lemma uri_is_eE_cases e : uri_is_eE e = true -> e = 69 \/ e = 101.
Proof. unfold uri_is_eE. lia. Qed.

Lemma uri_dotkind_dotform f : uri_dotform f -> uri_dotkind_raw f = 1.
Proof.
  intros [->|[e [He ->]]]; [reflexivity|].
  destruct (uri_is_eE_cases e He) as [->| ->]; reflexivity.
Qed.

Lemma uri_dotkind_dotform2 f1 f2 :
  uri_dotform f1 -> uri_dotform f2 -> uri_dotkind_raw (f1 ++ f2) = 2.
Proof.
  intros [->|[e1 [He1 ->]]] [->|[e2 [He2 ->]]];
    try destruct (uri_is_eE_cases e1 He1) as [->| ->];
    try destruct (uri_is_eE_cases e2 He2) as [->| ->]; reflexivity.
Qed.

(* whatever coap_replace_percents makes of a segment: if it is "." or "..", dots() saw it *)
Lemma uri_replace_pct_kind s :
  uri_kind (uri_replace_pct s) <> 0 -> uri_dots_p s = uri_kind (uri_replace_pct s).
Proof.
  unfold uri_kind. rewrite uri_dots_p_table.
  destruct (uri_is_dot (uri_replace_pct s)) eqn:E1.
  - intros _. apply uri_replace_pct_is_dot in E1. apply uri_dotkind_dotform. exact E1.
  - destruct (uri_is_dotdot (uri_replace_pct s)) eqn:E2; [|tauto].
    intros _. apply uri_replace_pct_is_dotdot in E2. destruct E2 as [f1 [f2 [-> [H1 H2]]]].
    apply uri_dotkind_dotform2; assumption.
Qed.

Lemma uri_dots_p_decode s d :
  uri_pct_decode s = Some d -> uri_dots_p s = uri_kind d.
Proof.
  intros Hd. destruct (Z.eq_dec (uri_kind d) 0) as [K0|K0].
  - (* dots() <> 0 only on the seven shapes of the table; all but "%%2e" are well-formed dots *)
    rewrite K0. rewrite uri_dots_p_table.
    destruct (Z.eq_dec (uri_dotkind_raw s) 0) as [|N]; [assumption|exfalso].
    revert Hd K0 N.
    destruct s as [|a [|b [|c [|e [|f [|g [|h t]]]]]]]; cbn [uri_dotkind_raw]; try tauto;
      unfold uri_is_2e, uri_is_eE; intros Hd K0;
      repeat (zcase; cbn); try (intros N; lia); intros _;
      cbn in Hd; try discriminate; injection Hd as <-; cbn in K0; discriminate.
  - rewrite <- (uri_replace_pct_decode s d Hd) in *. apply uri_replace_pct_kind. exact K0.
Qed.
