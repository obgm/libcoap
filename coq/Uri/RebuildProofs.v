(* options -> string (coap_get_uri_path, coap_get_query): injective up to the normalisation
   "a single empty segment is no segment", and the string feeds back to the same options. *)
From LibcoapV Require Import Base.Tactics Base.Bytes Base.BytesProofs Uri.Uri Uri.Spec Uri.PathProofs.
Local Open Scope Z_scope.

Lemma uri_hexchar_ok d :
  0 <= d < 16 ->
  uri_isxdigit (uri_hexchar d) = true /\ uri_hexval (uri_hexchar d) = d /\
  (48 <= uri_hexchar d <= 57 \/ 65 <= uri_hexchar d <= 70).
Proof.
  intros H. unfold uri_hexchar, uri_isxdigit, uri_hexval, uri_isdigit.
  destruct (d <? 10) eqn:E.
  - replace ((48 <=? 48 + d) && (48 + d <=? 57)) with true by lia. cbn [orb]. lia.
  - replace ((48 <=? 55 + d) && (55 + d <=? 57)) with false by lia.
    replace (55 + d <=? 70) with true by lia.
    replace ((65 <=? 55 + d) && (55 + d <=? 70)) with true by lia. cbn [orb]. lia.
Qed.

(* a character the escaper may emit *)
Definition uri_emitted (un : Z -> bool) (x : Z) : Prop :=
  un x = true \/ x = 37 \/ 48 <= x <= 57 \/ 65 <= x <= 70.

(* a delimiter that can never come out of the escaper *)
Definition uri_delim_ok (un : Z -> bool) (c : Z) : Prop :=
  un c = false /\ c <> 37 /\ ~ (48 <= c <= 57) /\ ~ (65 <= c <= 70).

Lemma uri_delim_not_emitted un c x : uri_delim_ok un c -> uri_emitted un x -> (x =? c) = false.
Proof.
  intros [H1 [H2 [H3 H4]]] He. destruct (x =? c) eqn:E; [|reflexivity].
  apply Z.eqb_eq in E. subst x. destruct He as [He|[He|He]]; [congruence|lia|lia].
Qed.

Section Esc.
  Variable un : Z -> bool.
  Hypothesis un_pct : un 37 = false.

  Lemma uri_esc_emitted seg : wfb seg -> forall x, In x (uri_esc un seg) -> uri_emitted un x.
  Proof.
    induction seg as [|c r IH]; intros Hw x Hx; [destruct Hx|].
    apply wfb_cons in Hw. destruct Hw as [Hc Hw]. cbn [uri_esc] in Hx.
    apply in_app_or in Hx. destruct Hx as [Hx|Hx]; [|apply IH; assumption].
    unfold uri_esc_byte in Hx. destruct (un c) eqn:Eu.
    - destruct Hx as [<-|[]]. left. exact Eu.
    - unfold is_byte in Hc.
      destruct (uri_hexchar_ok (c / 16) ltac:(lia)) as [_ [_ H1]].
      destruct (uri_hexchar_ok (c mod 16) ltac:(lia)) as [_ [_ H2]].
      unfold uri_emitted, uri_c_pct in *. cbn [In] in Hx.
      destruct Hx as [<-|[<-|[<-|[]]]]; auto.
  Qed.

  Lemma uri_pct_decode_esc seg : wfb seg -> uri_pct_decode (uri_esc un seg) = Some seg.
  Proof.
    induction seg as [|c r IH]; intros Hw; [reflexivity|].
    apply wfb_cons in Hw. destruct Hw as [Hc Hw]. cbn [uri_esc]. unfold uri_esc_byte.
    destruct (un c) eqn:Eu.
    - cbn [app uri_pct_decode].
      destruct (c =? 37) eqn:E37; [apply Z.eqb_eq in E37; congruence|].
      rewrite (IH Hw). reflexivity.
    - unfold is_byte in Hc. unfold uri_c_pct.
      destruct (uri_hexchar_ok (c / 16) ltac:(lia)) as [X1 [V1 _]].
      destruct (uri_hexchar_ok (c mod 16) ltac:(lia)) as [X2 [V2 _]].
      cbn [app uri_pct_decode Z.eqb Pos.eqb]. rewrite X1, X2. cbn [andb].
      rewrite (IH Hw), V1, V2. f_equal. f_equal. lia.
  Qed.

  Lemma uri_esc_nil seg : uri_esc un seg = [] -> seg = [].
  Proof.
    destruct seg as [|c r]; [reflexivity|]. cbn [uri_esc]. unfold uri_esc_byte.
    destruct (un c); discriminate.
  Qed.

  Variable sep : Z.
  Hypothesis sep_ok : uri_delim_ok un sep.

  Lemma uri_esc_nosep seg : wfb seg -> forall x, In x (uri_esc un seg) -> (x =? sep) = false.
  Proof.
    intros Hw x Hx. apply (uri_delim_not_emitted un sep x sep_ok).
    apply (uri_esc_emitted seg Hw x Hx).
  Qed.

  Lemma uri_split_join_tail x t :
    wfb x -> Forall wfb t ->
    uri_split_on (fun c => c =? sep) (uri_esc un x ++ uri_join_tail sep un t) =
    uri_esc un x :: map (uri_esc un) t.
  Proof.
    revert x. induction t as [|y t IH]; intros x Hx Ht.
    - cbn [uri_join_tail map]. rewrite uri_split_on_app by (apply uri_esc_nosep; exact Hx).
      unfold uri_segs_from. cbn [uri_split_on]. rewrite app_nil_r. reflexivity.
    - inversion Ht as [|? ? Hy Ht']; subst. cbn [uri_join_tail map].
      rewrite uri_split_on_app by (apply uri_esc_nosep; exact Hx).
      unfold uri_segs_from. cbn [uri_split_on]. rewrite Z.eqb_refl, (IH y Hy Ht'), app_nil_r.
      reflexivity.
  Qed.

  (* what a receiver that splits at [sep] and decodes once sees *)
  Definition uri_seen (l : list bytes) : list bytes := match l with [] => [[]] | _ => l end.

  Lemma uri_decode_all_esc l : Forall wfb l -> uri_decode_all (map (uri_esc un) l) = Some l.
  Proof.
    induction l as [|x l IH]; intros Hl; [reflexivity|].
    inversion Hl; subst. cbn [map uri_decode_all].
    rewrite uri_pct_decode_esc by assumption. rewrite IH by assumption. reflexivity.
  Qed.

  Lemma uri_split_join l :
    Forall wfb l ->
    uri_decode_all (uri_split_on (fun c => c =? sep) (uri_join sep un l)) = Some (uri_seen l).
  Proof.
    intros Hl. destruct l as [|x t]; [reflexivity|].
    inversion Hl; subst. unfold uri_join. rewrite uri_split_join_tail by assumption.
    change (uri_esc un x :: map (uri_esc un) t) with (map (uri_esc un) (x :: t)).
    rewrite uri_decode_all_esc by assumption. reflexivity.
  Qed.

  Lemma uri_norm_seen l : uri_norm (uri_seen l) = uri_norm l.
  Proof. destruct l; reflexivity. Qed.

  Lemma uri_join_injective l1 l2 :
    Forall wfb l1 -> Forall wfb l2 ->
    uri_join sep un l1 = uri_join sep un l2 -> uri_norm l1 = uri_norm l2.
  Proof.
    intros H1 H2 E.
    pose proof (uri_split_join l1 H1) as S1. pose proof (uri_split_join l2 H2) as S2.
    rewrite E in S1. rewrite S1 in S2. injection S2 as S.
    rewrite <- (uri_norm_seen l1), <- (uri_norm_seen l2), S. reflexivity.
  Qed.

  Lemma uri_join_tail_chars t :
    Forall wfb t -> forall x, In x (uri_join_tail sep un t) -> x = sep \/ uri_emitted un x.
  Proof.
    induction t as [|y t IH]; intros Ht x Hx; [destruct Hx|].
    inversion Ht; subst. cbn [uri_join_tail] in Hx. destruct Hx as [<-|Hx]; [auto|].
    apply in_app_or in Hx. destruct Hx as [Hx|Hx]; [right; apply (uri_esc_emitted y); assumption|].
    apply IH; assumption.
  Qed.

  Lemma uri_join_chars l :
    Forall wfb l -> forall x, In x (uri_join sep un l) -> x = sep \/ uri_emitted un x.
  Proof.
    intros Hl x Hx. destruct l as [|y t]; [destruct Hx|].
    apply (uri_join_tail_chars (y :: t) Hl). right. exact Hx.
  Qed.

  (* the raw segments a scanner with stop set [stop] finds in the joined string *)
  Lemma uri_raw_of_join (stop : Z -> bool) l :
    Forall wfb l -> stop sep = false ->
    (forall x, uri_emitted un x -> stop x = false) ->
    uri_decode_all (uri_split_on (fun c => c =? sep) (uri_upto stop (uri_join sep un l))) =
    Some (uri_seen l).
  Proof.
    intros Hl Hs He. rewrite uri_upto_all; [apply uri_split_join; exact Hl|].
    intros x Hx. destruct (uri_join_chars l Hl x Hx) as [->|Hx']; auto.
  Qed.

  (* first pass (length) and second pass (fill) agree *)
  Lemma uri_esc_len_ok seg : uri_esc_len un seg = len (uri_esc un seg).
  Proof.
    induction seg as [|c r IH]; [reflexivity|]. cbn [uri_esc_len uri_esc]. rewrite len_app, IH.
    unfold uri_esc_byte. destruct (un c); reflexivity.
  Qed.

  Lemma uri_join_len_ok l : uri_join_len un l = len (uri_join sep un l).
  Proof.
    unfold uri_join_len.
    assert (T : forall t, uri_join_len_raw un t = len (uri_join_tail sep un t)).
    { induction t as [|y t IH]; [reflexivity|]. cbn [uri_join_len_raw uri_join_tail].
      rewrite len_cons, len_app, IH, uri_esc_len_ok. lia. }
    destruct l as [|x t]; [reflexivity|]. cbn [uri_join_len_raw]. unfold uri_join.
    rewrite len_app, T, uri_esc_len_ok.
    pose proof (len_nonneg (uri_esc un x)). pose proof (len_nonneg (uri_join_tail sep un t)).
    destruct (0 <? len (uri_esc un x) + 1 + len (uri_join_tail sep un t)) eqn:E; lia.
  Qed.

  Lemma uri_seen_norm l : uri_join sep un l <> [] -> uri_seen l = uri_norm l.
  Proof.
    destruct l as [|[|? ?] [|? ?]]; try reflexivity; intros H; exfalso; apply H; reflexivity.
  Qed.

  Lemma uri_join_empty l : uri_join sep un l = [] -> uri_norm l = [].
  Proof.
    destruct l as [|x t]; [reflexivity|]. unfold uri_join. intros E.
    apply app_eq_nil in E. destruct E as [Ex Et]. apply uri_esc_nil in Ex. subst x.
    destruct t; [reflexivity|discriminate].
  Qed.
End Esc.

(* the two instances: path ('/' with is_unescaped_in_path) and query ('&', is_unescaped_in_query) *)
Lemma uri_path_un_pct : uri_unesc_path 37 = false.
Proof. reflexivity. Qed.
Lemma uri_query_un_pct : uri_unesc_query 37 = false.
Proof. reflexivity. Qed.
Lemma uri_path_sep_ok : uri_delim_ok uri_unesc_path 47.
Proof. unfold uri_delim_ok. split; [reflexivity|lia]. Qed.
Lemma uri_query_sep_ok : uri_delim_ok uri_unesc_query 38.
Proof. unfold uri_delim_ok. split; [reflexivity|lia]. Qed.

Lemma uri_in_true c l : uri_in c l = true -> In c l.
Proof.
  unfold uri_in. rewrite existsb_exists. intros [x [Hx E]]. apply Z.eqb_eq in E. subst. exact Hx.
Qed.

(* '?' and '#' can never come out of the path escaper, '#' never out of the query escaper *)
Lemma uri_path_emitted_nostop x : uri_emitted uri_unesc_path x -> uri_path_stop x = false.
Proof.
  intros H. unfold uri_path_stop, uri_c_qm, uri_c_hash.
  rewrite (uri_delim_not_emitted uri_unesc_path 63 x), (uri_delim_not_emitted uri_unesc_path 35 x)
    by (exact H || (split; [reflexivity|lia])).
  reflexivity.
Qed.

Lemma uri_query_emitted_nostop x : uri_emitted uri_unesc_query x -> uri_query_stop x = false.
Proof.
  intros H. apply (uri_delim_not_emitted uri_unesc_query 35 x); [|exact H].
  split; [reflexivity|lia].
Qed.

Theorem uri_get_path_injective l1 l2 :
  Forall wfb l1 -> Forall wfb l2 -> uri_get_path l1 = uri_get_path l2 -> uri_norm l1 = uri_norm l2.
Proof. apply (uri_join_injective uri_unesc_path uri_path_un_pct 47 uri_path_sep_ok). Qed.

Theorem uri_get_query_injective l1 l2 :
  Forall wfb l1 -> Forall wfb l2 -> uri_get_query l1 = uri_get_query l2 -> uri_norm l1 = uri_norm l2.
Proof. apply (uri_join_injective uri_unesc_query uri_query_un_pct 38 uri_query_sep_ok). Qed.

Lemma uri_resolve_no_dots : forall l stack,
  uri_no_dots l -> uri_resolve l stack = rev l ++ stack.
Proof.
  induction l as [|d l IH]; intros stack H; [reflexivity|].
  cbn [uri_resolve rev]. destruct (H d (or_introl eq_refl)) as [D1 D2]. rewrite D1, D2.
  rewrite IH by (intros x Hx; apply H; right; exact Hx).
  rewrite <- app_assoc. reflexivity.
Qed.

Lemma uri_fits_seen l : uri_fits l = true -> uri_fits (uri_seen l) = true.
Proof. destruct l; [reflexivity|auto]. Qed.

Lemma uri_spec_path_of_get l :
  Forall wfb l -> uri_fits l = true -> uri_no_dots l ->
  uri_spec_path (uri_get_path l) = Some (uri_seen l).
Proof.
  intros Hl Hf Hd.
  pose proof (uri_raw_of_join uri_unesc_path uri_path_un_pct 47 uri_path_sep_ok uri_path_stop l Hl
                eq_refl uri_path_emitted_nostop) as R.
  change (uri_decode_all (uri_raw_path_segs (uri_get_path l)) = Some (uri_seen l)) in R.
  unfold uri_spec_path. rewrite R, (uri_fits_seen l Hf).
  assert (Hs : uri_no_dots (uri_seen l)).
  { destruct l; [|exact Hd]. intros d [<-|[]]. split; reflexivity. }
  rewrite (uri_resolve_no_dots _ [] Hs), app_nil_r, rev_involutive. reflexivity.
Qed.

Lemma uri_spec_query_of_get l :
  Forall wfb l -> uri_fits l = true -> uri_spec_query (uri_get_query l) = Some (uri_seen l).
Proof.
  intros Hl Hf.
  pose proof (uri_raw_of_join uri_unesc_query uri_query_un_pct 38 uri_query_sep_ok uri_query_stop l
                Hl eq_refl uri_query_emitted_nostop) as R.
  change (uri_decode_all (uri_raw_query_items (uri_get_query l)) = Some (uri_seen l)) in R.
  unfold uri_spec_query. rewrite R, (uri_fits_seen l Hf). reflexivity.
Qed.

Theorem uri_get_path_feeds_back l buflen :
  Forall wfb l -> uri_fits l = true -> uri_no_dots l -> uri_path_need (uri_get_path l) <= buflen ->
  uri_path_to_opts (uri_get_path l) buflen = UOk (uri_encs (uri_norm l)).
Proof.
  intros Hl Hf Hd Hn. unfold uri_path_to_opts.
  destruct (uri_get_path l) as [|c s] eqn:E.
  - rewrite (uri_join_empty uri_unesc_path 47 l E). reflexivity.
  - assert (Hne : uri_get_path l <> []) by (rewrite E; discriminate).
    rewrite <- E. rewrite <- E in Hn.
    rewrite (uri_split_path_spec _ buflen _ (uri_spec_path_of_get l Hl Hf Hd) Hn).
    rewrite (uri_seen_norm _ _ l Hne). reflexivity.
Qed.

Theorem uri_get_query_feeds_back l buflen :
  Forall wfb l -> uri_fits l = true -> uri_query_need (uri_get_query l) <= buflen ->
  uri_query_to_opts (uri_get_query l) buflen = UOk (uri_encs (uri_norm l)).
Proof.
  intros Hl Hf Hn. unfold uri_query_to_opts.
  destruct (uri_get_query l) as [|c s] eqn:E.
  - rewrite (uri_join_empty uri_unesc_query 38 l E). reflexivity.
  - assert (Hne : uri_get_query l <> []) by (rewrite E; discriminate).
    rewrite <- E. rewrite <- E in Hn.
    rewrite (uri_split_query_spec _ buflen _ (uri_spec_query_of_get l Hl Hf) Hn).
    rewrite (uri_seen_norm _ _ l Hne). reflexivity.
Qed.
