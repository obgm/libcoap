(* C20 - reading the listing back gives exactly the registered (listed) resources. *)
From LibcoapV Require Import Base.Tactics Base.Bytes Link.LinkFormat Link.LinkParse
  Link.LinkExamples.
Local Open Scope Z_scope.

(* what may follow a complete param: nothing, or a ';' or ',' *)
Definition lf_rest_ok (rest : bytes) : Prop :=
  match rest with [] => True | d :: _ => lf_is_delim d = true end.

Lemma lf_span_app stop a : forall rest,
  forallb (fun x => negb (stop x)) a = true ->
  match rest with [] => True | d :: _ => stop d = true end ->
  lf_span stop (a ++ rest) = (a, rest).
Proof.
  induction a as [|c tl IH]; intros rest Ha Hr; cbn [app lf_span].
  - destruct rest as [|d r]; [reflexivity|]. cbn [lf_span]. rewrite Hr. reflexivity.
  - cbn [forallb] in Ha. apply andb_true_iff in Ha. destruct Ha as [Hc Htl].
    apply negb_true_iff in Hc. rewrite Hc. rewrite (IH rest Htl Hr). reflexivity.
Qed.

Lemma lf_delim_name_end d : lf_is_delim d = true -> lf_is_name_end d = true /\ (d =? 61) = false /\ (d =? 34) = false.
Proof. unfold lf_is_name_end, lf_is_delim. intros H. lia. Qed.

Lemma lf_parse_param_ok a rest :
  lf_clean_attr a = true -> lf_rest_ok rest ->
  lf_parse_param (lf_aname a ++ match lf_avalue a with Some v => 61 :: v | None => [] end ++ rest)
  = Some (a, rest).
Proof.
  intros Hc Hr. destruct a as [name val]. unfold lf_clean_attr in Hc. cbn [lf_aname lf_avalue] in *.
  apply andb_true_iff in Hc. destruct Hc as [Hn Hv].
  unfold lf_parse_param.
  destruct val as [v|].
  - rewrite (lf_span_app lf_is_name_end name ((61 :: v) ++ rest) Hn) by reflexivity.
    cbn [app Z.eqb Pos.eqb].
    unfold lf_clean_value in Hv.
    destruct v as [|c tl].
    + (* empty value *)
      cbn [app]. destruct rest as [|d r]; [reflexivity|].
      cbn [lf_rest_ok] in Hr. destruct (lf_delim_name_end d Hr) as (_ & _ & Hq). rewrite Hq.
      cbn [lf_span]. rewrite Hr. reflexivity.
    + cbn [app]. destruct (c =? 34) eqn:Ec.
      * (* quoted-string *)
        assert (c = 34) by lia. subst c.
        destruct (rev tl) as [|q rin] eqn:Er; [discriminate|].
        apply andb_true_iff in Hv. destruct Hv as [Hq Hin].
        assert (q = 34) by lia. subst q.
        assert (tl = rev rin ++ [34]) as Htl.
        { rewrite <- (rev_involutive tl), Er. reflexivity. }
        rewrite Htl. rewrite <- app_assoc. cbn [app].
        rewrite (lf_span_app lf_is_quote (rev rin) (34 :: rest)); [reflexivity| |reflexivity].
        rewrite forallb_forall in *. intros x Hx. apply Hin. apply in_rev in Hx. exact Hx.
      * (* ptoken *)
        change (c :: tl ++ rest) with ((c :: tl) ++ rest).
        rewrite (lf_span_app lf_is_delim (c :: tl) rest Hv); [reflexivity|].
        destruct rest; [exact I|exact Hr].
  - cbn [app]. rewrite (lf_span_app lf_is_name_end name rest Hn).
    + destruct rest as [|d r]; [reflexivity|]. cbn [lf_rest_ok] in Hr.
      destruct (lf_delim_name_end d Hr) as (_ & He & _). rewrite He. reflexivity.
    + destruct rest as [|d r]; [exact I|]. apply (lf_delim_name_end d Hr).
Qed.

Lemma lf_attr_text_head a : exists t, lf_attr_text a = 59 :: t.
Proof. unfold lf_attr_text. eexists. reflexivity. Qed.

(* the params of a link, followed by the end of the input or by ",next link" *)
Lemma lf_parse_params_ok attrs : forall fuel (more : option bytes),
  forallb lf_clean_attr attrs = true ->
  (length attrs < fuel)%nat ->
  lf_parse_params fuel (concat (map lf_attr_text attrs) ++
                        match more with None => [] | Some r => 44 :: r end)
  = Some (attrs, more).
Proof.
  induction attrs as [|a tl IH]; intros fuel more Hc Hf.
  - destruct fuel as [|k]; [cbn in Hf; lia|]. cbn [map concat app lf_parse_params].
    destruct more as [r|]; reflexivity.
  - destruct fuel as [|k]; [cbn in Hf; lia|].
    cbn [forallb] in Hc. apply andb_true_iff in Hc. destruct Hc as [Ha Htl].
    cbn [map concat]. unfold lf_attr_text at 1. cbn [app lf_parse_params Z.eqb Pos.eqb].
    rewrite <- !app_assoc.
    rewrite (lf_parse_param_ok a _ Ha).
    + rewrite IH; [reflexivity|exact Htl|cbn [length] in Hf; lia].
    + (* what follows is the next param, a comma, or nothing *)
      destruct tl as [|b tl'].
      * cbn [map concat app]. destruct more; [reflexivity|exact I].
      * cbn [map concat]. destruct (lf_attr_text_head b) as (t & Ht). rewrite Ht. reflexivity.
Qed.

(* a link is "</" path ">" followed by the params of its canonical form *)
Lemma lf_link_canon r :
  lf_link r = 60 :: 47 :: lf_path r ++ 62 :: concat (map lf_attr_text (snd (lf_canon r))).
Proof.
  unfold lf_link, lf_canon. cbn [snd]. rewrite !map_app, !concat_app.
  destruct (lf_obs r); destruct (lf_osc r); reflexivity.
Qed.

Lemma lf_canon_clean r : lf_clean_res r = true -> forallb lf_clean_attr (snd (lf_canon r)) = true.
Proof.
  unfold lf_clean_res, lf_canon. intros H. apply andb_true_iff in H. destruct H as [_ H].
  cbn [snd]. rewrite !forallb_app, H.
  destruct (lf_obs r); destruct (lf_osc r); reflexivity.
Qed.

Lemma lf_concat_len (l : list lf_attr) : (length l <= length (concat (map lf_attr_text l)))%nat.
Proof.
  induction l as [|a tl IH]; [cbn; lia|]. cbn [map concat]. rewrite app_length.
  destruct (lf_attr_text_head a) as (t & Ht). rewrite Ht. cbn [length]. lia.
Qed.

Lemma lf_listing_cons r tl :
  lf_listing (r :: tl) = lf_link r ++ match tl with [] => [] | _ :: _ => 44 :: lf_listing tl end.
Proof. destruct tl; [symmetry; apply app_nil_r|reflexivity]. Qed.

Lemma lf_parse_links_ok rs : forall fuel,
  rs <> [] -> forallb lf_clean_res rs = true -> (length rs <= fuel)%nat ->
  lf_parse_links fuel (lf_listing rs) = Some (map lf_canon rs).
Proof.
  induction rs as [|r tl IH]; intros fuel Hne Hc Hf; [contradiction|].
  destruct fuel as [|k]; [cbn in Hf; lia|].
  cbn [forallb] in Hc. apply andb_true_iff in Hc. destruct Hc as [Hr Htl].
  assert (Hp : forallb (fun x => negb (lf_is_gt x)) (lf_path r) = true).
  { unfold lf_clean_res in Hr. apply andb_true_iff in Hr. tauto. }
  assert (Hca := lf_canon_clean r Hr). assert (X := lf_concat_len (snd (lf_canon r))).
  rewrite lf_listing_cons, lf_link_canon.
  cbn [app lf_parse_links andb Z.eqb Pos.eqb]. rewrite <- app_assoc. cbn [app].
  rewrite (lf_span_app lf_is_gt (lf_path r) (62 :: _) Hp) by reflexivity.
  destruct tl as [|r2 tl2].
  - (* last link *)
    rewrite (lf_parse_params_ok _ _ None Hca) by (rewrite app_length; lia). reflexivity.
  - rewrite (lf_parse_params_ok _ _ (Some (lf_listing (r2 :: tl2))) Hca) by (rewrite app_length; lia).
    rewrite IH; [reflexivity|discriminate|exact Htl|cbn [length] in *; lia].
Qed.

Lemma lf_listing_len rs : (length rs <= S (length (lf_listing rs)))%nat.
Proof.
  induction rs as [|r tl IH]; [cbn; lia|].
  rewrite lf_listing_cons, app_length. destruct tl; cbn [length] in *; lia.
Qed.

(* C20_listing_determines_table *)
Theorem lf_parse_listing rs :
  forallb lf_clean_res rs = true -> lf_parse (lf_listing rs) = Some (map lf_canon rs).
Proof.
  intros Hc. destruct rs as [|r tl]; [reflexivity|].
  unfold lf_parse. destruct (lf_listing (r :: tl)) as [|c s] eqn:E.
  - exfalso. unfold lf_listing in E. cbn [map] in E. destruct tl; cbn in E; discriminate.
  - rewrite <- E. apply lf_parse_links_ok; [discriminate|exact Hc|].
    assert (X := lf_listing_len (r :: tl)). rewrite E in *. cbn [length] in *. lia.
Qed.

Corollary lf_listing_injective rs1 rs2 :
  forallb lf_clean_res rs1 = true -> forallb lf_clean_res rs2 = true ->
  lf_listing rs1 = lf_listing rs2 -> map lf_canon rs1 = map lf_canon rs2.
Proof.
  intros H1 H2 E. apply lf_parse_listing in H1. apply lf_parse_listing in H2.
  rewrite E in H1. rewrite H1 in H2. inversion H2. reflexivity.
Qed.

Example lf_ex_clean : forallb lf_clean_res lf_ex_table = true.
Proof. vm_compute. reflexivity. Qed.
