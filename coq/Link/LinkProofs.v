(* C20 - the transcribed printers deliver exactly the (offset, buflen) window of the listing.
   Proof: an invariant of the macro state (bytes stored, position, Offset, Result) in terms of
   the string emitted so far, preserved by every macro, composed over coap_print_link and the
   resource loop of coap_print_wellknown_lkd. *)
From LibcoapV Require Import Base.Tactics Base.Bytes Base.BytesProofs Link.LinkFormat.
Local Open Scope Z_scope.

Lemma lf_len1 (c : Z) : len [c] = 1.
Proof. reflexivity. Qed.

Lemma lf_take_nil {A} n : take n (@nil A) = [].
Proof. unfold take. apply firstn_nil. Qed.

Lemma lf_drop_nil {A} n : drop n (@nil A) = [].
Proof. unfold drop. apply skipn_nil. Qed.

Lemma lf_window_nil off blen : lf_window off blen [] = [].
Proof. unfold lf_window. rewrite lf_drop_nil. apply lf_take_nil. Qed.

Lemma lf_len_window off blen l :
  0 <= off -> 0 <= blen -> len (lf_window off blen l) = Z.min blen (Z.max 0 (len l - off)).
Proof. intros. unfold lf_window. rewrite len_take_min, len_drop_max; lia. Qed.

Lemma lf_drop_app {A} n (a b : list A) :
  0 <= n -> drop n (a ++ b) = drop n a ++ drop (Z.max 0 (n - len a)) b.
Proof.
  intros H. unfold drop, len. rewrite skipn_app. f_equal. f_equal. lia.
Qed.

Lemma lf_take_app {A} n (a b : list A) :
  0 <= n -> take n (a ++ b) = take n a ++ take (Z.max 0 (n - len a)) b.
Proof.
  intros H. unfold take, len. rewrite firstn_app. f_equal. f_equal. lia.
Qed.

(* the window of a concatenation: the window of the first part, then - in the room that is
   left and with the offset that is left - the window of the second part *)
Lemma lf_window_app off blen a b :
  0 <= off -> 0 <= blen ->
  lf_window off blen (a ++ b) =
  lf_window off blen a ++
  lf_window (Z.max 0 (off - len a)) (blen - len (lf_window off blen a)) b.
Proof.
  intros Ho Hb. unfold lf_window.
  rewrite lf_drop_app by lia. rewrite lf_take_app by lia. f_equal.
  rewrite (len_take_min blen) by lia.
  assert (H := len_nonneg (drop off a)).
  f_equal. lia.
Qed.

Lemma lf_window_empty off blen l : blen <= 0 -> lf_window off blen l = [].
Proof. intros H. unfold lf_window, take. replace (Z.to_nat blen) with 0%nat by lia. reflexivity. Qed.

Lemma lf_window1 off blen (c : Z) :
  0 <= off -> lf_window off blen [c] = if (off =? 0) && (0 <? blen) then [c] else [].
Proof.
  intros H. destruct (0 <? blen) eqn:B; [|rewrite andb_false_r; apply lf_window_empty; lia].
  unfold lf_window. destruct (off =? 0) eqn:E.
  - replace off with 0 by lia. apply take_all. change (1 <= blen). lia.
  - rewrite drop_all by (rewrite lf_len1; lia). apply lf_take_nil.
Qed.

(* state of the macros after the string S has gone through them, for a buffer of [bufend]
   bytes and an initial Offset [off0] *)
Definition lf_inv (bufend off0 : Z) (S : bytes) (s : lf_st) : Prop :=
  rev (lf_rev s) = lf_window off0 bufend S /\
  lf_pos s = len (lf_window off0 bufend S) /\
  lf_cnt s = len S /\
  lf_off s = (if 0 <? bufend then Z.max 0 (off0 - len S) else off0).

Section Macros.
Variables bufend off0 : Z.
Hypothesis (Ho : 0 <= off0) (Hb : 0 <= bufend).

Lemma lf_inv_init :
  lf_inv bufend off0 [] {| lf_rev := []; lf_pos := 0; lf_off := off0; lf_cnt := 0 |}.
Proof.
  unfold lf_inv. cbn [lf_rev lf_pos lf_cnt lf_off rev].
  rewrite lf_window_nil. change (len (@nil Z)) with 0. repeat split. destruct (0 <? bufend); lia.
Qed.

Lemma lf_inv_bounds S s : lf_inv bufend off0 S s -> 0 <= lf_off s /\ 0 <= lf_pos s <= bufend.
Proof.
  intros (_ & Hp & _ & Hf). assert (HL := lf_len_window off0 bufend S Ho Hb).
  rewrite Hp, Hf. destruct (0 <? bufend); lia.
Qed.

Lemma lf_inv_step S s c :
  lf_inv bufend off0 S s -> lf_inv bufend off0 (S ++ [c]) (lf_print_cond bufend s c).
Proof.
  intros (Hr & Hp & Hc & Hf).
  assert (HL := lf_len_window off0 bufend S Ho Hb). assert (HS := len_nonneg S).
  unfold lf_inv. rewrite lf_window_app, lf_window1, !len_app, lf_len1 by lia.
  (* the byte belongs to the window iff the macro stores it *)
  replace ((Z.max 0 (off0 - len S) =? 0) && (0 <? bufend - len (lf_window off0 bufend S)))
    with ((lf_pos s <? bufend) && (lf_off s =? 0))
    by (rewrite Hf, Hp; destruct (0 <? bufend) eqn:E; lia).
  unfold lf_print_cond, lf_print_with_offset.
  (* stored; skipped, the Offset counted down; buffer full *)
  destruct (lf_pos s <? bufend) eqn:E1; [destruct (lf_off s =? 0) eqn:E2|];
    cbn [andb lf_rev lf_pos lf_off lf_cnt rev]; rewrite Hr, ?app_nil_r, ?len_app, ?lf_len1, ?len_nil;
    repeat split; try lia; destruct (0 <? bufend) eqn:E; lia.
Qed.

(* Macros that start in a state reached with S, with the room and the Offset that are left,
   and emit K from there, end in the state reached with S ++ K.  (While the buffer is empty
   the Offset is not consumed; no window holds anything then.) *)
Lemma lf_inv_app S K s s' :
  lf_inv bufend off0 S s -> lf_inv (bufend - lf_pos s) (lf_off s) K s' ->
  lf_inv bufend off0 (S ++ K)
    {| lf_rev := lf_rev s' ++ lf_rev s; lf_pos := lf_pos s + lf_pos s';
       lf_off := lf_off s'; lf_cnt := lf_cnt s + lf_cnt s' |}.
Proof.
  intros (Hr & Hp & Hc & Hf) (Hr' & Hp' & Hc' & Hf').
  assert (HL := lf_len_window off0 bufend S Ho Hb).
  assert (HS := len_nonneg S). assert (HK := len_nonneg K).
  assert (HW : lf_window off0 bufend (S ++ K) =
               lf_window off0 bufend S ++ lf_window (lf_off s) (bufend - lf_pos s) K).
  { rewrite lf_window_app, Hp, Hf by lia. destruct (0 <? bufend) eqn:E; [reflexivity|].
    rewrite !(lf_window_empty _ (bufend - _)) by lia. reflexivity. }
  unfold lf_inv. cbn [lf_rev lf_pos lf_off lf_cnt].
  rewrite HW, rev_app_distr, Hr, Hr', !len_app, Hp', Hc', Hf'.
  repeat split; try lia.
  rewrite Hf, Hp. destruct (0 <? bufend) eqn:E;
    destruct (0 <? bufend - len (lf_window off0 bufend S)) eqn:E'; lia.
Qed.

Lemma lf_inv_copy str : forall S s,
  lf_inv bufend off0 S s -> lf_inv bufend off0 (S ++ str) (lf_copy_cond bufend s str).
Proof.
  induction str as [|c tl IH]; intros S s H; cbn [lf_copy_cond].
  - rewrite app_nil_r. exact H.
  - change (c :: tl) with ([c] ++ tl). rewrite app_assoc. apply IH, lf_inv_step, H.
Qed.

Lemma lf_inv_opt (b : bool) str S s :
  lf_inv bufend off0 S s ->
  lf_inv bufend off0 (S ++ (if b then str else [])) (if b then lf_copy_cond bufend s str else s).
Proof. intros H. destruct b; [apply lf_inv_copy, H|]. rewrite app_nil_r. exact H. Qed.

Lemma lf_inv_attr S s a :
  lf_inv bufend off0 S s -> lf_inv bufend off0 (S ++ lf_attr_text a) (lf_print_attr bufend s a).
Proof.
  intros H. unfold lf_print_attr, lf_attr_text.
  apply (lf_inv_step _ _ 59), (lf_inv_copy (lf_aname a)) in H.
  destruct (lf_avalue a) as [v|].
  - apply (lf_inv_step _ _ 61), (lf_inv_copy v) in H.
    rewrite <- !app_assoc in H. exact H.
  - rewrite app_nil_r. rewrite <- !app_assoc in H. exact H.
Qed.

Lemma lf_inv_attrs l : forall S s,
  lf_inv bufend off0 S s ->
  lf_inv bufend off0 (S ++ concat (map lf_attr_text l)) (fold_left (lf_print_attr bufend) l s).
Proof.
  induction l as [|a tl IH]; intros S s H; cbn [map concat fold_left].
  - rewrite app_nil_r. exact H.
  - rewrite app_assoc. apply IH, lf_inv_attr, H.
Qed.

(* coap_print_link's macro sequence emits exactly lf_link r *)
Lemma lf_link_state_inv r : lf_inv bufend off0 (lf_link r) (lf_link_state r bufend off0).
Proof.
  unfold lf_link_state. assert (H := lf_inv_init).
  apply (lf_inv_step _ _ 60), (lf_inv_step _ _ 47), (lf_inv_copy (lf_path r)), (lf_inv_step _ _ 62),
    (lf_inv_attrs (lf_attrs r)), (lf_inv_opt (lf_obs r) lf_obs_text),
    (lf_inv_opt (lf_osc r) lf_osc_text) in H.
  unfold lf_link. rewrite <- !app_assoc in H. exact H.
Qed.

End Macros.

(* the TRUNC bit computed from the final state *)
Definition lf_trunc_spec (off blen total : Z) : bool :=
  if 0 <? blen then off + blen <? total else 0 <? total.

Lemma lf_status_of_inv bufend off0 S s :
  0 <= off0 -> 0 <= bufend <= lf_status_max -> lf_inv bufend off0 S s ->
  lf_status_of (lf_pos s) off0 (lf_off s) (lf_cnt s) =
  LfDone (lf_pos s) (lf_trunc_spec off0 bufend (len S)).
Proof.
  intros Ho Hb H. destruct (lf_inv_bounds _ _ Ho (proj1 Hb) _ _ H) as (_ & HP).
  destruct H as (_ & Hp & Hc & Hf).
  assert (HL := lf_len_window off0 bufend S Ho (proj1 Hb)). assert (HS := len_nonneg S).
  unfold lf_status_of, lf_trunc_spec.
  replace (lf_status_max <? lf_pos s) with false by lia.
  f_equal. rewrite Hc, Hf. destruct (0 <? bufend) eqn:E1; lia.
Qed.

(* C20_link_window *)
Theorem lf_print_link_window r len0 off :
  0 <= off -> 0 <= len0 <= lf_status_max ->
  lf_print_link r len0 off =
  (LfDone (len (lf_window off len0 (lf_link r))) (lf_trunc_spec off len0 (len (lf_link r))),
   lf_window off len0 (lf_link r),
   len (lf_link r),
   if 0 <? len0 then Z.max 0 (off - len (lf_link r)) else off).
Proof.
  intros Ho Hb. unfold lf_print_link.
  assert (H := lf_link_state_inv len0 off Ho (proj1 Hb) r).
  rewrite (lf_status_of_inv len0 off (lf_link r) _ Ho Hb H).
  destruct H as (Hr & Hp & Hc & Hf). rewrite Hr, Hp, Hc, Hf. reflexivity.
Qed.

(* what is in front of the next link: the links so far and, behind them, a comma *)
Definition lf_sep (done : list bytes) : bytes :=
  match done with [] => [] | _ :: _ => lf_join done ++ [44] end.

Lemma lf_join_snoc ls x : lf_join (ls ++ [x]) = lf_sep ls ++ x.
Proof.
  induction ls as [|y tl IH]; [reflexivity|].
  destruct tl as [|z tl'].
  - unfold lf_sep. cbn [lf_join app]. rewrite <- app_assoc. reflexivity.
  - change (y ++ 44 :: lf_join ((z :: tl') ++ [x]) = ((y ++ 44 :: lf_join (z :: tl')) ++ [44]) ++ x).
    rewrite IH. unfold lf_sep. rewrite <- !app_assoc. reflexivity.
Qed.

(* the part of the loop state that the macros work on *)
Definition lf_wk_st (w : lf_wk) : lf_st :=
  {| lf_rev := lf_wrev w; lf_pos := lf_wpos w; lf_off := lf_woff w; lf_cnt := lf_written w |}.

(* loop state after the links [done] have been printed *)
Definition lf_wk_inv (buflen off0 : Z) (done : list bytes) (w : lf_wk) : Prop :=
  lf_inv buflen off0 (lf_join done) (lf_wk_st w) /\
  lf_subseq w = match done with [] => false | _ :: _ => true end.

Lemma lf_wk_sep_inv buflen off0 done w :
  0 <= off0 -> 0 <= buflen -> lf_wk_inv buflen off0 done w ->
  lf_inv buflen off0 (lf_sep done) (lf_wk_st (lf_wk_sep buflen w)).
Proof.
  intros Ho Hb (Hi & Hs). unfold lf_wk_sep. rewrite Hs. destruct done as [|d dtl].
  - exact Hi.
  - apply (lf_inv_step buflen off0 Ho Hb _ _ 44) in Hi.
    unfold lf_wk_st at 1. cbn [lf_wrev lf_wpos lf_woff lf_written].
    destruct (lf_print_cond buflen _ 44). exact Hi.
Qed.

Lemma lf_wk_loop_inv guard term buflen off0 (f : option lf_filter) (P : lf_res -> bool) rs :
  0 <= off0 -> 0 <= buflen <= lf_status_max ->
  (forall r, match f with None => LfVal true | Some fl => lf_select guard term fl r end = LfVal (P r)) ->
  forall done w, lf_wk_inv buflen off0 done w ->
  exists w', lf_wk_loop guard term buflen f rs w = LfVal w' /\
             lf_wk_inv buflen off0
               (done ++ map lf_link (filter (fun r => lf_visible r && P r) rs)) w'.
Proof.
  intros Ho Hb Hsel. induction rs as [|r tl IH]; intros done w Hw.
  - exists w. cbn [lf_wk_loop filter map]. rewrite app_nil_r. auto.
  - cbn [lf_wk_loop filter]. unfold lf_visible at 1. rewrite Hsel.
    destruct (lf_beq (lf_path r) lf_wk_path); [apply IH; exact Hw|].
    destruct (P r); [|apply IH; exact Hw]. cbn [negb andb map].
    (* the separator, then the link printed into what is left of the buffer *)
    assert (H1 := lf_wk_sep_inv buflen off0 done w Ho (proj1 Hb) Hw).
    set (w1 := lf_wk_sep buflen w) in *.
    destruct (lf_inv_bounds _ _ Ho (proj1 Hb) _ _ H1) as (Ho1 & Hp1).
    cbn [lf_wk_st lf_off lf_pos] in Ho1, Hp1.
    assert (Hb1 : 0 <= buflen - lf_wpos w1 <= lf_status_max) by lia.
    assert (H2 := lf_link_state_inv _ _ Ho1 (proj1 Hb1) r).
    unfold lf_print_link. rewrite (lf_status_of_inv _ _ _ _ Ho1 Hb1 H2).
    replace (done ++ lf_link r :: map lf_link (filter (fun r0 => lf_visible r0 && P r0) tl))
      with ((done ++ [lf_link r]) ++ map lf_link (filter (fun r0 => lf_visible r0 && P r0) tl))
      by (rewrite <- app_assoc; reflexivity).
    apply IH. split; [|destruct done; reflexivity].
    rewrite lf_join_snoc. unfold lf_wk_st. cbn [lf_wrev lf_wpos lf_woff lf_written].
    rewrite rev_involutive. exact (lf_inv_app _ _ Ho (proj1 Hb) _ _ _ _ H1 H2).
Qed.

(* C20_wellknown_window, for any per-resource filter decision P that the code computes *)
Lemma lf_print_wellknown_window_gen guard term rs (f : option lf_filter) (P : lf_res -> bool) off buflen :
  0 <= off -> 0 <= buflen <= lf_status_max ->
  (forall r, match f with None => LfVal true | Some fl => lf_select guard term fl r end = LfVal (P r)) ->
  let L := lf_listing (filter (fun r => lf_visible r && P r) rs) in
  exists w, lf_wk_loop guard term buflen f rs
              {| lf_wrev := []; lf_wpos := 0; lf_woff := off; lf_written := 0; lf_subseq := false |}
            = LfVal w /\
    {| lf_rstatus := lf_status_of (lf_wpos w) off (lf_woff w) (lf_written w);
       lf_rbytes := rev (lf_wrev w); lf_rtotal := lf_written w |} =
    {| lf_rstatus := LfDone (len (lf_window off buflen L)) (lf_trunc_spec off buflen (len L));
       lf_rbytes := lf_window off buflen L; lf_rtotal := len L |}.
Proof.
  intros Ho Hb Hsel L.
  destruct (lf_wk_loop_inv guard term buflen off f P rs Ho Hb Hsel []
              {| lf_wrev := []; lf_wpos := 0; lf_woff := off; lf_written := 0; lf_subseq := false |})
    as (w & Hrun & Hi & _).
  { split; [|reflexivity]. apply lf_inv_init, Ho. }
  exists w. split; [exact Hrun|].
  change (lf_inv buflen off L (lf_wk_st w)) in Hi.
  assert (Hst := lf_status_of_inv buflen off L _ Ho Hb Hi).
  destruct Hi as (Hr & Hp & Hc & Hf). cbn [lf_wk_st lf_rev lf_pos lf_off lf_cnt] in *.
  rewrite Hst, Hr, Hp, Hc. reflexivity.
Qed.
