(* C20 - top-level theorems: coap_print_wellknown_lkd, the size probe, the GET handler and the
   Block2 reassembly, stated against the listing of the selected registered resources. *)
From LibcoapV Require Import Base.Tactics Base.Bytes Base.BytesProofs Link.LinkFormat
  Link.LinkProofs Link.FilterProofs.
Local Open Scope Z_scope.

(* for strings stored by the library ([0] behind them) and for exact-size strings of the
   application ([] behind them) alike: the repaired code never looks behind a path or value *)
Theorem lf_wellknown_window_term term rs filter off buflen :
  0 <= off -> 0 <= buflen <= lf_status_max ->
  lf_print_wellknown_g true term rs filter off buflen =
  LfVal {| lf_rstatus := LfDone (len (lf_window off buflen (lf_listing (lf_selected filter rs))))
                                (lf_trunc_spec off buflen (len (lf_listing (lf_selected filter rs))));
           lf_rbytes := lf_window off buflen (lf_listing (lf_selected filter rs));
           lf_rtotal := len (lf_listing (lf_selected filter rs)) |}.
Proof.
  intros Ho Hb. unfold lf_print_wellknown_g.
  destruct filter as [q|].
  - destruct (lf_split_filter_ok q) as (f & Hf & Hfok). rewrite Hf.
    destruct (lf_print_wellknown_window_gen true term rs (Some f) (lf_filter_spec q) off buflen Ho Hb)
      as (w & Hw & Hret).
    { intros r. apply lf_select_ok. exact Hfok. }
    rewrite Hw. f_equal. exact Hret.
  - destruct (lf_print_wellknown_window_gen true term rs None (fun _ => true) off buflen Ho Hb)
      as (w & Hw & Hret).
    { intros r. reflexivity. }
    rewrite Hw. f_equal. exact Hret.
Qed.

Theorem lf_wellknown_window rs filter off buflen :
  0 <= off -> 0 <= buflen <= lf_status_max ->
  lf_print_wellknown rs filter off buflen =
  LfVal {| lf_rstatus := LfDone (len (lf_window off buflen (lf_listing (lf_selected filter rs))))
                                (lf_trunc_spec off buflen (len (lf_listing (lf_selected filter rs))));
           lf_rbytes := lf_window off buflen (lf_listing (lf_selected filter rs));
           lf_rtotal := len (lf_listing (lf_selected filter rs)) |}.
Proof. apply lf_wellknown_window_term. Qed.

Lemma lf_trunc_nonempty off buflen total :
  0 < buflen -> lf_trunc_spec off buflen total = (off + buflen <? total).
Proof. intros H. unfold lf_trunc_spec. replace (0 <? buflen) with true by lia. reflexivity. Qed.

(* C20_probe: an empty buffer reports the exact total, whatever the offset *)
Theorem lf_wellknown_probe rs filter off :
  0 <= off ->
  lf_print_wellknown rs filter off 0 =
  LfVal {| lf_rstatus := LfDone 0 (0 <? len (lf_listing (lf_selected filter rs)));
           lf_rbytes := [];
           lf_rtotal := len (lf_listing (lf_selected filter rs)) |}.
Proof.
  intros Ho. rewrite lf_wellknown_window by (auto; unfold lf_status_max; lia).
  rewrite lf_window_empty by lia. reflexivity.
Qed.

Theorem lf_get_equals_listing rs query :
  len (lf_listing (lf_selected query rs)) <= lf_status_max ->
  lf_get_wellknown rs query = Lf205 (lf_listing (lf_selected query rs)).
Proof.
  intros Hmax. unfold lf_get_wellknown.
  rewrite lf_wellknown_probe by (auto; unfold lf_uint_max; lia).
  cbn [lf_rstatus lf_rtotal].
  set (L := lf_listing (lf_selected query rs)) in *.
  assert (HL := len_nonneg L).
  destruct (0 <? len L) eqn:E.
  - rewrite lf_wellknown_window by (auto; lia). cbn [lf_rstatus lf_rtotal lf_rbytes]. fold L.
    unfold lf_window. rewrite (drop_nonpos 0) by lia. rewrite (take_all (len L) L) by lia.
    rewrite take_all by lia. reflexivity.
  - destruct L; [reflexivity|]. rewrite len_cons in E. assert (X := len_nonneg L). lia.
Qed.

Lemma lf_block_size_pos szx : 0 <= szx -> 16 <= lf_block_size szx.
Proof.
  intros H. unfold lf_block_size. replace (szx + 4) with (4 + szx) by lia.
  rewrite Z.pow_add_r by lia. assert (0 < 2 ^ szx) by (apply Z.pow_pos_nonneg; lia).
  change (2 ^ 4) with 16. lia.
Qed.

Lemma lf_reassemble_drop fuel : forall body szx n,
  0 <= szx -> 0 <= n -> n * lf_block_size szx <= len body ->
  len body - n * lf_block_size szx < Z.of_nat fuel * lf_block_size szx ->
  lf_reassemble fuel body szx n = Some (drop (n * lf_block_size szx) body).
Proof.
  induction fuel as [|k IH]; intros body szx n Hs Hn Hin Hf.
  - cbn [Z.of_nat Z.mul] in Hf. lia.
  - assert (P := lf_block_size_pos szx Hs). assert (L := len_nonneg body).
    cbn [lf_reassemble]. unfold lf_block.
    set (sz := lf_block_size szx) in *.
    replace ((n + 1) * sz) with (n * sz + sz) by ring.
    assert (0 <= n * sz) as Hm by (apply Z.mul_nonneg_nonneg; lia).
    replace (Z.of_nat (S k) * sz) with (Z.of_nat k * sz + sz) in Hf
      by (rewrite Nat2Z.inj_succ; ring).
    set (m := n * sz) in *.
    destruct (m + sz <? len body) eqn:E.
    + rewrite IH; try lia.
      replace ((n + 1) * lf_block_size szx) with (m + sz) by (subst sz m; ring).
      rewrite drop_drop by lia. rewrite take_drop. reflexivity.
    + f_equal. apply take_all. rewrite len_drop_max by lia. lia.
Qed.

(* C20_blockwise_reassembly: fetching blocks 0,1,2,... of any size until the More bit is clear
   and concatenating them gives the body *)
Theorem lf_reassemble_body body szx :
  0 <= szx -> lf_reassemble (S (length body)) body szx 0 = Some body.
Proof.
  intros Hs. rewrite lf_reassemble_drop; try lia.
  - reflexivity.
  - assert (L := len_nonneg body). cbn [Z.mul]. lia.
  - assert (P := lf_block_size_pos szx Hs). cbn [Z.mul]. rewrite Z.sub_0_r.
    rewrite Nat2Z.inj_succ. fold (len body). assert (L := len_nonneg body).
    set (sz := lf_block_size szx) in *. nia.
Qed.

(* every block has the advertised size except possibly the last one, and the More bit says
   whether bytes remain *)
Lemma lf_block_spec body szx n :
  0 <= szx -> 0 <= n ->
  fst (lf_block body szx n) = lf_window (n * lf_block_size szx) (lf_block_size szx) body /\
  snd (lf_block body szx n) = ((n + 1) * lf_block_size szx <? len body).
Proof. intros. split; reflexivity. Qed.

Lemma lf_register_in tbl r x :
  In x (lf_register tbl r) <-> x = r \/ (In x tbl /\ lf_path x <> lf_path r).
Proof.
  unfold lf_register, lf_unregister. rewrite in_app_iff, filter_In. cbn [In].
  split.
  - intros [(H1 & H2)|[H|[]]]; [right|left; auto].
    split; [exact H1|]. intros Heq. rewrite Heq, lf_beq_refl in H2. discriminate.
  - intros [H|(H1 & H2)]; [right; left; auto|left].
    split; [exact H1|]. destruct (lf_beq (lf_path x) (lf_path r)) eqn:E; [|reflexivity].
    apply lf_beq_eq in E. contradiction.
Qed.

Lemma lf_unregister_paths tbl p :
  map lf_path (lf_unregister tbl p) = filter (fun q => negb (lf_beq q p)) (map lf_path tbl).
Proof.
  unfold lf_unregister. induction tbl as [|x tl IH]; [reflexivity|].
  cbn [filter map]. destruct (negb (lf_beq (lf_path x) p)); cbn [map]; rewrite IH; reflexivity.
Qed.

(* paths stay unique: a table built by registrations never lists a path twice *)
Lemma lf_register_nodup tbl r :
  NoDup (map lf_path tbl) -> NoDup (map lf_path (lf_register tbl r)).
Proof.
  intros H. unfold lf_register. rewrite map_app, lf_unregister_paths. cbn [map].
  apply NoDup_snoc.
  - apply NoDup_filter. exact H.
  - rewrite filter_In. intros (_ & H2). rewrite lf_beq_refl in H2. discriminate.
Qed.

(* registration order is listing order: a new resource goes to the end *)
Lemma lf_register_fresh tbl r :
  (forall x, In x tbl -> lf_path x <> lf_path r) -> lf_register tbl r = tbl ++ [r].
Proof.
  intros H. unfold lf_register, lf_unregister. f_equal.
  induction tbl as [|x tl IH]; [reflexivity|]. cbn [filter].
  destruct (lf_beq (lf_path x) (lf_path r)) eqn:E.
  - apply lf_beq_eq in E. exfalso. apply (H x); [left; reflexivity|exact E].
  - cbn [negb]. f_equal. apply IH. intros y Hy. apply H. right. exact Hy.
Qed.

Lemma lf_trunc_rule off buflen (l : bytes) :
  0 <= off -> 0 < buflen ->
  lf_trunc_spec off buflen (len l) = (off + buflen <? len l) /\
  len (lf_window off buflen l) = Z.min buflen (Z.max 0 (len l - off)).
Proof.
  intros Ho Hb. split.
  - apply lf_trunc_nonempty. exact Hb.
  - apply lf_len_window; lia.
Qed.

Lemma lf_filter_spec_ok term q r :
  exists f, lf_split_filter true q = LfVal f /\ lf_select true term f r = LfVal (lf_filter_spec q r).
Proof.
  destruct (lf_split_filter_ok q) as (f & Hf & Hok).
  exists f. split; [exact Hf|]. apply lf_select_ok; assumption.
Qed.

Lemma lf_register_props tbl r :
  (forall x, In x (lf_register tbl r) <-> x = r \/ (In x tbl /\ lf_path x <> lf_path r)) /\
  (NoDup (map lf_path tbl) -> NoDup (map lf_path (lf_register tbl r))) /\
  ((forall x, In x tbl -> lf_path x <> lf_path r) -> lf_register tbl r = tbl ++ [r]).
Proof.
  split; [intros x; apply lf_register_in|].
  split; [apply lf_register_nodup|apply lf_register_fresh].
Qed.

Lemma lf_unescaped_not_percent c : lf_unescaped_in_query c = true -> (c =? 37) = false.
Proof.
  intros H. destruct (c =? 37) eqn:E; [|reflexivity].
  assert (c = 37) by lia. subst c. vm_compute in H. discriminate.
Qed.

Lemma lf_hexval_digit d : 0 <= d < 16 -> lf_hexval (lf_hex_digit d) = Some d.
Proof.
  intros H. unfold lf_hex_digit, lf_hexval. destruct (d <? 10) eqn:E.
  - replace ((48 <=? 48 + d) && (48 + d <=? 57)) with true by lia. f_equal. lia.
  - replace ((48 <=? 55 + d) && (55 + d <=? 57)) with false by lia.
    replace ((65 <=? 55 + d) && (55 + d <=? 70)) with true by lia. f_equal. lia.
Qed.

(* the handler's decoding undoes coap_get_query's escaping, whatever follows *)
Lemma lf_unescape_escape a : forall rest,
  wfb a -> lf_unescape_query (lf_escape_query a ++ rest) = a ++ lf_unescape_query rest.
Proof.
  induction a as [|c tl IH]; intros rest Hw; [reflexivity|].
  apply wfb_cons in Hw. destruct Hw as [Hc Hw]. unfold is_byte in Hc.
  cbn [lf_escape_query]. destruct (lf_unescaped_in_query c) eqn:E.
  - cbn [app lf_unescape_query]. rewrite (lf_unescaped_not_percent c E). rewrite IH by exact Hw. reflexivity.
  - cbn [app lf_unescape_query]. cbn [Z.eqb Pos.eqb].
    rewrite !lf_hexval_digit by lia. rewrite IH by exact Hw. cbn [app]. f_equal. lia.
Qed.

Lemma lf_unescape_join opts :
  Forall wfb opts ->
  lf_unescape_query (lf_join_amp (map lf_escape_query opts)) = lf_join_amp opts.
Proof.
  induction opts as [|q tl IH]; intros H; [reflexivity|].
  inversion H as [|? ? Hq Htl]; subst. cbn [map lf_join_amp].
  destruct tl as [|q2 tl2].
  - cbn [map]. rewrite <- (app_nil_r (lf_escape_query q)). rewrite lf_unescape_escape by exact Hq.
    cbn [lf_unescape_query]. apply app_nil_r.
  - cbn [map]. cbn [map] in IH. rewrite lf_unescape_escape by exact Hq.
    cbn [lf_unescape_query Z.eqb Pos.eqb]. rewrite IH by exact Htl. reflexivity.
Qed.

Lemma lf_unescape_nonnil x t : lf_unescape_query (x :: t) <> [].
Proof.
  cbn [lf_unescape_query]. destruct (x =? 37); [|discriminate].
  destruct t as [|h [|l t2]]; try discriminate.
  destruct (lf_hexval h); [destruct (lf_hexval l)|]; discriminate.
Qed.

Lemma lf_decoded_query opts :
  Forall wfb opts ->
  match lf_get_query opts with Some q => Some (lf_unescape_query q) | None => None end =
  lf_raw_query opts.
Proof.
  intros H. unfold lf_get_query, lf_raw_query. rewrite <- (lf_unescape_join opts H).
  destruct (lf_join_amp (map lf_escape_query opts)) as [|x t] eqn:E; [reflexivity|].
  destruct (lf_unescape_query (x :: t)) eqn:E2; [|reflexivity].
  exfalso. exact (lf_unescape_nonnil x t E2).
Qed.

(* the whole GET path: the filter applied is the bytes of the request's Uri-Query options *)
Theorem lf_handle_get_listing rs opts :
  Forall wfb opts ->
  len (lf_listing (lf_selected (lf_raw_query opts) rs)) <= lf_status_max ->
  lf_handle_get rs opts = Lf205 (lf_listing (lf_selected (lf_raw_query opts) rs)).
Proof.
  intros Hw Hm. unfold lf_handle_get. rewrite (lf_decoded_query opts Hw).
  apply lf_get_equals_listing; assumption.
Qed.

Lemma lf_raw_query_single q : q <> [] -> lf_raw_query [q] = Some q.
Proof. intros H. unfold lf_raw_query. cbn [lf_join_amp]. destruct q; [contradiction|reflexivity]. Qed.

Lemma lf_raw_query_none : lf_raw_query [] = None.
Proof. reflexivity. Qed.

(* the built-in handler answers unless the application asked for the request explicitly *)
Lemma lf_wk_target_builtin registered unk_get unk_flag :
  lf_wk_target registered unk_get unk_flag = LfToBuiltin <->
  registered = false /\ (unk_flag = false \/ unk_get = false).
Proof.
  unfold lf_wk_target. destruct registered, unk_flag, unk_get; cbn; split; intros H;
    try discriminate; try tauto; destruct H as (H1 & [H2|H2]); discriminate.
Qed.
