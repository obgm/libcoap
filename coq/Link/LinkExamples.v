(* C20 - the matching relation in logical form, concrete instances (the hypotheses of the
   theorems are met by non-trivial tables) and the witnesses against the code as it was before
   the repairs (guard = false in match(), the query split and the quote test; the two old
   branches of the GET handler). *)
From LibcoapV Require Import Base.Tactics Base.Bytes Base.BytesProofs Link.LinkFormat
  Link.LinkProofs Link.FilterProofs Link.WellknownProofs.
Local Open Scope Z_scope.

Theorem lf_str_match_spec prefix pat s :
  lf_str_match prefix pat s = true <->
  (if prefix then exists t, s = pat ++ t else s = pat).
Proof.
  unfold lf_str_match. destruct prefix.
  - apply lf_prefixb_spec.
  - rewrite lf_beq_eq. split; intros H; symmetry; exact H.
Qed.

Lemma lf_strip_star_yes p : lf_strip_star (p ++ [42]) = (p, true).
Proof. unfold lf_strip_star. rewrite rev_app_distr. cbn [rev app Z.eqb Pos.eqb]. rewrite rev_involutive. reflexivity. Qed.

Lemma lf_strip_star_no p c : c <> 42 -> lf_strip_star (p ++ [c]) = (p ++ [c], false).
Proof.
  intros H. unfold lf_strip_star. rewrite rev_app_distr. cbn [rev app].
  replace (c =? 42) with false by lia. reflexivity.
Qed.

(* sensors/temp;rt="temperature-c sensor";if="sensor";obs , sensors/light;ct=40;rt="light-lux" ,
   time;title ; built through the registration functions, in this order *)
Definition lf_ex_temp : lf_res :=
  lf_set_obs
    (lf_add_attr
      (lf_add_attr (lf_res_init [115;101;110;115;111;114;115;47;116;101;109;112] false)
         [105;102] (Some [34;115;101;110;115;111;114;34]))
      [114;116] (Some [34;116;101;109;112;101;114;97;116;117;114;101;45;99;32;115;101;110;115;111;114;34]))
    true.
Definition lf_ex_light : lf_res :=
  lf_add_attr
    (lf_add_attr (lf_res_init [115;101;110;115;111;114;115;47;108;105;103;104;116] true)
       [114;116] (Some [34;108;105;103;104;116;45;108;117;120;34]))
    [99;116] (Some [52;48]).
Definition lf_ex_time : lf_res :=
  lf_add_attr (lf_res_init [116;105;109;101] false) [116;105;116;108;101] None.
Definition lf_ex_table : list lf_res :=
  lf_register (lf_register (lf_register [] lf_ex_temp) lf_ex_light) lf_ex_time.

(* rt=sensor : token match inside a quoted value selects the first resource only *)
Example lf_ex_filter_token :
  lf_table_ok lf_ex_table = true /\
  lf_selected (Some [114;116;61;115;101;110;115;111;114]) lf_ex_table = [lf_ex_temp] /\
  lf_selected (Some [114;116;61;115;101;110;115]) lf_ex_table = [] /\
  lf_selected (Some [114;116;61;115;101;110;115;42]) lf_ex_table = [lf_ex_temp] /\
  lf_selected (Some [104;114;101;102;61;47;115;101;110;115;111;114;115;47;42]) lf_ex_table
    = [lf_ex_temp; lf_ex_light] /\
  lf_selected (Some [99;116;61;52;48]) lf_ex_table = [lf_ex_light] /\
  lf_selected None lf_ex_table = lf_ex_table.
Proof. vm_compute. repeat split. Qed.

(* a window in the middle of the unfiltered listing (113 bytes): offset 40, 16 bytes, TRUNC *)
Example lf_ex_window :
  len (lf_listing (lf_selected None lf_ex_table)) = 113 /\
  lf_print_wellknown lf_ex_table None 40 16 =
  LfVal {| lf_rstatus := LfDone 16 true;
           lf_rbytes := lf_window 40 16 (lf_listing lf_ex_table);
           lf_rtotal := 113 |} /\
  lf_get_wellknown lf_ex_table None = Lf205 (lf_listing lf_ex_table) /\
  lf_reassemble 114 (lf_listing lf_ex_table) 0 0 = Some (lf_listing lf_ex_table).
Proof. vm_compute. repeat split. Qed.

(* match(): with match_prefix the code compared pattern->length bytes of every token, also of
   tokens shorter than the pattern.
   (a) value "ab cd" (stored with its terminating 0), query pattern "cdefg": the comparison of
       the second token reads 5 bytes where 3 are left in the object;
   (b) value "cd ab", filter rt=cd a* : the comparison runs over the space into the next token
       and reports a match, so a resource that has no token with that prefix is listed. *)
Theorem lf_match_unguarded_refuted :
  (exists text pat, lf_inb text /\ lf_inb pat /\ lf_match false text (Some pat) true true = LfOob) /\
  (exists rs q, lf_table_ok rs = true /\ lf_selected (Some q) rs = [] /\
     exists r, lf_print_wellknown_g false [0] rs (Some q) 0 64 = LfVal r /\ lf_rtotal r <> 0).
Proof.
  split.
  - exists {| lf_obj := [97;98;32;99;100;0]; lf_at := 0; lf_len := 5 |}.
    exists {| lf_obj := [99;100;101;102;103]; lf_at := 0; lf_len := 5 |}.
    split; [unfold lf_inb; cbn; lia|].
    split; [unfold lf_inb; cbn; lia|].
    vm_compute. reflexivity.
  - exists [lf_add_attr (lf_res_init [97] false) [114;116] (Some [99;100;32;97;98])].
    exists [114;116;61;99;100;32;97;42].
    split; [vm_compute; reflexivity|]. split; [vm_compute; reflexivity|].
    eexists. split; [vm_compute; reflexivity|]. vm_compute. discriminate.
Qed.

(* the same inputs on the repaired code *)
Example lf_match_guarded_ok :
  lf_match true {| lf_obj := [97;98;32;99;100;0]; lf_at := 0; lf_len := 5 |}
           (Some {| lf_obj := [99;100;101;102;103]; lf_at := 0; lf_len := 5 |}) true true = LfVal false /\
  lf_rtotal_of (lf_print_wellknown
     [lf_add_attr (lf_res_init [97] false) [114;116] (Some [99;100;32;97;98])]
     (Some [114;116;61;99;100;32;97;42]) 0 64) = Some 0.
Proof. vm_compute. split; reflexivity. Qed.

(* F20e: an attribute value that is one double quote.  The old code took it for a quoted string
   and computed the length 1 - 2 (size_t): match() then read far outside the value; the
   repaired code treats values shorter than two bytes as unquoted text. *)
Theorem lf_lone_quote_refuted :
  exists rs q, lf_table_ok rs = false /\
    lf_print_wellknown_g false [0] rs (Some q) 0 64 = LfOob /\
    lf_print_wellknown rs (Some q) 0 64 =
    LfVal {| lf_rstatus := LfDone 0 false; lf_rbytes := []; lf_rtotal := 0 |}.
Proof.
  exists [lf_add_attr (lf_res_init [97] false) [114;116] (Some [34])]. exists [114;116;61;97].
  split; [vm_compute; reflexivity|]. split; vm_compute; reflexivity.
Qed.

(* filter split: query_pattern.s[0] was read before query_pattern.length was tested; for a
   filter that ends in '=' this is the byte behind the query string *)
Theorem lf_split_unguarded_refuted :
  exists q, lf_split_filter false q = LfOob /\
            exists f, lf_split_filter true q = LfVal f.
Proof.
  exists [114;116;61]. split; [vm_compute; reflexivity|]. eexists. vm_compute. reflexivity.
Qed.

(* F20c (repaired): the GET handler matched against the percent-escaped query text.  rt="a#b"
   and the request option Uri-Query "rt=a#b": the filter relation holds for the resource, but
   the handler's body was empty ('#' reached the printer as %23). *)
Theorem lf_handle_get_escaped_refuted :
  exists rs q r, lf_table_ok rs = true /\ rs = [r] /\ lf_filter_spec q r = true /\
                 lf_handle_get_escaped rs [q] = Lf205 [] /\
                 lf_handle_get rs [q] = Lf205 (lf_link r).
Proof.
  exists [lf_add_attr (lf_res_init [97] false) [114;116] (Some [34;97;35;98;34])].
  exists [114;116;61;97;35;98]. eexists.
  split; [vm_compute; reflexivity|]. split; [reflexivity|].
  split; [vm_compute; reflexivity|]. split; vm_compute; reflexivity.
Qed.

(* F20d (repaired): without COAP_BLOCK_USE_LIBCOAP the body was cut to the room in the PDU and
   sent as a complete response: 12 resources with a 100-byte rt value, room 1143 *)
Definition lf_ex_big : list lf_res :=
  map (fun i => lf_add_attr (lf_res_init [97 + Z.of_nat i] false) [114;116] (Some (repeat 120 100%nat)))
      (seq 0 12).

(* the old branch cuts a body that is longer than the room *)
Lemma lf_handle_get_nolib_cut rs opts room b :
  lf_handle_get rs opts = Lf205 b -> 0 <= room < len b ->
  lf_handle_get_nolib rs opts room = Lf205 (take room b) /\ len (take room b) < len b.
Proof.
  intros Hg Hr. unfold lf_handle_get_nolib. rewrite Hg.
  replace (room <? len b) with true by lia. split; [reflexivity|].
  rewrite len_take_min; lia.
Qed.

Theorem lf_handle_get_nolib_refuted :
  exists rs room, lf_table_ok rs = true /\
    lf_handle_get rs [] = Lf205 (lf_listing (lf_selected None rs)) /\
    exists b, lf_handle_get_nolib rs [] room = Lf205 b /\ len b < len (lf_listing (lf_selected None rs)).
Proof.
  exists lf_ex_big, 1143.
  assert (HL : len (lf_listing (lf_selected None lf_ex_big)) = 1307) by (vm_compute; reflexivity).
  assert (HG := lf_handle_get_listing lf_ex_big [] (Forall_nil _)).
  rewrite lf_raw_query_none, HL in HG. specialize (HG ltac:(unfold lf_status_max; lia)).
  split; [vm_compute; reflexivity|]. split; [exact HG|].
  eexists. apply lf_handle_get_nolib_cut; [exact HG|]. rewrite HL. lia.
Qed.
