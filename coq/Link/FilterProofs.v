(* C20 - match() and the query-filter handling of coap_print_wellknown_lkd, transcribed with
   checked reads (pointer = object + index), compute the RFC 6690 section 4.1 relation
   lf_filter_spec and never read outside an object. *)
From LibcoapV Require Import Base.Tactics Base.Bytes Base.BytesProofs Link.LinkFormat Link.LinkProofs.
Local Open Scope Z_scope.

Lemma lf_skipn_nth {A} (l : list A) : forall n x,
  nth_error l n = Some x -> skipn n l = x :: skipn (S n) l.
Proof.
  induction l as [|y tl IH]; intros [|n] x H; cbn in H; try discriminate.
  - inversion H. reflexivity.
  - cbn [skipn]. rewrite (IH n x H). reflexivity.
Qed.

Lemma lf_take_succ {A} n (x : A) l : 0 <= n -> take (n + 1) (x :: l) = x :: take n l.
Proof.
  intros H. unfold take. replace (Z.to_nat (n + 1)) with (S (Z.to_nat n)) by lia. reflexivity.
Qed.

Lemma lf_drop_succ {A} n (x : A) l : 0 <= n -> drop (n + 1) (x :: l) = drop n l.
Proof.
  intros H. unfold drop. replace (Z.to_nat (n + 1)) with (S (Z.to_nat n)) by lia. reflexivity.
Qed.

Lemma lf_take_take {A} a b (l : list A) : 0 <= a <= b -> take a (take b l) = take a l.
Proof.
  intros H. unfold take. rewrite firstn_firstn. f_equal. lia.
Qed.

Lemma lf_drop_take {A} a b (l : list A) : 0 <= a <= b -> drop a (take b l) = take (b - a) (drop a l).
Proof.
  intros H. unfold drop, take. rewrite skipn_firstn_comm. f_equal. lia.
Qed.

Lemma lf_beq_refl a : lf_beq a a = true.
Proof. induction a as [|x tl IH]; cbn [lf_beq]; [reflexivity|]. rewrite IH. lia. Qed.

Lemma lf_beq_eq a : forall b, lf_beq a b = true <-> a = b.
Proof.
  induction a as [|x tl IH]; intros [|y b']; cbn [lf_beq]; split; intros H; try reflexivity;
    try discriminate.
  - apply andb_true_iff in H. destruct H as [H1 H2]. apply IH in H2. f_equal; [lia|exact H2].
  - inversion H; subst. rewrite lf_beq_refl. lia.
Qed.

Lemma lf_beq_sym a : forall b, lf_beq a b = lf_beq b a.
Proof.
  induction a as [|x tl IH]; intros [|y b']; cbn [lf_beq]; try reflexivity.
  rewrite IH. f_equal. lia.
Qed.

Lemma lf_beq_len a : forall b, lf_beq a b = true -> len a = len b.
Proof. intros b H. apply lf_beq_eq in H. subst. reflexivity. Qed.

(* prefix test = length test + comparison of the first len p bytes *)
Lemma lf_prefixb_take p : forall s,
  lf_prefixb p s = (len p <=? len s) && lf_beq (take (len p) s) p.
Proof.
  induction p as [|x tl IH]; intros s.
  - cbn [lf_prefixb]. assert (H := len_nonneg s). rewrite len_nil.
    rewrite (take_nonpos 0) by lia. cbn [lf_beq]. lia.
  - destruct s as [|y s']; cbn [lf_prefixb].
    + rewrite len_cons, len_nil. assert (H := len_nonneg tl).
      replace (1 + len tl <=? 0) with false by lia. reflexivity.
    + rewrite IH. rewrite !len_cons. assert (H := len_nonneg tl).
      replace (1 + len tl) with (len tl + 1) by lia. rewrite lf_take_succ by lia.
      cbn [lf_beq]. replace (len tl + 1 <=? 1 + len s') with (len tl <=? len s') by lia.
      rewrite (Z.eqb_sym y x). destruct (x =? y); destruct (len tl <=? len s'); reflexivity.
Qed.

Lemma lf_prefixb_spec p s : lf_prefixb p s = true <-> exists t, s = p ++ t.
Proof.
  revert s. induction p as [|x tl IH]; intros s; cbn [lf_prefixb].
  - split; intros _; [exists s|]; reflexivity.
  - destruct s as [|y s'].
    + split; [discriminate|]. intros (t & Ht). discriminate.
    + rewrite andb_true_iff, IH. split.
      * intros (H1 & t & Ht). exists t. subst. cbn [app]. f_equal. lia.
      * intros (t & Ht). inversion Ht; subst. split; [lia|]. exists t. reflexivity.
Qed.

Lemma lf_str_match_len prefix pat s : lf_str_match prefix pat s = true -> len pat <= len s.
Proof.
  unfold lf_str_match. destruct prefix; intros H.
  - rewrite lf_prefixb_take in H. lia.
  - apply lf_beq_len in H. lia.
Qed.

Definition lf_view (s : lf_str) : bytes := take (lf_len s) (drop (lf_at s) (lf_obj s)).
Definition lf_inb (s : lf_str) : Prop :=
  0 <= lf_at s /\ 0 <= lf_len s /\ lf_at s + lf_len s <= len (lf_obj s).

Lemma lf_len_view s : lf_inb s -> len (lf_view s) = lf_len s.
Proof.
  intros (H1 & H2 & H3). unfold lf_view. rewrite len_take_min, len_drop_max; lia.
Qed.

Lemma lf_rd_some m i : 0 <= i < len m ->
  exists x, lf_rd m i = Some x /\ drop i m = x :: drop (i + 1) m.
Proof.
  intros H. unfold lf_rd. replace ((0 <=? i) && (i <? len m)) with true by lia.
  unfold len in H. destruct (nth_error m (Z.to_nat i)) eqn:E.
  - exists z. split; [reflexivity|]. unfold drop.
    replace (Z.to_nat (i + 1)) with (S (Z.to_nat i)) by lia. apply lf_skipn_nth. exact E.
  - apply nth_error_None in E. lia.
Qed.

Lemma lf_rd_none m i : i < 0 \/ len m <= i -> lf_rd m i = None.
Proof.
  intros H. unfold lf_rd. replace ((0 <=? i) && (i <? len m)) with false by lia. reflexivity.
Qed.

Lemma lf_memeq_ok n : forall a i b j,
  0 <= i -> 0 <= j -> i + Z.of_nat n <= len a -> j + Z.of_nat n <= len b ->
  lf_memeq a i b j n =
  Some (lf_beq (take (Z.of_nat n) (drop i a)) (take (Z.of_nat n) (drop j b))).
Proof.
  induction n as [|k IH]; intros a i b j Hi Hj Ha Hb.
  - reflexivity.
  - cbn [lf_memeq].
    destruct (lf_rd_some a i) as (x & Hx & Dx); [lia|].
    destruct (lf_rd_some b j) as (y & Hy & Dy); [lia|].
    rewrite Hx, Hy, IH by lia. rewrite Dx, Dy.
    replace (Z.of_nat (S k)) with (Z.of_nat k + 1) by lia.
    rewrite !lf_take_succ by lia. reflexivity.
Qed.

Fixpoint lf_index (c : Z) (t : bytes) : option Z :=
  match t with
  | [] => None
  | x :: tl => if x =? c then Some 0
               else match lf_index c tl with Some k => Some (k + 1) | None => None end
  end.

Lemma lf_index_split c t :
  match lf_index c t with
  | Some k => 0 <= k < len t /\ ~ In c (take k t) /\ t = take k t ++ c :: drop (k + 1) t
  | None => ~ In c t
  end.
Proof.
  induction t as [|x tl IH]; cbn [lf_index]; [intros []|].
  rewrite len_cons. assert (Hl := len_nonneg tl). destruct (x =? c) eqn:E.
  - split; [lia|]. split; [intros []|]. change (x :: tl = c :: tl). f_equal. lia.
  - destruct (lf_index c tl) as [k|].
    + destruct IH as (Hk & Hn & Ht). rewrite lf_take_succ, lf_drop_succ by lia.
      split; [lia|]. split; [intros [H|H]; [lia|auto]|]. cbn [app]. f_equal. exact Ht.
    + intros [H|H]; [lia|auto].
Qed.

Lemma lf_memchr_ok n : forall m i c,
  0 <= i -> i + Z.of_nat n <= len m ->
  lf_memchr m i n c =
  Some (match lf_index c (take (Z.of_nat n) (drop i m)) with Some k => Some (i + k) | None => None end).
Proof.
  induction n as [|k IH]; intros m i c Hi Hm.
  - reflexivity.
  - cbn [lf_memchr].
    destruct (lf_rd_some m i) as (x & Hx & Dx); [lia|].
    rewrite Hx, Dx. replace (Z.of_nat (S k)) with (Z.of_nat k + 1) by lia.
    rewrite lf_take_succ by lia. cbn [lf_index].
    destruct (x =? c).
    + f_equal. f_equal. lia.
    + rewrite IH by lia. destruct (lf_index c (take (Z.of_nat k) (drop (i + 1) m))); f_equal.
      f_equal. lia.
Qed.

Lemma lf_tokens_aux_app a : forall cur rest,
  ~ In 32 a -> lf_tokens_aux cur (a ++ rest) = lf_tokens_aux (cur ++ a) rest.
Proof.
  induction a as [|c tl IH]; intros cur rest Hn; cbn [app lf_tokens_aux].
  - rewrite app_nil_r. reflexivity.
  - destruct (c =? 32) eqn:E; [exfalso; apply Hn; left; lia|].
    rewrite IH by (intros H; apply Hn; right; exact H). rewrite <- app_assoc. reflexivity.
Qed.

(* the three equations that define the token list of a value *)
Theorem lf_tokens_equations :
  lf_tokens [] = [] /\
  (forall a, ~ In 32 a -> a <> [] -> lf_tokens a = [a]) /\
  (forall a b, ~ In 32 a -> lf_tokens (a ++ 32 :: b) = a :: lf_tokens b).
Proof.
  split; [reflexivity|]. unfold lf_tokens. split.
  - intros a Hn Ha. rewrite <- (app_nil_r a) at 1. rewrite lf_tokens_aux_app by exact Hn.
    destruct a; [contradiction|reflexivity].
  - intros a b Hn. rewrite lf_tokens_aux_app by exact Hn. reflexivity.
Qed.

Lemma lf_tokens_index t :
  lf_tokens t =
  match lf_index 32 t with
  | None => match t with [] => [] | _ :: _ => [t] end
  | Some k => take k t :: lf_tokens (drop (k + 1) t)
  end.
Proof.
  assert (H := lf_index_split 32 t). destruct lf_tokens_equations as (_ & E1 & E2).
  destruct (lf_index 32 t) as [k|].
  - destruct H as (_ & Hn & Ht). rewrite Ht at 1. apply E2, Hn.
  - destruct t; [reflexivity|]. apply E1; [exact H|discriminate].
Qed.

Lemma lf_tokens_aux_len t : forall cur tok,
  In tok (lf_tokens_aux cur t) -> len tok <= len cur + len t.
Proof.
  induction t as [|c tl IH]; intros cur tok; cbn [lf_tokens_aux]; rewrite ?len_cons.
  - destruct cur; [intros []|]. intros [<-|[]]. rewrite len_nil. lia.
  - assert (Hl := len_nonneg tl). assert (Hc := len_nonneg cur). destruct (c =? 32); intros H.
    + destruct H as [<-|H]; [lia|]. apply IH in H. rewrite len_nil in H. lia.
    + apply IH in H. rewrite len_app, lf_len1 in H. lia.
Qed.

(* the test applied to one token (repaired code): length condition, then memcmp *)
Lemma lf_token_test obj next tlen p (prefix : bool) :
  0 <= next -> 0 <= tlen -> next + tlen <= len obj -> lf_inb p ->
  (if (if prefix then lf_len p <=? tlen else lf_len p =? tlen)
   then lf_memeq obj next (lf_obj p) (lf_at p) (Z.to_nat (lf_len p)) else Some false) =
  Some (lf_str_match prefix (lf_view p) (take tlen (drop next obj))).
Proof.
  intros Hn Ht Ho Hp. assert (Hv := lf_len_view p Hp). destruct Hp as (P1 & P2 & P3).
  assert (Hl : len (take tlen (drop next obj)) = tlen) by (rewrite len_take_min, len_drop_max; lia).
  unfold lf_str_match. destruct prefix.
  - rewrite lf_prefixb_take, Hv, Hl. destruct (lf_len p <=? tlen) eqn:E; [|reflexivity].
    rewrite lf_memeq_ok by lia. rewrite Z2Nat.id by lia. cbn [andb].
    rewrite lf_take_take by lia. reflexivity.
  - destruct (lf_len p =? tlen) eqn:E.
    + rewrite lf_memeq_ok by lia. rewrite Z2Nat.id by lia.
      replace tlen with (lf_len p) by lia. rewrite lf_beq_sym. reflexivity.
    + destruct (lf_beq (lf_view p) (take tlen (drop next obj))) eqn:B; [|reflexivity].
      apply lf_beq_len in B. lia.
Qed.

(* one round of the loop: the token matches, or the loop goes on with X *)
Lemma lf_token_step obj next tlen p (prefix : bool) (X : lf_m bool) :
  0 <= next -> 0 <= tlen -> next + tlen <= len obj -> lf_inb p ->
  (if (if prefix then lf_len p <=? tlen else lf_len p =? tlen)
   then match lf_memeq obj next (lf_obj p) (lf_at p) (Z.to_nat (lf_len p)) with
        | None => LfOob
        | Some true => LfVal true
        | Some false => X
        end
   else X) =
  if lf_str_match prefix (lf_view p) (take tlen (drop next obj)) then LfVal true else X.
Proof.
  intros Hn Ht Ho Hp. assert (H := lf_token_test obj next tlen p prefix Hn Ht Ho Hp).
  destruct (if prefix then lf_len p <=? tlen else lf_len p =? tlen).
  - rewrite H. reflexivity.
  - injection H as <-. reflexivity.
Qed.

Lemma lf_match_loop_ok fuel : forall obj next remaining p prefix,
  0 <= next -> 0 <= remaining -> next + remaining <= len obj -> lf_inb p ->
  (Z.to_nat remaining < fuel)%nat ->
  lf_match_loop true fuel obj next remaining p prefix =
  LfVal (existsb (lf_str_match prefix (lf_view p)) (lf_tokens (take remaining (drop next obj)))).
Proof.
  induction fuel as [|fuel IH]; intros obj next remaining p prefix Hn Hr Ho Hp Hf; [lia|].
  cbn [lf_match_loop].
  destruct (remaining =? 0) eqn:E0.
  { replace remaining with 0 by lia. reflexivity. }
  rewrite lf_memchr_ok by lia. rewrite Z2Nat.id by lia.
  set (t := take remaining (drop next obj)).
  assert (Hlt : len t = remaining) by (subst t; rewrite len_take_min, len_drop_max; lia).
  rewrite (lf_tokens_index t). assert (Hi := lf_index_split 32 t).
  destruct (lf_index 32 t) as [k|]; cbv beta iota zeta.
  - (* a space after k bytes: the token in front of it, then the rest *)
    destruct Hi as (Hk & _ & _). rewrite Hlt in Hk.
    replace (next + k - next) with k by lia.
    rewrite lf_token_step, IH by (auto; lia).
    replace (take k t) with (take k (drop next obj)) by (symmetry; apply lf_take_take; lia).
    replace (drop (k + 1) t) with (take (remaining - (k + 1)) (drop (next + k + 1) obj))
      by (subst t; rewrite lf_drop_take, <- drop_drop by lia; do 2 f_equal; lia).
    cbn [existsb]. destruct (lf_str_match prefix (lf_view p) (take k (drop next obj))); reflexivity.
  - (* no space: what remains is the last token *)
    rewrite lf_token_step, IH by (auto; lia). fold t.
    destruct t as [|t0 ttl]; [rewrite len_nil in Hlt; lia|].
    cbn [existsb]. destruct (lf_str_match prefix (lf_view p) (t0 :: ttl)); reflexivity.
Qed.

(* match() on in-bounds operands = the matching relation; never a read outside, never out of
   fuel *)
Theorem lf_match_ok text p prefix substring :
  lf_inb text -> lf_inb p ->
  lf_match true text (Some p) prefix substring =
  LfVal (if substring then existsb (lf_str_match prefix (lf_view p)) (lf_tokens (lf_view text))
         else lf_str_match prefix (lf_view p) (lf_view text)).
Proof.
  intros Ht Hp. assert (Hvt := lf_len_view text Ht). assert (Hvp := lf_len_view p Hp).
  unfold lf_match. destruct (lf_len text <? lf_len p) eqn:E.
  - (* the text is shorter than the pattern: nothing can match *)
    f_equal. symmetry. apply not_true_iff_false. destruct substring; intros H.
    + apply existsb_exists in H. destruct H as (tok & Hin & Hm).
      apply lf_tokens_aux_len in Hin. apply lf_str_match_len in Hm.
      rewrite len_nil in Hin. lia.
    + apply lf_str_match_len in H. lia.
  - destruct Ht as (T1 & T2 & T3). destruct substring.
    + apply lf_match_loop_ok; auto; lia.
    + assert (Htest := lf_token_test (lf_obj text) (lf_at text) (lf_len text) p prefix T1 T2 T3 Hp).
      fold (lf_view text) in Htest.
      replace (prefix || (lf_len p =? lf_len text))
        with (if prefix then lf_len p <=? lf_len text else lf_len p =? lf_len text)
        by (destruct prefix; cbn [orb]; lia).
      destruct (if prefix then lf_len p <=? lf_len text else lf_len p =? lf_len text).
      * rewrite Htest. reflexivity.
      * inversion Htest. reflexivity.
Qed.

Lemma lf_param_len_before q : forall i, lf_param_len q i = i + len (lf_before_eq q).
Proof.
  induction q as [|c tl IH]; intros i; cbn [lf_param_len lf_before_eq].
  - rewrite len_nil. lia.
  - destruct (c =? 61).
    + rewrite len_nil. lia.
    + rewrite IH, len_cons. lia.
Qed.

Lemma lf_eq_split q :
  match lf_after_eq q with
  | None => lf_before_eq q = q
  | Some p0 => q = lf_before_eq q ++ 61 :: p0
  end.
Proof.
  induction q as [|c tl IH]; cbn [lf_after_eq lf_before_eq]; [reflexivity|].
  destruct (c =? 61) eqn:E.
  - cbn [app]. f_equal. lia.
  - destruct (lf_after_eq tl); cbn [app]; f_equal; exact IH.
Qed.

Lemma lf_take_split {A} n (l : list A) : 0 < n -> take n l = take (n - 1) l ++ take 1 (drop (n - 1) l).
Proof.
  intros H. rewrite <- (take_drop (n - 1) (take n l)).
  rewrite lf_take_take by lia. f_equal.
  rewrite lf_drop_take by lia. f_equal. lia.
Qed.

Lemma lf_view_last obj at0 l :
  0 <= at0 -> 0 < l -> at0 + l <= len obj ->
  exists e, lf_rd obj (at0 + l - 1) = Some e /\
            take l (drop at0 obj) = take (l - 1) (drop at0 obj) ++ [e].
Proof.
  intros Ha Hl Ho. destruct (lf_rd_some obj (at0 + l - 1)) as (e & He & De); [lia|].
  exists e. split; [exact He|]. rewrite (lf_take_split l) by lia. f_equal.
  rewrite <- drop_drop by lia. replace (at0 + (l - 1)) with (at0 + l - 1) by lia.
  rewrite De. reflexivity.
Qed.

Definition lf_filter_ok (q : bytes) (f : lf_filter) : Prop :=
  lf_pname f = lf_before_eq q /\
  match lf_after_eq q with
  | None => lf_pat f = None /\ lf_uri f = false
  | Some p0 =>
    lf_uri f = lf_beq (lf_before_eq q) lf_href /\
    lf_substring f = lf_is_token_attr (lf_before_eq q) /\
    exists ps, lf_pat f = Some ps /\ lf_inb ps /\
      (lf_view ps, lf_prefix f) = lf_strip_star (if lf_uri f then lf_strip_slash p0 else p0)
  end.

(* the test for a trailing '*' on a pattern that is a view into obj, whatever is done with the
   pattern then (K): it hands on a view of the pattern without the star *)
Lemma lf_strip_star_view obj at1 l1 :
  0 <= at1 -> 0 <= l1 -> at1 + l1 <= len obj ->
  exists ps pfx, lf_inb ps /\ (lf_view ps, pfx) = lf_strip_star (take l1 (drop at1 obj)) /\
    forall A (oob : A) (K : lf_str -> bool -> A),
      (if negb (l1 =? 0) then
         match lf_rd obj (at1 + l1 - 1) with
         | None => oob
         | Some e => if e =? 42 then K {| lf_obj := obj; lf_at := at1; lf_len := l1 - 1 |} true
                     else K {| lf_obj := obj; lf_at := at1; lf_len := l1 |} false
         end
       else K {| lf_obj := obj; lf_at := at1; lf_len := l1 |} false) = K ps pfx.
Proof.
  intros Ha Hl Ho. destruct (l1 =? 0) eqn:E; cbn [negb].
  - exists {| lf_obj := obj; lf_at := at1; lf_len := l1 |}, false.
    split; [unfold lf_inb; cbn [lf_at lf_len lf_obj]; lia|].
    split; [replace l1 with 0 by lia|]; reflexivity.
  - destruct (lf_view_last obj at1 l1) as (e & He & Hv); try lia.
    unfold lf_strip_star. rewrite Hv, rev_app_distr. cbn [rev app].
    destruct (e =? 42) eqn:E42.
    + exists {| lf_obj := obj; lf_at := at1; lf_len := l1 - 1 |}, true.
      split; [unfold lf_inb; cbn [lf_at lf_len lf_obj]; lia|].
      split; [rewrite rev_involutive; reflexivity|]. intros A oob K. rewrite He, E42. reflexivity.
    + exists {| lf_obj := obj; lf_at := at1; lf_len := l1 |}, false.
      split; [unfold lf_inb; cbn [lf_at lf_len lf_obj]; lia|].
      split; [unfold lf_view; cbn [lf_at lf_len lf_obj]; rewrite Hv; reflexivity|].
      intros A oob K. rewrite He, E42. reflexivity.
Qed.

(* the test for a leading '/' on a pattern that is a view into obj: what is left is again a
   view, of the pattern without the slash when [uri] says that it is a path *)
Lemma lf_strip_slash_view obj at0 l0 (uri : bool) :
  0 <= at0 -> 0 <= l0 -> at0 + l0 <= len obj ->
  exists strip,
    (if l0 =? 0 then Some false
     else match lf_rd obj at0 with None => None | Some c => Some ((c =? 47) && uri) end) = Some strip /\
    0 <= (if strip then l0 - 1 else l0) /\
    (if strip then at0 + 1 else at0) + (if strip then l0 - 1 else l0) = at0 + l0 /\
    take (if strip then l0 - 1 else l0) (drop (if strip then at0 + 1 else at0) obj) =
    (if uri then lf_strip_slash (take l0 (drop at0 obj)) else take l0 (drop at0 obj)).
Proof.
  intros Ha Hl Ho. destruct (l0 =? 0) eqn:E0.
  - exists false. replace l0 with 0 by lia. repeat split; try lia. destruct uri; reflexivity.
  - destruct (lf_rd_some obj at0) as (c & Hc & Dc); [lia|]. rewrite Hc.
    assert (Ht : take l0 (c :: drop (at0 + 1) obj) = c :: take (l0 - 1) (drop (at0 + 1) obj))
      by (rewrite <- lf_take_succ by lia; f_equal; lia).
    exists ((c =? 47) && uri). split; [reflexivity|].
    destruct (c =? 47) eqn:E, uri; cbn [andb]; rewrite Dc, Ht; cbn [lf_strip_slash]; rewrite ?E;
      repeat split; lia.
Qed.

Lemma lf_href_flag name : (len name =? 4) && lf_beq name lf_href = lf_beq name lf_href.
Proof.
  destruct (lf_beq name lf_href) eqn:E; [|apply andb_false_r].
  apply lf_beq_len in E. rewrite E. reflexivity.
Qed.

(* the split never reads outside the query string and yields the parts the specification
   names *)
Theorem lf_split_filter_ok q : exists f, lf_split_filter true q = LfVal f /\ lf_filter_ok q f.
Proof.
  unfold lf_split_filter, lf_filter_ok. rewrite lf_param_len_before. cbn [Z.add andb].
  set (name := lf_before_eq q). assert (Hsp := lf_eq_split q). fold name in Hsp.
  assert (Hn := len_nonneg name).
  destruct (lf_after_eq q) as [p0|].
  - (* q = name=p0: the pattern is the view of q behind the '=' *)
    assert (Hp0 := len_nonneg p0).
    assert (Hlq : len q = len name + 1 + len p0) by (rewrite Hsp at 1; rewrite len_app, len_cons; lia).
    replace (len name <? len q) with true by lia.
    assert (Htn : take (len name) q = name) by (rewrite Hsp at 1; apply take_app_exact).
    assert (Hd0 : take (len p0) (drop (len name + 1) q) = p0).
    { rewrite Hsp at 1. change (name ++ 61 :: p0) with (name ++ [61] ++ p0). rewrite app_assoc.
      replace (len name + 1) with (len (name ++ [61])) by (rewrite len_app; reflexivity).
      rewrite drop_app_exact. apply take_all. lia. }
    rewrite Htn, lf_href_flag. replace (len q - (len name + 1)) with (len p0) by lia.
    destruct (lf_strip_slash_view q (len name + 1) (len p0) (lf_beq name lf_href))
      as (strip & Hs & Hl1 & Hend & Hview); [lia..|].
    rewrite Hs, Hd0 in *. cbv beta iota zeta.
    destruct (lf_strip_star_view q (if strip then len name + 1 + 1 else len name + 1)
                (if strip then len p0 - 1 else len p0))
      as (ps & pfx & Hinb & Hstar & HK); [destruct strip; lia|exact Hl1|lia|].
    rewrite Hview in Hstar.
    eexists. split.
    + exact (HK _ LfOob (fun ps pfx => LfVal {| lf_pname := name; lf_pat := Some ps;
               lf_uri := lf_beq name lf_href; lf_prefix := pfx; lf_substring := lf_is_token_attr name |})).
    + cbn [lf_pname lf_uri lf_substring lf_pat lf_prefix]. repeat (split; [reflexivity|]).
      exists ps. split; [reflexivity|]. split; [exact Hinb|exact Hstar].
  - (* no '=': the whole query is the name *)
    rewrite Hsp. replace (len q <? len q) with false by lia.
    eexists. split; [reflexivity|]. cbn [lf_pname lf_pat lf_uri].
    split; [apply take_all; lia|]. split; reflexivity.
Qed.

Lemma lf_find_attr_ok l n a : lf_find_attr l n = Some a -> In a l.
Proof.
  induction l as [|x tl IH]; cbn [lf_find_attr]; [discriminate|].
  destruct (lf_beq (lf_aname x) n).
  - intros H. inversion H. left. reflexivity.
  - intros H. right. apply IH. exact H.
Qed.

(* What coap_print_wellknown_lkd does with an attribute value, whatever it then does with the
   text (k): it hands on a view of the unquoted value that lies inside the value's object. *)
Lemma lf_unquote_view v term (k : lf_str -> lf_m bool) :
  exists text, lf_inb text /\ lf_view text = lf_unquote v /\
    match (if true && (len v <? 2) then Some false
           else match lf_rd (v ++ term) 0 with None => None | Some c => Some (c =? 34) end) with
    | None => LfOob
    | Some quoted =>
      let text := if quoted then {| lf_obj := v ++ term; lf_at := 1; lf_len := len v - 2 |}
                  else {| lf_obj := v ++ term; lf_at := 0; lf_len := len v |} in
      if lf_len text <? 0 then LfOob else k text
    end = k text.
Proof.
  assert (Hv := len_nonneg v). assert (Ht := len_nonneg term).
  (* the value as it is *)
  assert (Hplain : exists text, lf_inb text /\ lf_view text = v /\
            (let text := {| lf_obj := v ++ term; lf_at := 0; lf_len := len v |} in
             if lf_len text <? 0 then LfOob else k text) = k text).
  { exists {| lf_obj := v ++ term; lf_at := 0; lf_len := len v |}. split; [|split; [apply take_app_exact|]].
    - unfold lf_inb. cbn [lf_at lf_len lf_obj]. rewrite len_app. lia.
    - cbv zeta. cbn [lf_len]. replace (len v <? 0) with false by lia. reflexivity. }
  cbn [andb]. destruct v as [|x [|y tl]]; try exact Hplain.
  - (* one byte, even a quote, is not a quoted string *)
    cbn [lf_unquote]. change (len (@nil Z) =? 0) with true. rewrite andb_false_r. exact Hplain.
  - rewrite !len_cons in *. assert (Hl := len_nonneg tl).
    replace (1 + (1 + len tl) <? 2) with false by lia.
    cbn [lf_unquote]. rewrite len_cons. replace (1 + len tl =? 0) with false by lia.
    rewrite andb_true_r. change (lf_rd ((x :: y :: tl) ++ term) 0) with (Some x). cbv beta iota.
    destruct (x =? 34); [|exact Hplain].
    exists {| lf_obj := (x :: y :: tl) ++ term; lf_at := 1; lf_len := 1 + (1 + len tl) - 2 |}.
    split; [|split].
    + unfold lf_inb. cbn [lf_at lf_len lf_obj]. rewrite len_app, !len_cons. lia.
    + unfold lf_view. cbn [lf_at lf_len lf_obj].
      change (drop 1 ((x :: y :: tl) ++ term)) with ((y :: tl) ++ term).
      rewrite lf_take_app by lia. rewrite len_cons.
      replace (Z.max 0 (1 + (1 + len tl) - 2 - (1 + len tl))) with 0 by lia.
      rewrite (take_nonpos 0), app_nil_r by lia. rewrite removelast_firstn_len.
      unfold take. f_equal. cbn [length]. unfold len. lia.
    + cbv zeta. cbn [lf_len]. replace (1 + (1 + len tl) - 2 <? 0) with false by lia. reflexivity.
Qed.

(* C20_filter_spec: the code's per-resource decision is the RFC relation *)
Theorem lf_select_ok term q f r :
  lf_filter_ok q f ->
  lf_select true term f r = LfVal (lf_filter_spec q r).
Proof.
  intros (Hname & Hrest). unfold lf_select, lf_filter_spec, lf_c_find_attr. rewrite Hname.
  destruct (lf_before_eq q) as [|n0 ntl] eqn:En.
  { reflexivity. }
  rewrite len_cons. assert (Hl := len_nonneg ntl). replace (1 + len ntl =? 0) with false by lia.
  destruct (lf_after_eq q) as [p0|] eqn:Ea.
  - destruct Hrest as (Huri & Hsub & ps & Hpat & Hinb & Hstar).
    rewrite <- Huri. destruct (lf_uri f) eqn:Eu.
    + (* href *)
      assert (lf_substring f = false) as Hs0.
      { rewrite Hsub. symmetry in Huri. apply lf_beq_eq in Huri. rewrite Huri. reflexivity. }
      rewrite Hpat, lf_match_ok; [|unfold lf_inb; cbn [lf_at lf_len lf_obj]; rewrite len_app;
                             assert (X := len_nonneg (lf_path r)); assert (X2 := len_nonneg term); lia|exact Hinb].
      rewrite Hs0. unfold lf_view at 2. cbn [lf_at lf_len lf_obj]. rewrite (drop_nonpos 0), take_app_exact by lia.
      destruct (lf_strip_star (lf_strip_slash p0)) as [p pfx]. inversion Hstar. reflexivity.
    + destruct (lf_strip_star p0) as [p pfx] eqn:Es. inversion Hstar as [[Hv Hp]].
      destruct (lf_find_attr (lf_attrs r) (n0 :: ntl)) as [a|]; [|reflexivity].
      destruct (lf_avalue a) as [v|]; [|reflexivity].
      destruct (lf_unquote_view v term
                  (fun text => lf_match true text (lf_pat f) (lf_prefix f) (lf_substring f)))
        as (text & Htin & Htv & Hrun).
      refine (eq_trans Hrun _). rewrite Hpat, lf_match_ok by assumption.
      rewrite Htv, Hsub. reflexivity.
  - (* a name without '=': there is no pattern, match() says no *)
    destruct Hrest as (Hpat & Huri). rewrite Huri.
    destruct (lf_find_attr (lf_attrs r) (n0 :: ntl)) as [a|]; [|reflexivity].
    destruct (lf_avalue a) as [v|]; [|reflexivity].
    destruct (lf_unquote_view v term
                (fun text => lf_match true text (lf_pat f) (lf_prefix f) (lf_substring f)))
      as (text & _ & _ & Hrun).
    refine (eq_trans Hrun _). rewrite Hpat. reflexivity.
Qed.
