(* C19 - proofs about the gate model: the acceptor is sound, the ClientHello pre-filter,
   the credential predicate, and concrete runs (non-vacuity). *)
From LibcoapV Require Import Base.Tactics Base.Bytes Tls.Gate Tls.GateProofs Tls.GateNack Tls.GateFifo.
Local Open Scope Z_scope.

(* the comparison used for byte strings, id lists and output lists: equal length, pairwise equal *)
Lemma tg_combine_eqb_eq : forall {A} (eqb : A -> A -> bool),
  (forall x y, eqb x y = true -> x = y) ->
  forall a b : list A,
  (len a =? len b) && forallb (fun p => eqb (fst p) (snd p)) (combine a b) = true -> a = b.
Proof.
  intros A eqb E. unfold len.
  induction a as [|x a IH]; intros b H; destruct b as [|y b]; auto;
    apply andb_true_iff in H; destruct H as [L F]; apply Z.eqb_eq in L; cbn [length] in L;
    try (rewrite Nat2Z.inj_succ in L; simpl in L; lia).
  simpl in F. apply andb_true_iff in F. destruct F as [F1 F2]. apply E in F1. simpl in F1. subst y.
  f_equal. apply IH. rewrite F2, andb_true_r. apply Z.eqb_eq. lia.
Qed.

Lemma tg_out_eqb_eq : forall a b, tg_out_eqb a b = true -> a = b.
Proof.
  intros a b H. destruct a, b; simpl in H; try discriminate;
    try (f_equal; exact (tg_combine_eqb_eq Z.eqb (fun x y => proj1 (Z.eqb_eq x y)) _ _ H));
    repeat match goal with
           | H : _ && _ = true |- _ => apply andb_true_iff in H; destruct H
           | H : (_ =? _) = true |- _ => apply Z.eqb_eq in H; subst
           | H : Bool.eqb _ _ = true |- _ => apply Bool.eqb_prop in H; subst
           end; auto.
Qed.

Lemma tg_outs_eqb_eq : forall a b, tg_outs_eqb a b = true -> a = b.
Proof. exact (tg_combine_eqb_eq tg_out_eqb tg_out_eqb_eq). Qed.

(* an accepted trace IS the model's trace for its events and the oracle it was replayed with *)
Theorem tg_accepts_sound : forall O tr s,
  tg_accepts O s tr = true -> snd (tg_steps O s (map fst tr)) = tr.
Proof.
  intros O. induction tr as [|[e o] tr IH]; intros s H; simpl in *; auto.
  destruct (tg_step O s e) as [s1 o1] eqn:S1.
  apply andb_true_iff in H. destruct H as [E A].
  apply tg_outs_eqb_eq in E. subst o1.
  specialize (IH _ A). destruct (tg_steps O s1 (map fst tr)) as [s2 tr2]. simpl in *.
  subst tr2. reflexivity.
Qed.

(* the acceptor with snapshots only adds conditions *)
Theorem tg_accepts_snap_accepts : forall O tr s,
  tg_accepts_snap O s tr = true -> tg_accepts O s (map fst tr) = true.
Proof.
  intros O. induction tr as [|[[e o] n] tr IH]; intros s H; simpl in *; auto.
  destruct (tg_step O s e) as [s1 o1].
  apply andb_true_iff in H. destruct H as [H A]. apply andb_true_iff in H. destruct H as [E _].
  rewrite E. simpl. apply IH. exact A.
Qed.

Theorem tg_prefilter_spec : forall d,
  tg_prefilter d = PreNewHello <-> (14 <= len d /\ nth 0 d 0 = 22 /\ nth 13 d 0 = 1).
Proof.
  intros d. unfold tg_prefilter. destruct (len d <? 14) eqn:L.
  - split; [discriminate | intros [H _]; lia].
  - destruct ((Z.land (nth 0 d 0) 48 =? 48) || (nth 0 d 0 =? 25)) eqn:C.
    + split; [discriminate|]. intros [_ [H _]]. rewrite H in C. discriminate.
    + destruct (nth 0 d 0 =? 22) eqn:A; destruct (nth 13 d 0 =? 1) eqn:B; simpl;
        split; try discriminate; try (intros [_ [H1 H2]]; lia); intros _; repeat split; lia.
Qed.

(* a datagram that starts like a CoAP message (version 1: first byte 0x40..0x7f) never makes
   a DTLS endpoint allocate a session *)
Theorem tg_prefilter_drops_coap : forall d,
  64 <= nth 0 d 0 < 128 -> tg_prefilter d = PreDrop.
Proof.
  intros d H. destruct (tg_prefilter d) eqn:E; auto.
  apply tg_prefilter_spec in E. lia.
Qed.

Lemma tg_beqb_eq : forall a b, tg_beqb a b = true <-> a = b.
Proof.
  induction a as [|x a IH]; intros b; destruct b as [|y b]; simpl; split; intros H;
    try discriminate; auto.
  - apply andb_true_iff in H. destruct H as [E H]. apply Z.eqb_eq in E.
    apply (proj1 (IH b)) in H. rewrite E, H. reflexivity.
  - inversion H; subst. rewrite Z.eqb_refl. simpl. apply (proj2 (IH b)). reflexivity.
Qed.

(* the match predicate unfolded: the server has credentials for the SNI, the client accepts the
   hint and picks (identity, key), the server knows that identity, and the two keys are equal *)
Theorem tg_creds_match_spec : forall c s,
  tg_creds_match c s = true <->
  exists h sk i ck,
    tg_server_sni s (tg_sni_sent (cc_sni c)) = Some (h, sk) /\
    tg_client_choice c (tg_hint_seen h) = Some (i, ck) /\
    tg_server_key s sk i = Some ck.
Proof.
  intros c s. unfold tg_creds_match. split.
  - destruct (tg_server_sni s (tg_sni_sent (cc_sni c))) as [[h sk]|] eqn:A; [|discriminate].
    destruct (tg_client_choice c (tg_hint_seen h)) as [[i ck]|] eqn:B; [|discriminate].
    destruct (tg_server_key s sk i) as [k|] eqn:K; [|discriminate].
    intros E. apply tg_beqb_eq in E. subst k. exists h, sk, i, ck. repeat split; auto.
  - intros [h [sk [i [ck [A [B C]]]]]]. rewrite A, B, C. apply tg_beqb_eq. reflexivity.
Qed.

(* without callbacks: the keys must be equal byte strings and not empty - so a key of another
   length, a proper prefix, or an empty key never matches *)
Theorem tg_creds_default : forall c s,
  cc_ih c = None -> sc_ids s = None -> sc_snis s = None ->
  (tg_creds_match c s = true <-> cc_key c = sc_key s /\ sc_key s <> []).
Proof.
  intros c s A B C. unfold tg_creds_match, tg_server_sni, tg_client_choice, tg_server_key.
  rewrite A, B, C. destruct (sc_key s) as [|x k] eqn:K.
  - split; [discriminate | intros [_ H]; congruence].
  - rewrite tg_beqb_eq. split; [intros H; split; [auto | discriminate] | intros [H _]; auto].
Qed.

(* an identity the server's table does not know never matches *)
Theorem tg_creds_unknown_identity : forall c s t,
  sc_ids s = Some t -> sc_snis s = None -> cc_ih c = None ->
  tg_lookup (tg_cstr (cc_id c)) t = None -> tg_creds_match c s = false.
Proof.
  intros c s t A B C D. unfold tg_creds_match, tg_server_sni, tg_client_choice, tg_server_key.
  rewrite A, B, C, D. reflexivity.
Qed.

(* a hint the client's callback rejects never matches *)
Theorem tg_creds_hint_rejected : forall c s t,
  sc_snis s = None -> cc_ih c = Some t -> tg_lookup (tg_hint_seen (sc_hint s)) t = None ->
  tg_creds_match c s = false.
Proof.
  intros c s t A B C. unfold tg_creds_match, tg_server_sni, tg_client_choice.
  rewrite A, B, C. reflexivity.
Qed.

(* SNI: the credentials in force are those configured for exactly the name the client sent
   (up to ASCII case), whatever was cached by earlier handshakes on the same context *)
Lemma tg_ci_eqb_refl : forall a, tg_ci_eqb a a = true.
Proof. induction a; simpl; auto. rewrite Z.eqb_refl. exact IHa. Qed.
Lemma tg_ci_eqb_sym : forall a b, tg_ci_eqb a b = tg_ci_eqb b a.
Proof.
  induction a as [|x a IH]; destruct b as [|y b]; simpl; auto.
  rewrite Z.eqb_sym, IH. reflexivity.
Qed.
Lemma tg_ci_eqb_trans : forall a b c, tg_ci_eqb a b = true -> tg_ci_eqb b c = true -> tg_ci_eqb a c = true.
Proof.
  induction a as [|x a IH]; destruct b as [|y b]; destruct c as [|z c]; simpl; intros H1 H2;
    try discriminate; auto.
  apply andb_true_iff in H1. destruct H1 as [A1 B1]. apply andb_true_iff in H2. destruct H2 as [A2 B2].
  apply Z.eqb_eq in A1. apply Z.eqb_eq in A2. rewrite A1, A2, Z.eqb_refl. simpl. eapply IH; eauto.
Qed.

Lemma tg_lookup_ci_congr : forall {A} (t : list (list Z * A)) a b,
  tg_ci_eqb a b = true -> tg_lookup_ci a t = tg_lookup_ci b t.
Proof.
  induction t as [|[k v] t IH]; intros a b E; simpl; auto.
  destruct (tg_ci_eqb a k) eqn:X; destruct (tg_ci_eqb b k) eqn:Y; auto.
  - rewrite tg_ci_eqb_sym in E. rewrite (tg_ci_eqb_trans _ _ _ E X) in Y. discriminate.
  - rewrite (tg_ci_eqb_trans _ _ _ E Y) in X. discriminate.
Qed.

(* a cache whose entries all came from the table *)
Definition tg_cache_ok {A} (cache table : list (list Z * A)) : Prop :=
  forall n v, tg_lookup_ci n cache = Some v -> tg_lookup_ci n table = Some v.

Lemma tg_lookup_ci_app : forall {A} (a b : list (list Z * A)) n,
  tg_lookup_ci n (a ++ b) = match tg_lookup_ci n a with Some v => Some v | None => tg_lookup_ci n b end.
Proof.
  induction a as [|[k v] a IH]; intros b n; simpl; auto. destruct (tg_ci_eqb n k); auto.
Qed.

(* for every history of handshakes the cached lookup answers what the table says, and the cache
   stays made of table entries: names that are prefixes / extensions / case variants of cached
   names are not confused *)
Theorem tg_sni_cache_transparent : forall {A} (cache table : list (list Z * A)) name,
  tg_cache_ok cache table ->
  fst (tg_sni_cached cache table name) = tg_lookup_ci name table /\
  tg_cache_ok (snd (tg_sni_cached cache table name)) table.
Proof.
  intros A cache table name OK. unfold tg_sni_cached.
  destruct (tg_lookup_ci name cache) as [v|] eqn:C.
  - simpl. split; [symmetry; apply OK; exact C | exact OK].
  - destruct (tg_lookup_ci name table) as [v|] eqn:T; simpl; split; auto.
    intros n w H. rewrite tg_lookup_ci_app in H.
    destruct (tg_lookup_ci n cache) as [u|] eqn:Cn.
    + inversion H; subst. apply OK. exact Cn.
    + simpl in H. destruct (tg_ci_eqb n name) eqn:E; [|discriminate].
      inversion H; subst. rewrite (tg_lookup_ci_congr table n name E). exact T.
Qed.

(* with an SNI table (and no identity / hint callbacks): a match means the client's key is the key
   configured for exactly the name it sent *)
Theorem tg_creds_sni_exact : forall c s t,
  sc_snis s = Some t -> sc_ids s = None -> cc_ih c = None ->
  tg_creds_match c s = true ->
  exists h k, tg_lookup_ci (match tg_sni_sent (cc_sni c) with Some n => n | None => [] end) t = Some (h, k) /\
              cc_key c = k.
Proof.
  intros c s t A B C M. unfold tg_creds_match, tg_server_sni, tg_client_choice, tg_server_key in M.
  rewrite A, B, C in M.
  destruct (tg_lookup_ci _ t) as [[h k]|] eqn:L; [|discriminate].
  apply tg_beqb_eq in M. exists h, k. auto.
Qed.

(* handshake calls: AGAIN, AGAIN, SUCCESS; everything else succeeds *)
Definition tg_ex_oracle_ok : tg_oracle :=
  Build_tg_oracle (fun k => if k <? 2 then tg_E_AGAIN else 0) (fun _ => false)
                  (fun _ => 40) (fun _ => 30) (fun _ => 0).
(* handshake calls: AGAIN, then a fatal alert *)
Definition tg_ex_oracle_bad : tg_oracle :=
  Build_tg_oracle (fun k => if k <? 1 then tg_E_AGAIN else tg_E_FATAL_ALERT_RECEIVED)
                  (fun _ => false) (fun _ => 40) (fun _ => 30) (fun _ => 0).
Definition tg_m (i : Z) (c : bool) : tg_msg := Build_tg_msg i c [64; 2; 0; i].
Definition tg_ex_events : list tg_ev :=
  [EConnect; ESend (tg_m 1 true) true; ESend (tg_m 2 false) true; ESend (tg_m 3 true) true;
   ERecv 0 0; ERecv 0 0; ERecv 2 1; ERecv 2 3].

(* success: 1 and 2 leave the queue when the handshake completes (NSTART = 1 holds 3 back),
   3 follows when 1 is acknowledged; both responses are delivered *)
Example tg_ex_success :
  let '(s', tr) := tg_steps tg_ex_oracle_ok (tg_new_session TgDtls TgClient 1) tg_ex_events in
  ts_state s' = TgEstablished /\ tg_flushed tr = [1; 2; 3] /\ tg_delayed tr = [1; 2; 3] /\
  ts_delayq s' = [] /\ tg_nonack (tg_outs tr) = true /\
  In (ODeliver 2 1) (tg_outs tr) /\ In (ODeliver 2 3) (tg_outs tr).
Proof. vm_compute. repeat split; auto 20. Qed.

(* failure: the two Confirmables are NACKed once each, nothing reaches the record layer *)
Example tg_ex_failure :
  let '(s', tr) := tg_steps tg_ex_oracle_bad (tg_new_session TgDtls TgClient 1) tg_ex_events in
  ts_state s' = TgNone /\ tg_nack_ids (tg_outs tr) = [1; 3] /\ tg_dcon_ids (tg_outs tr) = [1; 3] /\
  tg_tx_ids (tg_outs tr) = [] /\ ts_delayq s' = [] /\ ts_sock s' = false.
Proof. vm_compute. repeat split; auto. Qed.

(* the hypothesis never_ok of the GateNack theorems is satisfiable: this oracle never succeeds *)
Example tg_ex_bad_never_ok : forall k, or_hs tg_ex_oracle_bad k <> 0.
Proof.
  intros k. simpl. unfold tg_E_AGAIN, tg_E_FATAL_ALERT_RECEIVED. destruct (k <? 1); lia.
Qed.

(* on UDP the same events do write cleartext: the no-cleartext theorem is about DTLS *)
Example tg_ex_udp_clear :
  let '(_, tr) := tg_steps tg_ex_oracle_ok (tg_new_session TgUdp TgClient 1)
                           [EConnect; ESend (tg_m 1 true) true] in
  In (OWireClear [64; 2; 0; 1]) (tg_outs tr).
Proof. vm_compute. auto. Qed.

Definition tg_ex_c (k : list Z) : tg_ccfg := Build_tg_ccfg [105; 100] k None None.
Definition tg_ex_s (k : list Z) : tg_scfg := Build_tg_scfg [104] k None None.
Example tg_ex_creds :
  tg_creds_match (tg_ex_c [1; 2; 3]) (tg_ex_s [1; 2; 3]) = true /\
  tg_creds_match (tg_ex_c [1; 2]) (tg_ex_s [1; 2; 3]) = false /\
  tg_creds_match (tg_ex_c [1; 2; 3; 4]) (tg_ex_s [1; 2; 3]) = false /\
  tg_creds_match (tg_ex_c []) (tg_ex_s []) = false.
Proof. vm_compute. auto. Qed.
