(* C19 - proofs about the gate model: on a DTLS session no cleartext leaves through the
   session layer, and application data moves (ODeliver, OTlsTx) only after a gnutls_handshake
   call returned success. *)
From LibcoapV Require Import Base.Tactics Base.Bytes Tls.Gate.
Local Open Scope Z_scope.

(* tg_scan seen o = (ok, seen'): walking the outputs in order, seen becomes true at the first
   OHs 0; ok is false if a cleartext write occurs, or application data moves while seen is
   still false. *)
Definition tg_is_app (x : tg_out) : bool :=
  match x with ODeliver _ _ | OTlsTx _ _ => true | _ => false end.
Definition tg_is_clear (x : tg_out) : bool :=
  match x with OWireClear _ => true | _ => false end.
Definition tg_is_ok (x : tg_out) : bool :=
  match x with OHs c => c =? 0 | _ => false end.

Fixpoint tg_scan (seen : bool) (o : list tg_out) : bool * bool :=
  match o with
  | [] => (true, seen)
  | x :: r =>
      let here := negb (tg_is_clear x) && (negb (tg_is_app x) || seen) in
      let '(ok, s') := tg_scan (seen || tg_is_ok x) r in
      (here && ok, s')
  end.

Lemma tg_scan_app : forall a b seen,
  tg_scan seen (a ++ b) =
  (fst (tg_scan seen a) && fst (tg_scan (snd (tg_scan seen a)) b),
   snd (tg_scan (snd (tg_scan seen a)) b)).
Proof.
  induction a as [|x a IH]; intros b seen; simpl.
  - destruct (tg_scan seen b); reflexivity.
  - rewrite IH. destruct (tg_scan (seen || tg_is_ok x) a) as [ok1 s1]. simpl.
    destruct (tg_scan s1 b) as [ok2 s2]. simpl.
    rewrite andb_assoc. reflexivity.
Qed.

Lemma tg_scan_seen_mono : forall o seen, seen = true -> snd (tg_scan seen o) = true.
Proof.
  induction o as [|x o IH]; intros seen H; simpl; auto.
  specialize (IH (seen || tg_is_ok x)).
  destruct (tg_scan (seen || tg_is_ok x) o) as [ok s']. simpl in *.
  apply IH. rewrite H. reflexivity.
Qed.

Lemma tg_scan_no_clear : forall o seen b,
  fst (tg_scan seen o) = true -> ~ In (OWireClear b) o.
Proof.
  induction o as [|x o IH]; intros seen b H HI; simpl in *; auto.
  destruct (tg_scan (seen || tg_is_ok x) o) as [ok s'] eqn:E. simpl in H.
  apply andb_true_iff in H. destruct H as [H1 H2].
  destruct HI as [HI|HI].
  - subst x. simpl in H1. discriminate.
  - apply (IH (seen || tg_is_ok x) b); auto. rewrite E. exact H2.
Qed.

Lemma tg_is_ok_inv : forall z, tg_is_ok z = true -> z = OHs 0.
Proof.
  intros z H. destruct z; simpl in H; try discriminate.
  apply Z.eqb_eq in H. subst. reflexivity.
Qed.

Lemma tg_scan_gate : forall o seen l1 x l2,
  fst (tg_scan seen o) = true -> o = l1 ++ x :: l2 -> tg_is_app x = true ->
  seen = true \/ In (OHs 0) l1.
Proof.
  induction o as [|y o IH]; intros seen l1 x l2 H E A.
  - destruct l1; discriminate.
  - simpl in H. destruct (tg_scan (seen || tg_is_ok y) o) as [ok s'] eqn:ES. simpl in H.
    apply andb_true_iff in H. destruct H as [H1 H2].
    destruct l1 as [|z l1]; simpl in E; injection E as E1 E2.
    + subst y. rewrite A in H1. simpl in H1. apply andb_true_iff in H1. destruct H1 as [_ H1].
      left. exact H1.
    + subst y. destruct (IH (seen || tg_is_ok z) l1 x l2) as [Hs|Hi]; auto.
      * rewrite ES. exact H2.
      * apply orb_true_iff in Hs. destruct Hs as [Hs|Hs]; [left; exact Hs|].
        right. left. apply tg_is_ok_inv in Hs. auto.
      * right. right. exact Hi.
Qed.

Lemma tg_scan_seen_witness : forall o seen,
  snd (tg_scan seen o) = true -> seen = true \/ In (OHs 0) o.
Proof.
  induction o as [|x o IH]; intros seen H; simpl in *; auto.
  specialize (IH (seen || tg_is_ok x)).
  destruct (tg_scan (seen || tg_is_ok x) o) as [ok s']. simpl in *.
  destruct (IH H) as [Hs|Hi].
  - apply orb_true_iff in Hs. destruct Hs as [Hs|Hs]; [left; exact Hs|].
    right. left. apply tg_is_ok_inv in Hs. auto.
  - right. right. exact Hi.
Qed.

(* do_gnutls_handshake reports "established" exactly for GNUTLS_E_SUCCESS *)
Lemma tg_do_handshake_ret : forall sa code,
  (fst (fst (tg_do_handshake sa code)) =? 1) = (code =? 0).
Proof.
  intros sa code. unfold tg_do_handshake, tg_E_SUCCESS.
  destruct (code =? 0) eqn:E; [reflexivity|].
  repeat match goal with
         | |- context [if ?b then _ else _] => destruct b
         end; reflexivity.
Qed.

Section Proofs.
Variable O : tg_oracle.

(* every handshake result in the outputs is a value of the oracle *)
Definition tg_hs_from (o : list tg_out) : Prop :=
  forall c, In (OHs c) o -> exists k, c = or_hs O k.

Lemma tg_hs_from_nil : tg_hs_from [].
Proof. intros c []. Qed.
Lemma tg_hs_from_app : forall a b, tg_hs_from a -> tg_hs_from b -> tg_hs_from (a ++ b).
Proof. intros a b Ha Hb c H. apply in_app_or in H. destruct H; auto. Qed.
Lemma tg_hs_from_cons : forall x a,
  (forall c, x <> OHs c) -> tg_hs_from a -> tg_hs_from (x :: a).
Proof. intros x a Hx Ha c [H|H]; [exfalso; eapply Hx; eauto | auto]. Qed.

Definition tg_I (s : tg_sess) : Prop :=
  (ts_tls_est s = true -> ts_tls s = true) /\
  (ts_state s = TgEstablished -> ts_tls_est s = true) /\
  (ts_type s = TgHello -> ts_state s <> TgEstablished).

Definition tg_pre (seen : bool) (s : tg_sess) : Prop :=
  ts_proto s = TgDtls /\ tg_I s /\ (ts_tls_est s = true -> seen = true).

Definition tg_post (seen : bool) (o : list tg_out) (s' : tg_sess) : Prop :=
  tg_pre (snd (tg_scan seen o)) s' /\ fst (tg_scan seen o) = true /\ tg_hs_from o.

Lemma tg_post_nil : forall seen s, tg_pre seen s -> tg_post seen [] s.
Proof. intros. repeat split; try apply H. apply tg_hs_from_nil. Qed.

Lemma tg_post_app : forall seen o1 s1 o2 s2,
  tg_post seen o1 s1 -> tg_post (snd (tg_scan seen o1)) o2 s2 -> tg_post seen (o1 ++ o2) s2.
Proof.
  intros seen o1 s1 o2 s2 [P1 [F1 H1]] [P2 [F2 H2]].
  unfold tg_post. rewrite tg_scan_app. simpl. rewrite F1, F2.
  repeat split; try apply P2. apply tg_hs_from_app; auto.
Qed.

Lemma tg_post_cons : forall seen x o s',
  negb (tg_is_clear x) && (negb (tg_is_app x) || seen) = true ->
  (forall c, x = OHs c -> exists k, c = or_hs O k) ->
  tg_post (seen || tg_is_ok x) o s' -> tg_post seen (x :: o) s'.
Proof.
  intros seen x o s' Hx Hh [P [F H]]. unfold tg_post. simpl.
  destruct (tg_scan (seen || tg_is_ok x) o) as [ok sn] eqn:E. simpl in *.
  rewrite Hx, F. repeat split; try apply P.
  intros c [HI|HI]; [apply Hh; auto | apply H; auto].
Qed.

(* outputs that neither move application data nor are handshake results nor cleartext *)
Definition tg_neutral (x : tg_out) : bool :=
  negb (tg_is_app x) && negb (tg_is_clear x) && match x with OHs _ => false | _ => true end.

Lemma tg_scan_neutral : forall o seen,
  forallb tg_neutral o = true -> tg_scan seen o = (true, seen).
Proof.
  induction o as [|x o IH]; intros seen H; simpl in *; auto.
  apply andb_true_iff in H. destruct H as [Hx Ho].
  unfold tg_neutral in Hx. apply andb_true_iff in Hx. destruct Hx as [Hx H3].
  apply andb_true_iff in Hx. destruct Hx as [H1 H2].
  assert (tg_is_ok x = false) by (destruct x; simpl in *; auto; discriminate).
  rewrite H, orb_false_r, IH; auto.
  apply negb_true_iff in H1. apply negb_true_iff in H2. rewrite H1, H2. reflexivity.
Qed.

Lemma tg_hs_from_neutral : forall o, forallb tg_neutral o = true -> tg_hs_from o.
Proof.
  intros o H c HI. rewrite forallb_forall in H. specialize (H _ HI).
  unfold tg_neutral in H. apply andb_true_iff in H. destruct H as [_ H]. discriminate.
Qed.

Lemma tg_post_neutral : forall seen o s',
  forallb tg_neutral o = true -> tg_pre seen s' -> tg_post seen o s'.
Proof.
  intros seen o s' H P. unfold tg_post. rewrite tg_scan_neutral; auto. simpl.
  repeat split; try apply P. apply tg_hs_from_neutral; auto.
Qed.

Lemma tg_neutral_app : forall a b,
  forallb tg_neutral a = true -> forallb tg_neutral b = true -> forallb tg_neutral (a ++ b) = true.
Proof. intros. rewrite forallb_app, H, H0. reflexivity. Qed.

Lemma tg_neutral_map_nack : forall r (q : list tg_msg),
  forallb tg_neutral (map (fun m => ONack (tm_id m) r) q) = true.
Proof. induction q; simpl; auto. Qed.

Lemma tg_neutral_first : forall r (q : list tg_msg),
  forallb tg_neutral (match q with
                      | m :: _ => if tm_con m then [] else [ONack (tm_id m) r]
                      | [] => [] end) = true.
Proof. destruct q as [|m q]; [reflexivity|]. destruct (tm_con m); reflexivity. Qed.

Lemma tg_pre_intro : forall seen s,
  ts_proto s = TgDtls -> (ts_tls_est s = true -> ts_tls s = true) ->
  (ts_state s = TgEstablished -> ts_tls_est s = true) ->
  (ts_type s = TgHello -> ts_state s <> TgEstablished) ->
  (ts_tls_est s = true -> seen = true) -> tg_pre seen s.
Proof. intros. unfold tg_pre, tg_I. auto. Qed.

(* coap_session_disconnected_lkd on a DTLS session.  Stated about the projections of the result
   and proved by unfolding only the setters involved: inverting the equation between two
   20-field records instead is many times dearer to check. *)
Lemma tg_disconnected_dtls : forall s r s' o,
  ts_proto s = TgDtls -> tg_disconnected s r = (s', o) ->
  forallb tg_neutral o = true /\ ts_proto s' = TgDtls /\ ts_state s' = TgNone /\
  ts_tls s' = false /\ ts_tls_est s' = negb (ts_tls s) && ts_tls_est s /\ ts_type s' = ts_type s.
Proof.
  intros s r s' o Hp H.
  assert (Es : s' = fst (tg_disconnected s r)) by (rewrite H; reflexivity).
  assert (Eo : o = snd (tg_disconnected s r)) by (rewrite H; reflexivity).
  clear H. subst s' o. unfold tg_disconnected, tg_tls_close.
  cbn [ts_proto ts_tls tg_set_sendq tg_set_delayq tg_set_con_active tg_set_state]. rewrite Hp.
  destruct (ts_tls s) eqn:T;
    cbn [fst snd ts_proto ts_state ts_tls ts_tls_est ts_type tg_set_sock tg_set_tls tg_set_sendq
         tg_set_delayq tg_set_con_active tg_set_state negb andb];
    (split; [|repeat split; auto]);
    rewrite !forallb_app, tg_neutral_first, !tg_neutral_map_nack;
    match goal with |- context [if ?b then _ else _] => destruct b end; reflexivity.
Qed.

Lemma tg_disconnected_post : forall seen s r s' o,
  tg_pre seen s -> tg_disconnected s r = (s', o) ->
  tg_post seen o s' /\ ts_state s' = TgNone /\ ts_tls_est s' = false /\ ts_tls s' = false /\
  ts_type s' = ts_type s.
Proof.
  intros seen s r s' o [Hp [[I0 _] _]] H.
  destruct (tg_disconnected_dtls _ _ _ _ Hp H) as [N [Ep [Es [Et [Ee Ety]]]]].
  assert (E : ts_tls_est s' = false).
  { rewrite Ee. destruct (ts_tls_est s); [rewrite I0 by reflexivity; reflexivity | apply andb_false_r]. }
  split; [|auto]. apply tg_post_neutral; [exact N|].
  apply tg_pre_intro; auto; rewrite ?Es, ?E; discriminate.
Qed.

Lemma tg_hs_call_post : forall seen s s' o r,
  tg_pre seen s -> ts_tls s = true -> tg_hs_call O s = (s', o, r) ->
  tg_post seen o s' /\ ts_state s' = ts_state s /\ ts_type s' = ts_type s /\ ts_tls s' = true /\
  (r = 1 -> ts_tls_est s' = true).
Proof.
  intros seen s s' o r [Hp [[I0 [I1 I2]] G]] T H. unfold tg_hs_call in H.
  pose proof (tg_do_handshake_ret (ts_sent_alert s) (or_hs O (ts_khs s))) as R.
  destruct (tg_do_handshake (ts_sent_alert s) (or_hs O (ts_khs s))) as [[ret ev] sa].
  simpl in R. inversion H; subst; clear H. simpl.
  split; [|repeat split; auto; intros ->; reflexivity].
  unfold tg_post. simpl.
  split; [|split; [reflexivity|]].
  - unfold tg_pre, tg_I; simpl. rewrite <- R.
    destruct (r =? 1); simpl; repeat split; intros; auto;
      try (rewrite orb_true_r; reflexivity); try (rewrite orb_false_r; auto).
  - intros c [HI|[]]. inversion HI. eexists; reflexivity.
Qed.

(* the invariant only reads five fields *)
Definition tg_same (s s' : tg_sess) : Prop :=
  ts_proto s' = ts_proto s /\ ts_tls s' = ts_tls s /\ ts_tls_est s' = ts_tls_est s /\
  ts_state s' = ts_state s /\ ts_type s' = ts_type s.

Lemma tg_pre_same : forall seen s s', tg_same s s' -> tg_pre seen s -> tg_pre seen s'.
Proof.
  intros seen s s' [E1 [E2 [E3 [E4 E5]]]] [Hp [[I0 [I1 I2]] G]].
  unfold tg_pre, tg_I. rewrite E1, E2, E3, E4, E5. auto.
Qed.

Ltac same := unfold tg_same; simpl; repeat split; reflexivity.

(* the state after a helper: the type is kept, the state is kept or back to NONE (disconnected) *)
Definition tg_kept (s s' : tg_sess) : Prop :=
  ts_type s' = ts_type s /\ (ts_state s' = ts_state s \/ ts_state s' = TgNone).

Lemma tg_kept_trans : forall a b c, tg_kept a b -> tg_kept b c -> tg_kept a c.
Proof.
  intros a b c [A1 A2] [B1 B2]. split; [congruence|].
  destruct B2 as [B2|B2]; [rewrite B2; exact A2 | right; exact B2].
Qed.
Lemma tg_kept_refl : forall a, tg_kept a a.
Proof. intros a. split; auto. Qed.
Lemma tg_same_kept : forall a b, tg_same a b -> tg_kept a b.
Proof. intros a b [_ [_ [_ [E4 E5]]]]. split; auto. Qed.

Lemma tg_scan_tx_seen : forall i c, tg_scan true [OTlsTx i c] = (true, true).
Proof. reflexivity. Qed.

Lemma tg_dtls_send_post : forall seen s m s' o bw,
  tg_pre seen s -> tg_dtls_send O s m = (s', o, bw) -> tg_post seen o s' /\ tg_kept s s'.
Proof.
  intros seen s m s' o bw P H. unfold tg_dtls_send in H.
  destruct (ts_tls s && ts_tls_est s) eqn:TE; simpl in H.
  2:{ inversion H; subst. split; [apply tg_post_nil; auto | apply tg_kept_refl]. }
  apply andb_true_iff in TE. destruct TE as [T E].
  assert (S : seen = true) by (apply P; auto). subst seen.
  set (s1 := tg_set_k (tg_set_dtls_event s None) _ _ _ _) in H.
  assert (S1 : tg_same s s1) by same.
  assert (P1 : tg_pre true s1) by (eapply tg_pre_same; eauto).
  assert (HS : forall c, tg_post true [OTlsTx (tm_id m) c] s1 /\ tg_kept s s1).
  { intros c. split; [|apply tg_same_kept; exact S1].
    unfold tg_post. simpl. repeat split; try apply P1. intros c' [HI|[]]. discriminate. }
  destruct (0 <? or_tx O (ts_ktx s)). { inversion H; subst. apply HS. }
  destruct (or_tx O (ts_ktx s) =? tg_E_AGAIN). { inversion H; subst. apply HS. }
  destruct (or_tx O (ts_ktx s) =? tg_E_FATAL_ALERT_RECEIVED). 2:{ inversion H; subst. apply HS. }
  destruct (tg_disconnected _ tg_NACK_TLS_FAILED) as [s3 o3] eqn:D.
  inversion H; subst; clear H.
  assert (P2 : tg_pre true (tg_set_dtls_event (tg_set_tls s1 (ts_tls s1) (ts_tls_est s1) true)
                                             (Some tg_EV_DTLS_CLOSED)))
    by (eapply tg_pre_same; [|exact P1]; same).
  destruct (tg_disconnected_post _ _ _ _ _ P2 D) as [Q [Q1 [_ [_ Q4]]]].
  split; [|split; [exact Q4 | right; exact Q1]].
  apply tg_post_cons; [reflexivity | discriminate |].
  apply tg_post_cons; [reflexivity | discriminate |]. exact Q.
Qed.

Lemma tg_post_same : forall seen o s s', tg_same s s' -> tg_post seen o s -> tg_post seen o s'.
Proof. intros seen o s s' S [P Q]. split; auto. eapply tg_pre_same; eauto. Qed.

Lemma tg_same_trans : forall a b c, tg_same a b -> tg_same b c -> tg_same a c.
Proof.
  unfold tg_same. intros a b c [A1 [A2 [A3 [A4 A5]]]] [B1 [B2 [B3 [B4 B5]]]].
  repeat split; congruence.
Qed.

Lemma tg_session_send_dtls : forall s m,
  ts_proto s = TgDtls -> tg_session_send O s m = tg_dtls_send O s m.
Proof. intros s m H. unfold tg_session_send. rewrite H. reflexivity. Qed.

Lemma tg_flush_post : forall q seen s s' o,
  tg_pre seen s -> tg_flush O q s = (s', o) -> tg_post seen o s' /\ tg_kept s s'.
Proof.
  induction q as [|m q IH]; intros seen s s' o P H; simpl in H.
  - inversion H; subst. split; [apply tg_post_nil; auto | apply tg_kept_refl].
  - destruct (negb (tg_state_eqb (ts_state s) TgEstablished)).
    { inversion H; subst. split; [apply tg_post_nil; auto | apply tg_kept_refl]. }
    destruct (tm_con m && (ts_nstart s <=? ts_con_active s)).
    { inversion H; subst. split; [apply tg_post_nil; auto | apply tg_kept_refl]. }
    set (s2 := tg_set_delayq (if tm_con m then tg_set_con_active s (ts_con_active s + 1) else s) q) in H.
    assert (S2 : tg_same s s2) by (unfold s2; destruct (tm_con m); same).
    assert (P2 : tg_pre seen s2) by (eapply tg_pre_same; eauto).
    rewrite tg_session_send_dtls in H by apply P2.
    destruct (tg_dtls_send O s2 m) as [[s3 o3] bw] eqn:DS.
    destruct (tg_dtls_send_post _ _ _ _ _ _ P2 DS) as [Q3 K3].
    set (s4 := if tm_con m then tg_set_sendq s3 (ts_sendq s3 ++ [m]) else s3) in H.
    assert (S4 : tg_same s3 s4) by (unfold s4; destruct (tm_con m); same).
    pose proof (tg_post_same _ _ _ _ S4 Q3) as Q4.
    pose proof (tg_kept_trans _ _ _ (tg_same_kept _ _ S2)
                 (tg_kept_trans _ _ _ K3 (tg_same_kept _ _ S4))) as K4.
    destruct (bw <? 0).
    { inversion H; subst. split; auto. }
    destruct (tg_flush O q s4) as [s5 o5] eqn:FL.
    inversion H; subst; clear H.
    destruct (IH _ _ _ _ (proj1 Q4) FL) as [Q5 K5].
    split; [eapply tg_post_app; eauto | eapply tg_kept_trans; eauto].
Qed.

Lemma tg_state_eqb_eq : forall a b, tg_state_eqb a b = true <-> a = b.
Proof. destruct a, b; simpl; split; intros; try discriminate; auto. Qed.
Lemma tg_type_eqb_eq : forall a b, tg_type_eqb a b = true <-> a = b.
Proof. destruct a, b; simpl; split; intros; try discriminate; auto. Qed.

Lemma tg_connected_post : forall seen s s' o,
  tg_pre seen s -> ts_tls_est s = true -> ts_type s <> TgHello ->
  tg_connected O s = (s', o) -> tg_post seen o s'.
Proof.
  intros seen s s' o [Hp [[I0 [I1 I2]] G]] E NH H. unfold tg_connected in H.
  destruct (tg_flush O (ts_delayq (tg_set_state s TgEstablished)) (tg_set_state s TgEstablished))
    as [s2 o2] eqn:FL.
  inversion H; subst; clear H.
  assert (P1 : tg_pre seen (tg_set_state s TgEstablished)).
  { unfold tg_pre, tg_I; simpl. repeat split; auto. }
  destruct (tg_flush_post _ _ _ _ _ P1 FL) as [Q _].
  eapply tg_post_app with (s1 := tg_set_state s TgEstablished).
  - apply tg_post_neutral; auto. destruct (tg_state_eqb (ts_state s) TgCsm); reflexivity.
  - rewrite tg_scan_neutral by (destruct (tg_state_eqb (ts_state s) TgCsm); reflexivity).
    exact Q.
Qed.

Lemma tg_delay_new_post : forall seen s m s' o r,
  tg_pre seen s -> tg_delay_new s m = (s', o, r) -> tg_post seen o s' /\ tg_same s s'.
Proof.
  intros seen s m s' o r P H. unfold tg_delay_new in H.
  destruct (tg_in (tm_id m) (tg_ids (ts_delayq s))); inversion H; subst.
  - split; [apply tg_post_nil; auto | same].
  - split; [|same]. apply tg_post_neutral; auto.
Qed.

Lemma tg_send0_post : forall seen s m s' o,
  tg_pre seen s -> tg_send0 O s m = (s', o) -> tg_post seen o s' /\ tg_kept s s'.
Proof.
  intros seen s m s' o P H. unfold tg_send0 in H.
  destruct (tg_state_eqb (ts_state s) TgNone && negb (tg_type_eqb (ts_type s) TgClient)).
  { inversion H; subst. split; [apply tg_post_neutral; auto | split; auto]. }
  destruct (negb (tg_state_eqb (ts_state s) TgEstablished)
            || tm_con m && (ts_nstart s <=? ts_con_active s)).
  { destruct (tg_delay_new s m) as [[s1 o1] r] eqn:D.
    destruct (tg_delay_new_post _ _ _ _ _ _ P D) as [Q S].
    pose proof (tg_same_kept _ _ S) as K.
    destruct (r =? -1); inversion H; subst; split; auto.
    eapply tg_post_app; eauto. apply tg_post_neutral; auto. apply Q. }
  rewrite tg_session_send_dtls in H by apply P.
  destruct (tg_dtls_send O s m) as [[s1 o1] bw] eqn:DS.
  destruct (tg_dtls_send_post _ _ _ _ _ _ P DS) as [Q K1].
  destruct (bw <? 0).
  { inversion H; subst. split; auto. eapply tg_post_app; eauto.
    apply tg_post_neutral; auto. apply Q. }
  destruct (tm_con m); inversion H; subst; split; auto.
Qed.

Lemma tg_filter_not_drop_post : forall seen o s',
  tg_post seen o s' -> tg_post seen (filter tg_not_drop o) s'.
Proof.
  intros seen o. revert seen. induction o as [|x o IH]; intros seen s' H; simpl; auto.
  destruct H as [P [F Hh]]. simpl in P, F.
  destruct (tg_scan (seen || tg_is_ok x) o) as [ok sn] eqn:E. simpl in P, F.
  apply andb_true_iff in F. destruct F as [F1 F2].
  assert (Q : tg_post (seen || tg_is_ok x) o s').
  { unfold tg_post. rewrite E. simpl. repeat split; try apply P; auto.
    intros c HI. apply Hh. right. exact HI. }
  destruct (tg_not_drop x) eqn:ND.
  - apply tg_post_cons; auto. intros c ->. apply Hh. left. reflexivity.
  - destruct x; simpl in ND; try discriminate. simpl in Q. rewrite orb_false_r in Q.
    apply IH. exact Q.
Qed.

Lemma tg_send_post : forall seen s m app s' o,
  tg_pre seen s -> tg_send O s m app = (s', o) -> tg_post seen o s' /\ tg_kept s s'.
Proof.
  intros seen s m app s' o P H. unfold tg_send in H. destruct app.
  - destruct (tg_type_eqb (ts_type s) TgClient && negb (ts_sock s)).
    + inversion H; subst. split; [apply tg_post_neutral; auto | split; auto].
    + eapply tg_send0_post; eauto.
  - destruct (tg_send0 O s m) as [s1 o1] eqn:S0. inversion H; subst.
    destruct (tg_send0_post _ _ _ _ _ P S0) as [Q K]. split; auto.
    apply tg_filter_not_drop_post. exact Q.
Qed.

Lemma tg_pre_est_facts : forall seen s,
  tg_pre seen s -> ts_state s = TgEstablished -> ts_tls_est s = true /\ ts_type s <> TgHello.
Proof.
  intros seen s [Hp [[I0 [I1 I2]] G]] E. split; auto. intros T. apply (I2 T). exact E.
Qed.

Lemma tg_dispatch_post : forall seen s pty pmid s' o,
  tg_pre seen s -> tg_dispatch O s pty pmid = (s', o) -> tg_post seen o s'.
Proof.
  intros seen s pty pmid s' o P H. unfold tg_dispatch in H.
  destruct ((pty =? 2) && tg_in pmid (tg_ids (ts_sendq s))).
  2:{ inversion H; subst. apply tg_post_nil; auto. }
  simpl in H. destruct (0 <? ts_con_active s).
  2:{ inversion H; subst. apply tg_post_nil; auto. }
  destruct (tg_state_eqb (ts_state s) TgEstablished) eqn:E.
  2:{ inversion H; subst. apply tg_post_nil; auto. }
  apply tg_state_eqb_eq in E.
  destruct (tg_pre_est_facts _ _ P E) as [F1 F2].
  eapply tg_connected_post in H; eauto.
Qed.

Lemma tg_after_event_post : forall seen s ev s' o,
  tg_pre seen s -> tg_after_event s ev = (s', o) -> tg_post seen o s'.
Proof.
  intros seen s ev s' o P H. unfold tg_after_event in H. destruct ev as [e|].
  2:{ inversion H; subst. apply tg_post_nil; auto. }
  set (o1 := if e =? tg_EV_DTLS_CLOSED then [] else [OEvent e]) in H.
  assert (N1 : forallb tg_neutral o1 = true) by (unfold o1; destruct (e =? tg_EV_DTLS_CLOSED); reflexivity).
  destruct ((e =? tg_EV_DTLS_ERROR) || (e =? tg_EV_DTLS_CLOSED)).
  - destruct (tg_disconnected s tg_NACK_TLS_FAILED) as [s1 o2] eqn:D. inversion H; subst.
    destruct (tg_disconnected_post _ _ _ _ _ P D) as [Q _].
    eapply tg_post_app with (s1 := s); [apply tg_post_neutral; auto|].
    rewrite tg_scan_neutral by auto. exact Q.
  - inversion H; subst. apply tg_post_neutral; auto.
Qed.

(* coap_dtls_receive is a sequence of a few kinds of calls, and each property of runs is checked
   call by call.  tg_forget blanks the fields that only steer the control flow (dtls_event,
   sent_alert, the call counters): no property looks at them.  est: the g_env was established
   when coap_dtls_receive was entered; only then is a record handed to dispatch. *)
Definition tg_forget (s : tg_sess) : tg_sess :=
  tg_set_k (tg_set_dtls_event (tg_set_tls s (ts_tls s) (ts_tls_est s) false) None) 0 0 0 0.

Inductive tg_rx (est : bool) : tg_sess -> list tg_out -> tg_sess -> Prop :=
| RxNil : forall s, tg_rx est s [] s
| RxApp : forall s o1 s1 o2 s2,
    tg_rx est s o1 s1 -> tg_rx est s1 o2 s2 -> tg_rx est s (o1 ++ o2) s2
| RxSilent : forall s s', tg_forget s' = tg_forget s -> tg_rx est s [] s'
| RxEvent : forall s e, tg_rx est s [OEvent e] s
| RxRecord : forall s c, tg_rx est s [OTlsRx c] s
| RxHs : forall s s' o r, ts_tls s = true -> tg_hs_call O s = (s', o, r) -> tg_rx est s o s'
| RxConn : forall s s' o,
    ts_tls_est s = true -> ts_type s <> TgHello -> tg_connected O s = (s', o) -> tg_rx est s o s'
| RxData : forall s pty pmid s' o,
    est = true -> tg_dispatch O s pty pmid = (s', o) -> tg_rx est s (ODeliver pty pmid :: o) s'
| RxAfter : forall s ev s' o, tg_after_event s ev = (s', o) -> tg_rx est s o s'.

Lemma tg_rx_then : forall e s s1 o s',
  tg_forget s1 = tg_forget s -> tg_rx e s1 o s' -> tg_rx e s o s'.
Proof. intros e s s1 o s' E A. exact (RxApp e s [] s1 o s' (RxSilent e s s1 E) A). Qed.

Lemma tg_hs_call_keeps : forall s s' o r,
  tg_hs_call O s = (s', o, r) ->
  ts_tls s' = ts_tls s /\ ts_type s' = ts_type s /\ (r =? 1 = true -> ts_tls_est s' = true).
Proof.
  intros s s' o r H. unfold tg_hs_call in H.
  destruct (tg_do_handshake (ts_sent_alert s) (or_hs O (ts_khs s))) as [[ret ev] sa].
  inversion H; subst. simpl. split; [|split]; auto. intros ->. reflexivity.
Qed.

Lemma tg_dtls_receive_rx : forall s0 pty pmid s' o,
  ts_tls s0 = true -> ts_type s0 <> TgHello ->
  tg_dtls_receive O s0 pty pmid = (s', o) -> tg_rx (ts_tls_est s0) s0 o s'.
Proof.
  intros s0 pty pmid s' o T0 NH0 H. unfold tg_dtls_receive in H.
  apply (tg_rx_then _ s0 (tg_set_dtls_event s0 None)); [reflexivity|].
  set (s := tg_set_dtls_event s0 None) in *. change (ts_tls_est s0) with (ts_tls_est s).
  assert (T : ts_tls s = true) by exact T0.
  assert (NH : ts_type s <> TgHello) by exact NH0.
  clearbody s. clear T0 NH0 s0.
  destruct (ts_tls_est s) eqn:E.
  - (* established g_env: the first time round the session is declared connected, then one record *)
    destruct (if tg_state_eqb (ts_state s) TgHandshake
              then let '(sx, ox) := tg_connected O s in (sx, OEvent tg_EV_DTLS_CONNECTED :: ox)
              else (s, [])) as [s1 o1] eqn:C1.
    assert (A1 : tg_rx true s o1 s1).
    { destruct (tg_state_eqb (ts_state s) TgHandshake); [|inversion C1; subst; apply RxNil].
      destruct (tg_connected O s) as [sx ox] eqn:CC. inversion C1; subst.
      exact (RxApp _ s [_] s _ _ (RxEvent _ _ _) (RxConn _ _ _ _ E NH CC)). }
    destruct (negb (ts_tls s1)); [inversion H; subst; exact A1|].
    assert (K : forall s2 o3 s3, tg_rx true s2 o3 s3 -> tg_forget s2 = tg_forget s1 ->
                tg_rx true s (o1 ++ [OTlsRx (or_rx O (ts_krx s1))] ++ o3) s3).
    { intros s2 o3 s3 A3 E2. apply (RxApp _ _ _ _ _ _ A1).
      exact (RxApp _ s1 [_] s1 _ _ (RxRecord _ _ _) (tg_rx_then _ _ _ _ _ E2 A3)). }
    destruct (0 <? or_rx O (ts_krx s1)).
    + destruct (tg_dispatch O _ pty pmid) as [s3 o3] eqn:D. inversion H; subst.
      exact (K _ _ _ (RxData _ _ _ _ _ _ eq_refl D) eq_refl).
    + destruct (tg_after_event _ _) as [s3 o3] eqn:AE. inversion H; subst.
      apply (K _ _ _ (RxAfter _ _ _ _ _ AE)).
      destruct (or_rx O (ts_krx s1) =? 0); [reflexivity|].
      destruct (or_rx O (ts_krx s1) =? tg_E_FATAL_ALERT_RECEIVED); [reflexivity|].
      destruct (or_rx O (ts_krx s1) =? tg_E_WARNING_ALERT_RECEIVED); reflexivity.
  - (* handshake in progress: one call, a second one if GnuTLS left input unread; a call that
       succeeds is followed by coap_session_connected; every path ends in tg_after_event *)
    destruct (tg_hs_call O s) as [[s1 o1] ret1] eqn:H1.
    destruct (tg_hs_call_keeps _ _ _ _ H1) as [T1 [Ty1 R1]].
    assert (K : forall o' s', tg_rx false s1 o' s' -> tg_rx false s (o1 ++ o') s')
      by (intros o' s''; exact (RxApp _ _ _ _ _ _ (RxHs _ _ _ _ _ T H1))).
    destruct (ret1 =? 1).
    + destruct (tg_connected O s1) as [s2 o2] eqn:C.
      destruct (tg_after_event s2 (ts_dtls_event s2)) as [s3 o3] eqn:AE. inversion H; subst.
      apply K. refine (RxApp _ _ _ _ _ _ (RxConn _ _ _ _ (R1 eq_refl) _ C) (RxAfter _ _ _ _ _ AE)).
      congruence.
    + destruct (or_more O (ts_khs s) && negb (ts_sent_alert s1)).
      * destruct (tg_hs_call O s1) as [[s2 o2] ret2] eqn:H2.
        destruct (tg_hs_call_keeps _ _ _ _ H2) as [T2 [Ty2 R2]].
        destruct (if ret2 =? 1 then tg_connected O s2 else (s2, [])) as [s3 o3] eqn:C.
        destruct (tg_after_event s3 (ts_dtls_event s3)) as [s4 o4] eqn:AE. inversion H; subst.
        apply K. apply (RxApp _ _ _ _ _ _ (RxHs _ _ _ _ _ (eq_trans T1 T) H2)).
        refine (RxApp _ _ _ s3 _ _ _ (RxAfter _ _ _ _ _ AE)).
        destruct (ret2 =? 1); [|inversion C; subst; apply RxNil].
        apply (RxConn _ _ _ _ (R2 eq_refl)); [congruence | exact C].
      * destruct (tg_after_event s1 (ts_dtls_event s1)) as [s2 o2] eqn:AE. inversion H; subst.
        apply K. exact (RxAfter _ _ _ _ _ AE).
Qed.

Lemma tg_pre_forget : forall seen s s',
  tg_forget s' = tg_forget s -> tg_pre seen s -> tg_pre seen s'.
Proof. intros seen s s' E P. change (tg_pre seen (tg_forget s')). rewrite E. exact P. Qed.

Lemma tg_rx_post : forall e s o s',
  tg_rx e s o s' -> forall seen, tg_pre seen s -> (e = true -> seen = true) -> tg_post seen o s'.
Proof.
  induction 1; intros seen P G.
  - apply tg_post_nil; exact P.
  - pose proof (IHtg_rx1 _ P G) as Q1.
    exact (tg_post_app _ _ _ _ _ Q1 (IHtg_rx2 _ (proj1 Q1) (fun X => tg_scan_seen_mono _ _ (G X)))).
  - apply tg_post_nil. exact (tg_pre_forget _ _ _ H P).
  - apply tg_post_neutral; [reflexivity | exact P].
  - apply tg_post_neutral; [reflexivity | exact P].
  - exact (proj1 (tg_hs_call_post _ _ _ _ _ P H H0)).
  - exact (tg_connected_post _ _ _ _ P H H0 H1).
  - (* the flag was up on entry and stays up *)
    rewrite (G H) in *.
    apply tg_post_cons; [reflexivity | discriminate | exact (tg_dispatch_post _ _ _ _ _ _ P H0)].
  - exact (tg_after_event_post _ _ _ _ _ P H).
Qed.

Lemma tg_dtls_hello_post : forall seen s s' o,
  tg_pre seen s -> ts_type s = TgHello -> tg_dtls_hello O s = (s', o) -> tg_post seen o s'.
Proof.
  intros seen s s' o P TH H. unfold tg_dtls_hello in H.
  set (s0 := if ts_tls s then s else tg_set_tls s true false false) in H.
  assert (NE : ts_state s <> TgEstablished) by (apply P; auto).
  assert (P0 : tg_pre seen s0 /\ ts_tls s0 = true /\ ts_type s0 = TgHello /\ ts_state s0 = ts_state s).
  { unfold s0. destruct (ts_tls s) eqn:T; [auto|]. split; [|simpl; auto].
    apply tg_pre_intro; simpl; auto; try discriminate; try apply P. }
  destruct P0 as [P0 [T0 [TY0 ST0]]]. clearbody s0.
  set (s1 := tg_set_k s0 (ts_khs s0) (ts_ktx s0) (ts_krx s0) (ts_kck s0 + 1)) in H.
  assert (P1 : tg_pre seen s1) by exact P0.
  destruct (or_ck O (ts_kck s0) <? 0).
  { inversion H; subst. apply tg_post_neutral; auto. }
  destruct (tg_hs_call O s1) as [[s2 o2] ret] eqn:HC.
  destruct (tg_hs_call_post _ _ _ _ _ P1 T0 HC) as [Q2 [St2 [Ty2 [T2 R2]]]].
  assert (NE2 : ts_state s2 <> TgEstablished) by (rewrite St2; simpl; congruence).
  destruct Q2 as [P2 [F2 H2]].
  destruct (ret <? 0); inversion H; subst;
    (apply tg_post_cons; [reflexivity | discriminate |]); simpl; rewrite orb_false_r;
    (split; [|split; auto]);
    apply tg_pre_intro; simpl; auto; try discriminate; try apply P2;
    try (intros; contradiction).
Qed.

Lemma tg_recv_post : forall seen s pty pmid s' o,
  tg_pre seen s -> tg_recv O s pty pmid = (s', o) -> tg_post seen o s'.
Proof.
  intros seen s pty pmid s' o P H. unfold tg_recv in H.
  assert (Hp : ts_proto s = TgDtls) by apply P. rewrite Hp in H.
  destruct (tg_type_eqb (ts_type s) TgHello) eqn:TH.
  - apply tg_type_eqb_eq in TH. eapply tg_dtls_hello_post; eauto.
  - destruct (ts_tls s) eqn:T.
    + refine (tg_rx_post _ _ _ _ (tg_dtls_receive_rx _ _ _ _ _ T _ H) _ P (proj2 (proj2 P))).
      intros E. rewrite E in TH. discriminate.
    + inversion H; subst. apply tg_post_nil; auto.
Qed.

Lemma tg_connect_post : forall seen s s' o,
  tg_pre seen s -> tg_connect O s = (s', o) -> tg_post seen o s'.
Proof.
  intros seen s s' o P H. unfold tg_connect in H.
  destruct (tg_type_eqb (ts_type s) TgClient) eqn:TC.
  2:{ inversion H; subst. apply tg_post_nil; auto. }
  apply tg_type_eqb_eq in TC. simpl in H.
  assert (Hp : ts_proto s = TgDtls) by apply P. rewrite Hp in H.
  set (s1 := tg_set_tls (tg_set_state s TgHandshake) true false false) in H.
  assert (P1 : tg_pre seen s1).
  { apply tg_pre_intro; simpl; auto; try discriminate. }
  destruct (tg_hs_call O s1) as [[s2 o2] ret] eqn:HC.
  destruct (tg_hs_call_post _ _ _ _ _ P1 eq_refl HC) as [Q2 [St2 [Ty2 [T2 R2]]]].
  destruct (ret =? -1).
  - destruct (tg_disconnected (tg_set_tls s2 false false false) tg_NACK_TLS_LAYER_FAILED)
      as [s4 o4] eqn:D.
    inversion H; subst.
    assert (P3 : tg_pre (snd (tg_scan seen o2)) (tg_set_tls s2 false false false)).
    { destruct Q2 as [P2 _]. apply tg_pre_intro; simpl; auto; try discriminate; try apply P2.
      rewrite St2. simpl. discriminate. }
    destruct (tg_disconnected_post _ _ _ _ _ P3 D) as [Q4 _].
    eapply tg_post_app; [|exact Q4]. destruct Q2 as [_ [F2 H2]]. split; [exact P3 | split; assumption].
  - inversion H; subst. exact Q2.
Qed.

Lemma tg_timeout_post : forall seen s s' o,
  tg_pre seen s -> tg_timeout O s = (s', o) -> tg_post seen o s'.
Proof.
  intros seen s s' o P H. unfold tg_timeout in H.
  destruct (tg_state_eqb (ts_state s) TgHandshake && tg_proto_eqb (ts_proto s) TgDtls && ts_tls s) eqn:G.
  2:{ inversion H; subst. apply tg_post_nil; auto. }
  apply andb_true_iff in G. destruct G as [_ T]. simpl in H.
  set (s1 := tg_set_to_count s (ts_to_count s + 1)) in H.
  assert (P1 : tg_pre seen s1) by exact P.
  destruct (ts_max_retransmit s <? ts_to_count s + 1).
  { eapply tg_disconnected_post in H; eauto. apply H. }
  destruct (tg_hs_call O s1) as [[s2 o2] ret] eqn:HC.
  destruct (tg_hs_call_post _ _ _ _ _ P1 T HC) as [Q2 _].
  destruct (ret <? 0).
  - destruct (tg_disconnected s2 tg_NACK_TLS_FAILED) as [s3 o3] eqn:D. inversion H; subst.
    destruct (tg_disconnected_post _ _ _ _ _ (proj1 Q2) D) as [Q3 _].
    eapply tg_post_app; eauto.
  - inversion H; subst. exact Q2.
Qed.

Lemma tg_retransmit_post : forall seen s id g s' o,
  tg_pre seen s -> tg_retransmit O s id g = (s', o) -> tg_post seen o s'.
Proof.
  intros seen s id g s' o P H. unfold tg_retransmit in H.
  destruct (tg_find_id id (ts_sendq s)) as [m|].
  2:{ inversion H; subst. apply tg_post_nil; auto. }
  set (s1 := if 0 <? ts_con_active s then tg_set_con_active s (ts_con_active s - 1) else s) in H.
  assert (S1 : tg_same s s1) by (unfold s1; destruct (0 <? ts_con_active s); same).
  assert (P1 : tg_pre seen s1) by (eapply tg_pre_same; eauto).
  destruct S1 as [_ [_ [_ [ST1 TY1]]]].
  destruct g.
  - destruct (if (0 <? ts_con_active s) && tg_state_eqb (ts_state s1) TgEstablished
              then tg_connected O s1 else (s1, [])) as [s2 o2] eqn:C.
    inversion H; subst.
    assert (Q2 : tg_post seen o2 s2).
    { destruct ((0 <? ts_con_active s) && tg_state_eqb (ts_state s1) TgEstablished) eqn:G.
      - apply andb_true_iff in G. destruct G as [_ G]. apply tg_state_eqb_eq in G.
        destruct (tg_pre_est_facts _ _ P1 G) as [F1 F2].
        eapply tg_connected_post; eauto.
      - inversion C; subst. apply tg_post_nil; auto. }
    eapply tg_post_app with (s1 := s2); eauto. apply tg_post_neutral; auto. apply Q2.
  - destruct (negb (tg_state_eqb (ts_state s1) TgEstablished)
              || tm_con m && (ts_nstart s1 <=? ts_con_active s1)).
    { inversion H; subst. apply tg_post_neutral; auto. }
    rewrite tg_session_send_dtls in H by apply P1.
    destruct (tg_dtls_send O s1 m) as [[s2 o2] bw] eqn:DS.
    destruct (tg_dtls_send_post _ _ _ _ _ _ P1 DS) as [Q2 _].
    destruct ((0 <=? bw) && tm_con m); [inversion H; subst; exact Q2|].
    destruct ((bw <? 0) && (0 <? ts_con_active s) && tg_in id (tg_ids (ts_sendq s2)));
      inversion H; subst; exact Q2.
Qed.

(* a session that has been freed takes no further steps; before that the invariant holds *)
Definition tg_W (seen : bool) (s : tg_sess) : Prop := ts_state s = TgEstablished -> seen = true.
Definition tg_rinv (seen : bool) (s : tg_sess) : Prop :=
  (ts_freed s = true \/ tg_pre seen s) /\ tg_W seen s.

Definition tg_post' (seen : bool) (o : list tg_out) (s' : tg_sess) : Prop :=
  tg_rinv (snd (tg_scan seen o)) s' /\ fst (tg_scan seen o) = true /\ tg_hs_from o.

Lemma tg_pre_W : forall seen s, tg_pre seen s -> tg_W seen s.
Proof. intros seen s [Hp [[I0 [I1 I2]] G]] E. auto. Qed.

Lemma tg_post_weaken : forall seen o s', tg_post seen o s' -> tg_post' seen o s'.
Proof. intros seen o s' [P Q]. split; auto. split; auto. apply tg_pre_W; auto. Qed.

Lemma tg_post'_app : forall seen o1 s1 o2 s2,
  tg_post seen o1 s1 -> tg_post' (snd (tg_scan seen o1)) o2 s2 -> tg_post' seen (o1 ++ o2) s2.
Proof.
  intros seen o1 s1 o2 s2 [P1 [F1 H1]] [P2 [F2 H2]].
  unfold tg_post'. rewrite tg_scan_app. simpl. rewrite F1, F2.
  split; [exact P2|]. split; [reflexivity|]. apply tg_hs_from_app; auto.
Qed.

Lemma tg_mfree_post : forall seen s s' o,
  tg_pre seen s -> tg_mfree s = (s', o) -> tg_post' seen o s' /\ ts_freed s' = true.
Proof.
  intros seen s s' o P H.
  assert (X : forallb tg_neutral o = true /\ ts_freed s' = true /\ ts_state s' = ts_state s).
  { unfold tg_mfree, tg_tls_close in H. rewrite (proj1 P) in H.
    destruct (ts_tls s); inversion H; subst; simpl; split; auto;
      try rewrite tg_neutral_map_nack; reflexivity. }
  destruct X as [N [F St]]. split; [|exact F].
  unfold tg_post', tg_rinv. rewrite tg_scan_neutral by auto. simpl.
  split; [split; auto|split; auto].
  - unfold tg_W. rewrite St. apply tg_pre_W; auto.
  - apply tg_hs_from_neutral; auto.
Qed.

Lemma tg_maybe_free_post : forall seen s s' o,
  tg_pre seen s -> tg_maybe_free s = (s', o) -> tg_post' seen o s'.
Proof.
  intros seen s s' o P H. unfold tg_maybe_free in H.
  destruct (negb (ts_app_ref s) && tg_type_eqb (ts_type s) TgClient
            && match ts_sendq s with [] => true | _ => false end && negb (ts_freed s)).
  - eapply tg_mfree_post; eauto.
  - inversion H; subst. apply tg_post_weaken. apply tg_post_nil; auto.
Qed.

Lemma tg_step_post : forall seen s e s' o,
  tg_pre seen s -> tg_step O s e = (s', o) -> tg_post' seen o s'.
Proof.
  intros seen s e s' o P H. unfold tg_step in H.
  destruct (ts_freed s).
  { inversion H; subst. apply tg_post_weaken. apply tg_post_nil; auto. }
  destruct (tg_step0 O s e) as [s1 o1] eqn:S0.
  destruct (tg_maybe_free s1) as [s2 o2] eqn:MF.
  (* whatever the event did, the release check follows *)
  assert (K : tg_post seen o1 s1 -> tg_post' seen o s').
  { intros Q1. inversion H; subst. eapply tg_post'_app; eauto.
    eapply tg_maybe_free_post; eauto. apply Q1. }
  destruct e; simpl in S0.
  - exact (K (tg_connect_post _ _ _ _ P S0)).
  - exact (K (proj1 (tg_send_post _ _ _ _ _ _ P S0))).
  - exact (K (tg_recv_post _ _ _ _ _ _ P S0)).
  - exact (K (tg_timeout_post _ _ _ _ P S0)).
  - exact (K (tg_retransmit_post _ _ _ _ _ _ P S0)).
  - inversion S0; subst. apply K. apply tg_post_nil. exact P.
  - destruct (tg_mfree_post seen (tg_set_sendq s []) _ _ P S0) as [Q F].
    unfold tg_maybe_free in MF. rewrite F, andb_false_r in MF.
    inversion MF; subst. inversion H; subst. rewrite app_nil_r. exact Q.
Qed.

Lemma tg_step_freed : forall s e, ts_freed s = true -> tg_step O s e = (s, []).
Proof. intros s e F. unfold tg_step. rewrite F. reflexivity. Qed.

Lemma tg_step_rinv : forall seen s e s' o,
  tg_rinv seen s -> tg_step O s e = (s', o) -> tg_post' seen o s'.
Proof.
  intros seen s e s' o [[F|P] W] H.
  - rewrite tg_step_freed in H by auto. inversion H; subst.
    unfold tg_post', tg_rinv. simpl. repeat split; auto. apply tg_hs_from_nil.
  - eapply tg_step_post; eauto.
Qed.

Lemma tg_steps_rinv : forall evs seen s s' tr,
  tg_rinv seen s -> tg_steps O s evs = (s', tr) -> tg_post' seen (tg_outs tr) s'.
Proof.
  induction evs as [|e evs IH]; intros seen s s' tr R H; simpl in H.
  - inversion H; subst. unfold tg_post', tg_outs. simpl. repeat split; try apply R.
    apply tg_hs_from_nil.
  - destruct (tg_step O s e) as [s1 o] eqn:S1.
    destruct (tg_steps O s1 evs) as [s2 tr2] eqn:S2. inversion H; subst.
    destruct (tg_step_rinv _ _ _ _ _ R S1) as [R1 [F1 H1]].
    destruct (IH _ _ _ _ R1 S2) as [R2 [F2 H2]].
    unfold tg_outs. simpl. fold (tg_outs tr2).
    unfold tg_post'. rewrite tg_scan_app. simpl. rewrite F1, F2.
    split; [exact R2|]. split; [reflexivity|]. apply tg_hs_from_app; auto.
Qed.

Lemma tg_new_rinv : forall t n, tg_rinv false (tg_new_session TgDtls t n).
Proof.
  intros t n. split.
  - right. apply tg_pre_intro; simpl; auto; try discriminate; destruct t; discriminate.
  - unfold tg_W; simpl. destruct t; discriminate.
Qed.

(* on a DTLS session the session layer never writes cleartext to the socket *)
Theorem tg_no_clear : forall t n evs s' tr b,
  tg_steps O (tg_new_session TgDtls t n) evs = (s', tr) -> ~ In (OWireClear b) (tg_outs tr).
Proof.
  intros t n evs s' tr b H.
  destruct (tg_steps_rinv _ _ _ _ _ (tg_new_rinv t n) H) as [_ [F _]].
  eapply tg_scan_no_clear; eauto.
Qed.

(* application data moves in either direction only after gnutls_handshake returned success *)
Theorem tg_gate : forall t n evs s' tr l1 x l2,
  tg_steps O (tg_new_session TgDtls t n) evs = (s', tr) ->
  tg_outs tr = l1 ++ x :: l2 -> tg_is_app x = true -> In (OHs 0) l1.
Proof.
  intros t n evs s' tr l1 x l2 H E A.
  destruct (tg_steps_rinv _ _ _ _ _ (tg_new_rinv t n) H) as [_ [F _]].
  destruct (tg_scan_gate _ _ _ _ _ F E A) as [D|I]; [discriminate | exact I].
Qed.

(* ESTABLISHED is entered only after such a success *)
Theorem tg_established_after_success : forall t n evs s' tr,
  tg_steps O (tg_new_session TgDtls t n) evs = (s', tr) ->
  ts_state s' = TgEstablished -> In (OHs 0) (tg_outs tr).
Proof.
  intros t n evs s' tr H E.
  destruct (tg_steps_rinv _ _ _ _ _ (tg_new_rinv t n) H) as [[_ W] _].
  specialize (W E). destruct (tg_scan_seen_witness _ _ W) as [D|I]; [discriminate | exact I].
Qed.

(* ... and every reported handshake result is a value the TLS library returned *)
Theorem tg_hs_outputs_from_oracle : forall t n evs s' tr c,
  tg_steps O (tg_new_session TgDtls t n) evs = (s', tr) ->
  In (OHs c) (tg_outs tr) -> exists k, c = or_hs O k.
Proof.
  intros t n evs s' tr c H HI.
  destruct (tg_steps_rinv _ _ _ _ _ (tg_new_rinv t n) H) as [_ [_ Hh]]. apply Hh. exact HI.
Qed.

(* with the contract of the TLS library (success only for matching credentials) *)
Section Contract.
Variable cc : tg_ccfg.
Variable sc : tg_scfg.
Hypothesis hs_sound : forall k, or_hs O k = 0 -> tg_creds_match cc sc = true.

Theorem tg_gate_creds : forall t n evs s' tr x,
  tg_steps O (tg_new_session TgDtls t n) evs = (s', tr) ->
  In x (tg_outs tr) -> tg_is_app x = true -> tg_creds_match cc sc = true.
Proof.
  intros t n evs s' tr x H HI A.
  apply in_split in HI. destruct HI as [l1 [l2 E]].
  pose proof (tg_gate _ _ _ _ _ _ _ _ H E A) as I0.
  assert (I1 : In (OHs 0) (tg_outs tr)) by (rewrite E; apply in_or_app; left; exact I0).
  destruct (tg_hs_outputs_from_oracle _ _ _ _ _ _ H I1) as [k Hk].
  apply (hs_sound k). symmetry. exact Hk.
Qed.

Theorem tg_mismatch_never_established : forall t n evs s' tr,
  tg_creds_match cc sc = false ->
  tg_steps O (tg_new_session TgDtls t n) evs = (s', tr) ->
  ts_state s' <> TgEstablished /\
  (forall x, In x (tg_outs tr) -> tg_is_app x = false).
Proof.
  intros t n evs s' tr M H. split.
  - intros E. pose proof (tg_established_after_success _ _ _ _ _ H E) as I1.
    destruct (tg_hs_outputs_from_oracle _ _ _ _ _ _ H I1) as [k Hk].
    rewrite (hs_sound k) in M; [discriminate | auto].
  - intros x HI. destruct (tg_is_app x) eqn:A; auto.
    rewrite (tg_gate_creds _ _ _ _ _ _ H HI A) in M. discriminate.
Qed.
End Contract.

End Proofs.
