(* C19 - proofs about the gate model: if no gnutls_handshake call ever succeeds (which is
   what GnuTLS's contract gives for credentials that do not match), every Confirmable the
   application queued is reported by exactly one NACK - at the latest when the handshake is
   abandoned or the session released - and nothing queued is ever handed to the record layer. *)
From LibcoapV Require Import Base.Tactics Base.Bytes Tls.Gate Tls.GateProofs.
Local Open Scope Z_scope.

(* ids of the Confirmables reported by a NACK / accepted into the delay queue, in output order *)
Fixpoint tg_nack_ids (o : list tg_out) : list Z :=
  match o with
  | [] => []
  | ONack i _ :: r => i :: tg_nack_ids r
  | _ :: r => tg_nack_ids r
  end.
Fixpoint tg_dcon_ids (o : list tg_out) : list Z :=
  match o with
  | [] => []
  | ODelayed i true :: r => i :: tg_dcon_ids r
  | _ :: r => tg_dcon_ids r
  end.
Definition tg_qcon_ids (s : tg_sess) : list Z := tg_ids (tg_cons (ts_delayq s)).

Lemma tg_nack_ids_app : forall a b, tg_nack_ids (a ++ b) = tg_nack_ids a ++ tg_nack_ids b.
Proof.
  induction a as [|x a IH]; intros b; simpl; auto. destruct x; simpl; rewrite ?IH; auto.
Qed.
Lemma tg_dcon_ids_app : forall a b, tg_dcon_ids (a ++ b) = tg_dcon_ids a ++ tg_dcon_ids b.
Proof.
  induction a as [|x a IH]; intros b; simpl; auto.
  destruct x; simpl; rewrite ?IH; auto. destruct con; simpl; rewrite ?IH; auto.
Qed.

Lemma tg_nack_ids_map : forall r (q : list tg_msg),
  tg_nack_ids (map (fun m => ONack (tm_id m) r) q) = tg_ids q.
Proof. induction q; simpl; auto. rewrite IHq. reflexivity. Qed.
Lemma tg_dcon_ids_map : forall r (q : list tg_msg),
  tg_dcon_ids (map (fun m => ONack (tm_id m) r) q) = [].
Proof. induction q; simpl; auto. Qed.

(* outputs that are neither a NACK, nor an acceptance into the queue, nor a transmission *)
Definition tg_quiet (x : tg_out) : bool :=
  match x with ONack _ _ | ODelayed _ _ | OTlsTx _ _ => false | _ => true end.

Definition tg_notx (o : list tg_out) : Prop := forall i c, ~ In (OTlsTx i c) o.

Lemma tg_notx_app : forall a b, tg_notx a -> tg_notx b -> tg_notx (a ++ b).
Proof. intros a b A B i c H. apply in_app_or in H. destruct H; [eapply A | eapply B]; eauto. Qed.

Lemma tg_quiet_ids : forall o, forallb tg_quiet o = true ->
  tg_nack_ids o = [] /\ tg_dcon_ids o = [] /\ tg_notx o.
Proof.
  induction o as [|x o IH]; intros H; simpl in *.
  - repeat split; auto. intros i c [].
  - apply andb_true_iff in H. destruct H as [Hx Ho]. destruct (IH Ho) as [A [B C]].
    destruct x; simpl in Hx; try discriminate; simpl; repeat split; auto;
      intros i c' [E|E]; try discriminate; eapply C; eauto.
Qed.

(* The accounting, over ids alone (the TCP machine uses it too).  q: the Confirmables held
   before a piece of a run, o its outputs, q' those held after it.
   tg_drains: o NACKs a prefix of q in order, accepts nothing and transmits nothing;
   tg_conserves: held + newly accepted = NACKed + still held, and nothing is transmitted. *)
Definition tg_drains (q : list Z) (o : list tg_out) (q' : list Z) : Prop :=
  q = tg_nack_ids o ++ q' /\ tg_dcon_ids o = [] /\ tg_notx o.
Definition tg_conserves (q : list Z) (o : list tg_out) (q' : list Z) : Prop :=
  q ++ tg_dcon_ids o = tg_nack_ids o ++ q' /\ tg_notx o.

Lemma tg_drains_quiet : forall q o, forallb tg_quiet o = true -> tg_drains q o q.
Proof. intros q o H. destruct (tg_quiet_ids _ H) as [A [B C]]. split; auto. rewrite A. reflexivity. Qed.

Lemma tg_drains_app : forall q o1 q1 o2 q2,
  tg_drains q o1 q1 -> tg_drains q1 o2 q2 -> tg_drains q (o1 ++ o2) q2.
Proof.
  intros q o1 q1 o2 q2 [A1 [B1 C1]] [A2 [B2 C2]]. split; [|split].
  - rewrite tg_nack_ids_app, <- app_assoc, <- A2. exact A1.
  - rewrite tg_dcon_ids_app, B1, B2. reflexivity.
  - apply tg_notx_app; assumption.
Qed.

(* coap_cancel_session_messages / coap_session_mfree over a queue: one NACK each, in order *)
Lemma tg_drains_nack_all : forall r (q : list tg_msg),
  tg_drains (tg_ids q) (map (fun m => ONack (tm_id m) r) q) [].
Proof.
  intros r q. split; [|split].
  - rewrite tg_nack_ids_map, app_nil_r. reflexivity.
  - apply tg_dcon_ids_map.
  - intros i c H. apply in_map_iff in H. destruct H as [m [E _]]. discriminate.
Qed.

Lemma tg_drains_conserves : forall q o q', tg_drains q o q' -> tg_conserves q o q'.
Proof. intros q o q' [A [B C]]. split; auto. rewrite B, app_nil_r. exact A. Qed.

Lemma tg_conserves_app : forall q o1 q1 o2 q2,
  tg_conserves q o1 q1 -> tg_conserves q1 o2 q2 -> tg_conserves q (o1 ++ o2) q2.
Proof.
  intros q o1 q1 o2 q2 [L1 T1] [L2 T2]. split; [|apply tg_notx_app; assumption].
  rewrite tg_dcon_ids_app, tg_nack_ids_app, app_assoc, L1, <- app_assoc, L2, app_assoc.
  reflexivity.
Qed.

Lemma tg_ids_cons_app : forall q (m : tg_msg),
  tg_ids (tg_cons (q ++ [m])) = tg_ids (tg_cons q) ++ (if tm_con m then [tm_id m] else []).
Proof.
  intros q m. unfold tg_cons, tg_ids. rewrite filter_app, map_app. simpl.
  destruct (tm_con m); reflexivity.
Qed.

(* coap_session_delay_pdu accepts m at the tail *)
Lemma tg_conserves_delay : forall q (m : tg_msg),
  tg_conserves (tg_ids (tg_cons q)) [ODelayed (tm_id m) (tm_con m)] (tg_ids (tg_cons (q ++ [m]))).
Proof.
  intros q m. split; [|intros i c [E|[]]; discriminate].
  rewrite tg_ids_cons_app. simpl. destruct (tm_con m); reflexivity.
Qed.

(* ids of the messages the application submitted, in order *)
Fixpoint tg_send_ids (evs : list tg_ev) : list Z :=
  match evs with
  | [] => []
  | ESend m _ :: r => tm_id m :: tg_send_ids r
  | _ :: r => tg_send_ids r
  end.

Section Nack.
Variable O : tg_oracle.
Hypothesis never_ok : forall k, or_hs O k <> 0.

(* the world in which the handshake has not succeeded *)
Definition tg_J (s : tg_sess) : Prop :=
  ts_proto s = TgDtls /\ ts_type s = TgClient /\
  ts_tls_est s = false /\ ts_state s <> TgEstablished /\ ts_sendq s = [] /\
  (ts_sock s = false -> ts_delayq s = []) /\ ts_freed s = false.

Definition tg_law (s : tg_sess) (o : list tg_out) (s' : tg_sess) : Prop :=
  tg_J s' /\ tg_drains (tg_qcon_ids s) o (tg_qcon_ids s').

Lemma tg_law_app : forall s o1 s1 o2 s2,
  tg_law s o1 s1 -> tg_law s1 o2 s2 -> tg_law s (o1 ++ o2) s2.
Proof. intros s o1 s1 o2 s2 [_ D1] [J2 D2]. split; [exact J2 | eapply tg_drains_app; eauto]. Qed.

Lemma tg_law_quiet : forall s o s',
  tg_J s' -> ts_delayq s' = ts_delayq s -> forallb tg_quiet o = true -> tg_law s o s'.
Proof.
  intros s o s' J D Q. split; [exact J|]. unfold tg_qcon_ids. rewrite D. apply tg_drains_quiet; exact Q.
Qed.

Lemma tg_law_nil : forall s, tg_J s -> tg_law s [] s.
Proof. intros s J. apply tg_law_quiet; auto. Qed.

Lemma tg_J_intro : forall s,
  ts_proto s = TgDtls -> ts_type s = TgClient ->
  ts_tls_est s = false -> ts_state s <> TgEstablished -> ts_sendq s = [] ->
  (ts_sock s = false -> ts_delayq s = []) -> ts_freed s = false -> tg_J s.
Proof. intros. unfold tg_J. repeat split; assumption. Qed.

Lemma tg_hs_call_law : forall s s' o r,
  tg_J s -> tg_hs_call O s = (s', o, r) ->
  tg_law s o s' /\ r <> 1 /\ ts_state s' = ts_state s /\ ts_type s' = ts_type s /\
  ts_tls s' = ts_tls s /\ ts_delayq s' = ts_delayq s.
Proof.
  intros s s' o r [Jp [Jt [Je [Js [Jq [Jk Jf]]]]]] H. unfold tg_hs_call in H.
  pose proof (tg_do_handshake_ret (ts_sent_alert s) (or_hs O (ts_khs s))) as R.
  destruct (tg_do_handshake (ts_sent_alert s) (or_hs O (ts_khs s))) as [[ret ev] sa].
  simpl in R. inversion H; subst; clear H.
  assert (NE : (r =? 1) = false).
  { rewrite R. apply Z.eqb_neq. apply never_ok. }
  split; [|simpl; repeat split; auto; intros E; rewrite E in NE; discriminate].
  apply tg_law_quiet; auto. apply tg_J_intro; simpl; auto. rewrite NE. exact Je.
Qed.

Lemma tg_disconnected_law : forall s r s' o,
  tg_J s -> tg_disconnected s r = (s', o) ->
  tg_law s o s' /\ ts_state s' = TgNone /\ ts_type s' = ts_type s /\ ts_sock s' = false.
Proof.
  intros s r s' o [Jp [Jt [Je [Js [Jq [Jk Jf]]]]]] H.
  assert (Es : s' = fst (tg_disconnected s r)) by (rewrite H; reflexivity).
  assert (Eo : o = snd (tg_disconnected s r)) by (rewrite H; reflexivity).
  clear H. subst s' o. unfold tg_disconnected, tg_tls_close.
  cbn [ts_proto ts_tls tg_set_sendq tg_set_delayq tg_set_con_active tg_set_state]. rewrite Jp, Jq.
  destruct (ts_tls s); cbn [fst snd tg_cons filter map app]; (split; [|cbn; auto]);
    (split; [apply tg_J_intro; cbn; auto; discriminate|]);
    (eapply tg_drains_app; [apply tg_drains_nack_all | apply tg_drains_quiet]);
    destruct (map _ _); reflexivity.
Qed.

Lemma tg_J_not_est : forall s, tg_J s -> tg_state_eqb (ts_state s) TgEstablished = false.
Proof.
  intros s J. destruct (tg_state_eqb (ts_state s) TgEstablished) eqn:E; auto.
  apply tg_state_eqb_eq in E. destruct J as [_ [_ [_ [N _]]]]. contradiction.
Qed.

Lemma tg_after_event_law : forall s ev s' o,
  tg_J s -> tg_after_event s ev = (s', o) -> tg_law s o s' /\ ts_type s' = ts_type s.
Proof.
  intros s ev s' o J H. unfold tg_after_event in H. destruct ev as [e|].
  2:{ inversion H; subst. split; auto. apply tg_law_nil; auto. }
  set (o1 := if e =? tg_EV_DTLS_CLOSED then [] else [OEvent e]) in H.
  assert (Q1 : forallb tg_quiet o1 = true) by (unfold o1; destruct (e =? tg_EV_DTLS_CLOSED); reflexivity).
  destruct ((e =? tg_EV_DTLS_ERROR) || (e =? tg_EV_DTLS_CLOSED)).
  - destruct (tg_disconnected s tg_NACK_TLS_FAILED) as [s1 o2] eqn:D. inversion H; subst.
    destruct (tg_disconnected_law _ _ _ _ J D) as [L [_ [T _]]]. split; auto.
    eapply tg_law_app; [apply tg_law_quiet; eauto | exact L].
  - inversion H; subst. split; auto. apply tg_law_quiet; auto.
Qed.

Lemma tg_J_forget : forall s s', tg_forget s' = tg_forget s -> tg_J s -> tg_J s'.
Proof. intros s s' E J. change (tg_J (tg_forget s')). rewrite E. exact J. Qed.

(* with no successful handshake only a disconnect touches the queue; the calls that need an
   established g_env do not occur *)
Lemma tg_rx_law : forall s o s', tg_rx O false s o s' -> tg_J s -> tg_law s o s'.
Proof.
  induction 1; intros J; try discriminate.
  - apply tg_law_nil; exact J.
  - exact (tg_law_app _ _ _ _ _ (IHtg_rx1 J) (IHtg_rx2 (proj1 (IHtg_rx1 J)))).
  - apply tg_law_quiet; [exact (tg_J_forget _ _ H J) | exact (f_equal ts_delayq H) | reflexivity].
  - apply tg_law_quiet; auto.
  - apply tg_law_quiet; auto.
  - exact (proj1 (tg_hs_call_law _ _ _ _ J H0)).
  - destruct J as [_ [_ [Je _]]]. congruence.
  - exact (proj1 (tg_after_event_law _ _ _ _ J H)).
Qed.

Lemma tg_recv_law : forall s pty pmid s' o,
  tg_J s -> tg_recv O s pty pmid = (s', o) -> tg_law s o s'.
Proof.
  intros s pty pmid s' o J H. pose proof J as [Jp [Jt [Je _]]].
  unfold tg_recv in H. rewrite Jp, Jt in H. simpl in H.
  destruct (ts_tls s) eqn:T.
  - assert (A : tg_rx O (ts_tls_est s) s o s')
      by (apply (tg_dtls_receive_rx O s pty pmid); auto; rewrite Jt; discriminate).
    rewrite Je in A. exact (tg_rx_law _ _ _ A J).
  - inversion H; subst. apply tg_law_nil; auto.
Qed.

Lemma tg_connect_law : forall s s' o,
  tg_J s -> tg_connect O s = (s', o) -> tg_law s o s'.
Proof.
  intros s s' o J H. pose proof J as [Jp [Jt [Je [Js [Jq [Jk Jf]]]]]].
  unfold tg_connect in H. rewrite Jp, Jt in H. simpl in H.
  set (s1 := tg_set_tls (tg_set_state s TgHandshake) true false false) in H.
  assert (J1 : tg_J s1) by (apply tg_J_intro; simpl; auto; discriminate).
  change (tg_law s1 o s').
  destruct (tg_hs_call O s1) as [[s2 o2] ret] eqn:HC.
  destruct (tg_hs_call_law _ _ _ _ J1 HC) as [L2 [R2 [St2 [Ty2 [T2 D2]]]]].
  destruct (ret =? -1).
  - destruct (tg_disconnected (tg_set_tls s2 false false false) tg_NACK_TLS_LAYER_FAILED)
      as [s4 o4] eqn:D.
    inversion H; subst.
    assert (J3 : tg_J (tg_set_tls s2 false false false)).
    { destruct L2 as [[A1 [A2 [A3 [A4 [A5 [A6 A7]]]]]] _]. apply tg_J_intro; simpl; auto. }
    destruct (tg_disconnected_law _ _ _ _ J3 D) as [L4 _].
    eapply tg_law_app; [exact L2 | exact L4].
  - inversion H; subst. exact L2.
Qed.

Lemma tg_timeout_law : forall s s' o,
  tg_J s -> tg_timeout O s = (s', o) -> tg_law s o s'.
Proof.
  intros s s' o J H. unfold tg_timeout in H.
  destruct (tg_state_eqb (ts_state s) TgHandshake && tg_proto_eqb (ts_proto s) TgDtls && ts_tls s).
  2:{ inversion H; subst. apply tg_law_nil; auto. }
  simpl in H.
  set (s1 := tg_set_to_count s (ts_to_count s + 1)) in H.
  assert (J1 : tg_J s1) by exact J.
  change (tg_law s1 o s').
  destruct (ts_max_retransmit s <? ts_to_count s + 1).
  { eapply tg_disconnected_law in H; eauto. apply H. }
  destruct (tg_hs_call O s1) as [[s2 o2] ret] eqn:HC.
  destruct (tg_hs_call_law _ _ _ _ J1 HC) as [L2 _].
  destruct (ret <? 0).
  - destruct (tg_disconnected s2 tg_NACK_TLS_FAILED) as [s3 o3] eqn:D. inversion H; subst.
    destruct (tg_disconnected_law _ _ _ _ (proj1 L2) D) as [L3 _].
    eapply tg_law_app; eauto.
  - inversion H; subst. exact L2.
Qed.

(* coap_send is the one place where a message is accepted into the queue *)
Lemma tg_send_law : forall s m s' o,
  tg_J s -> tg_send O s m true = (s', o) ->
  tg_J s' /\ tg_conserves (tg_qcon_ids s) o (tg_qcon_ids s') /\
  (tg_dcon_ids o = [] \/ tg_dcon_ids o = [tm_id m]).
Proof.
  intros s m s' o J H. pose proof J as [Jp [Jt [Je [Js [Jq [Jk Jf]]]]]].
  assert (Q : forall o, forallb tg_quiet o = true ->
              tg_J s /\ tg_conserves (tg_qcon_ids s) o (tg_qcon_ids s) /\
              (tg_dcon_ids o = [] \/ tg_dcon_ids o = [tm_id m])).
  { intros o0 Q0. pose proof (tg_drains_quiet (tg_qcon_ids s) _ Q0) as D.
    split; [exact J|]. split; [apply tg_drains_conserves; exact D | left; apply D]. }
  unfold tg_send in H. rewrite Jt in H. simpl in H.
  destruct (ts_sock s) eqn:SK; simpl in H.
  2:{ inversion H; subst. apply Q. reflexivity. }
  unfold tg_send0 in H. rewrite Jt in H. simpl in H. rewrite andb_false_r in H.
  rewrite (tg_J_not_est _ J) in H. simpl in H. unfold tg_delay_new in H.
  destruct (tg_in (tm_id m) (tg_ids (ts_delayq s))); simpl in H; inversion H; subst; clear H.
  - apply Q. reflexivity.
  - split; [apply tg_J_intro; simpl; auto; rewrite SK; discriminate|].
    split; [apply tg_conserves_delay|]. simpl. destruct (tm_con m); auto.
Qed.

(* after coap_session_free: nothing is held any more *)
Definition tg_R (s : tg_sess) : Prop :=
  tg_J s \/ (ts_freed s = true /\ ts_delayq s = [] /\ ts_sock s = false /\
             ts_state s <> TgEstablished).
Definition tg_law' (s : tg_sess) (o : list tg_out) (s' : tg_sess) : Prop :=
  tg_R s' /\ tg_conserves (tg_qcon_ids s) o (tg_qcon_ids s').

Lemma tg_mfree_law : forall s s' o,
  tg_J s -> tg_mfree s = (s', o) ->
  tg_R s' /\ tg_drains (tg_qcon_ids s) o (tg_qcon_ids s').
Proof.
  intros s s' o [Jp [Jt [Je [Js [Jq [Jk Jf]]]]]] H.
  unfold tg_mfree, tg_tls_close in H. rewrite Jp in H.
  destruct (ts_tls s); inversion H; subst; clear H; (split; [right; simpl; auto|]).
  - apply (tg_drains_app _ [OEvent tg_EV_DTLS_CLOSED] (tg_qcon_ids s));
      [apply tg_drains_quiet; reflexivity | apply tg_drains_nack_all].
  - apply tg_drains_nack_all.
Qed.

Lemma tg_maybe_free_law : forall s s' o,
  tg_J s -> tg_maybe_free s = (s', o) ->
  tg_R s' /\ tg_drains (tg_qcon_ids s) o (tg_qcon_ids s').
Proof.
  intros s s' o J H. unfold tg_maybe_free in H.
  destruct (negb (ts_app_ref s) && tg_type_eqb (ts_type s) TgClient
            && match ts_sendq s with [] => true | _ => false end && negb (ts_freed s)).
  - eapply tg_mfree_law; eauto.
  - inversion H; subst. split; [left; exact J | apply tg_drains_quiet; reflexivity].
Qed.

(* the events of this part: what the application and the network do to a client session *)
Definition tg_app_only (e : tg_ev) : Prop :=
  match e with ESend _ false => False | _ => True end.

(* one step: the conservation law, and only coap_send accepts an id *)
Lemma tg_step_law : forall s e s' o,
  tg_J s -> tg_app_only e -> tg_step O s e = (s', o) ->
  tg_law' s o s' /\ (tg_dcon_ids o = [] \/ tg_dcon_ids o = tg_send_ids [e]).
Proof.
  intros s e s' o J A H. unfold tg_step in H.
  assert (F : ts_freed s = false) by apply J. rewrite F in H.
  destruct (tg_step0 O s e) as [s1 o1] eqn:S0.
  destruct (tg_maybe_free s1) as [s2 o2] eqn:MF. inversion H; subst; clear H.
  (* whatever the event did, the release check follows *)
  assert (K : tg_J s1 -> tg_conserves (tg_qcon_ids s) o1 (tg_qcon_ids s1) ->
              tg_law' s (o1 ++ o2) s' /\ tg_dcon_ids (o1 ++ o2) = tg_dcon_ids o1).
  { intros J1 C1. destruct (tg_maybe_free_law _ _ _ J1 MF) as [R2 D2].
    split; [split; [exact R2 | eapply tg_conserves_app; [exact C1 | apply tg_drains_conserves; exact D2]]|].
    rewrite tg_dcon_ids_app. destruct D2 as [_ [D2 _]]. rewrite D2. apply app_nil_r. }
  assert (KL : tg_law s o1 s1 -> tg_law' s (o1 ++ o2) s' /\ tg_dcon_ids (o1 ++ o2) = []).
  { intros [J1 D1]. destruct (K J1 (tg_drains_conserves _ _ _ D1)) as [L E].
    split; [exact L|]. rewrite E. apply D1. }
  destruct e; simpl in S0.
  - destruct (KL (tg_connect_law _ _ _ J S0)); auto.
  - destruct app; [|contradiction].
    destruct (tg_send_law _ _ _ _ J S0) as [J1 [C1 D1]].
    destruct (K J1 C1) as [L E]. rewrite E. auto.
  - destruct (KL (tg_recv_law _ _ _ _ _ J S0)); auto.
  - destruct (KL (tg_timeout_law _ _ _ J S0)); auto.
  - unfold tg_retransmit in S0. assert (Q : ts_sendq s = []) by apply J. rewrite Q in S0.
    simpl in S0. inversion S0; subst. destruct (KL (tg_law_nil _ J)); auto.
  - inversion S0; subst.
    assert (L : tg_law s [] (tg_set_app_ref s false)) by (apply tg_law_quiet; auto).
    destruct (KL L); auto.
  - assert (J' : tg_J (tg_set_sendq s [])).
    { destruct J as [A1 [A2 [A3 [A4 [A5 [A6 A7]]]]]]. apply tg_J_intro; simpl; auto. }
    destruct (tg_mfree_law _ _ _ J' S0) as [R D].
    unfold tg_maybe_free in MF.
    assert (F1 : ts_freed s1 = true).
    { unfold tg_mfree in S0. destruct (tg_tls_close (tg_set_sendq s [])). inversion S0. reflexivity. }
    rewrite F1, andb_false_r in MF. inversion MF; subst. rewrite app_nil_r.
    split; [split; [exact R | apply tg_drains_conserves; exact D] | left; apply D].
Qed.

Lemma tg_step_law' : forall s e s' o,
  tg_R s -> tg_app_only e -> tg_step O s e = (s', o) ->
  tg_law' s o s' /\ (tg_dcon_ids o = [] \/ tg_dcon_ids o = tg_send_ids [e]).
Proof.
  intros s e s' o [J|[F [D [K N]]]] A H.
  - eapply tg_step_law; eauto.
  - unfold tg_step in H. rewrite F in H. inversion H; subst.
    split; [|left; reflexivity]. split; [right; auto|].
    apply tg_drains_conserves. apply tg_drains_quiet. reflexivity.
Qed.

(* a run: the law composes; the accepted ids are a sub-sequence of the submitted ones *)
Lemma tg_steps_law : forall evs s s' tr,
  tg_R s -> Forall tg_app_only evs -> tg_steps O s evs = (s', tr) ->
  tg_law' s (tg_outs tr) s' /\
  incl (tg_dcon_ids (tg_outs tr)) (tg_send_ids evs) /\
  (NoDup (tg_send_ids evs) -> NoDup (tg_dcon_ids (tg_outs tr))).
Proof.
  induction evs as [|e evs IH]; intros s s' tr R A H; simpl in H.
  - inversion H; subst. split; [|split; [intros x [] | intros; constructor]].
    split; [exact R|]. apply tg_drains_conserves. apply tg_drains_quiet. reflexivity.
  - destruct (tg_step O s e) as [s1 o] eqn:S1.
    destruct (tg_steps O s1 evs) as [s2 tr2] eqn:S2. inversion H; subst; clear H.
    destruct (tg_step_law' _ _ _ _ R (Forall_inv A) S1) as [[R1 C1] D].
    destruct (IH _ _ _ R1 (Forall_inv_tail A) S2) as [[R2 C2] [I2 N2]].
    change (tg_outs ((e, o) :: tr2)) with (o ++ tg_outs tr2). rewrite tg_dcon_ids_app.
    split; [split; [exact R2 | eapply tg_conserves_app; eauto]|].
    replace (tg_send_ids (e :: evs)) with (tg_send_ids [e] ++ tg_send_ids evs)
      by (destruct e; reflexivity).
    destruct (tg_send_ids [e]) as [|i [|? ?]] eqn:SE; [| |destruct e; discriminate];
      destruct D as [D|D]; rewrite D; simpl; try exact (conj I2 N2).
    + split; [apply incl_tl; exact I2 | intros ND; inversion ND; auto].
    + split; [apply incl_cons; [left; reflexivity | apply incl_tl; exact I2]|].
      intros ND. inversion ND; subst. constructor; auto.
Qed.

Lemma tg_new_J : forall n, tg_J (tg_new_session TgDtls TgClient n).
Proof. intros n. apply tg_J_intro; simpl; auto; discriminate. Qed.

(* conservation: every Confirmable accepted into the delay queue is NACKed once or is still
   queued; nothing queued reaches the record layer *)
Theorem tg_nack_conservation : forall n evs s' tr,
  Forall tg_app_only evs ->
  tg_steps O (tg_new_session TgDtls TgClient n) evs = (s', tr) ->
  tg_dcon_ids (tg_outs tr) = tg_nack_ids (tg_outs tr) ++ tg_qcon_ids s' /\
  (forall i c, ~ In (OTlsTx i c) (tg_outs tr)).
Proof.
  intros n evs s' tr A H.
  destruct (tg_steps_law _ _ _ _ (or_introl (tg_new_J n)) A H) as [[_ C] _]. exact C.
Qed.

(* ... so, counting: the number of NACKs for an id is the number of times it was accepted
   minus the copies still queued *)
Theorem tg_nack_count : forall n evs s' tr i,
  Forall tg_app_only evs ->
  tg_steps O (tg_new_session TgDtls TgClient n) evs = (s', tr) ->
  count_occ Z.eq_dec (tg_dcon_ids (tg_outs tr)) i =
  (count_occ Z.eq_dec (tg_nack_ids (tg_outs tr)) i + count_occ Z.eq_dec (tg_qcon_ids s') i)%nat.
Proof.
  intros n evs s' tr i A H. destruct (tg_nack_conservation _ _ _ _ A H) as [L _].
  rewrite L. apply count_occ_app.
Qed.

(* with pairwise distinct message ids: exactly one NACK for each accepted Confirmable that is
   no longer queued, none for one that is *)
Theorem tg_failed_nacks_once : forall n evs s' tr,
  Forall tg_app_only evs ->
  tg_steps O (tg_new_session TgDtls TgClient n) evs = (s', tr) ->
  NoDup (tg_dcon_ids (tg_outs tr)) ->
  forall i, In i (tg_dcon_ids (tg_outs tr)) ->
  (In i (tg_qcon_ids s') /\ count_occ Z.eq_dec (tg_nack_ids (tg_outs tr)) i = 0%nat) \/
  (~ In i (tg_qcon_ids s') /\ count_occ Z.eq_dec (tg_nack_ids (tg_outs tr)) i = 1%nat).
Proof.
  intros n evs s' tr A H ND i HI.
  pose proof (tg_nack_count _ _ _ _ i A H) as C.
  assert (C1 : count_occ Z.eq_dec (tg_dcon_ids (tg_outs tr)) i = 1%nat).
  { apply NoDup_count_occ' with (decA := Z.eq_dec) in HI; auto. }
  rewrite C1 in C.
  destruct (count_occ Z.eq_dec (tg_qcon_ids s') i) as [|k] eqn:Q.
  - right. split; [|lia]. intros HQ. apply (count_occ_In Z.eq_dec) in HQ. lia.
  - left. split; [|lia]. apply (count_occ_In Z.eq_dec). lia.
Qed.

(* the hypothesis of tg_failed_nacks_once on the outputs follows from distinct submitted ids *)
Theorem tg_distinct_ids : forall n evs s' tr,
  Forall tg_app_only evs ->
  tg_steps O (tg_new_session TgDtls TgClient n) evs = (s', tr) ->
  NoDup (tg_send_ids evs) -> NoDup (tg_dcon_ids (tg_outs tr)).
Proof.
  intros n evs s' tr A H.
  apply (tg_steps_law _ _ _ _ (or_introl (tg_new_J n)) A H).
Qed.

(* at the latest when the handshake is abandoned or the session released (the socket is closed
   in both cases) nothing is queued any more: every accepted Confirmable has its NACK *)
Theorem tg_closed_all_nacked : forall n evs s' tr,
  Forall tg_app_only evs ->
  tg_steps O (tg_new_session TgDtls TgClient n) evs = (s', tr) ->
  ts_sock s' = false ->
  ts_delayq s' = [] /\ tg_dcon_ids (tg_outs tr) = tg_nack_ids (tg_outs tr).
Proof.
  intros n evs s' tr A H K.
  destruct (tg_steps_law _ _ _ _ (or_introl (tg_new_J n)) A H) as [[R [L _]] _].
  assert (D : ts_delayq s' = []).
  { destruct R as [[_ [_ [_ [_ [_ [Jk _]]]]]]|[_ [D _]]]; auto. }
  split; auto. simpl in L. rewrite L. unfold tg_qcon_ids. rewrite D. apply app_nil_r.
Qed.

(* ... and the session never becomes ESTABLISHED *)
Theorem tg_never_established_state : forall n evs s' tr,
  Forall tg_app_only evs ->
  tg_steps O (tg_new_session TgDtls TgClient n) evs = (s', tr) ->
  ts_state s' <> TgEstablished.
Proof.
  intros n evs s' tr A H.
  destruct (tg_steps_law _ _ _ _ (or_introl (tg_new_J n)) A H) as [[R _] _].
  destruct R as [[_ [_ [_ [N _]]]]|[_ [_ [_ N]]]]; exact N.
Qed.

End Nack.

(* GnuTLS's contract turns "credentials do not match" into "no handshake call succeeds" *)
Lemma tg_never_ok_of_mismatch : forall O cc sc,
  (forall k, or_hs O k = 0 -> tg_creds_match cc sc = true) ->
  tg_creds_match cc sc = false -> forall k, or_hs O k <> 0.
Proof. intros O cc sc S M k E. rewrite (S k E) in M. discriminate. Qed.
