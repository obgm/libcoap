(* C19 - proofs about the TLS-over-TCP session machine, part 2:
   (a) if no gnutls_handshake call succeeds, every message the application got queued is
       reported by exactly one NACK, at the latest when the session is closed or released, and
       nothing reaches the record layer;
   (b) the delay queue is a FIFO: while no NACK is reported and the session is not freed, what
       left the queue successfully, followed by what is still queued, is what was queued;
   (c) the acceptor is sound; concrete runs. *)
From LibcoapV Require Import Base.Tactics Tls.Gate Tls.GateProofs Tls.GateNack Tls.GateFifo
  Tls.GateMisc Tls.GateTcp Tls.GateTcpProofs.
Local Open Scope Z_scope.

Definition tgt_qcon_ids (s : tgt_sess) : list Z := tg_ids (tg_cons (tt_delayq s)).

Section NackTcp.
Variable O : tg_oracle.
Hypothesis never_ok : forall k, or_hs O k <> 0.

(* what holds of a client session as long as no handshake call has succeeded; the last but one
   clause: a closed socket leaves nothing queued *)
Definition tgt_J (s : tgt_sess) : Prop :=
  tt_client s = true /\ tt_est s = false /\ tt_rxdata s = false /\
  tt_state s <> TgCsm /\ tt_state s <> TgEstablished /\
  (tt_sock s = false -> tt_delayq s = []) /\ tt_freed s = false.

Definition tgt_law (s : tgt_sess) (o : list tg_out) (s' : tgt_sess) : Prop :=
  tgt_J s' /\ tg_drains (tgt_qcon_ids s) o (tgt_qcon_ids s').

Lemma tgt_law_app : forall s o1 s1 o2 s2,
  tgt_law s o1 s1 -> tgt_law s1 o2 s2 -> tgt_law s (o1 ++ o2) s2.
Proof. intros s o1 s1 o2 s2 [_ D1] [J2 D2]. split; [exact J2 | eapply tg_drains_app; eauto]. Qed.

Lemma tgt_law_quiet : forall s o s',
  tgt_J s' -> tt_delayq s' = tt_delayq s -> forallb tg_quiet o = true -> tgt_law s o s'.
Proof.
  intros s o s' J D Q. split; [exact J|]. unfold tgt_qcon_ids. rewrite D. apply tg_drains_quiet; exact Q.
Qed.

Lemma tgt_J_intro : forall s,
  tt_client s = true -> tt_est s = false -> tt_rxdata s = false ->
  tt_state s <> TgCsm -> tt_state s <> TgEstablished ->
  (tt_sock s = false -> tt_delayq s = []) -> tt_freed s = false -> tgt_J s.
Proof. intros. unfold tgt_J. repeat split; assumption. Qed.

Lemma tgt_J_forget : forall s s', tgt_forget s' = tgt_forget s -> tgt_J s -> tgt_J s'.
Proof. intros s s' E J. change (tgt_J (tgt_forget s')). rewrite E. exact J. Qed.

Lemma tgt_inert_quiet : forall o, forallb tgt_inert o = true -> forallb tg_quiet o = true.
Proof. apply tgt_inert_sub. intros []; simpl; auto. Qed.

Lemma tgt_disconnected_law : forall s r s' o,
  tgt_J s -> tgt_disconnected s r = (s', o) -> tgt_law s o s'.
Proof.
  intros s r s' o [Jc [Je [Jr [J1 [J2 [Jk Jf]]]]]] H.
  destruct (tgt_disconnected_spec _ _ _ _ H) as [o3 [-> [N E]]].
  assert (D : tt_delayq s' = []) by exact (f_equal tt_delayq E). split.
  - apply (tgt_J_forget _ _ E). apply tgt_J_intro; simpl; auto; try discriminate.
    rewrite Je. apply andb_false_r.
  - unfold tgt_qcon_ids. rewrite D.
    eapply tg_drains_app; [apply tg_drains_nack_all | apply tg_drains_quiet].
    rewrite forallb_app, (tgt_inert_quiet _ N), andb_true_r.
    destruct (tg_cons (tt_delayq s)); reflexivity.
Qed.

(* with no successful handshake no action touches the queue, except a disconnect; the actions that
   need an established g_env, received data or state CSM do not occur *)
Lemma tgt_act_law : forall c s o s', tgt_act O c s o s' -> tgt_J s -> tgt_law s o s'.
Proof.
  induction 1; intros J; pose proof J as [Jc [Je [Jr [J1 [J2 [Jk Jf]]]]]]; try congruence.
  - apply tgt_law_quiet; auto.
  - exact (tgt_law_app _ _ _ _ _ (IHtgt_act1 J) (IHtgt_act2 (proj1 (IHtgt_act1 J)))).
  - apply tgt_law_quiet; [exact (tgt_J_forget _ _ H J) | exact (f_equal tt_delayq H) |].
    exact (tgt_inert_quiet _ H0).
  - apply tgt_law_quiet; auto. apply tgt_J_intro; simpl; auto; destruct H; subst; discriminate.
  - apply tgt_law_quiet; auto. apply tgt_J_intro; simpl; auto; rewrite H; discriminate.
  - assert (NE : (or_hs O k =? 0) = false) by (apply Z.eqb_neq; apply never_ok).
    rewrite NE. apply tgt_law_quiet; auto.
  - unfold tgt_write in H. rewrite Je, andb_false_r in H. inversion H; subst.
    apply tgt_law_quiet; auto.
  - exact (tgt_disconnected_law _ _ _ _ J H).
  - destruct b; [rewrite H in Je by reflexivity; discriminate|].
    apply tgt_law_quiet; auto. apply tgt_J_intro; auto.
Qed.

Lemma tgt_mfree_law : forall s s' o,
  tgt_mfree s = (s', o) ->
  (tt_freed s' = true /\ tt_delayq s' = [] /\ tt_sock s' = false /\ tt_state s' = tt_state s) /\
  tg_drains (tgt_qcon_ids s) o (tgt_qcon_ids s').
Proof.
  intros s s' o H. unfold tgt_mfree, tgt_close in H.
  destruct (tt_tls s); inversion H; subst; clear H; (split; [simpl; auto|]).
  - apply (tg_drains_app _ [OEvent tg_EV_DTLS_CLOSED] (tgt_qcon_ids s));
      [apply tg_drains_quiet; reflexivity | apply tg_drains_nack_all].
  - apply tg_drains_nack_all.
Qed.

Definition tgt_R (s : tgt_sess) : Prop :=
  tgt_J s \/ (tt_freed s = true /\ tt_delayq s = [] /\ tt_sock s = false /\
             tt_state s <> TgEstablished).
Definition tgt_law' (s : tgt_sess) (o : list tg_out) (s' : tgt_sess) : Prop :=
  tgt_R s' /\ tg_conserves (tgt_qcon_ids s) o (tgt_qcon_ids s').

(* what the application and the network do to a client session *)
Definition tgt_app_only (e : tgt_ev) : Prop :=
  match e with TSend _ false | TAccept => False | _ => True end.

Lemma tgt_step_law : forall s e s' o,
  tgt_J s -> tgt_app_only e -> tgt_step O s e = (s', o) -> tgt_law' s o s'.
Proof.
  intros s e s' o J A H. unfold tgt_step in H.
  pose proof J as [Jc [Je [Jr [J1 [J2 [Jk Jf]]]]]]. rewrite Jf in H.
  assert (W : forall o s', tgt_law s o s' -> tgt_law' s o s').
  { intros o0 s0 [X Y]. split; [left; exact X | apply tg_drains_conserves; exact Y]. }
  pose proof (tgt_step0_act O _ _ _ _ H) as AC.
  destruct e; try contradiction; try exact (W _ _ (tgt_act_law _ _ _ _ AC J)).
  - (* coap_send before the session is established: refused, ignored or queued *)
    destruct app; [|contradiction]. simpl in H. unfold tgt_send in H. rewrite Jc in H. simpl in H.
    destruct (tt_sock s) eqn:SK; simpl in H.
    2:{ inversion H; subst. apply W. apply tgt_law_quiet; auto. }
    destruct (tt_first s); simpl in H.
    { inversion H; subst. apply W. apply tgt_law_quiet; auto. }
    unfold tgt_send0 in H. rewrite Jc in H. simpl in H. rewrite andb_false_r in H.
    destruct (tg_state_eqb (tt_state s) TgEstablished) eqn:E;
      [apply tg_state_eqb_eq in E; contradiction|].
    simpl in H. inversion H; subst.
    split; [left; apply tgt_J_intro; simpl; auto; rewrite SK; discriminate|].
    apply tg_conserves_delay.
  - destruct (tgt_mfree_law _ _ _ H) as [[F [D [K St]]] L].
    split; [right; repeat split; auto; rewrite St; auto | apply tg_drains_conserves; exact L].
Qed.

Lemma tgt_steps_law : forall evs s s' tr,
  tgt_R s -> Forall tgt_app_only evs -> tgt_steps O s evs = (s', tr) -> tgt_law' s (tgt_outs tr) s'.
Proof.
  assert (NIL : forall s, tgt_R s -> tgt_law' s [] s).
  { intros s R. split; [exact R|]. apply tg_drains_conserves. apply tg_drains_quiet. reflexivity. }
  induction evs as [|e evs IH]; intros s s' tr R A H; simpl in H.
  - inversion H; subst. apply NIL; exact R.
  - destruct (tgt_step O s e) as [s1 o] eqn:S1.
    destruct (tgt_steps O s1 evs) as [s2 tr2] eqn:S2. inversion H; subst.
    assert (L1 : tgt_law' s o s1).
    { pose proof R as [J|[F _]]; [exact (tgt_step_law _ _ _ _ J (Forall_inv A) S1)|].
      unfold tgt_step in S1. rewrite F in S1. inversion S1; subst. apply NIL; exact R. }
    destruct L1 as [R1 C1]. destruct (IH _ _ _ R1 (Forall_inv_tail A) S2) as [R2 C2].
    split; [exact R2|]. exact (tg_conserves_app _ _ _ _ _ C1 C2).
Qed.

Lemma tgt_new_J : tgt_J (tgt_new_session true).
Proof. apply tgt_J_intro; simpl; auto; discriminate. Qed.

Theorem tgt_nack_conservation : forall evs s' tr,
  Forall tgt_app_only evs -> tgt_steps O (tgt_new_session true) evs = (s', tr) ->
  tg_dcon_ids (tgt_outs tr) = tg_nack_ids (tgt_outs tr) ++ tgt_qcon_ids s' /\
  (forall i c, ~ In (OTlsTx i c) (tgt_outs tr)) /\ tt_state s' <> TgEstablished.
Proof.
  intros evs s' tr A H.
  destruct (tgt_steps_law _ _ _ _ (or_introl tgt_new_J) A H) as [R [L T]].
  split; [exact L|]. split; [exact T|].
  destruct R as [[_ [_ [_ [_ [N _]]]]]|[_ [_ [_ N]]]]; exact N.
Qed.

Theorem tgt_nack_count : forall evs s' tr i,
  Forall tgt_app_only evs -> tgt_steps O (tgt_new_session true) evs = (s', tr) ->
  count_occ Z.eq_dec (tg_dcon_ids (tgt_outs tr)) i =
  (count_occ Z.eq_dec (tg_nack_ids (tgt_outs tr)) i + count_occ Z.eq_dec (tgt_qcon_ids s') i)%nat.
Proof.
  intros evs s' tr i A H. destruct (tgt_nack_conservation _ _ _ A H) as [L _].
  rewrite L. apply count_occ_app.
Qed.

Theorem tgt_closed_all_nacked : forall evs s' tr,
  Forall tgt_app_only evs -> tgt_steps O (tgt_new_session true) evs = (s', tr) ->
  tt_sock s' = false ->
  tt_delayq s' = [] /\ tg_dcon_ids (tgt_outs tr) = tg_nack_ids (tgt_outs tr).
Proof.
  intros evs s' tr A H K.
  destruct (tgt_steps_law _ _ _ _ (or_introl tgt_new_J) A H) as [R [L _]].
  assert (D : tt_delayq s' = []).
  { destruct R as [[_ [_ [_ [_ [_ [Jk _]]]]]]|[_ [D _]]]; auto. }
  split; auto. simpl in L. rewrite L. unfold tgt_qcon_ids. rewrite D. apply app_nil_r.
Qed.

End NackTcp.

Fixpoint tgt_txok_ids (o : list tg_out) : list Z :=
  match o with
  | [] => []
  | OTlsTx i c :: r => if (0 <? c) && negb (i =? tgt_CSM_ID) then i :: tgt_txok_ids r else tgt_txok_ids r
  | _ :: r => tgt_txok_ids r
  end.
Lemma tgt_txok_ids_app : forall a b, tgt_txok_ids (a ++ b) = tgt_txok_ids a ++ tgt_txok_ids b.
Proof.
  induction a as [|x a IH]; intros b; simpl; auto. destruct x; simpl; rewrite ?IH; auto.
  destruct ((0 <? code) && negb (id =? tgt_CSM_ID)); simpl; rewrite ?IH; auto.
Qed.

Lemma tgt_still_txok : forall o, forallb tg_still o = true -> tgt_txok_ids o = [].
Proof.
  induction o as [|x o IH]; intros H; simpl in *; auto.
  apply andb_true_iff in H. destruct H as [Hx Ho]. destruct x; simpl in Hx; try discriminate; auto.
Qed.

Section FifoTcp.
Variable O : tg_oracle.

Definition tgt_fifoB (s : tgt_sess) (o : list tg_out) (s' : tgt_sess) : Prop :=
  tg_pops tgt_txok_ids (tg_ids (tt_delayq s)) o (tg_ids (tt_delayq s')).

Lemma tgt_fifoB_still : forall s o s',
  tt_delayq s' = tt_delayq s -> forallb tg_still o = true -> tgt_fifoB s o s'.
Proof. intros s o s' D H. unfold tgt_fifoB. rewrite D. apply tg_pops_still; [exact tgt_still_txok | exact H]. Qed.

Lemma tgt_fifoB_app : forall s o1 s1 o2 s2,
  tgt_fifoB s o1 s1 -> tgt_fifoB s1 o2 s2 -> tgt_fifoB s (o1 ++ o2) s2.
Proof. intros s o1 s1 o2 s2. apply tg_pops_app. exact tgt_txok_ids_app. Qed.

Lemma tgt_disconnected_nacks : forall s r s' o,
  tgt_disconnected s r = (s', o) -> tg_nonack o = false.
Proof.
  intros s r s' o H. destruct (tgt_disconnected_spec _ _ _ _ H) as [o3 [-> _]].
  destruct (tg_cons (tt_delayq s)); reflexivity.
Qed.

Lemma tgt_disconnected_fifo : forall s r s' o, tgt_disconnected s r = (s', o) -> tgt_fifoB s o s'.
Proof. intros s r s' o H. apply tg_pops_nack. eapply tgt_disconnected_nacks; eauto. Qed.

Lemma tgt_after_event_fifo : forall s ret s' o r,
  tgt_after_event s ret = (s', o, r) ->
  (s' = s /\ o = [] /\ r = ret) \/ (tg_nonack o = false /\ r = -1).
Proof.
  intros s ret s' o r H. unfold tgt_after_event in H.
  destruct (tt_event s) as [e|]; [|inversion H; auto].
  destruct (tgt_disconnected s tg_NACK_TLS_FAILED) as [s1 o2] eqn:D. inversion H; subst.
  apply tgt_disconnected_nacks in D. right. rewrite tg_nonack_app, D. split; [apply andb_false_r | reflexivity].
Qed.

(* coap_tls_write hands the message to the record layer and leaves the queue alone, or
   disconnects; only a positive result of an application message counts as "left the queue" *)
Lemma tgt_write_fifo : forall s m s' o bw,
  tgt_write O s m = (s', o, bw) ->
  (tt_delayq s' = tt_delayq s /\ tg_dl_ids o = [] /\
   tgt_txok_ids o = (if (0 <? bw) && negb (tm_id m =? tgt_CSM_ID) then [tm_id m] else [])) \/
  (tg_nonack o = false /\ bw = -1).
Proof.
  intros s m s' o bw H. unfold tgt_write in H.
  destruct (negb (tt_tls s && tt_est s)). { inversion H; subst. auto. }
  destruct (0 <? or_tx O (tt_ktx s)) eqn:C.
  { inversion H; subst. left. simpl. rewrite C. simpl.
    destruct (negb (tm_id m =? tgt_CSM_ID)); auto. }
  destruct (tgt_write_fail _ _) as [s2 ret] eqn:WF.
  destruct (tgt_after_event s2 ret) as [[s3 o3] r3] eqn:AE. inversion H; subst.
  destruct (tgt_after_event_fifo _ _ _ _ _ AE) as [[E1 [E2 E3]]|[N3 B3]]; [subst | right; auto].
  assert (K : tt_delayq s2 = tt_delayq s /\ ret <= 0).
  { unfold tgt_write_fail in WF. apply Z.ltb_ge in C.
    repeat case_if_in WF; inversion WF; subst; simpl; split; auto; lia. }
  destruct K as [K1 K3]. left. simpl. rewrite C. simpl.
  assert (B : (0 <? ret) = false) by (apply Z.ltb_ge; exact K3). rewrite B. auto.
Qed.

(* no queued message carries the id under which the CSM is reported; the ids still queued after
   a piece of a run are a suffix of those queued before, so this need not be tracked *)
Definition tgt_ids_ok (q : list tg_msg) : Prop := ~ In tgt_CSM_ID (tg_ids q).

Lemma tgt_flush_fifo : forall q s s' o,
  tt_delayq s = q -> tgt_ids_ok q -> tgt_flush O q s = (s', o) -> tgt_fifoB s o s'.
Proof.
  induction q as [|m q IH]; intros s s' o Q OK H; simpl in H.
  - inversion H; subst. apply tgt_fifoB_still; auto.
  - destruct (negb (tg_state_eqb (tt_state s) TgEstablished)).
    { inversion H; subst. apply tgt_fifoB_still; auto. }
    destruct (tgt_write O (tgt_set_delayq s q) m) as [[s2 o2] bw] eqn:W.
    assert (Hm : (tm_id m =? tgt_CSM_ID) = false) by (apply Z.eqb_neq; intros E; apply OK; left; exact E).
    assert (Hq : tgt_ids_ok q) by (intros X; apply OK; right; exact X).
    destruct (tgt_write_fifo _ _ _ _ _ W) as [[D2 [L2 T2]]|[N2 B2]].
    + rewrite Hm in T2. simpl in D2. destruct (bw <=? 0) eqn:B.
      * inversion H; subst s' o.
        assert (B' : (0 <? bw) = false) by (apply Z.ltb_ge; apply Z.leb_le in B; lia).
        rewrite B' in T2. intros _. rewrite T2, Q. simpl. rewrite D2. auto.
      * destruct (tgt_flush O q s2) as [s3 o3] eqn:FL. inversion H; subst s' o.
        assert (B' : (0 <? bw) = true) by (apply Z.ltb_lt; apply Z.leb_gt in B; lia).
        rewrite B' in T2. apply (tgt_fifoB_app s o2 s2); [|exact (IH _ _ _ D2 Hq FL)].
        intros _. rewrite T2, Q, D2. auto.
    + subst bw. simpl in H. inversion H; subst. apply tg_pops_nack; exact N2.
Qed.

Lemma tgt_connected_fifo : forall s s' o,
  tgt_ids_ok (tt_delayq s) -> tgt_connected O s = (s', o) -> tgt_fifoB s o s'.
Proof.
  intros s s' o OK H. unfold tgt_connected in H.
  destruct (if tg_state_eqb (tt_state s) TgCsm
            then (tgt_set_first s false, [OEvent tg_EV_SESSION_CONNECTED]) else (s, [])) as [s0 ev] eqn:E0.
  assert (D0 : tt_delayq s0 = tt_delayq s /\ forallb tg_still ev = true).
  { destruct (tg_state_eqb (tt_state s) TgCsm); inversion E0; subst; auto. }
  destruct D0 as [D0 S0].
  destruct (tgt_flush O (tt_delayq (tgt_set_state s0 TgEstablished)) (tgt_set_state s0 TgEstablished))
    as [s2 o2] eqn:FL. inversion H; subst.
  apply (tgt_fifoB_app s ev (tgt_set_state s0 TgEstablished)); [apply tgt_fifoB_still; auto|].
  apply (tgt_flush_fifo _ _ _ _ eq_refl); [simpl; rewrite D0; exact OK | exact FL].
Qed.

Lemma tgt_fifoB_ids_ok : forall s o s',
  tgt_ids_ok (tt_delayq s) -> tgt_fifoB s o s' -> tg_nonack o = true -> tgt_ids_ok (tt_delayq s').
Proof.
  intros s o s' OK F N I. destruct (F N) as [X _]. apply OK. rewrite X. apply in_or_app. right. exact I.
Qed.

Lemma tgt_fifoB_seq : forall s o1 s1 o2 s2,
  tgt_ids_ok (tt_delayq s) -> tgt_fifoB s o1 s1 ->
  (tgt_ids_ok (tt_delayq s1) -> tgt_fifoB s1 o2 s2) -> tgt_fifoB s (o1 ++ o2) s2.
Proof.
  intros s o1 s1 o2 s2 OK F1 F2 N. refine (tgt_fifoB_app _ _ _ _ _ F1 (F2 _) N).
  rewrite tg_nonack_app in N. apply andb_true_iff in N. exact (tgt_fifoB_ids_ok _ _ _ OK F1 (proj1 N)).
Qed.

(* only the flush inside tgt_connected takes messages out of the queue *)
Lemma tgt_act_fifo : forall c s o s',
  tgt_act O c s o s' -> tgt_ids_ok (tt_delayq s) -> tgt_fifoB s o s'.
Proof.
  induction 1; intros OK; try (apply tgt_fifoB_still; reflexivity).
  - exact (tgt_fifoB_seq _ _ _ _ _ OK (IHtgt_act1 OK) IHtgt_act2).
  - apply tgt_fifoB_still; [exact (f_equal tt_delayq H)|].
    revert H0. apply tgt_inert_sub. intros []; simpl; auto.
  - apply tgt_fifoB_still; [destruct (_ =? 0)|]; reflexivity.
  - (* the CSM does not count as an application message *)
    destruct (tgt_write_fifo _ _ _ _ _ H) as [[D2 [L2 T2]]|[N2 _]]; [|apply tg_pops_nack; exact N2].
    simpl in T2. rewrite andb_false_r in T2. intros _. rewrite T2, D2. auto.
  - exact (tgt_disconnected_fifo _ _ _ _ H).
  - exact (tgt_connected_fifo _ _ _ OK H1).
Qed.

Definition tgt_fifo_ev (e : tgt_ev) : Prop :=
  match e with
  | TSend m _ => tm_id m <> tgt_CSM_ID
  | TFree => False
  | _ => True
  end.

Fixpoint tgt_flushed (tr : list (tgt_ev * list tg_out)) : list Z :=
  match tr with
  | [] => []
  | (TSend _ _, _) :: r => tgt_flushed r
  | (_, o) :: r => tgt_txok_ids o ++ tgt_flushed r
  end.
Definition tgt_delayed (tr : list (tgt_ev * list tg_out)) : list Z := tg_dl_ids (tgt_outs tr).

(* coap_send appends at the tail (or writes directly, or refuses) *)
Lemma tgt_send_fifo : forall s m app s' o,
  tgt_send O s m app = (s', o) -> tg_nonack o = true ->
  tg_ids (tt_delayq s') = tg_ids (tt_delayq s) ++ tg_dl_ids o /\
  (tg_dl_ids o = [] \/ tg_dl_ids o = [tm_id m]).
Proof.
  intros s m app s' o H N.
  assert (S0 : forall s1 o1, tgt_send0 O s m = (s1, o1) -> tg_nonack o1 = true ->
               tg_ids (tt_delayq s1) = tg_ids (tt_delayq s) ++ tg_dl_ids o1 /\
               (tg_dl_ids o1 = [] \/ tg_dl_ids o1 = [tm_id m])).
  { intros s1 o1 H0 N0. unfold tgt_send0 in H0.
    destruct (_ && _). { inversion H0; subst. simpl. rewrite app_nil_r. auto. }
    destruct (negb _).
    { inversion H0; subst. simpl. unfold tg_ids. rewrite map_app. auto. }
    destruct (tgt_write O s m) as [[s2 o2] bw] eqn:W.
    destruct (tgt_write_fifo _ _ _ _ _ W) as [[D2 [L2 _]]|[N2 B2]].
    - destruct (bw <? 0); [|destruct (bw =? 0)]; inversion H0; subst; simpl;
        rewrite ?tg_dl_ids_app, L2, D2; simpl; rewrite ?app_nil_r; auto.
      unfold tg_ids. rewrite map_app. auto.
    - subst bw. simpl in H0. inversion H0; subst. rewrite tg_nonack_app, N2 in N0. discriminate. }
  unfold tgt_send in H. destruct app.
  - destruct (_ && _). { inversion H; subst. simpl. rewrite app_nil_r. auto. }
    destruct (_ && _). { inversion H; subst. simpl. rewrite app_nil_r. auto. }
    apply S0; auto.
  - destruct (tgt_send0 O s m) as [s1 o1] eqn:E. inversion H; subst.
    assert (ND : forall l, tg_nonack (filter tg_not_drop l) = tg_nonack l /\
                           tg_dl_ids (filter tg_not_drop l) = tg_dl_ids l).
    { induction l as [|x l IHl]; simpl; auto. destruct IHl as [I1 I2].
      destruct x; simpl; rewrite ?I1, ?I2; auto. }
    destruct (ND o1) as [ND1 ND2]. rewrite ND1 in N. rewrite ND2. apply S0; auto.
Qed.

Lemma tgt_step_fifo : forall s e s' o,
  tt_freed s = false -> tgt_ids_ok (tt_delayq s) -> tgt_step O s e = (s', o) ->
  match e with TSend _ _ | TFree => True | _ => tgt_fifoB s o s' end.
Proof.
  intros s e s' o F OK H. unfold tgt_step in H. rewrite F in H.
  pose proof (tgt_step0_act O _ _ _ _ H) as A.
  destruct e; auto; exact (tgt_act_fifo _ _ _ _ A OK).
Qed.

Lemma tgt_steps_freed_sticky : forall evs s s' tr,
  tt_freed s = true -> tgt_steps O s evs = (s', tr) -> tt_freed s' = true.
Proof.
  induction evs as [|e evs IH]; intros s s' tr F H; simpl in H.
  - inversion H; subst. exact F.
  - rewrite (tgt_step_freed O s e F) in H.
    destruct (tgt_steps O s evs) as [s2 tr2] eqn:S2. inversion H; subst. eapply IH; eauto.
Qed.

Lemma tgt_steps_fifo : forall evs s s' tr,
  tt_freed s = false -> tgt_ids_ok (tt_delayq s) -> Forall tgt_fifo_ev evs ->
  tgt_steps O s evs = (s', tr) -> tt_freed s' = false -> tg_nonack (tgt_outs tr) = true ->
  tg_ids (tt_delayq s) ++ tgt_delayed tr = tgt_flushed tr ++ tg_ids (tt_delayq s').
Proof.
  induction evs as [|e evs IH]; intros s s' tr F OK A H F' N; simpl in H.
  - inversion H; subst. unfold tgt_delayed, tgt_outs. simpl. rewrite app_nil_r. reflexivity.
  - destruct (tgt_step O s e) as [s1 o] eqn:S1.
    destruct (tgt_steps O s1 evs) as [s2 tr2] eqn:S2. inversion H; subst; clear H.
    pose proof (Forall_inv A) as A1. pose proof (Forall_inv_tail A) as A2.
    assert (F1 : tt_freed s1 = false).
    { destruct (tt_freed s1) eqn:X; auto.
      rewrite (tgt_steps_freed_sticky _ _ _ _ X S2) in F'. discriminate. }
    unfold tgt_outs in N. simpl in N. fold (tgt_outs tr2) in N.
    rewrite tg_nonack_app in N. apply andb_true_iff in N. destruct N as [N1 N2].
    pose proof (tgt_step_fifo _ _ _ _ F OK S1) as L1.
    unfold tgt_delayed, tgt_outs. simpl. fold (tgt_outs tr2). rewrite tg_dl_ids_app.
    fold (tgt_delayed tr2).
    (* the ids still queued are a suffix of those queued before, or those with the new one *)
    assert (POP : tgt_fifoB s o s1 ->
                  tg_ids (tt_delayq s) ++ tg_dl_ids o ++ tgt_delayed tr2 =
                  (tgt_txok_ids o ++ tgt_flushed tr2) ++ tg_ids (tt_delayq s')).
    { intros L. destruct (L N1) as [X Y]. rewrite Y. simpl.
      rewrite X, <- !app_assoc, (IH _ _ _ F1 (tgt_fifoB_ids_ok _ _ _ OK L N1) A2 S2 F' N2).
      reflexivity. }
    destruct e; simpl in A1; try contradiction; try (apply POP; exact L1).
    unfold tgt_step in S1. rewrite F in S1. simpl in S1.
    destruct (tgt_send_fifo _ _ _ _ _ S1 N1) as [L D].
    assert (OK1 : tgt_ids_ok (tt_delayq s1)).
    { unfold tgt_ids_ok. rewrite L. intros I. apply in_app_or in I. destruct I as [I|I]; [exact (OK I)|].
      destruct D as [D|D]; rewrite D in I; [destruct I | destruct I as [I|[]]; exact (A1 I)]. }
    simpl. rewrite app_assoc, <- L. exact (IH _ _ _ F1 OK1 A2 S2 F' N2).
Qed.

(* While the session is not disconnected (no NACK reported) and not freed: what left the delay
   queue successfully, followed by what is still queued, is exactly what was queued, in order. *)
Theorem tgt_success_flush : forall c evs s' tr,
  Forall tgt_fifo_ev evs -> tgt_steps O (tgt_new_session c) evs = (s', tr) ->
  tt_freed s' = false -> tg_nonack (tgt_outs tr) = true ->
  tgt_flushed tr ++ tg_ids (tt_delayq s') = tgt_delayed tr.
Proof.
  intros c evs s' tr A H F N.
  pose proof (tgt_steps_fifo evs (tgt_new_session c) s' tr eq_refl (fun x => x) A H F N) as L. simpl in L.
  symmetry. exact L.
Qed.

End FifoTcp.

Theorem tgt_accepts_sound : forall O tr s,
  tgt_accepts O s tr = true -> snd (tgt_steps O s (map (fun x => fst (fst x)) tr)) = map fst tr.
Proof.
  intros O. induction tr as [|[[e o] n] tr IH]; intros s H; simpl in *; auto.
  destruct (tgt_step O s e) as [s1 o1] eqn:S1.
  apply andb_true_iff in H. destruct H as [H A]. apply andb_true_iff in H. destruct H as [E _].
  apply tg_outs_eqb_eq in E. subst o1.
  specialize (IH _ A). destruct (tgt_steps O s1 (map (fun x => fst (fst x)) tr)) as [s2 tr2].
  simpl in *. subst tr2. reflexivity.
Qed.

(* handshake calls: AGAIN, SUCCESS; record calls succeed *)
Definition tgt_ex_ok : tg_oracle :=
  Build_tg_oracle (fun k => if k <? 1 then tg_E_AGAIN else 0) (fun _ => false)
                  (fun _ => 40) (fun _ => 30) (fun _ => 0).
Definition tgt_m (i : Z) : tg_msg := Build_tg_msg i true [].

(* two requests queued while the session comes up (the wait timed out), CSM exchange, flush in
   order, a third request sent directly *)
Example tgt_ex_success :
  let '(s', tr) := tgt_steps tgt_ex_ok (tgt_new_session true)
      [TConnect; TConnected true; TFirstTimeout; TSend (tgt_m 1) true; TSend (tgt_m 2) true;
       TRead; TRead; TDispatch 3; TSend (tgt_m 3) true] in
  tt_state s' = TgEstablished /\ tgt_flushed tr = [1; 2] /\ tgt_delayed tr = [1; 2] /\
  tt_delayq s' = [] /\ tg_nonack (tgt_outs tr) = true /\
  In (OTlsTx 3 40) (tgt_outs tr) /\ In (OTlsTx tgt_CSM_ID 40) (tgt_outs tr).
Proof. vm_compute. repeat split; auto 20. Qed.

(* the handshake fails: both queued requests are NACKed once, nothing reaches the record layer *)
Example tgt_ex_failure :
  let '(s', tr) := tgt_steps tg_ex_oracle_bad (tgt_new_session true)
      [TConnect; TConnected true; TFirstTimeout; TSend (tgt_m 1) true; TSend (tgt_m 2) true;
       TRead; TSend (tgt_m 3) true] in
  tt_state s' = TgNone /\ tg_nack_ids (tgt_outs tr) = [1; 2] /\ tg_dcon_ids (tgt_outs tr) = [1; 2] /\
  tgt_txok_ids (tgt_outs tr) = [] /\ tt_delayq s' = [] /\ tt_sock s' = false.
Proof. vm_compute. repeat split; auto. Qed.

(* libcoap dispatches what the record layer delivers whatever the session state: a request that
   arrives after the TLS handshake but before the peer's CSM (state CSM) is delivered. The
   handshake has succeeded at that point (tgt_gate); ESTABLISHED has not been reached. *)
Example tgt_ex_deliver_in_csm :
  let '(s', tr) := tgt_steps tgt_ex_ok (tgt_new_session false)
      [TAccept; TRead; TDispatch 1] in
  tt_state s' = TgCsm /\ In (ODeliver 1 0) (tgt_outs tr).
Proof. vm_compute. auto 10. Qed.

(* the CSM time-out of the wait declares the session connected without the peer's CSM *)
Example tgt_ex_csm_timeout :
  let '(s', tr) := tgt_steps tgt_ex_ok (tgt_new_session true)
      [TConnect; TConnected true; TRead; TFirstTimeout; TSend (tgt_m 1) true] in
  tt_state s' = TgEstablished /\ In (OTlsTx 1 40) (tgt_outs tr) /\
  ~ In (ODeliver 3 0) (tgt_outs tr).
Proof. vm_compute. repeat split; auto 10. intros H. repeat (destruct H as [H|H]; [discriminate|]). exact H. Qed.
