(* C19 - proofs about the TLS-over-TCP session machine (GateTcp.v), part 1: no cleartext, nothing
   moves before the TLS handshake succeeded, application messages leave only after the session
   was declared connected (peer's CSM, or the CSM time-out of coap_client_delay_first). *)
From LibcoapV Require Import Base.Tactics Tls.Gate Tls.GateProofs Tls.GateTcp.
Local Open Scope Z_scope.

(* scanner with two flags: hs = an OHs 0 was seen, cn = SESSION_CONNECTED was seen.
   ok fails on cleartext, on ODeliver / OTlsTx before hs, on an application OTlsTx before cn. *)
Definition tgt_is_conn (x : tg_out) : bool :=
  match x with OEvent e => e =? tg_EV_SESSION_CONNECTED | _ => false end.
Definition tgt_is_apptx (x : tg_out) : bool :=
  match x with OTlsTx i _ => negb (i =? tgt_CSM_ID) | _ => false end.

Fixpoint tgt_scan (hs cn : bool) (o : list tg_out) : bool * (bool * bool) :=
  match o with
  | [] => (true, (hs, cn))
  | x :: r =>
      let here := negb (tg_is_clear x) && (negb (tg_is_app x) || hs) && (negb (tgt_is_apptx x) || cn) in
      let '(ok, f) := tgt_scan (hs || tg_is_ok x) (cn || tgt_is_conn x) r in
      (here && ok, f)
  end.

Lemma tgt_scan_app : forall a b hs cn,
  tgt_scan hs cn (a ++ b) =
  let '(ok1, (h1, c1)) := tgt_scan hs cn a in
  let '(ok2, f2) := tgt_scan h1 c1 b in (ok1 && ok2, f2).
Proof.
  induction a as [|x a IH]; intros b hs cn; simpl.
  - destruct (tgt_scan hs cn b) as [ok [h c]]; reflexivity.
  - rewrite IH. destruct (tgt_scan (hs || tg_is_ok x) (cn || tgt_is_conn x) a) as [ok1 [h1 c1]].
    destruct (tgt_scan h1 c1 b) as [ok2 f2]. rewrite andb_assoc. reflexivity.
Qed.

Lemma tgt_scan_mono : forall o hs cn,
  (hs = true -> fst (snd (tgt_scan hs cn o)) = true) /\
  (cn = true -> snd (snd (tgt_scan hs cn o)) = true).
Proof.
  induction o as [|x o IH]; intros hs cn; simpl; auto.
  specialize (IH (hs || tg_is_ok x) (cn || tgt_is_conn x)).
  destruct (tgt_scan (hs || tg_is_ok x) (cn || tgt_is_conn x) o) as [ok [h c]]. simpl in *.
  destruct IH as [A B]. split; intros E; [apply A | apply B]; rewrite E; reflexivity.
Qed.

Lemma tgt_scan_flags : forall o hs cn,
  (fst (snd (tgt_scan hs cn o)) = true -> hs = true \/ In (OHs 0) o) /\
  (snd (snd (tgt_scan hs cn o)) = true -> cn = true \/ In (OEvent tg_EV_SESSION_CONNECTED) o).
Proof.
  induction o as [|x o IH]; intros hs cn; simpl; auto.
  specialize (IH (hs || tg_is_ok x) (cn || tgt_is_conn x)).
  destruct (tgt_scan (hs || tg_is_ok x) (cn || tgt_is_conn x) o) as [ok [h c]]. simpl in *.
  destruct IH as [A B]. split; intros E.
  - destruct (A E) as [D|D]; [|right; right; exact D].
    apply orb_true_iff in D. destruct D as [D|D]; [left; exact D|].
    right. left. apply tg_is_ok_inv in D. auto.
  - destruct (B E) as [D|D]; [|right; right; exact D].
    apply orb_true_iff in D. destruct D as [D|D]; [left; exact D|].
    right. left. destruct x; simpl in D; try discriminate. apply Z.eqb_eq in D. subst. reflexivity.
Qed.

(* what an accepted output list looks like: the flags in force at x are those left by l1 *)
Lemma tgt_scan_spec : forall o hs cn l1 x l2,
  fst (tgt_scan hs cn o) = true -> o = l1 ++ x :: l2 ->
  (forall b, x <> OWireClear b) /\
  (tg_is_app x = true -> hs = true \/ In (OHs 0) l1) /\
  (tgt_is_apptx x = true -> cn = true \/ In (OEvent tg_EV_SESSION_CONNECTED) l1).
Proof.
  intros o hs cn l1 x l2 H ->. rewrite tgt_scan_app in H.
  destruct (tgt_scan_flags l1 hs cn) as [FA FB].
  destruct (tgt_scan hs cn l1) as [ok1 [h1 c1]]. simpl in *.
  destruct (tgt_scan (h1 || tg_is_ok x) (c1 || tgt_is_conn x) l2) as [ok2 f2]. simpl in H.
  apply andb_true_iff in H. destruct H as [_ H]. apply andb_true_iff in H. destruct H as [H _].
  apply andb_true_iff in H. destruct H as [H Hc]. apply andb_true_iff in H. destruct H as [Ha Hb].
  split; [|split].
  - intros b ->. discriminate.
  - intros A. rewrite A in Hb. apply FA. exact Hb.
  - intros A. rewrite A in Hc. apply FB. exact Hc.
Qed.

Section ProofsTcp.
Variable O : tg_oracle.

(* Every event other than TSend (one tgt_send) and TFree (one tgt_mfree) is a sequence of the few
   actions of tgt_act; each property of runs is checked action by action.
   tgt_forget blanks the fields that only steer the control flow (doing_first, dtls_event,
   sent_alert, the call counters): no property looks at them. *)
Definition tgt_forget (s : tgt_sess) : tgt_sess :=
  Build_tgt_sess (tt_client s) (tt_state s) (tt_delayq s) (tt_tls s) (tt_est s) false (tt_sock s)
                 false None (tt_rxdata s) (tt_freed s) 0 0 0.

Definition tgt_inert (x : tg_out) : bool :=
  match x with
  | OEvent e => negb (e =? tg_EV_SESSION_CONNECTED)
  | OTlsRx _ => true
  | _ => false
  end.

Lemma tgt_inert_sub : forall f : tg_out -> bool,
  (forall x, tgt_inert x = true -> f x = true) ->
  forall o, forallb tgt_inert o = true -> forallb f o = true.
Proof.
  intros f K o H. rewrite forallb_forall in *. intros x HI. apply K. apply H. exact HI.
Qed.

(* conn: the step may declare the session connected *)
Inductive tgt_act (conn : bool) : tgt_sess -> list tg_out -> tgt_sess -> Prop :=
| TaNil : forall s, tgt_act conn s [] s
| TaApp : forall s o1 s1 o2 s2,
    tgt_act conn s o1 s1 -> tgt_act conn s1 o2 s2 -> tgt_act conn s (o1 ++ o2) s2
| TaInert : forall s o s',
    tgt_forget s' = tgt_forget s -> forallb tgt_inert o = true -> tgt_act conn s o s'
| TaState : forall s st,
    st = TgConnecting \/ st = TgHandshake -> tgt_act conn s [] (tgt_set_state s st)
| TaTls : forall s,
    tt_state s = TgHandshake -> tgt_act conn s [] (tgt_set_tls s true false false)
| TaHs : forall s k,
    tt_tls s = true ->
    tgt_act conn s [OHs (or_hs O k)] (if or_hs O k =? 0 then tgt_set_tls s true true false else s)
| TaCsm : forall s, tt_est s = true -> tgt_act conn s [] (tgt_set_state s TgCsm)
| TaWrite : forall s s' o bw, tgt_write O s tgt_csm_msg = (s', o, bw) -> tgt_act conn s o s'
| TaDisc : forall s r s' o, tgt_disconnected s r = (s', o) -> tgt_act conn s o s'
| TaRx : forall s b, (b = true -> tt_est s = true) -> tgt_act conn s [] (tgt_set_rxdata s b)
| TaDeliver : forall s k, tt_rxdata s = true -> tgt_act conn s [ODeliver k 0] s
| TaConn : forall s s' o,
    conn = true -> tt_state s = TgCsm -> tgt_connected O s = (s', o) -> tgt_act conn s o s'.

Lemma tgt_act_silent : forall c s s', tgt_forget s' = tgt_forget s -> tgt_act c s [] s'.
Proof. intros c s s' E. apply TaInert; [exact E | reflexivity]. Qed.

Lemma tgt_act_then : forall c s s1 o s',
  tgt_act c s [] s1 -> tgt_act c s1 o s' -> tgt_act c s o s'.
Proof. intros c s s1 o s' A B. exact (TaApp c _ _ _ _ _ A B). Qed.

Lemma tgt_act_cons : forall c x s o s',
  tgt_inert x = true -> tgt_act c s o s' -> tgt_act c s (x :: o) s'.
Proof.
  intros c x s o s' X A. apply (TaApp c s [x] s); [|exact A].
  apply TaInert; [reflexivity | simpl; rewrite X; reflexivity].
Qed.

Lemma tgt_after_event_act : forall c s ret s' o r,
  tgt_after_event s ret = (s', o, r) -> tgt_act c s o s'.
Proof.
  intros c s ret s' o r H. unfold tgt_after_event in H.
  destruct (tt_event s) as [e|]; [|inversion H; subst; apply TaNil].
  destruct (tgt_disconnected s tg_NACK_TLS_FAILED) as [s1 o2] eqn:D. inversion H; subst.
  apply (TaApp c s _ s); [|exact (TaDisc c _ _ _ _ D)].
  apply TaInert; [reflexivity | destruct (e =? tg_EV_DTLS_CLOSED); reflexivity].
Qed.

(* one gnutls_handshake call: the g_env is marked established exactly when the library says
   GNUTLS_E_SUCCESS *)
Lemma tgt_hs_call_spec : forall s s' o r,
  tgt_hs_call O s = (s', o, r) ->
  o = [OHs (or_hs O (tt_khs s))] /\ (r =? 1) = (or_hs O (tt_khs s) =? 0) /\
  tgt_forget s' = tgt_forget (if r =? 1 then tgt_set_tls s (tt_tls s) true false else s).
Proof.
  intros s s' o r H. unfold tgt_hs_call in H.
  pose proof (tg_do_handshake_ret (tt_sent_alert s) (or_hs O (tt_khs s))) as R.
  destruct (tg_do_handshake (tt_sent_alert s) (or_hs O (tt_khs s))) as [[ret ev] sa].
  simpl in R. inversion H; subst; clear H.
  split; [reflexivity|]. split; [exact R|]. destruct (r =? 1); reflexivity.
Qed.

Lemma tgt_send_csm_act : forall c s s' o,
  tt_est s = true -> tgt_send_csm O s = (s', o) -> tgt_act c s o s'.
Proof.
  intros c s s' o E H. unfold tgt_send_csm in H.
  destruct (tgt_write O (tgt_set_state s TgCsm) tgt_csm_msg) as [[s2 o2] bw] eqn:W.
  apply (tgt_act_then c s (tgt_set_state s TgCsm)); [exact (TaCsm c s E)|].
  destruct (bw <=? 0).
  - destruct (tgt_disconnected s2 tg_NACK_NOT_DELIVERABLE) as [s3 o3] eqn:D. inversion H; subst.
    exact (TaApp c _ _ _ _ _ (TaWrite c _ _ _ _ W) (TaDisc c _ _ _ _ D)).
  - inversion H; subst. exact (TaWrite c _ _ _ _ W).
Qed.

(* a handshake call and, when it succeeds, the CSM: the tail shared by tgt_establish and
   tgt_read_hs *)
Lemma tgt_hs_csm_act : forall c s s2 o2 ret,
  tgt_hs_call O s = (s2, o2, ret) -> tt_tls s = true ->
  tgt_act c s o2 s2 /\
  ((ret =? 1) = true -> forall s3 o3, tgt_send_csm O s2 = (s3, o3) ->
     tgt_act c s (o2 ++ [OEvent tg_EV_DTLS_CONNECTED] ++ o3) s3).
Proof.
  intros c s s2 o2 ret HC T. destruct (tgt_hs_call_spec _ _ _ _ HC) as [-> [R E]].
  assert (A : tgt_act c s [OHs (or_hs O (tt_khs s))] s2).
  { rewrite <- (app_nil_r [OHs _]). eapply TaApp; [exact (TaHs c s (tt_khs s) T)|].
    apply tgt_act_silent. rewrite E, R, T. destruct (_ =? 0); reflexivity. }
  split; [exact A|]. intros R1 s3 o3 SC. apply (TaApp c _ _ _ _ _ A).
  apply tgt_act_cons; [reflexivity|]. apply tgt_send_csm_act; [|exact SC].
  rewrite R1 in E. exact (f_equal tt_est E).
Qed.

Lemma tgt_establish_act : forall c s s' o, tgt_establish O s = (s', o) -> tgt_act c s o s'.
Proof.
  intros c s s' o H. unfold tgt_establish in H.
  apply (tgt_act_then c s (tgt_set_state s TgHandshake)); [apply TaState; auto|].
  apply (tgt_act_then c _ (tgt_set_tls (tgt_set_state s TgHandshake) true false false));
    [apply TaTls; reflexivity|].
  destruct (tgt_hs_call O _) as [[s2 o2] ret] eqn:HC.
  destruct (tgt_hs_csm_act c _ _ _ _ HC eq_refl) as [A2 A3].
  destruct (ret =? 1).
  - destruct (tgt_send_csm O s2) as [s3 o3] eqn:SC. inversion H; subst. exact (A3 eq_refl _ _ eq_refl).
  - inversion H; subst. exact A2.
Qed.

Lemma tgt_read_hs_act : forall c s s' o r,
  tgt_read_hs O s = (s', o, r) -> tt_tls s = true -> tgt_act c s o s'.
Proof.
  intros c s s' o r H T. unfold tgt_read_hs in H.
  destruct (negb (tt_est s) && negb (tt_sent_alert s)); [|inversion H; subst; apply TaNil].
  destruct (tgt_hs_call O s) as [[sa oa] ra] eqn:HC.
  destruct (tgt_hs_csm_act c _ _ _ _ HC T) as [Aa Ab].
  destruct (ra =? 1).
  - destruct (tgt_send_csm O sa) as [sb ob] eqn:SC. inversion H; subst. exact (Ab eq_refl _ _ eq_refl).
  - inversion H; subst. exact Aa.
Qed.

Lemma tgt_read_rec_act : forall c s ret s' o r,
  tgt_read_rec O s ret = (s', o, r) -> tgt_act c s o s'.
Proof.
  intros c s ret s' o r H. unfold tgt_read_rec in H.
  destruct (negb (tg_state_eqb (tt_state s) TgNone) && tt_est s) eqn:B;
    [|inversion H; subst; apply TaNil].
  apply andb_true_iff in B. destruct B as [_ E].
  destruct (0 <? or_rx O (tt_krx s)).
  - inversion H; subst. apply (tgt_act_then c s (tgt_set_rxdata s true)); [apply TaRx; auto|].
    apply TaInert; reflexivity.
  - repeat case_if_in H; inversion H; subst; apply TaInert; reflexivity.
Qed.

Lemma tgt_read_act : forall c s s' o, tgt_read O s = (s', o) -> tgt_act c s o s'.
Proof.
  intros c s s' o H. unfold tgt_read in H.
  apply (tgt_act_then c s (tgt_set_rxdata s false)); [apply TaRx; discriminate|].
  destruct (tt_tls (tgt_set_rxdata s false)) eqn:T; simpl negb in H; cbv iota in H;
    [|exact (TaDisc c _ _ _ _ H)].
  apply (tgt_act_then c _ (tgt_set_event (tgt_set_rxdata s false) None));
    [apply tgt_act_silent; reflexivity|].
  destruct (tgt_read_hs O _) as [[s1 o1] r1] eqn:HP.
  destruct (tgt_read_rec O s1 r1) as [[s2 o2] r2] eqn:RP.
  destruct (tgt_after_event s2 r2) as [[s3 o3] r3] eqn:AE.
  pose proof (TaApp c _ _ _ _ _ (tgt_read_hs_act c _ _ _ _ HP T)
               (TaApp c _ _ _ _ _ (tgt_read_rec_act c _ _ _ _ _ RP)
                  (tgt_after_event_act c _ _ _ _ _ AE))) as A.
  destruct (r3 <? 0).
  - destruct (tgt_disconnected s3 tg_NACK_NOT_DELIVERABLE) as [s4 o4] eqn:D. inversion H; subst.
    replace (o1 ++ o2 ++ o3 ++ o4) with ((o1 ++ o2 ++ o3) ++ o4) by (rewrite <- !app_assoc; reflexivity).
    exact (TaApp c _ _ _ _ _ A (TaDisc c _ _ _ _ D)).
  - inversion H; subst. exact A.
Qed.

Lemma tgt_dispatch_act : forall s k s' o,
  tgt_dispatch O s k = (s', o) -> tgt_act (k =? 3) s o s'.
Proof.
  intros s k s' o H. unfold tgt_dispatch in H.
  destruct (tt_rxdata s) eqn:RX; simpl in H; [|inversion H; subst; apply TaNil].
  pose proof (TaDeliver (k =? 3) s k RX) as DL.
  destruct (k =? 3) eqn:K3; [apply Z.eqb_eq in K3; subst k|].
  - destruct (tg_state_eqb (tt_state s) TgCsm) eqn:ST; [|inversion H; subst; exact DL].
    apply tg_state_eqb_eq in ST. destruct (tgt_connected O s) as [s1 o1] eqn:CN. inversion H; subst.
    exact (TaApp true _ _ _ _ _ DL (TaConn true _ _ _ eq_refl ST CN)).
  - destruct (k =? 5) eqn:K5; [apply Z.eqb_eq in K5; subst k | inversion H; subst; exact DL].
    destruct (tgt_disconnected s tg_NACK_RST) as [s1 o1] eqn:D. inversion H; subst.
    exact (TaApp false _ _ _ _ _ DL (TaDisc false _ _ _ _ D)).
Qed.

Definition tgt_may_connect (e : tgt_ev) : bool :=
  match e with TDispatch k => k =? 3 | TFirstTimeout => true | _ => false end.

Theorem tgt_step0_act : forall s e s' o,
  tgt_step0 O s e = (s', o) ->
  match e with TSend _ _ | TFree => True | _ => tgt_act (tgt_may_connect e) s o s' end.
Proof.
  intros s e s' o H. destruct e; simpl in *; auto.
  - destruct (tt_client s); inversion H; subst; [|apply TaNil].
    apply (tgt_act_then _ s (tgt_set_state s TgConnecting)); [apply TaState; auto|].
    apply tgt_act_silent; reflexivity.
  - destruct (negb _); [inversion H; subst; apply TaNil|]. destruct ok.
    + destruct (tgt_establish O s) as [s1 o1] eqn:E. inversion H; subst.
      apply tgt_act_cons; [reflexivity|]. exact (tgt_establish_act _ _ _ _ E).
    + destruct (tgt_disconnected s tg_NACK_NOT_DELIVERABLE) as [s1 o1] eqn:D. inversion H; subst.
      apply tgt_act_cons; [reflexivity|]. exact (TaDisc _ _ _ _ _ D).
  - destruct (_ || _); [inversion H; subst; apply TaNil|].
    destruct (tgt_establish O _) as [s1 o1] eqn:E. inversion H; subst.
    apply tgt_act_cons; [reflexivity|].
    apply (tgt_act_then _ s (tgt_set_state s TgConnecting)); [apply TaState; auto|].
    exact (tgt_establish_act _ _ _ _ E).
  - exact (tgt_read_act _ _ _ _ H).
  - exact (tgt_dispatch_act _ _ _ _ H).
  - unfold tgt_first_timeout in H. destruct (_ && _); [|inversion H; subst; apply TaNil].
    apply (tgt_act_then _ s (tgt_set_first s false)); [apply tgt_act_silent; reflexivity|].
    destruct (tg_state_eqb _ TgCsm) eqn:ST; [|inversion H; subst; apply TaNil].
    apply tg_state_eqb_eq in ST. exact (TaConn true _ _ _ eq_refl ST H).
Qed.

Definition tgt_I (s : tgt_sess) : Prop :=
  (tt_est s = true -> tt_tls s = true) /\
  (tt_state s = TgCsm \/ tt_state s = TgEstablished -> tt_est s = true).

(* the session is no further than the scanner's flags say: established, or holding received data,
   only after an OHs 0 (hs); ESTABLISHED only after SESSION_CONNECTED (cn) *)
Definition tgt_pre (hs cn : bool) (s : tgt_sess) : Prop :=
  tgt_I s /\ (tt_est s = true \/ tt_rxdata s = true -> hs = true) /\
  (tt_state s = TgEstablished -> cn = true).

Definition tgt_post (hs cn : bool) (o : list tg_out) (s' : tgt_sess) : Prop :=
  tgt_pre (fst (snd (tgt_scan hs cn o))) (snd (snd (tgt_scan hs cn o))) s' /\
  fst (tgt_scan hs cn o) = true /\ tg_hs_from O o.

Lemma tgt_post_nil : forall hs cn s, tgt_pre hs cn s -> tgt_post hs cn [] s.
Proof. intros hs cn s P. split; [exact P|]. split; [reflexivity | apply tg_hs_from_nil]. Qed.

Lemma tgt_post_app : forall hs cn o1 s1 o2 s2,
  tgt_post hs cn o1 s1 ->
  tgt_post (fst (snd (tgt_scan hs cn o1))) (snd (snd (tgt_scan hs cn o1))) o2 s2 ->
  tgt_post hs cn (o1 ++ o2) s2.
Proof.
  intros hs cn o1 s1 o2 s2 [P1 [F1 H1]] [P2 [F2 H2]]. unfold tgt_post in *.
  rewrite tgt_scan_app. destruct (tgt_scan hs cn o1) as [ok1 [h1 c1]]. simpl in *.
  destruct (tgt_scan h1 c1 o2) as [ok2 [h2 c2]]. simpl in *. subst.
  split; [exact P2|]. split; [reflexivity | apply tg_hs_from_app; assumption].
Qed.

Lemma tgt_post_cons : forall hs cn x o s',
  negb (tg_is_clear x) && (negb (tg_is_app x) || hs) && (negb (tgt_is_apptx x) || cn) = true ->
  (forall c, x = OHs c -> exists k, c = or_hs O k) ->
  tgt_post (hs || tg_is_ok x) (cn || tgt_is_conn x) o s' -> tgt_post hs cn (x :: o) s'.
Proof.
  intros hs cn x o s' Hx Hh [P [F H]]. unfold tgt_post. simpl.
  destruct (tgt_scan (hs || tg_is_ok x) (cn || tgt_is_conn x) o) as [ok f] eqn:E. simpl in *.
  rewrite Hx, F. split; [exact P|]. split; [reflexivity|].
  intros c [HI|HI]; [apply Hh; auto | apply H; auto].
Qed.

(* outputs that are neither application data, nor handshake results, nor cleartext, nor the
   connected event *)
Definition tgt_neutral (x : tg_out) : bool := tg_neutral x && negb (tgt_is_conn x).

Lemma tgt_scan_neutral : forall o hs cn,
  forallb tgt_neutral o = true -> tgt_scan hs cn o = (true, (hs, cn)).
Proof.
  induction o as [|x o IH]; intros hs cn H; simpl in *; auto.
  apply andb_true_iff in H. destruct H as [Hx Ho]. rewrite (IH _ _ Ho).
  destruct x; simpl in Hx; try discriminate Hx; simpl; rewrite ?orb_false_r; try reflexivity.
  apply negb_true_iff in Hx. simpl in Hx. rewrite Hx, orb_false_r. reflexivity.
Qed.

Lemma tgt_post_neutral : forall hs cn o s',
  forallb tgt_neutral o = true -> tgt_pre hs cn s' -> tgt_post hs cn o s'.
Proof.
  intros hs cn o s' H P. unfold tgt_post. rewrite tgt_scan_neutral; auto. simpl.
  split; [exact P|]. split; [reflexivity|]. intros c HI. rewrite forallb_forall in H. specialize (H _ HI).
  cbv in H. discriminate.
Qed.

Lemma tgt_neutral_map_nack : forall r (q : list tg_msg),
  forallb tgt_neutral (map (fun m => ONack (tm_id m) r) q) = true.
Proof. induction q; simpl; auto. Qed.

(* for the clauses of tgt_pre_intro on a session given by setters: split the disjunctive premises,
   then each clause is a hypothesis or contradicts one *)
Ltac pre_fin :=
  simpl; intros;
  repeat match goal with H : _ \/ _ |- _ => destruct H end;
  try discriminate; try congruence; auto.

Lemma tgt_pre_intro : forall hs cn s,
  (tt_est s = true -> tt_tls s = true) ->
  (tt_state s = TgCsm \/ tt_state s = TgEstablished -> tt_est s = true) ->
  (tt_est s = true \/ tt_rxdata s = true -> hs = true) ->
  (tt_state s = TgEstablished -> cn = true) -> tgt_pre hs cn s.
Proof. intros. unfold tgt_pre, tgt_I. auto. Qed.

Lemma tgt_pre_forget : forall hs cn s s',
  tgt_forget s' = tgt_forget s -> tgt_pre hs cn s -> tgt_pre hs cn s'.
Proof. intros hs cn s s' E P. change (tgt_pre hs cn (tgt_forget s')). rewrite E. exact P. Qed.

(* coap_session_disconnected_lkd: one NACK per held Confirmable, in order, or one without a PDU;
   then events; the session is left closed with an empty queue *)
Lemma tgt_disconnected_spec : forall s r s' o,
  tgt_disconnected s r = (s', o) ->
  exists o3,
    o = map (fun m => ONack (tm_id m) r) (tg_cons (tt_delayq s)) ++
        match tg_cons (tt_delayq s) with [] => [ONackAnon r] | _ => [] end ++ o3 /\
    forallb tgt_inert o3 = true /\
    tgt_forget s' =
    tgt_forget (tgt_set_sock (tgt_set_tls (tgt_set_delayq (tgt_set_state s TgNone) []) false
                                          (negb (tt_tls s) && tt_est s) false) false).
Proof.
  intros s r s' o H.
  assert (Es : s' = fst (tgt_disconnected s r)) by (rewrite H; reflexivity).
  assert (Eo : o = snd (tgt_disconnected s r)) by (rewrite H; reflexivity).
  clear H. subst s' o. unfold tgt_disconnected, tgt_close.
  cbn [tt_tls tt_sock tt_state tt_delayq tgt_set_first tgt_set_delayq tgt_set_state].
  destruct (tt_tls s) eqn:T; cbn [fst snd negb andb]; eexists;
    (split; [destruct (tg_cons (tt_delayq s)); reflexivity|]);
    (split; [|unfold tgt_forget; simpl; rewrite ?T; reflexivity]);
    destruct (tt_sock s); destruct (tg_state_eqb (tt_state s) TgConnecting);
    destruct (tg_state_eqb (tt_state s) TgNone); destruct (tg_state_eqb (tt_state s) TgEstablished);
    reflexivity.
Qed.

Lemma tgt_inert_neutral : forall o, forallb tgt_inert o = true -> forallb tgt_neutral o = true.
Proof. apply tgt_inert_sub. intros []; simpl; auto. Qed.

Lemma tgt_disconnected_neutral : forall s r s' o,
  tgt_disconnected s r = (s', o) -> forallb tgt_neutral o = true.
Proof.
  intros s r s' o H. destruct (tgt_disconnected_spec _ _ _ _ H) as [o3 [-> [N _]]].
  rewrite !forallb_app, tgt_neutral_map_nack, (tgt_inert_neutral _ N).
  destruct (tg_cons (tt_delayq s)); reflexivity.
Qed.

Lemma tgt_disconnected_post : forall hs cn s r s' o,
  tgt_pre hs cn s -> tgt_disconnected s r = (s', o) ->
  tgt_post hs cn o s' /\ tt_state s' = TgNone /\ tt_rxdata s' = tt_rxdata s.
Proof.
  intros hs cn s r s' o [[I0 I1] [G C]] H.
  pose proof (tgt_disconnected_neutral _ _ _ _ H) as N.
  destruct (tgt_disconnected_spec _ _ _ _ H) as [_ [_ [_ E]]].
  split; [|exact (conj (f_equal tt_state E) (f_equal tt_rxdata E))].
  apply tgt_post_neutral; [exact N|]. apply (tgt_pre_forget _ _ _ _ E).
  (* the g_env is gone, or there was none and it was not established *)
  assert (X : negb (tt_tls s) && tt_est s = false).
  { destruct (tt_est s); [rewrite I0 by reflexivity; reflexivity | apply andb_false_r]. }
  apply tgt_pre_intro; simpl; rewrite ?X; pre_fin.
Qed.

Definition tgt_kept (s s' : tgt_sess) : Prop :=
  (tt_state s' = tt_state s \/ tt_state s' = TgNone) /\ tt_rxdata s' = tt_rxdata s.
Lemma tgt_kept_refl : forall s, tgt_kept s s.
Proof. intros; split; auto. Qed.
Lemma tgt_kept_trans : forall a b c, tgt_kept a b -> tgt_kept b c -> tgt_kept a c.
Proof.
  intros a b c [A1 A2] [B1 B2]. split; [|congruence].
  destruct B1 as [B1|B1]; [rewrite B1; exact A1 | right; exact B1].
Qed.

Lemma tgt_after_event_post : forall hs cn s ret s' o r,
  tgt_pre hs cn s -> tgt_after_event s ret = (s', o, r) -> tgt_post hs cn o s' /\ tgt_kept s s'.
Proof.
  intros hs cn s ret s' o r P H. unfold tgt_after_event in H.
  destruct (tt_event s) as [e|];
    [|inversion H; subst; split; [apply tgt_post_nil; auto | apply tgt_kept_refl]].
  destruct (tgt_disconnected s tg_NACK_TLS_FAILED) as [s1 o2] eqn:D. inversion H; subst.
  destruct (tgt_disconnected_post _ _ _ _ _ _ P D) as [Q [Q1 Q3]].
  pose proof (tgt_disconnected_neutral _ _ _ _ D) as N2.
  split; [|split; auto]. apply tgt_post_neutral.
  - rewrite forallb_app, N2. destruct (e =? tg_EV_DTLS_CLOSED); reflexivity.
  - destruct Q as [Q _]. rewrite tgt_scan_neutral in Q by auto. exact Q.
Qed.

Lemma tgt_write_post : forall hs cn s m s' o bw,
  tgt_pre hs cn s -> tm_id m = tgt_CSM_ID \/ tt_state s = TgEstablished ->
  tgt_write O s m = (s', o, bw) -> tgt_post hs cn o s' /\ tgt_kept s s'.
Proof.
  intros hs cn s m s' o bw P A H. unfold tgt_write in H.
  destruct (tt_tls s && tt_est s) eqn:TE; simpl in H.
  2:{ inversion H; subst. split; [apply tgt_post_nil; auto | apply tgt_kept_refl]. }
  apply andb_true_iff in TE. destruct TE as [T E].
  pose proof P as [[I0 I1] [G C]].
  assert (HS : hs = true) by (apply G; auto). subst hs.
  assert (TX : forall o3 s3, tgt_post true cn o3 s3 ->
               tgt_post true cn (OTlsTx (tm_id m) (or_tx O (tt_ktx s)) :: o3) s3).
  { intros o3 s3 Q. apply tgt_post_cons; [|discriminate|simpl; rewrite orb_false_r; exact Q].
    simpl. destruct A as [A|A]; [rewrite A; reflexivity|]. rewrite (C A). apply orb_true_r. }
  set (s1 := tgt_set_k (tgt_set_event s None) _ _ _) in H.
  assert (P1 : tgt_pre true cn s1) by exact P.
  destruct (0 <? or_tx O (tt_ktx s)).
  { inversion H; subst. split; [apply TX, tgt_post_nil, P1 | exact (tgt_kept_refl s)]. }
  destruct (tgt_write_fail s1 (or_tx O (tt_ktx s))) as [s2 ret] eqn:S2.
  assert (P2 : tgt_pre true cn s2 /\ tgt_kept s s2).
  { unfold tgt_write_fail in S2. repeat case_if_in S2;
      inversion S2; subst; split; try exact P1; exact (tgt_kept_refl s). }
  destruct P2 as [P2 K2].
  destruct (tgt_after_event s2 ret) as [[s3 o3] r3] eqn:AE. inversion H; subst.
  destruct (tgt_after_event_post _ _ _ _ _ _ _ P2 AE) as [Q3 K3].
  split; [exact (TX _ _ Q3) | exact (tgt_kept_trans _ _ _ K2 K3)].
Qed.

Lemma tgt_flush_post : forall q hs cn s s' o,
  tgt_pre hs cn s -> tgt_flush O q s = (s', o) -> tgt_post hs cn o s' /\ tgt_kept s s'.
Proof.
  induction q as [|m q IH]; intros hs cn s s' o P H; simpl in H.
  - inversion H; subst. split; [apply tgt_post_nil; auto | apply tgt_kept_refl].
  - destruct (tg_state_eqb (tt_state s) TgEstablished) eqn:E; simpl in H.
    2:{ inversion H; subst. split; [apply tgt_post_nil; auto | apply tgt_kept_refl]. }
    apply tg_state_eqb_eq in E.
    assert (P1 : tgt_pre hs cn (tgt_set_delayq s q)) by exact P.
    destruct (tgt_write O (tgt_set_delayq s q) m) as [[s2 o2] bw] eqn:W.
    destruct (tgt_write_post _ _ _ _ _ _ _ P1 (or_intror E) W) as [Q2 K2].
    destruct (bw <=? 0).
    + inversion H; subst. split; [exact Q2 | exact K2].
    + destruct (tgt_flush O q s2) as [s3 o3] eqn:FL. inversion H; subst.
      destruct (IH _ _ _ _ _ (proj1 Q2) FL) as [Q3 K3].
      split; [eapply tgt_post_app; eauto | eapply tgt_kept_trans; [exact K2 | exact K3]].
Qed.

(* coap_session_connected is only ever called in state CSM *)
Lemma tgt_connected_post : forall hs cn s s' o,
  tgt_pre hs cn s -> tt_state s = TgCsm -> tgt_connected O s = (s', o) -> tgt_post hs cn o s'.
Proof.
  intros hs cn s s' o P ST H. unfold tgt_connected in H. rewrite ST in H. simpl in H.
  set (s1 := tgt_set_state (tgt_set_first s false) TgEstablished) in H.
  destruct (tgt_flush O (tt_delayq s) s1) as [s2 o2] eqn:FL. inversion H; subst.
  pose proof P as [[I0 I1] [G C]].
  assert (E : tt_est s = true) by (apply I1; auto).
  assert (P1 : tgt_pre hs true s1) by (apply tgt_pre_intro; pre_fin).
  apply tgt_post_cons; [reflexivity | discriminate |].
  simpl. rewrite orb_false_r, orb_true_r. exact (proj1 (tgt_flush_post _ _ _ _ _ _ P1 FL)).
Qed.

Lemma tgt_act_post : forall c s o s',
  tgt_act c s o s' -> forall hs cn, tgt_pre hs cn s -> tgt_post hs cn o s'.
Proof.
  induction 1; intros hs cn P; pose proof P as [[I0 I1] [G C]].
  - apply tgt_post_nil; exact P.
  - exact (tgt_post_app _ _ _ _ _ _ (IHtgt_act1 _ _ P) (IHtgt_act2 _ _ (proj1 (IHtgt_act1 _ _ P)))).
  - apply tgt_post_neutral; [apply tgt_inert_neutral; assumption | eapply tgt_pre_forget; eauto].
  - apply tgt_post_nil. apply tgt_pre_intro; pre_fin.
  - apply tgt_post_nil. apply tgt_pre_intro; pre_fin.
  - (* a successful call raises the flag together with g_env->established *)
    apply tgt_post_cons; [reflexivity | intros c0 E; inversion E; eauto |].
    simpl. rewrite orb_false_r. apply tgt_post_nil.
    destruct (or_hs O k =? 0); [|rewrite orb_false_r; exact P].
    apply tgt_pre_intro; pre_fin; apply orb_true_r.
  - apply tgt_post_nil. apply tgt_pre_intro; pre_fin.
  - exact (proj1 (tgt_write_post _ _ _ tgt_csm_msg _ _ _ P (or_introl eq_refl) H)).
  - exact (proj1 (tgt_disconnected_post _ _ _ _ _ _ P H)).
  - apply tgt_post_nil. apply tgt_pre_intro; pre_fin.
  - assert (HS : hs = true) by auto. subst hs.
    apply tgt_post_cons; [reflexivity | discriminate |]. simpl. rewrite orb_false_r.
    apply tgt_post_nil; exact P.
  - eapply tgt_connected_post; eauto.
Qed.

Lemma tgt_send0_post : forall hs cn s m s' o,
  tgt_pre hs cn s -> tgt_send0 O s m = (s', o) -> tgt_post hs cn o s'.
Proof.
  intros hs cn s m s' o P H. unfold tgt_send0 in H.
  destruct (tg_state_eqb (tt_state s) TgNone && negb (tt_client s)).
  { inversion H; subst. apply tgt_post_neutral; auto. }
  destruct (tg_state_eqb (tt_state s) TgEstablished) eqn:E; simpl in H.
  2:{ inversion H; subst. apply tgt_post_neutral; auto. }
  apply tg_state_eqb_eq in E.
  destruct (tgt_write O s m) as [[s1 o1] bw] eqn:W.
  destruct (tgt_write_post _ _ _ _ _ _ _ P (or_intror E) W) as [Q1 _].
  destruct (bw <? 0); [|destruct (bw =? 0)]; inversion H; subst; try exact Q1;
    (eapply tgt_post_app; [exact Q1|]; apply tgt_post_neutral; [reflexivity | apply Q1]).
Qed.

Lemma tgt_filter_not_drop_post : forall hs cn o s',
  tgt_post hs cn o s' -> tgt_post hs cn (filter tg_not_drop o) s'.
Proof.
  intros hs cn o. revert hs cn. induction o as [|x o IH]; intros hs cn s' H; simpl; auto.
  destruct H as [P [F Hh]]. simpl in P, F.
  destruct (tgt_scan (hs || tg_is_ok x) (cn || tgt_is_conn x) o) as [ok f] eqn:E. simpl in P, F.
  apply andb_true_iff in F. destruct F as [F1 F2].
  assert (Q : tgt_post (hs || tg_is_ok x) (cn || tgt_is_conn x) o s').
  { unfold tgt_post. rewrite E. simpl. split; [exact P|]. split; [exact F2|].
    intros c HI. apply Hh. right. exact HI. }
  destruct (tg_not_drop x) eqn:ND.
  - apply tgt_post_cons; auto. intros c ->. apply Hh. left. reflexivity.
  - destruct x; simpl in ND; try discriminate. simpl in Q. rewrite !orb_false_r in Q.
    apply IH. exact Q.
Qed.

Lemma tgt_send_post : forall hs cn s m app s' o,
  tgt_pre hs cn s -> tgt_send O s m app = (s', o) -> tgt_post hs cn o s'.
Proof.
  intros hs cn s m app s' o P H. unfold tgt_send in H. destruct app.
  - destruct (tt_client s && negb (tt_sock s)).
    { inversion H; subst. apply tgt_post_neutral; auto. }
    destruct (tt_client s && tt_first s).
    { inversion H; subst. apply tgt_post_nil; auto. }
    eapply tgt_send0_post; eauto.
  - destruct (tgt_send0 O s m) as [s1 o1] eqn:S0. inversion H; subst.
    apply tgt_filter_not_drop_post. eapply tgt_send0_post; eauto.
Qed.

Definition tgt_rinv (hs cn : bool) (s : tgt_sess) : Prop :=
  (tt_freed s = true \/ tgt_pre hs cn s) /\
  (tt_state s = TgEstablished -> hs = true /\ cn = true).
Definition tgt_post' (hs cn : bool) (o : list tg_out) (s' : tgt_sess) : Prop :=
  tgt_rinv (fst (snd (tgt_scan hs cn o))) (snd (snd (tgt_scan hs cn o))) s' /\
  fst (tgt_scan hs cn o) = true /\ tg_hs_from O o.

Lemma tgt_pre_W : forall hs cn s, tgt_pre hs cn s -> tt_state s = TgEstablished -> hs = true /\ cn = true.
Proof. intros hs cn s [[I0 I1] [G C]] E. split; auto. Qed.

Lemma tgt_post_weaken : forall hs cn o s', tgt_post hs cn o s' -> tgt_post' hs cn o s'.
Proof. intros hs cn o s' [P Q]. split; auto. split; auto. apply tgt_pre_W; auto. Qed.

Lemma tgt_mfree_facts : forall s s' o,
  tgt_mfree s = (s', o) -> forallb tgt_neutral o = true /\ tt_freed s' = true /\ tt_state s' = tt_state s.
Proof.
  intros s s' o H. unfold tgt_mfree, tgt_close in H.
  destruct (tt_tls s); inversion H; subst; simpl; repeat split; auto;
    try rewrite tgt_neutral_map_nack; reflexivity.
Qed.

Lemma tgt_step_post : forall hs cn s e s' o,
  tgt_pre hs cn s -> tgt_step O s e = (s', o) -> tgt_post' hs cn o s'.
Proof.
  intros hs cn s e s' o P H. unfold tgt_step in H.
  destruct (tt_freed s).
  { inversion H; subst. apply tgt_post_weaken. apply tgt_post_nil; auto. }
  pose proof (tgt_step0_act _ _ _ _ H) as A.
  destruct e; try (apply tgt_post_weaken; exact (tgt_act_post _ _ _ _ A _ _ P)).
  - apply tgt_post_weaken. exact (tgt_send_post _ _ _ _ _ _ _ P H).
  - destruct (tgt_mfree_facts _ _ _ H) as [N [F St]].
    unfold tgt_post', tgt_rinv. rewrite tgt_scan_neutral by auto. simpl.
    split; [split; auto|split; auto].
    + rewrite St. apply tgt_pre_W; auto.
    + intros c HI. rewrite forallb_forall in N. specialize (N _ HI). cbv in N. discriminate.
Qed.

Lemma tgt_step_freed : forall s e, tt_freed s = true -> tgt_step O s e = (s, []).
Proof. intros s e F. unfold tgt_step. rewrite F. reflexivity. Qed.

Lemma tgt_steps_rinv : forall evs hs cn s s' tr,
  tgt_rinv hs cn s -> tgt_steps O s evs = (s', tr) -> tgt_post' hs cn (tgt_outs tr) s'.
Proof.
  induction evs as [|e evs IH]; intros hs cn s s' tr R H; simpl in H.
  - inversion H; subst. unfold tgt_post', tgt_outs. simpl.
    split; [exact R|]. split; [reflexivity | apply tg_hs_from_nil].
  - destruct (tgt_step O s e) as [s1 o] eqn:S1.
    destruct (tgt_steps O s1 evs) as [s2 tr2] eqn:S2. inversion H; subst.
    assert (L1 : tgt_post' hs cn o s1).
    { destruct R as [[F|P] W].
      - rewrite tgt_step_freed in S1 by auto. inversion S1; subst.
        unfold tgt_post', tgt_rinv. simpl.
        split; [split; auto|]. split; [reflexivity | apply tg_hs_from_nil].
      - eapply tgt_step_post; eauto. }
    destruct L1 as [R1 [F1 H1]].
    destruct (IH _ _ _ _ _ R1 S2) as [R2 [F2 H2]].
    unfold tgt_outs. simpl. fold (tgt_outs tr2).
    unfold tgt_post'. rewrite tgt_scan_app.
    destruct (tgt_scan hs cn o) as [ok1 [h1 c1]]. simpl in *.
    destruct (tgt_scan h1 c1 (tgt_outs tr2)) as [ok2 [h2 c2]]. simpl in *. subst.
    split; [exact R2|]. split; [reflexivity|]. apply tg_hs_from_app; auto.
Qed.

Lemma tgt_new_rinv : forall c, tgt_rinv false false (tgt_new_session c).
Proof.
  intros c. split; [right; apply tgt_pre_intro; pre_fin | simpl; discriminate].
Qed.

Theorem tgt_no_clear : forall c evs s' tr b,
  tgt_steps O (tgt_new_session c) evs = (s', tr) -> ~ In (OWireClear b) (tgt_outs tr).
Proof.
  intros c evs s' tr b H HI.
  destruct (tgt_steps_rinv _ _ _ _ _ _ (tgt_new_rinv c) H) as [_ [F _]].
  apply in_split in HI. destruct HI as [l1 [l2 E]].
  destruct (tgt_scan_spec _ _ _ _ _ _ F E) as [N _]. eapply N; eauto.
Qed.

(* nothing is handed to dispatch or to the record layer before gnutls_handshake succeeded, and
   no application message (anything but the CSM) before the session was declared connected *)
Theorem tgt_gate : forall c evs s' tr l1 x l2,
  tgt_steps O (tgt_new_session c) evs = (s', tr) -> tgt_outs tr = l1 ++ x :: l2 ->
  (tg_is_app x = true -> In (OHs 0) l1) /\
  (tgt_is_apptx x = true -> In (OEvent tg_EV_SESSION_CONNECTED) l1).
Proof.
  intros c evs s' tr l1 x l2 H E.
  destruct (tgt_steps_rinv _ _ _ _ _ _ (tgt_new_rinv c) H) as [_ [F _]].
  destruct (tgt_scan_spec _ _ _ _ _ _ F E) as [_ [A B]].
  split; intros X; [destruct (A X) | destruct (B X)]; auto; discriminate.
Qed.

Theorem tgt_established_after : forall c evs s' tr,
  tgt_steps O (tgt_new_session c) evs = (s', tr) -> tt_state s' = TgEstablished ->
  In (OHs 0) (tgt_outs tr) /\ In (OEvent tg_EV_SESSION_CONNECTED) (tgt_outs tr).
Proof.
  intros c evs s' tr H E.
  destruct (tgt_steps_rinv _ _ _ _ _ _ (tgt_new_rinv c) H) as [[_ W] _].
  destruct (W E) as [A B]. destruct (tgt_scan_flags (tgt_outs tr) false false) as [FA FB].
  split; [destruct (FA A) | destruct (FB B)]; auto; discriminate.
Qed.

Theorem tgt_hs_outputs_from_oracle : forall c evs s' tr x,
  tgt_steps O (tgt_new_session c) evs = (s', tr) ->
  In (OHs x) (tgt_outs tr) -> exists k, x = or_hs O k.
Proof.
  intros c evs s' tr x H HI.
  destruct (tgt_steps_rinv _ _ _ _ _ _ (tgt_new_rinv c) H) as [_ [_ Hh]]. apply Hh. exact HI.
Qed.

Section ContractTcp.
Variable cc : tg_ccfg.
Variable sc : tg_scfg.
Hypothesis hs_sound : forall k, or_hs O k = 0 -> tg_creds_match cc sc = true.

Theorem tgt_mismatch_never_established : forall c evs s' tr,
  tg_creds_match cc sc = false ->
  tgt_steps O (tgt_new_session c) evs = (s', tr) ->
  tt_state s' <> TgEstablished /\ (forall x, In x (tgt_outs tr) -> tg_is_app x = false).
Proof.
  intros c evs s' tr M H.
  assert (NO : ~ In (OHs 0) (tgt_outs tr)).
  { intros I1. destruct (tgt_hs_outputs_from_oracle _ _ _ _ _ H I1) as [k Hk].
    rewrite (hs_sound k) in M; [discriminate | auto]. }
  split.
  - intros E. apply NO. eapply tgt_established_after; eauto.
  - intros x HI. destruct (tg_is_app x) eqn:A; auto.
    apply in_split in HI. destruct HI as [l1 [l2 E]].
    destruct (tgt_gate _ _ _ _ _ _ _ H E) as [G _]. exfalso. apply NO. rewrite E.
    apply in_or_app. left. auto.
Qed.
End ContractTcp.

Definition tgt_noconn (o : list tg_out) : bool := forallb (fun x => negb (tgt_is_conn x)) o.
Lemma tgt_noconn_app : forall a b, tgt_noconn (a ++ b) = tgt_noconn a && tgt_noconn b.
Proof. intros. apply forallb_app. Qed.
Lemma tgt_neutral_noconn : forall o, forallb tgt_neutral o = true -> tgt_noconn o = true.
Proof.
  induction o as [|x o IH]; intros H; simpl in *; auto.
  apply andb_true_iff in H. destruct H as [Hx Ho]. rewrite (IH Ho), andb_true_r.
  unfold tgt_neutral in Hx. apply andb_true_iff in Hx. apply Hx.
Qed.

Lemma tgt_disconnected_noconn : forall s r s' o, tgt_disconnected s r = (s', o) -> tgt_noconn o = true.
Proof. intros. apply tgt_neutral_noconn. eapply tgt_disconnected_neutral; eauto. Qed.

Lemma tgt_write_noconn : forall s m s' o bw, tgt_write O s m = (s', o, bw) -> tgt_noconn o = true.
Proof.
  intros s m s' o bw H. unfold tgt_write in H.
  destruct (negb (tt_tls s && tt_est s)); [inversion H; reflexivity|].
  destruct (0 <? or_tx O (tt_ktx s)); [inversion H; reflexivity|].
  destruct (tgt_write_fail _ _) as [s2 ret].
  destruct (tgt_after_event s2 ret) as [[s3 o3] r3] eqn:AE. inversion H; subst. simpl.
  unfold tgt_after_event in AE. destruct (tt_event s2) as [e|]; [|inversion AE; reflexivity].
  destruct (tgt_disconnected s2 tg_NACK_TLS_FAILED) as [s1 o2] eqn:D. inversion AE; subst.
  rewrite tgt_noconn_app, (tgt_disconnected_noconn _ _ _ _ D).
  destruct (e =? tg_EV_DTLS_CLOSED); reflexivity.
Qed.

Lemma tgt_flush_noconn : forall q s s' o, tgt_flush O q s = (s', o) -> tgt_noconn o = true.
Proof.
  induction q as [|m q IH]; intros s s' o H; simpl in H; [inversion H; reflexivity|].
  destruct (negb (tg_state_eqb (tt_state s) TgEstablished)); [inversion H; reflexivity|].
  destruct (tgt_write O (tgt_set_delayq s q) m) as [[s2 o2] bw] eqn:W.
  pose proof (tgt_write_noconn _ _ _ _ _ W) as N2.
  destruct (bw <=? 0); [inversion H; subst; exact N2|].
  destruct (tgt_flush O q s2) as [s3 o3] eqn:FL. inversion H; subst.
  rewrite tgt_noconn_app, N2. exact (IH _ _ _ FL).
Qed.

Lemma tgt_act_noconn : forall s o s', tgt_act false s o s' -> tgt_noconn o = true.
Proof.
  induction 1; try reflexivity.
  - rewrite tgt_noconn_app, IHtgt_act1. exact IHtgt_act2.
  - revert H0. apply tgt_inert_sub. intros []; simpl; auto.
  - eapply tgt_write_noconn; eauto.
  - eapply tgt_disconnected_noconn; eauto.
  - discriminate.
Qed.

Lemma tgt_send_noconn : forall s m app s' o, tgt_send O s m app = (s', o) -> tgt_noconn o = true.
Proof.
  assert (S0 : forall s m s' o, tgt_send0 O s m = (s', o) -> tgt_noconn o = true).
  { intros s m s' o H. unfold tgt_send0 in H.
    destruct (_ && _); [inversion H; reflexivity|].
    destruct (negb _); [inversion H; reflexivity|].
    destruct (tgt_write O s m) as [[s1 o1] bw] eqn:W. pose proof (tgt_write_noconn _ _ _ _ _ W) as N.
    destruct (bw <? 0); [|destruct (bw =? 0)]; inversion H; subst;
      rewrite ?tgt_noconn_app, N; reflexivity. }
  intros s m app s' o H. unfold tgt_send in H. destruct app.
  - destruct (_ && _); [inversion H; reflexivity|].
    destruct (_ && _); [inversion H; reflexivity|]. eapply S0; eauto.
  - destruct (tgt_send0 O s m) as [s1 o1] eqn:E. inversion H; subst.
    pose proof (S0 _ _ _ _ E) as N. clear -N. induction o1 as [|x o1 IH]; simpl in *; auto.
    apply andb_true_iff in N. destruct N as [A B]. destruct (tg_not_drop x); simpl; auto.
    rewrite A. simpl. auto.
Qed.

(* only the peer's CSM or the CSM time-out of the wait declare the session connected *)
Theorem tgt_connected_only_by : forall s e s' o,
  tgt_step O s e = (s', o) -> In (OEvent tg_EV_SESSION_CONNECTED) o ->
  e = TDispatch 3 \/ e = TFirstTimeout.
Proof.
  intros s e s' o H HI.
  assert (K : tgt_noconn o = true -> False).
  { intros N. unfold tgt_noconn in N. rewrite forallb_forall in N. specialize (N _ HI).
    simpl in N. discriminate. }
  unfold tgt_step in H. destruct (tt_freed s); [inversion H; subst; destruct HI|].
  pose proof (tgt_step0_act _ _ _ _ H) as A.
  destruct e; try (exfalso; apply K; exact (tgt_act_noconn _ _ _ A)); auto.
  - simpl in A. destruct (kind =? 3) eqn:K3; [left; apply Z.eqb_eq in K3; subst; reflexivity|].
    exfalso; apply K; exact (tgt_act_noconn _ _ _ A).
  - exfalso; apply K. exact (tgt_send_noconn _ _ _ _ _ H).
  - exfalso; apply K. destruct (tgt_mfree_facts _ _ _ H) as [N _]. apply tgt_neutral_noconn; auto.
Qed.

End ProofsTcp.
