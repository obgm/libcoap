(* C19 - proofs about the gate model: the delay queue is a FIFO.  As long as the session
   is not disconnected (no NACK is reported), what was held in the delay queue is handed to the
   TLS record layer in submission order, each message once. *)
From LibcoapV Require Import Base.Tactics Base.Bytes Tls.Gate Tls.GateProofs.
Local Open Scope Z_scope.

Fixpoint tg_tx_ids (o : list tg_out) : list Z :=
  match o with
  | [] => []
  | OTlsTx i _ :: r => i :: tg_tx_ids r
  | _ :: r => tg_tx_ids r
  end.
Fixpoint tg_dl_ids (o : list tg_out) : list Z :=
  match o with
  | [] => []
  | ODelayed i _ :: r => i :: tg_dl_ids r
  | _ :: r => tg_dl_ids r
  end.
Definition tg_is_nack (x : tg_out) : bool :=
  match x with ONack _ _ | ONackAnon _ => true | _ => false end.
Definition tg_nonack (o : list tg_out) : bool := forallb (fun x => negb (tg_is_nack x)) o.

Lemma tg_tx_ids_app : forall a b, tg_tx_ids (a ++ b) = tg_tx_ids a ++ tg_tx_ids b.
Proof. induction a as [|x a IH]; intros b; simpl; auto. destruct x; simpl; rewrite ?IH; auto. Qed.
Lemma tg_dl_ids_app : forall a b, tg_dl_ids (a ++ b) = tg_dl_ids a ++ tg_dl_ids b.
Proof. induction a as [|x a IH]; intros b; simpl; auto. destruct x; simpl; rewrite ?IH; auto. Qed.
Lemma tg_nonack_app : forall a b, tg_nonack (a ++ b) = tg_nonack a && tg_nonack b.
Proof. intros. unfold tg_nonack. apply forallb_app. Qed.

(* outputs that neither hand a message to the record layer nor queue one *)
Definition tg_still (x : tg_out) : bool :=
  match x with OTlsTx _ _ | ODelayed _ _ => false | _ => true end.
Lemma tg_still_ids : forall o, forallb tg_still o = true -> tg_tx_ids o = [] /\ tg_dl_ids o = [].
Proof.
  induction o as [|x o IH]; intros H; simpl in *; auto.
  apply andb_true_iff in H. destruct H as [Hx Ho]. destruct (IH Ho).
  destruct x; simpl in Hx; try discriminate; auto.
Qed.

(* The FIFO reading of one piece of a run, over ids alone (the TCP machine uses it too, with its
   own notion tx of "left the queue"): q the ids queued before, o the outputs, q' the ids queued
   after; o takes a prefix of q, in order, and queues nothing.  A piece that reports a NACK - the
   session was disconnected - is not constrained: this is what lets the pieces compose without
   case distinctions. *)
Section Pops.
Variable tx : list tg_out -> list Z.
Hypothesis tx_app : forall a b, tx (a ++ b) = tx a ++ tx b.
Hypothesis tx_still : forall o, forallb tg_still o = true -> tx o = [].

Definition tg_pops (q : list Z) (o : list tg_out) (q' : list Z) : Prop :=
  tg_nonack o = true -> q = tx o ++ q' /\ tg_dl_ids o = [].

Lemma tg_pops_still : forall q o, forallb tg_still o = true -> tg_pops q o q.
Proof. intros q o H _. rewrite (tx_still _ H). split; [reflexivity | apply tg_still_ids; exact H]. Qed.

Lemma tg_pops_nack : forall q o q', tg_nonack o = false -> tg_pops q o q'.
Proof. intros q o q' H N. rewrite H in N. discriminate. Qed.

Lemma tg_pops_app : forall q o1 q1 o2 q2,
  tg_pops q o1 q1 -> tg_pops q1 o2 q2 -> tg_pops q (o1 ++ o2) q2.
Proof.
  intros q o1 q1 o2 q2 H1 H2 N. rewrite tg_nonack_app in N. apply andb_true_iff in N.
  destruct N as [N1 N2]. destruct (H1 N1) as [A1 B1]. destruct (H2 N2) as [A2 B2]. split.
  - rewrite tx_app, <- app_assoc, <- A2. exact A1.
  - rewrite tg_dl_ids_app, B1, B2. reflexivity.
Qed.
End Pops.

Section Fifo.
Variable O : tg_oracle.

(* a piece of a step that only takes from the head of the delay queue *)
Definition tg_fifoB (s : tg_sess) (o : list tg_out) (s' : tg_sess) : Prop :=
  tg_pops tg_tx_ids (tg_ids (ts_delayq s)) o (tg_ids (ts_delayq s')).

Lemma tg_fifoB_still : forall s o s',
  ts_delayq s' = ts_delayq s -> forallb tg_still o = true -> tg_fifoB s o s'.
Proof.
  intros s o s' D H. unfold tg_fifoB. rewrite D.
  apply tg_pops_still; [intros o0 H0; apply tg_still_ids; exact H0 | exact H].
Qed.

Lemma tg_fifoB_app : forall s o1 s1 o2 s2,
  tg_fifoB s o1 s1 -> tg_fifoB s1 o2 s2 -> tg_fifoB s (o1 ++ o2) s2.
Proof. intros s o1 s1 o2 s2. apply tg_pops_app. exact tg_tx_ids_app. Qed.

(* a disconnect never goes unreported *)
Lemma tg_disconnected_nacks : forall s r s' o,
  tg_disconnected s r = (s', o) -> tg_nonack o = false.
Proof.
  intros s r s' o H.
  assert (Eo : o = snd (tg_disconnected s r)) by (rewrite H; reflexivity). subst o. clear H.
  unfold tg_disconnected. destruct (tg_tls_close _) as [s3 o3]. cbn [snd].
  destruct (ts_sendq s) as [|m q].
  - destruct (tg_cons (ts_delayq s)); reflexivity.
  - destruct (tm_con m) eqn:C; [|reflexivity].
    rewrite !tg_nonack_app. cbn [tg_cons filter]. rewrite C, !andb_false_r. reflexivity.
Qed.

Lemma tg_disconnected_fifo : forall s r s' o, tg_disconnected s r = (s', o) -> tg_fifoB s o s'.
Proof. intros s r s' o H. apply tg_pops_nack. eapply tg_disconnected_nacks; eauto. Qed.

(* coap_dtls_send hands the message to the record layer and leaves the queue alone, or
   disconnects *)
Lemma tg_dtls_send_fifo : forall s m s' o bw,
  tg_dtls_send O s m = (s', o, bw) ->
  (ts_delayq s' = ts_delayq s /\ tg_dl_ids o = [] /\
   tg_tx_ids o = (if ts_tls s && ts_tls_est s then [tm_id m] else [])) \/
  (tg_nonack o = false /\ bw = -1).
Proof.
  intros s m s' o bw H. unfold tg_dtls_send in H.
  destruct (ts_tls s && ts_tls_est s); simpl in H.
  2:{ inversion H; subst. auto. }
  destruct (0 <? or_tx O (ts_ktx s)). { inversion H; subst. auto. }
  destruct (or_tx O (ts_ktx s) =? tg_E_AGAIN). { inversion H; subst. auto. }
  destruct (or_tx O (ts_ktx s) =? tg_E_FATAL_ALERT_RECEIVED). 2:{ inversion H; subst. auto. }
  destruct (tg_disconnected _ tg_NACK_TLS_FAILED) as [s3 o3] eqn:D.
  inversion H; subst. apply tg_disconnected_nacks in D. right. split; [|reflexivity].
  change (tg_nonack ([OTlsTx (tm_id m) (or_tx O (ts_ktx s)); OEvent tg_EV_DTLS_CLOSED] ++ o3) = false).
  rewrite tg_nonack_app, D. apply andb_false_r.
Qed.

Lemma tg_flush_fifo : forall q seen s s' o,
  tg_pre seen s -> ts_delayq s = q -> tg_flush O q s = (s', o) -> tg_fifoB s o s'.
Proof.
  induction q as [|m q IH]; intros seen s s' o P Q H; simpl in H.
  - inversion H; subst. apply tg_fifoB_still; auto.
  - destruct (negb (tg_state_eqb (ts_state s) TgEstablished)) eqn:E.
    { inversion H; subst. apply tg_fifoB_still; auto. }
    destruct (tm_con m && (ts_nstart s <=? ts_con_active s)).
    { inversion H; subst. apply tg_fifoB_still; auto. }
    apply negb_false_iff in E. apply tg_state_eqb_eq in E.
    set (s2 := tg_set_delayq (if tm_con m then tg_set_con_active s (ts_con_active s + 1) else s) q) in H.
    assert (S2 : tg_same s s2) by (unfold s2; destruct (tm_con m); unfold tg_same; simpl; auto).
    assert (P2 : tg_pre seen s2) by (eapply tg_pre_same; eauto).
    assert (TE : ts_tls s2 && ts_tls_est s2 = true).
    { destruct P2 as [_ [[I0 [I1 _]] _]]. destruct S2 as [_ [_ [_ [E4 _]]]].
      rewrite E4 in I1. specialize (I1 E). rewrite I1, (I0 I1). reflexivity. }
    rewrite tg_session_send_dtls in H by apply P2.
    destruct (tg_dtls_send O s2 m) as [[s3 o3] bw] eqn:DS.
    destruct (tg_dtls_send_post O _ _ _ _ _ _ P2 DS) as [Q3 _].
    set (s4 := if tm_con m then tg_set_sendq s3 (ts_sendq s3 ++ [m]) else s3) in H.
    assert (D4 : ts_delayq s4 = ts_delayq s3) by (unfold s4; destruct (tm_con m); reflexivity).
    assert (S4 : tg_same s3 s4) by (unfold s4; destruct (tm_con m); unfold tg_same; simpl; auto).
    (* the head m leaves the queue through the record layer *)
    assert (F3 : tg_fifoB s o3 s4 /\ (bw <? 0 = false -> ts_delayq s4 = q)).
    { destruct (tg_dtls_send_fifo _ _ _ _ _ DS) as [[D3 [L3 T3]]|[N3 B3]].
      - rewrite TE in T3. split; [|intros _; rewrite D4, D3; reflexivity].
        intros _. rewrite T3, D4, D3, Q. auto.
      - split; [apply tg_pops_nack; exact N3 | subst bw; discriminate]. }
    destruct F3 as [F3 Q4]. destruct (bw <? 0).
    + inversion H; subst. exact F3.
    + destruct (tg_flush O q s4) as [s5 o5] eqn:FL. inversion H; subst.
      assert (P4 : tg_pre (snd (tg_scan seen o3)) s4) by (eapply tg_pre_same; [exact S4 | apply Q3]).
      eapply tg_fifoB_app; [exact F3 | exact (IH _ _ _ _ P4 (Q4 eq_refl) FL)].
Qed.

Lemma tg_connected_fifo : forall seen s s' o,
  tg_pre seen s -> ts_tls_est s = true -> ts_type s <> TgHello ->
  tg_connected O s = (s', o) -> tg_fifoB s o s'.
Proof.
  intros seen s s' o P E NH H. pose proof P as [Hp [[I0 [I1 I2]] G]].
  unfold tg_connected in H.
  destruct (tg_flush O (ts_delayq (tg_set_state s TgEstablished)) (tg_set_state s TgEstablished))
    as [s2 o2] eqn:FL.
  inversion H; subst; clear H.
  assert (P1 : tg_pre seen (tg_set_state s TgEstablished)).
  { apply tg_pre_intro; simpl; auto. }
  eapply tg_fifoB_app with (s1 := tg_set_state s TgEstablished);
    [|exact (tg_flush_fifo _ _ _ _ _ P1 eq_refl FL)].
  apply tg_fifoB_still; auto. destruct (tg_state_eqb (ts_state s) TgCsm); reflexivity.
Qed.

Lemma tg_dispatch_fifo : forall seen s pty pmid s' o,
  tg_pre seen s -> tg_dispatch O s pty pmid = (s', o) -> tg_fifoB s o s'.
Proof.
  intros seen s pty pmid s' o P H. unfold tg_dispatch in H.
  destruct ((pty =? 2) && tg_in pmid (tg_ids (ts_sendq s))).
  2:{ inversion H; subst. apply tg_fifoB_still; auto. }
  simpl in H. destruct (0 <? ts_con_active s).
  2:{ inversion H; subst. apply tg_fifoB_still; auto. }
  destruct (tg_state_eqb (ts_state s) TgEstablished) eqn:E.
  2:{ inversion H; subst. apply tg_fifoB_still; auto. }
  apply tg_state_eqb_eq in E. destruct (tg_pre_est_facts _ _ P E) as [F1 F2].
  eapply tg_connected_fifo in H; eauto.
Qed.

Lemma tg_after_event_fifo : forall s ev s' o, tg_after_event s ev = (s', o) -> tg_fifoB s o s'.
Proof.
  intros s ev s' o H. unfold tg_after_event in H. destruct ev as [e|].
  2:{ inversion H; subst. apply tg_fifoB_still; auto. }
  destruct ((e =? tg_EV_DTLS_ERROR) || (e =? tg_EV_DTLS_CLOSED)).
  - destruct (tg_disconnected s tg_NACK_TLS_FAILED) as [s1 o2] eqn:D. inversion H; subst.
    eapply tg_fifoB_app with (s1 := s); [|eapply tg_disconnected_fifo; eauto].
    apply tg_fifoB_still; auto. destruct (e =? tg_EV_DTLS_CLOSED); reflexivity.
  - inversion H; subst. apply tg_fifoB_still; auto. destruct (e =? tg_EV_DTLS_CLOSED); reflexivity.
Qed.

Lemma tg_hs_call_fifo : forall s s' o r,
  tg_hs_call O s = (s', o, r) -> ts_delayq s' = ts_delayq s /\ forallb tg_still o = true.
Proof.
  intros s s' o r H. unfold tg_hs_call in H.
  destruct (tg_do_handshake (ts_sent_alert s) (or_hs O (ts_khs s))) as [[ret ev] sa].
  inversion H; subst. auto.
Qed.

(* only the flush inside coap_session_connected takes messages out of the queue *)
Lemma tg_rx_fifo : forall e s o s',
  tg_rx O e s o s' -> forall seen, tg_pre seen s -> (e = true -> seen = true) -> tg_fifoB s o s'.
Proof.
  induction 1; intros seen P G; try (apply tg_fifoB_still; reflexivity).
  - pose proof (tg_rx_post O _ _ _ _ H _ P G) as [P1 _].
    exact (tg_fifoB_app _ _ _ _ _ (IHtg_rx1 _ P G)
             (IHtg_rx2 _ P1 (fun X => tg_scan_seen_mono _ _ (G X)))).
  - apply tg_fifoB_still; [exact (f_equal ts_delayq H) | reflexivity].
  - apply tg_fifoB_still; apply (tg_hs_call_fifo _ _ _ _ H0).
  - exact (tg_connected_fifo _ _ _ _ P H H0 H1).
  - apply (tg_fifoB_app s [ODeliver pty pmid] s); [apply tg_fifoB_still; reflexivity|].
    exact (tg_dispatch_fifo _ _ _ _ _ _ P H0).
  - exact (tg_after_event_fifo _ _ _ _ H).
Qed.

Lemma tg_dtls_hello_fifo : forall s s' o,
  tg_dtls_hello O s = (s', o) -> ts_delayq s' = ts_delayq s /\ forallb tg_still o = true.
Proof.
  intros s s' o H. unfold tg_dtls_hello in H.
  set (s0 := if ts_tls s then s else tg_set_tls s true false false) in H.
  assert (D0 : ts_delayq s0 = ts_delayq s) by (unfold s0; destruct (ts_tls s); reflexivity).
  clearbody s0.
  destruct (or_ck O (ts_kck s0) <? 0). { inversion H; subst. auto. }
  destruct (tg_hs_call O _) as [[s2 o2] ret] eqn:HC.
  destruct (tg_hs_call_fifo _ _ _ _ HC) as [D2 S2]. simpl in D2.
  destruct (ret <? 0); inversion H; subst; simpl; rewrite S2, D2; auto.
Qed.

Lemma tg_recv_fifo : forall seen s pty pmid s' o,
  tg_pre seen s -> tg_recv O s pty pmid = (s', o) -> tg_fifoB s o s'.
Proof.
  intros seen s pty pmid s' o P H. unfold tg_recv in H.
  assert (Hp : ts_proto s = TgDtls) by apply P. rewrite Hp in H.
  destruct (tg_type_eqb (ts_type s) TgHello) eqn:TH.
  - destruct (tg_dtls_hello_fifo _ _ _ H). apply tg_fifoB_still; auto.
  - destruct (ts_tls s) eqn:T.
    + refine (tg_rx_fifo _ _ _ _ (tg_dtls_receive_rx O _ _ _ _ _ T _ H) _ P (proj2 (proj2 P))).
      intros E. rewrite E in TH. discriminate.
    + inversion H; subst. apply tg_fifoB_still; auto.
Qed.

Lemma tg_connect_fifo : forall s s' o,
  ts_proto s = TgDtls -> tg_connect O s = (s', o) -> tg_fifoB s o s'.
Proof.
  intros s s' o Hp H. unfold tg_connect in H.
  destruct (negb (tg_type_eqb (ts_type s) TgClient)).
  { inversion H; subst. apply tg_fifoB_still; auto. }
  rewrite Hp in H.
  destruct (tg_hs_call O _) as [[s2 o2] ret] eqn:HC.
  destruct (tg_hs_call_fifo _ _ _ _ HC) as [D2 S2]. simpl in D2.
  assert (F2 : tg_fifoB s o2 s2) by (apply tg_fifoB_still; auto).
  destruct (ret =? -1).
  - destruct (tg_disconnected _ tg_NACK_TLS_LAYER_FAILED) as [s4 o4] eqn:D. inversion H; subst.
    apply (tg_fifoB_app s o2 s2); [exact F2|]. apply tg_pops_nack. eapply tg_disconnected_nacks; eauto.
  - inversion H; subst. exact F2.
Qed.

Lemma tg_timeout_fifo : forall s s' o, tg_timeout O s = (s', o) -> tg_fifoB s o s'.
Proof.
  intros s s' o H. unfold tg_timeout in H.
  destruct (negb (tg_state_eqb (ts_state s) TgHandshake && tg_proto_eqb (ts_proto s) TgDtls && ts_tls s)).
  { inversion H; subst. apply tg_fifoB_still; auto. }
  destruct (ts_max_retransmit _ <? ts_to_count _).
  { apply tg_pops_nack. eapply tg_disconnected_nacks; eauto. }
  destruct (tg_hs_call O _) as [[s2 o2] ret] eqn:HC.
  destruct (tg_hs_call_fifo _ _ _ _ HC) as [D2 S2]. simpl in D2.
  assert (F2 : tg_fifoB s o2 s2) by (apply tg_fifoB_still; auto).
  destruct (ret <? 0).
  - destruct (tg_disconnected s2 tg_NACK_TLS_FAILED) as [s3 o3] eqn:D. inversion H; subst.
    exact (tg_fifoB_app _ _ _ _ _ F2 (tg_disconnected_fifo _ _ _ _ D)).
  - inversion H; subst. exact F2.
Qed.

(* coap_send: appends at the tail (or transmits directly, or refuses) *)
Lemma tg_send_fifo : forall seen s m s' o,
  tg_pre seen s -> tg_send O s m true = (s', o) -> tg_nonack o = true ->
  tg_ids (ts_delayq s') = tg_ids (ts_delayq s) ++ tg_dl_ids o.
Proof.
  intros seen s m s' o P H N. unfold tg_send in H.
  destruct (tg_type_eqb (ts_type s) TgClient && negb (ts_sock s)).
  { inversion H; subst. simpl. rewrite app_nil_r. reflexivity. }
  unfold tg_send0 in H.
  destruct (tg_state_eqb (ts_state s) TgNone && negb (tg_type_eqb (ts_type s) TgClient)).
  { inversion H; subst. simpl. rewrite app_nil_r. reflexivity. }
  destruct (negb (tg_state_eqb (ts_state s) TgEstablished)
            || tm_con m && (ts_nstart s <=? ts_con_active s)).
  { unfold tg_delay_new in H. destruct (tg_in (tm_id m) (tg_ids (ts_delayq s))); simpl in H;
      inversion H; subst; simpl.
    - rewrite app_nil_r. reflexivity.
    - unfold tg_ids. rewrite map_app. reflexivity. }
  rewrite tg_session_send_dtls in H by apply P.
  destruct (tg_dtls_send O s m) as [[s1 o1] bw] eqn:DS.
  destruct (tg_dtls_send_fifo _ _ _ _ _ DS) as [[D1 [L1 _]]|[N1 B1]].
  - destruct (bw <? 0); [|destruct (tm_con m)]; inversion H; subst; simpl;
      rewrite ?tg_dl_ids_app, L1, D1; simpl; rewrite app_nil_r; reflexivity.
  - subst bw. simpl in H. inversion H; subst.
    rewrite tg_nonack_app, N1 in N. discriminate.
Qed.

Lemma tg_find_id_id : forall id q m, tg_find_id id q = Some m -> tm_id m = id.
Proof.
  induction q as [|x q IH]; intros m H; simpl in H; [discriminate|].
  destruct (tm_id x =? id) eqn:E; [inversion H; subst; apply Z.eqb_eq; exact E | auto].
Qed.

(* a CoAP retransmission either goes straight to the record layer or, if the gate is closed,
   back to the tail of the delay queue *)
Lemma tg_retransmit_fifo : forall seen s id s' o,
  tg_pre seen s -> tg_retransmit O s id false = (s', o) -> tg_nonack o = true ->
  tg_ids (ts_delayq s') = tg_ids (ts_delayq s) ++ tg_dl_ids o.
Proof.
  intros seen s id s' o P H N. unfold tg_retransmit in H.
  destruct (tg_find_id id (ts_sendq s)) as [m|] eqn:FI.
  2:{ inversion H; subst. simpl. rewrite app_nil_r. reflexivity. }
  apply tg_find_id_id in FI.
  set (s1 := if 0 <? ts_con_active s then tg_set_con_active s (ts_con_active s - 1) else s) in H.
  assert (D1 : ts_delayq s1 = ts_delayq s) by (unfold s1; destruct (0 <? ts_con_active s); reflexivity).
  assert (S1 : tg_same s s1) by (unfold s1; destruct (0 <? ts_con_active s); unfold tg_same; simpl; auto).
  assert (P1 : tg_pre seen s1) by (eapply tg_pre_same; eauto).
  destruct (negb (tg_state_eqb (ts_state s1) TgEstablished)
            || tm_con m && (ts_nstart s1 <=? ts_con_active s1)).
  { inversion H; subst. simpl. rewrite D1. unfold tg_ids. rewrite map_app. reflexivity. }
  rewrite tg_session_send_dtls in H by apply P1.
  destruct (tg_dtls_send O s1 m) as [[s2 o2] bw] eqn:DS.
  destruct (tg_dtls_send_fifo _ _ _ _ _ DS) as [[D2 [L2 _]]|[N2 B2]].
  - destruct ((0 <=? bw) && tm_con m); [|destruct (_ && _)]; inversion H; subst; simpl;
      rewrite L2, D2, D1, app_nil_r; reflexivity.
  - subst bw. simpl in H. destruct (_ && _); inversion H; subst; congruence.
Qed.

Definition tg_fifo_ev (e : tg_ev) : Prop :=
  match e with
  | EConnect | ESend _ true | ERecv _ _ | ETimeout | ERetransmit _ false => True
  | _ => False
  end.

(* ids handed to the record layer out of the delay queue: the OTlsTx of every step that is not
   itself a coap_send or a retransmission (those transmit directly); ids accepted into the queue
   (by coap_send, or again by a retransmission that found the gate closed) *)
Fixpoint tg_flushed (tr : list (tg_ev * list tg_out)) : list Z :=
  match tr with
  | [] => []
  | (ESend _ _, _) :: r => tg_flushed r
  | (ERetransmit _ _, _) :: r => tg_flushed r
  | (_, o) :: r => tg_tx_ids o ++ tg_flushed r
  end.
Definition tg_delayed (tr : list (tg_ev * list tg_out)) : list Z := tg_dl_ids (tg_outs tr).

Lemma tg_maybe_free_not_freed : forall s s' o,
  tg_maybe_free s = (s', o) -> ts_freed s' = false -> s' = s /\ o = [].
Proof.
  intros s s' o H F. unfold tg_maybe_free in H.
  destruct (negb (ts_app_ref s) && tg_type_eqb (ts_type s) TgClient
            && match ts_sendq s with [] => true | _ => false end && negb (ts_freed s)).
  - unfold tg_mfree in H. destruct (tg_tls_close s). inversion H; subst. simpl in F. discriminate.
  - inversion H; subst. auto.
Qed.

Lemma tg_steps_freed_sticky : forall evs s s' tr,
  ts_freed s = true -> tg_steps O s evs = (s', tr) -> ts_freed s' = true.
Proof.
  induction evs as [|e evs IH]; intros s s' tr F H; simpl in H.
  - inversion H; subst. exact F.
  - rewrite (tg_step_freed O s e F) in H.
    destruct (tg_steps O s evs) as [s2 tr2] eqn:S2. inversion H; subst. eapply IH; eauto.
Qed.

Lemma tg_steps_fifo : forall evs seen s s' tr,
  tg_pre seen s -> ts_freed s = false -> Forall tg_fifo_ev evs ->
  tg_steps O s evs = (s', tr) -> ts_freed s' = false -> tg_nonack (tg_outs tr) = true ->
  tg_ids (ts_delayq s) ++ tg_delayed tr = tg_flushed tr ++ tg_ids (ts_delayq s').
Proof.
  induction evs as [|e evs IH]; intros seen s s' tr P F A H F' N; simpl in H.
  - inversion H; subst. unfold tg_delayed, tg_outs. simpl. rewrite app_nil_r. reflexivity.
  - destruct (tg_step O s e) as [s1 o] eqn:S1.
    destruct (tg_steps O s1 evs) as [s2 tr2] eqn:S2. inversion H; subst; clear H.
    pose proof (Forall_inv A) as H2. pose proof (Forall_inv_tail A) as H3.
    assert (F1 : ts_freed s1 = false).
    { destruct (ts_freed s1) eqn:X; auto.
      rewrite (tg_steps_freed_sticky _ _ _ _ X S2) in F'. discriminate. }
    unfold tg_outs in N. simpl in N. fold (tg_outs tr2) in N.
    rewrite tg_nonack_app in N. apply andb_true_iff in N. destruct N as [N1 N2].
    (* the step itself *)
    pose proof (tg_step_post O _ _ _ _ _ P S1) as [[[X|P1] _] _]; [congruence|].
    pose proof (IH _ _ _ _ P1 F1 H3 S2 F' N2) as L2.
    unfold tg_step in S1. rewrite F in S1.
    destruct (tg_step0 O s e) as [s0 o0] eqn:S0.
    destruct (tg_maybe_free s0) as [sf of] eqn:MF.
    assert (E0 : sf = s1 /\ o = o0 ++ of) by (inversion S1; auto).
    destruct E0 as [E0 E0']. subst sf o. clear S1.
    destruct (tg_maybe_free_not_freed _ _ _ MF F1) as [E1 E2]. subst s0 of.
    rewrite app_nil_r in *.
    unfold tg_delayed, tg_outs. simpl. fold (tg_outs tr2). rewrite tg_dl_ids_app.
    fold (tg_delayed tr2).
    destruct e; simpl in H2; try contradiction; simpl in S0.
    + destruct (tg_connect_fifo _ _ _ (proj1 P) S0 N1) as [A1 B1].
      simpl. rewrite B1. simpl. rewrite A1, <- !app_assoc, L2. reflexivity.
    + destruct app; [|contradiction].
      pose proof (tg_send_fifo _ _ _ _ _ P S0 N1) as A1.
      simpl. rewrite app_assoc, <- A1. exact L2.
    + destruct (tg_recv_fifo _ _ _ _ _ _ P S0 N1) as [A1 B1].
      simpl. rewrite B1. simpl. rewrite A1, <- !app_assoc, L2. reflexivity.
    + destruct (tg_timeout_fifo _ _ _ S0 N1) as [A1 B1].
      simpl. rewrite B1. simpl. rewrite A1, <- !app_assoc, L2. reflexivity.
    + destruct giveup; [contradiction|].
      pose proof (tg_retransmit_fifo _ _ _ _ _ P S0 N1) as A1.
      simpl. rewrite app_assoc, <- A1. exact L2.
Qed.

(* While the session is not disconnected (no NACK is reported) and not freed: the messages
   handed to the record layer out of the delay queue, followed by those still queued, are
   exactly the messages that were accepted into the queue, in submission order. *)
Theorem tg_success_flush : forall t n evs s' tr,
  Forall tg_fifo_ev evs ->
  tg_steps O (tg_new_session TgDtls t n) evs = (s', tr) ->
  ts_freed s' = false -> tg_nonack (tg_outs tr) = true ->
  tg_flushed tr ++ tg_ids (ts_delayq s') = tg_delayed tr.
Proof.
  intros t n evs s' tr A H F N.
  assert (P : tg_pre false (tg_new_session TgDtls t n)).
  { destruct (tg_new_rinv t n) as [[X|P] _]; [discriminate | exact P]. }
  pose proof (tg_steps_fifo _ _ _ _ _ P eq_refl A H F N) as L. simpl in L. symmetry. exact L.
Qed.

End Fifo.

(* Progress: if the record layer accepts every message (gnutls_record_send > 0),
   coap_session_connected - the call made when the handshake completes and whenever an
   acknowledgement frees an NSTART slot - leaves nothing in the delay queue unless NSTART holds
   it back: the queue is empty, or its head is a Confirmable and con_active has reached NSTART. *)
Section Progress.
Variable O : tg_oracle.
Hypothesis tx_ok : forall k, 0 < or_tx O k.

Definition tg_head_blocked (s : tg_sess) : Prop :=
  match ts_delayq s with
  | [] => True
  | m :: _ => tm_con m = true /\ ts_nstart s <= ts_con_active s
  end.

Lemma tg_dtls_send_ok : forall s m,
  ts_tls s && ts_tls_est s = true ->
  exists s' c, tg_dtls_send O s m = (s', [OTlsTx (tm_id m) c], c) /\ 0 < c /\
    ts_state s' = ts_state s /\ ts_delayq s' = ts_delayq s /\
    ts_con_active s' = ts_con_active s /\ ts_nstart s' = ts_nstart s.
Proof.
  intros s m TE. unfold tg_dtls_send. rewrite TE. simpl.
  pose proof (tx_ok (ts_ktx s)) as K. apply Z.ltb_lt in K. rewrite K.
  eexists. eexists. split; [reflexivity|]. apply Z.ltb_lt in K. simpl. auto.
Qed.

Lemma tg_flush_prog : forall q seen s s' o,
  tg_pre seen s -> ts_delayq s = q -> tg_flush O q s = (s', o) ->
  ts_state s' = ts_state s /\ (ts_state s' = TgEstablished -> tg_head_blocked s').
Proof.
  induction q as [|m q IH]; intros seen s s' o P Q H; simpl in H.
  - inversion H; subst. split; auto. intros _. unfold tg_head_blocked. rewrite Q. exact I.
  - destruct (negb (tg_state_eqb (ts_state s) TgEstablished)) eqn:E.
    { inversion H; subst. split; auto. intros X. apply negb_true_iff in E.
      rewrite X in E. discriminate. }
    destruct (tm_con m && (ts_nstart s <=? ts_con_active s)) eqn:B.
    { inversion H; subst. split; auto. intros _. unfold tg_head_blocked. rewrite Q.
      apply andb_true_iff in B. destruct B as [B1 B2]. split; auto. apply Z.leb_le. exact B2. }
    apply negb_false_iff in E. apply tg_state_eqb_eq in E.
    set (s2 := tg_set_delayq (if tm_con m then tg_set_con_active s (ts_con_active s + 1) else s) q) in H.
    assert (S2 : tg_same s s2) by (unfold s2; destruct (tm_con m); unfold tg_same; simpl; auto).
    assert (P2 : tg_pre seen s2) by (eapply tg_pre_same; eauto).
    assert (TE : ts_tls s2 && ts_tls_est s2 = true).
    { destruct P2 as [_ [[I0 [I1 _]] _]]. destruct S2 as [_ [_ [_ [E4 _]]]].
      rewrite E4 in I1. specialize (I1 E). rewrite I1, (I0 I1). reflexivity. }
    rewrite tg_session_send_dtls in H by apply P2.
    destruct (tg_dtls_send_ok s2 m TE) as [s3 [c [DS [C0 [K1 [K2 [K3 K4]]]]]]].
    rewrite DS in H.
    destruct (tg_dtls_send_post O _ _ _ _ _ _ P2 DS) as [Q3 _].
    set (s4 := if tm_con m then tg_set_sendq s3 (ts_sendq s3 ++ [m]) else s3) in H.
    assert (S4 : tg_same s3 s4) by (unfold s4; destruct (tm_con m); unfold tg_same; simpl; auto).
    assert (BW : (c <? 0) = false) by (apply Z.ltb_ge; lia). rewrite BW in H.
    destruct (tg_flush O q s4) as [s5 o5] eqn:FL. inversion H; subst.
    assert (P4 : tg_pre (snd (tg_scan seen [OTlsTx (tm_id m) c])) s4)
      by (eapply tg_pre_same; [exact S4 | apply Q3]).
    assert (Q4 : ts_delayq s4 = q) by (unfold s4; destruct (tm_con m); simpl; rewrite K2; reflexivity).
    destruct (IH _ _ _ _ P4 Q4 FL) as [A1 A2]. split; [|exact A2].
    rewrite A1. unfold s4. destruct (tm_con m); simpl; rewrite K1; unfold s2;
      destruct (tm_con m); reflexivity.
Qed.

Theorem tg_connected_progress : forall seen s s' o,
  tg_pre seen s -> ts_tls_est s = true -> ts_type s <> TgHello ->
  tg_connected O s = (s', o) ->
  ts_state s' = TgEstablished /\ tg_head_blocked s'.
Proof.
  intros seen s s' o P E NH H. pose proof P as [Hp [[I0 [I1 I2]] G]].
  unfold tg_connected in H.
  destruct (tg_flush O (ts_delayq (tg_set_state s TgEstablished)) (tg_set_state s TgEstablished))
    as [s2 o2] eqn:FL.
  inversion H; subst; clear H.
  assert (P1 : tg_pre seen (tg_set_state s TgEstablished)) by (apply tg_pre_intro; simpl; auto).
  destruct (tg_flush_prog _ _ _ _ _ P1 eq_refl FL) as [A1 A2]. simpl in A1.
  split; auto.
Qed.

(* the same without the internal invariant in the statement *)
Theorem tg_connected_progress' : forall s s' o,
  ts_proto s = TgDtls -> ts_tls s = true -> ts_tls_est s = true -> ts_type s <> TgHello ->
  tg_connected O s = (s', o) ->
  ts_state s' = TgEstablished /\ tg_head_blocked s'.
Proof.
  intros s s' o Hp T E NH H.
  eapply (tg_connected_progress true); eauto.
  apply tg_pre_intro; auto.
Qed.

End Progress.
