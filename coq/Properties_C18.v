(* C18 - any allocation failure is survived: clean error, no leak, endpoint still works.
   Which of libcoap's allocation sites check their result is a fact about the C text; it is
   decided by exhaustive fault enumeration (tools/checks/c18.py).  What theorems carry:
   (1) the oracle that judges every allocation trace of that enumeration is correct, (2) the
   PDU builder is atomic under every failure pattern, (3) coap_send consumes its PDU on every
   path.  Statements only, proofs in Fault/*.v. *)
From LibcoapV Require Import Base.Tactics Fault.AllocOracle Fault.AllocOracleProofs.
Local Open Scope Z_scope.

(* (1) the verdict is FaClean exactly for the traces in which ids are fresh, every release hits
   a block that was allocated before and not released before (no wild free, no double free),
   a failing realloc is applied to a live block, and every allocated block is released *)
Theorem C18_verdict_clean_iff : forall tr, fa_verdict tr = FaClean <-> fa_spec tr.
Proof. exact fa_verdict_clean_iff. Qed.
Print Assumptions C18_verdict_clean_iff.

(* the blocks named in a leak verdict are exactly the allocated-and-never-released ones *)
Theorem C18_verdict_leak_sound : forall tr ids,
  fa_verdict tr = FaLeak ids ->
  ids <> [] /\ forall i, In i ids <-> In i (fa_allocs tr) /\ ~ In i (fa_frees tr).
Proof. exact fa_verdict_leak_sound. Qed.
Print Assumptions C18_verdict_leak_sound.

(* a double-free verdict points at a release of a block released earlier in the trace *)
Theorem C18_verdict_double_free_sound : forall tr i,
  fa_verdict tr = FaDoubleFree i ->
  exists pre e post, tr = pre ++ e :: post /\ In i (fa_ev_frees e) /\ In i (fa_frees pre).
Proof. exact fa_verdict_double_free_sound. Qed.
Print Assumptions C18_verdict_double_free_sound.

(* consequence in the usual wording: no block is released twice *)
Theorem C18_spec_no_double_free : forall tr, fa_spec tr -> NoDup (fa_frees tr).
Proof. exact fa_spec_no_double_free. Qed.
Print Assumptions C18_spec_no_double_free.

(* non-vacuity: a trace with a moving realloc, a failed allocation and a failed realloc meets
   the specification *)
Theorem C18_spec_nonvacuous :
  fa_spec [FaAlloc 1; FaAlloc 2; FaRealloc 2 3; FaAllocFail; FaReallocFail 3; FaFreeNull;
           FaFree 3; FaRealloc 0 4; FaFree 1; FaFree 4].
Proof. exact fa_example_clean. Qed.
Print Assumptions C18_spec_nonvacuous.

(* (2) PDU layer: the builder operations with the buffer accounting of coap_pdu_check_resize /
   coap_pdu_resize and an oracle deciding, for every allocation attempt, whether it fails. *)
From LibcoapV Require Import Base.Bytes Wire.OptCodec Wire.Pdu Wire.Build Fault.PduAtomic
  Fault.PduAtomicProofs.

(* every operation, any failure pattern: it succeeds with the specified result (Wire/Build.v,
   the builder C01 is proved about) or fails leaving the abstract message untouched; the only
   exception in either direction is the implicit Hop-Limit that coap_add_option inserts before
   a Proxy-Uri/Proxy-Scheme option and whose result the code ignores; and an operation fails
   where the fault-free builder succeeds only if an allocation attempt made by it failed *)
Theorem C18_pdu_atomic : forall fails n p o r p1 n1,
  fa_inv p -> fa_apply_op fails n p o = (r, p1, n1) ->
  fa_inv p1 /\ (n <= n1)%nat /\
  (r = true ->
     apply_op (fp_pdu p) o = (true, fp_pdu p1) \/
     (exists num v, o = OpOpt num v /\ fa_hop_step (fp_pdu p) num = true /\
                    add_opt_raw (fp_pdu p) num v = (true, fp_pdu p1))) /\
  (r = false ->
     fp_pdu p1 = fp_pdu p \/
     (exists num v, o = OpOpt num v /\ fa_hop_step (fp_pdu p) num = true /\
                    fp_pdu p1 = fa_hop_added (fp_pdu p))) /\
  (r = false -> fst (apply_op (fp_pdu p) o) = true -> fa_failed_between fails n n1).
Proof. exact fa_apply_op_atomic. Qed.
Print Assumptions C18_pdu_atomic.

(* coap_pdu_init gives the specified empty PDU or nothing *)
Theorem C18_pdu_init_atomic : forall fails n ty code mid size,
  0 <= size ->
  match fa_pdu_init fails n ty code mid size with
  | (Some p, n1) => fp_pdu p = pdu_init ty code mid size /\ fa_inv p /\ n1 = S (S n) /\
                    fails n = false /\ fails (S n) = false
  | (None, n1) => fa_max_init < size \/ fa_failed_between fails n n1
  end.
Proof. exact fa_pdu_init_atomic. Qed.
Print Assumptions C18_pdu_init_atomic.

(* with no failure the model is exactly the builder of Wire/Build.v, for whole op lists *)
Theorem C18_pdu_nofault_refines : forall fails ops n p rs p1 n1,
  (forall k, fails k = false) -> fa_inv p ->
  fa_run_ops fails n p ops = (rs, p1, n1) ->
  run_ops (fp_pdu p) ops = (rs, fp_pdu p1).
Proof. exact fa_run_ops_nofault. Qed.
Print Assumptions C18_pdu_nofault_refines.

(* the growth loop of coap_pdu_check_resize always reaches the requested size (the model's
   fuel is never exhausted) *)
Theorem C18_grow_reaches : forall alloc size, size <= fa_first_size alloc size.
Proof. exact fa_first_size_ge. Qed.
Print Assumptions C18_grow_reaches.

(* strict atomicity ("success = the fault-free result") is false for the implicit Hop-Limit:
   witness replayed on the code as corpus/C18/fixed.case "fapdu ... O 35" *)
Theorem C18_pdu_strict_atomicity_refuted :
  exists fails n p o r p1 n1,
    fa_inv p /\ fa_apply_op fails n p o = (r, p1, n1) /\ r = true /\
    apply_op (fp_pdu p) o <> (true, fp_pdu p1).
Proof. exact fa_strict_atomicity_refuted. Qed.
Print Assumptions C18_pdu_strict_atomicity_refuted.

(* (3) ownership on the send path: decision-tree model of coap_send_lkd / coap_send_internal
   (every validity test, allocation result and socket outcome is one bit of the environment) *)
From LibcoapV Require Import Fault.SendOwner Fault.SendOwnerProofs.

(* in every branch, each failure branch included: nothing is left dangling, the PDU given to
   coap_send is released or held by exactly one of {send queue node, delay queue}, an
   encrypted PDU replaces the released original, and COAP_INVALID_MID / DROPPED is returned
   exactly when nothing is kept *)
Theorem C18_send_consumes : forall v, fa_env_wf v -> fa_send_ok (fa_send v) = true.
Proof. exact fa_send_consumes. Qed.
Print Assumptions C18_send_consumes.

(* the part the driver can see of a call is accepted by the extracted acceptor, which rejects
   a leaked PDU, a PDU in two queues and a released PDU that is still queued *)
Theorem C18_send_obs_accepted : forall v,
  fa_env_wf v -> fa_obs_ok (fa_send_obs (fa_send v)) = true.
Proof. exact fa_send_obs_accepted. Qed.
Print Assumptions C18_send_obs_accepted.

Theorem C18_send_acceptor_rejects :
  fa_obs_ok (false, true, false, false) = false /\ fa_obs_ok (true, true, true, true) = false /\
  fa_obs_ok (true, false, true, false) = false.
Proof. repeat split; reflexivity. Qed.
Print Assumptions C18_send_acceptor_rejects.
