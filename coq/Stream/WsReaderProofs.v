(* Proofs about the WebSocket reader model (Stream/WsReader.v): the repaired reader refines the
   byte-at-a-time automaton, hence what it delivers does not depend on how the stream arrives.
   First the automaton on a whole piece of input: a payload, handshake lines (and with them the
   model's ws_lines and ws_hs), a frame header.  Then, up the call chain of the model -
   ws_data_stage, ws_after_hdr, ws_frame_part, ws_read, ws_session_loop, ws_pump, ws_arrivals -
   every call corresponds to a stretch of the automaton's run (ws_call_ok).  Last, streams of
   frames and what reaches coap_dispatch. *)
From LibcoapV Require Import Base.Tactics Base.Bytes Base.BytesProofs Wire.Pdu Wire.PduProofs
  Stream.WsReader.
Local Open Scope Z_scope.

Lemma ws_run_app c : forall a m b,
  ws_run c m (a ++ b) =
  let '(m1, e1) := ws_run c m a in
  let '(m2, e2) := ws_run c m1 b in (m2, e1 ++ e2).
Proof.
  induction a as [|x a IH]; intros m b.
  - cbn [app ws_run]. destruct (ws_run c m b). reflexivity.
  - cbn [app ws_run]. destruct (ws_step c m x) as [m1 e1]. rewrite IH.
    destruct (ws_run c m1 a) as [m2 e2]. destruct (ws_run c m2 b) as [m3 e3].
    rewrite app_assoc. reflexivity.
Qed.

Lemma ws_run_closed c : forall bs, ws_run c MClosed bs = (MClosed, []).
Proof. induction bs as [|b r IH]; [reflexivity|]. cbn [ws_run ws_step]. rewrite IH. reflexivity. Qed.

Lemma ws_run_snoc c m a b :
  ws_run c m (a ++ [b]) =
  let '(m1, e1) := ws_run c m a in
  let '(m2, e2) := ws_step c m1 b in (m2, e1 ++ e2).
Proof.
  rewrite ws_run_app. destruct (ws_run c m a) as [m1 e1]. cbn [ws_run].
  destruct (ws_step c m1 b) as [m2 e2]. rewrite app_nil_r. reflexivity.
Qed.

Lemma ws_run_app_closed c m x rest e :
  ws_run c m x = (MClosed, e) -> ws_run c m (x ++ rest) = (MClosed, e).
Proof. intros H. rewrite ws_run_app, H. cbv iota beta. rewrite ws_run_closed, app_nil_r. reflexivity. Qed.

(* [ws_sim c m input evs m' input']: started in mode m on input, the automaton emits evs and then
   goes on as from mode m' on input'.  The macro steps below say what the automaton does on a
   whole piece x of input; [ws_sim_app] turns them into steps of this relation. *)
Definition ws_sim (c : ws_cfg) (m : ws_mode) (input : bytes) (evs : list ws_ev)
                  (m' : ws_mode) (input' : bytes) : Prop :=
  ws_run c m input = let '(m2, e2) := ws_run c m' input' in (m2, evs ++ e2).

Lemma ws_sim_refl c m input : ws_sim c m input [] m input.
Proof. unfold ws_sim. destruct (ws_run c m input). reflexivity. Qed.

Lemma ws_sim_trans {c m1 i1 e1 m2 i2 e2 m3 i3} :
  ws_sim c m1 i1 e1 m2 i2 -> ws_sim c m2 i2 e2 m3 i3 -> ws_sim c m1 i1 (e1 ++ e2) m3 i3.
Proof.
  unfold ws_sim. intros H1 H2. rewrite H1, H2. destruct (ws_run c m3 i3).
  rewrite app_assoc. reflexivity.
Qed.

Lemma ws_sim_nil c m i m' i' : ws_sim c m i [] m' i' -> ws_run c m i = ws_run c m' i'.
Proof. unfold ws_sim. intros ->. destruct (ws_run c m' i'). reflexivity. Qed.

Lemma ws_sim_app c m x rest m' e : ws_run c m x = (m', e) -> ws_sim c m (x ++ rest) e m' rest.
Proof. unfold ws_sim. intros H. rewrite ws_run_app, H. reflexivity. Qed.

Lemma ws_sim_nozero {c m i e m' i'} :
  ws_sim c m i e m' i' -> ~ In WZero (snd (ws_run c m i)) -> ~ In WZero (snd (ws_run c m' i')).
Proof.
  unfold ws_sim. intros H Hz Hin. apply Hz. rewrite H. destruct (ws_run c m' i'). cbn [snd] in *.
  apply in_or_app. right. assumption.
Qed.

Lemma ws_len_zero_nil {A} (l : list A) : len l = 0 -> l = [].
Proof. destruct l; [reflexivity|]. rewrite len_cons. pose proof (len_nonneg l). lia. Qed.

Lemma ws_rd_spec n avail : 0 <= n -> wfb avail ->
  let '(chunk, a') := ws_rd n avail in
  chunk ++ a' = avail /\ wfb chunk /\ wfb a' /\ len chunk = Z.min n (len avail) /\
  (len chunk < n -> a' = []) /\ (length avail = length chunk + length a')%nat.
Proof.
  intros Hn W. unfold ws_rd. pose proof (take_drop n avail) as Hav.
  pose proof (len_take_min n avail Hn) as Hl.
  repeat split; [assumption|apply wfb_take; assumption|apply wfb_drop; assumption|assumption| |].
  - intros. apply drop_all. lia.
  - rewrite <- Hav at 1. apply app_length.
Qed.

Lemma ws_run_body c mask size : forall x acc,
  len acc < size -> len acc + len x <= size ->
  ws_run c (MBody mask size acc) x =
  if len (acc ++ x) =? size then (MHdr [], [WMsg (ws_unmask c mask (acc ++ x))])
  else (MBody mask size (acc ++ x), []).
Proof.
  induction x as [|b x IH]; intros acc Hlt Hle.
  - rewrite app_nil_r. replace (len acc =? size) with false by lia. reflexivity.
  - rewrite len_cons in Hle. pose proof (len_nonneg x).
    replace (acc ++ b :: x) with ((acc ++ [b]) ++ x) by (rewrite <- app_assoc; reflexivity).
    assert (Hl : len (acc ++ [b]) = len acc + 1) by (rewrite len_app, len_cons, len_nil; lia).
    cbn [ws_run ws_step]. destruct (len (acc ++ [b]) =? size) eqn:E.
    + assert (x = []) by (apply ws_len_zero_nil; lia). subst x. rewrite app_nil_r, E. reflexivity.
    + rewrite IH by lia. destruct (len ((acc ++ [b]) ++ x) =? size); reflexivity.
Qed.

Lemma ws_find_nl_range : forall buf i, ws_find_nl buf = Some i -> 0 <= i < len buf.
Proof.
  induction buf as [|b r IH]; intros i H; cbn [ws_find_nl] in H; [discriminate|].
  rewrite len_cons. pose proof (len_nonneg r).
  destruct (b =? 10); [inversion H; lia|]. destruct (b =? 0); [discriminate|].
  destruct (ws_find_nl r) as [j|]; [|discriminate]. inversion H; subst. specialize (IH j eq_refl). lia.
Qed.

Lemma ws_find_nl_split : forall buf i,
  ws_find_nl buf = Some i ->
  buf = (take i buf ++ [10]) ++ drop (i + 1) buf /\ ws_find_nl (take i buf) = None /\
  ws_has_nul (take i buf) = false.
Proof.
  induction buf as [|b r IH]; intros i H; cbn [ws_find_nl] in H; [discriminate|].
  destruct (b =? 10) eqn:E10.
  - inversion H; subst. assert (b = 10) by lia. subst b. repeat split.
  - destruct (b =? 0) eqn:E0; [discriminate|].
    destruct (ws_find_nl r) as [j|] eqn:Ej; [|discriminate]. inversion H; subst i.
    destruct (IH j eq_refl) as (Hs & Hn & Hz). pose proof (ws_find_nl_range r j Ej) as Hr.
    unfold take, drop in *. replace (Z.to_nat (j + 1)) with (S (Z.to_nat j)) by lia.
    replace (Z.to_nat (j + 1 + 1)) with (S (Z.to_nat (j + 1))) by lia.
    cbn [firstn skipn app]. repeat split.
    + f_equal. exact Hs.
    + cbn [ws_find_nl]. rewrite E10, E0, Hn. reflexivity.
    + cbn [ws_has_nul existsb]. rewrite E0. exact Hz.
Qed.

Lemma ws_find_nl_app : forall l r,
  ws_find_nl (l ++ r) =
  match ws_find_nl l with
  | Some i => Some i
  | None => if ws_has_nul l then None
            else match ws_find_nl r with Some j => Some (j + len l) | None => None end
  end.
Proof.
  induction l as [|b l IH]; intros r.
  - cbn [app ws_find_nl ws_has_nul existsb]. rewrite len_nil.
    destruct (ws_find_nl r); [f_equal; lia|reflexivity].
  - cbn [app ws_find_nl ws_has_nul existsb]. destruct (b =? 10); [reflexivity|].
    destruct (b =? 0); [reflexivity|]. cbn [orb]. rewrite IH.
    destruct (ws_find_nl l); [reflexivity|]. fold (ws_has_nul l). destruct (ws_has_nul l); [reflexivity|].
    rewrite len_cons. destruct (ws_find_nl r); [f_equal; lia|reflexivity].
Qed.

Lemma ws_has_nul_app l r : ws_has_nul (l ++ r) = ws_has_nul l || ws_has_nul r.
Proof. unfold ws_has_nul. apply existsb_app. Qed.

(* a byte that strchr does not see as the end of the line does not end the automaton's line *)
Lemma ws_no_nl_step line b x :
  ws_find_nl (line ++ b :: x) = None -> (b =? 10) && negb (ws_has_nul line) = false.
Proof.
  intros Hn. destruct (b =? 10) eqn:E; [|reflexivity].
  rewrite ws_find_nl_app in Hn. destruct (ws_find_nl line); [discriminate|].
  destruct (ws_has_nul line); [reflexivity|]. cbn [ws_find_nl] in Hn. rewrite E in Hn. discriminate.
Qed.

Lemma ws_run_hs_wait c f : forall x line,
  ws_find_nl (line ++ x) = None -> len (line ++ x) < ws_http_buf - 1 ->
  ws_run c (MHs f line) x = (MHs f (line ++ x), []).
Proof.
  induction x as [|b x IH]; intros line Hn Hl.
  - rewrite app_nil_r. reflexivity.
  - cbn [ws_run ws_step]. rewrite (ws_no_nl_step line b x Hn).
    replace (line ++ b :: x) with ((line ++ [b]) ++ x) in * by (rewrite <- app_assoc; reflexivity).
    pose proof (len_nonneg x). rewrite len_app in Hl.
    replace (ws_http_buf - 1 <=? len (line ++ [b])) with false by lia.
    rewrite IH; [reflexivity|assumption|rewrite len_app; lia].
Qed.

Lemma ws_run_hs_full c f x :
  ws_find_nl x = None -> len x = ws_http_buf - 1 -> ws_run c (MHs f []) x = (MClosed, [WFail]).
Proof.
  intros Hn Hl. destruct (exists_last (l := x)) as (x0 & b & ->).
  { intros ->. discriminate Hl. }
  rewrite len_app, len_cons, len_nil in Hl.
  rewrite ws_run_snoc, (ws_run_hs_wait c f x0 []); cbn [app]; [| |lia].
  - cbn [ws_step app]. rewrite (ws_no_nl_step x0 b [] Hn), len_app, len_cons, len_nil.
    replace (ws_http_buf - 1 <=? len x0 + (1 + 0)) with true by lia. reflexivity.
  - rewrite ws_find_nl_app in Hn. destruct (ws_find_nl x0); [discriminate|reflexivity].
Qed.

Lemma ws_run_hs_line c f line :
  ws_find_nl line = None -> ws_has_nul line = false -> len line < ws_http_buf - 1 ->
  ws_run c (MHs f []) (line ++ [10]) =
  match ws_process_line c f (ws_strip_cr line) with
  | PFail => (MClosed, [WFail])
  | PUp _ => (MHdr [], [WConnected])
  | PNext f' => (MHs f' [], [])
  end.
Proof.
  intros Hn Hz Hl. rewrite ws_run_snoc, (ws_run_hs_wait c f line []) by assumption.
  cbn [app ws_step]. rewrite Hz. cbn [Z.eqb Pos.eqb negb andb].
  destruct (ws_process_line c f (ws_strip_cr line)); reflexivity.
Qed.

(* the line loop of coap_ws_rd_http_header on a buffer that is followed by [more] *)
Lemma ws_lines_spec c more : forall fuel f buf,
  wfb buf -> len buf <= ws_http_buf - 1 -> (length buf < fuel)%nat ->
  match ws_lines fuel c f buf with
  | LFail => ws_run c (MHs f []) (buf ++ more) = (MClosed, [WFail])
  | LUp lft f' =>
      ws_sim c (MHs f []) (buf ++ more) [WConnected] (MHdr []) (lft ++ more) /\ wfb lft /\
      exists i, ws_find_nl buf = Some i /\ len lft <= len buf - i - 1
  | LMore buf' f' =>
      ws_sim c (MHs f []) (buf ++ more) [] (MHs f' []) (buf' ++ more) /\ wfb buf' /\
      ws_find_nl buf' = None /\ len buf' <= len buf
  end.
Proof.
  induction fuel as [|fu IH]; intros f buf W Hl Hf; [lia|].
  cbn [ws_lines]. destruct (ws_find_nl buf) as [i|] eqn:Ei.
  2:{ split; [apply ws_sim_refl|]. repeat split; [assumption..|lia]. }
  pose proof (ws_find_nl_range buf i Ei) as Hr.
  destruct (ws_find_nl_split buf i Ei) as (Hs & Hn & Hz).
  set (rest := drop (i + 1) buf) in *.
  assert (Hlr : len rest = len buf - i - 1) by (subst rest; rewrite len_drop; lia).
  assert (Wr : wfb rest) by (apply wfb_drop; assumption).
  pose proof (ws_run_hs_line c f (take i buf) Hn Hz ltac:(rewrite len_take; lia)) as Hline.
  assert (Hsim : forall m e, ws_run c (MHs f []) (take i buf ++ [10]) = (m, e) ->
                 ws_sim c (MHs f []) (buf ++ more) e m (rest ++ more)).
  { intros m e H. rewrite Hs at 1. rewrite <- app_assoc. apply ws_sim_app. exact H. }
  destruct (ws_process_line c f (ws_strip_cr (take i buf))) as [|f'|f'].
  - rewrite Hs, <- app_assoc. apply ws_run_app_closed. exact Hline.
  - split; [apply Hsim; exact Hline|]. split; [assumption|]. exists i. split; [reflexivity|lia].
  - apply Hsim, ws_sim_nil in Hline. unfold ws_sim. rewrite Hline.
    specialize (IH f' rest Wr ltac:(lia) ltac:(unfold len in Hlr; lia)).
    destruct (ws_lines fu c f' rest) as [lft f2|buf' f2|]; [| |exact IH].
    + destruct IH as (H1 & H2 & j & Hj & Hlj). split; [exact H1|]. split; [assumption|].
      exists i. split; [reflexivity|]. pose proof (ws_find_nl_range _ j Hj). lia.
    + destruct IH as (H1 & H2 & H3 & H4). repeat split; [assumption..|lia].
Qed.

(* coap_ws_rd_http_header; in particular http_hdr[] is not overrun *)
Lemma ws_hs_spec c : wsc_fix c = ws_fixed -> forall fuel f http avail,
  wfb http -> wfb avail ->
  ws_find_nl http = None -> len http <= ws_http_buf - 1 -> (length avail < fuel)%nat ->
  match ws_hs fuel c f http avail false with
  | (HFuel, _) => False
  | (HFail a', oob) =>
      oob = false /\ wfb a' /\ (length a' <= length avail)%nat /\
      ws_run c (MHs f []) (http ++ avail) = (MClosed, [WFail])
  | (HUp lft f' a', oob) =>
      oob = false /\ wfb lft /\ wfb a' /\ len lft < ws_max_fs /\ (length a' < length avail)%nat /\
      (length lft + length a' < length http + length avail)%nat /\
      ws_sim c (MHs f []) (http ++ avail) [WConnected] (MHdr []) (lft ++ a')
  | (HMore http' f' a', oob) =>
      oob = false /\ a' = [] /\ wfb http' /\ ws_find_nl http' = None /\ len http' < ws_http_buf - 1 /\
      ws_run c (MHs f []) (http ++ avail) = (MHs f' http', [])
  end.
Proof.
  intros Hfix. induction fuel as [|fu IH]; intros f http avail Wh Wa Hn Hl Hf; [lia|].
  cbn [ws_hs]. rewrite Hfix. cbn [wsf_line ws_fixed]. cbv zeta.
  pose proof (len_nonneg http) as Hk. unfold ws_http_buf, ws_max_fs in *.
  set (rem := if 160 - 1 - 14 <? len http then 160 - 1 - len http else 14).
  assert (Hrem : 0 <= rem <= 14 /\ len http + rem <= 159) by (subst rem; case_if; lia).
  destruct (rem <=? 0) eqn:Er; cbn [andb].
  - (* buffer full *)
    assert (len http = 159) by (subst rem; case_if_in Er; lia).
    split; [reflexivity|]. split; [assumption|]. split; [lia|].
    apply ws_run_app_closed, ws_run_hs_full; assumption.
  - pose proof (ws_rd_spec rem avail ltac:(lia) Wa) as Hrd.
    destruct (ws_rd rem avail) as [chunk avail']. destruct Hrd as (Hav & Wc & Wa' & Hlc & _ & Hla).
    destruct chunk as [|c0 ch].
    + rewrite len_nil in Hlc. assert (Ha0 : avail = []) by (apply ws_len_zero_nil; lia).
      cbn [app] in Hav. rewrite Hav, Ha0, app_nil_r.
      repeat split; try assumption; try lia.
      rewrite <- (app_nil_l http) at 2. apply ws_run_hs_wait; cbn [app]; [assumption|unfold ws_http_buf; lia].
    + set (chunk := c0 :: ch) in *.
      assert (Hcl : (0 < length chunk)%nat) by (subst chunk; cbn [length]; lia).
      assert (Wb : wfb (http ++ chunk)) by (apply wfb_app; split; assumption).
      assert (Hlb : len (http ++ chunk) = len http + len chunk) by apply len_app.
      replace (false || (160 <=? len (http ++ chunk))) with false by lia.
      assert (Heq : http ++ avail = (http ++ chunk) ++ avail') by (rewrite <- Hav, app_assoc; reflexivity).
      pose proof (ws_lines_spec c avail' (S (length (http ++ chunk))) f (http ++ chunk) Wb
                    ltac:(unfold ws_http_buf; lia) ltac:(lia)) as Hls.
      rewrite Heq.
      destruct (ws_lines (S (length (http ++ chunk))) c f (http ++ chunk)) as [lft f'|buf' f'|].
      * destruct Hls as (Hsim & Wl & i & Hi & Hli).
        (* the end of line lies in the chunk just read *)
        rewrite ws_find_nl_app, Hn in Hi. destruct (ws_has_nul http); [discriminate|].
        destruct (ws_find_nl chunk) as [j|] eqn:Ej; [|discriminate]. inversion Hi; subst i.
        pose proof (ws_find_nl_range chunk j Ej). unfold len in *.
        repeat split; try assumption; lia.
      * destruct Hls as (Hsim & Wb' & Hn' & Hl'). apply ws_sim_nil in Hsim. unfold ws_sim. rewrite Hsim.
        specialize (IH f' buf' avail' Wb' Wa' Hn' ltac:(unfold ws_http_buf; lia) ltac:(lia)).
        (* the result of the remaining rounds stands; only its bounds are carried over from
           avail' and buf' to avail and http *)
        assert (Hav2 : (length avail' <= length avail)%nat) by (clear - Hla; lia).
        assert (Hbuf : (length buf' + length avail' <= length http + length avail)%nat)
          by (clear - Hl' Hla; unfold len in Hl'; rewrite app_length in Hl'; lia).
        destruct (ws_hs fu c f' buf' avail' false) as [[l2 f2 a2|h2 f2 a2|a2|] o2]; [|exact IH| |exact IH].
        -- destruct IH as (Ho & Wl & Wa2 & Hl2 & Hlt & Hmu & Hs2).
           repeat split; [exact Ho|exact Wl|exact Wa2|exact Hl2| | |exact Hs2].
           ++ exact (Nat.lt_le_trans _ _ _ Hlt Hav2).
           ++ exact (Nat.lt_le_trans _ _ _ Hmu Hbuf).
        -- destruct IH as (Ho & Wa2 & Hla2 & Hr2). repeat split; [exact Ho|exact Wa2| |exact Hr2].
           exact (Nat.le_trans _ _ _ Hla2 Hav2).
      * repeat split; try assumption; lia.
Qed.

Definition ws_hdr_ok (c : ws_cfg) (h : bytes) : bool :=
  negb (wsc_server c && negb (fh_masked (ws_fh (nth 1 h 0)))).

Definition ws_hdr_waiting (c : ws_cfg) (h : bytes) : Prop :=
  len h < 2 \/ (ws_hdr_ok c h = true /\ len h < fh_hl (ws_fh (nth 1 h 0))).

Lemma ws_fh_hl_range b1 : 2 <= fh_hl (ws_fh b1) <= 14 /\ 0 <= fh_ext (ws_fh b1) <= 8 /\
  fh_hl (ws_fh b1) = 2 + fh_ext (ws_fh b1) + (if fh_masked (ws_fh b1) then 4 else 0).
Proof. unfold ws_fh. cbn [fh_hl fh_ext fh_masked]. repeat case_if; lia. Qed.

Lemma ws_run_hdr_wait c : forall x h,
  ws_hdr_waiting c (h ++ x) -> ws_run c (MHdr h) x = (MHdr (h ++ x), []).
Proof.
  induction x as [|b x IH]; intros h W.
  - rewrite app_nil_r. reflexivity.
  - cbn [ws_run ws_step].
    replace (h ++ b :: x) with ((h ++ [b]) ++ x) in * by (rewrite <- app_assoc; reflexivity).
    pose proof (len_nonneg x) as Hx.
    destruct (len (h ++ [b]) <? 2) eqn:E2; [rewrite (IH _ W); reflexivity|].
    assert (Hnth : nth 1 ((h ++ [b]) ++ x) 0 = nth 1 (h ++ [b]) 0).
    { apply app_nth1. unfold len in E2. lia. }
    pose proof W as [W2|(Wok & Wl)]; [rewrite len_app in W2; lia|].
    unfold ws_hdr_ok in Wok. rewrite Hnth in Wok, Wl. rewrite len_app in Wl.
    destruct (wsc_server c && negb (fh_masked (ws_fh (nth 1 (h ++ [b]) 0)))); [discriminate|].
    replace (len (h ++ [b]) <? fh_hl (ws_fh (nth 1 (h ++ [b]) 0))) with true by lia.
    rewrite (IH _ W). reflexivity.
Qed.

Lemma ws_run_hdr_unmasked c a b1 more :
  wsc_server c = true -> fh_masked (ws_fh b1) = false ->
  ws_run c (MHdr []) (a :: b1 :: more) = (MClosed, [WClose 1002]).
Proof.
  intros Hs Hm. cbn [ws_run ws_step app]. change (len [a] <? 2) with true. cbv iota beta.
  cbn [ws_step app]. change (len [a; b1] <? 2) with false. cbv iota beta. cbn [nth]. rewrite Hs, Hm.
  cbn [negb andb]. rewrite ws_run_closed. reflexivity.
Qed.

Lemma ws_run_hdr_exact c hd :
  ws_hdr_ok c hd = true -> len hd = fh_hl (ws_fh (nth 1 hd 0)) ->
  ws_run c (MHdr []) hd = ws_hdr_done c hd.
Proof.
  intros Hok Hl. pose proof (ws_fh_hl_range (nth 1 hd 0)) as (H2 & _).
  destruct (exists_last (l := hd)) as (hd0 & b & ->).
  { intros ->. rewrite len_nil in Hl. lia. }
  rewrite len_app, len_cons, len_nil in Hl. pose proof (len_nonneg hd0) as H0.
  rewrite ws_run_snoc, (ws_run_hdr_wait c hd0 []).
  2:{ cbn [app]. destruct (len hd0 <? 2) eqn:E; [left; lia|]. right.
      assert (Hnth : nth 1 (hd0 ++ [b]) 0 = nth 1 hd0 0) by (apply app_nth1; unfold len in E; lia).
      unfold ws_hdr_ok in *. rewrite Hnth in Hok, Hl. split; [assumption|lia]. }
  cbn [app ws_step]. unfold ws_hdr_ok in Hok.
  assert (Hlen : len (hd0 ++ [b]) = len hd0 + 1) by (rewrite len_app, len_cons, len_nil; lia).
  replace (len (hd0 ++ [b]) <? 2) with false by lia.
  destruct (wsc_server c && negb (fh_masked (ws_fh (nth 1 (hd0 ++ [b]) 0)))); [discriminate|].
  replace (len (hd0 ++ [b]) <? fh_hl (ws_fh (nth 1 (hd0 ++ [b]) 0))) with false by lia.
  destruct (ws_hdr_done c (hd0 ++ [b])). reflexivity.
Qed.

(* what the header functions look at lies within the header *)
Lemma ws_take_drop_take {A} k j n (l : list A) :
  0 <= j -> 0 <= k -> j + k <= n -> take k (drop j (take n l)) = take k (drop j l).
Proof.
  intros Hj Hk Hn. unfold take, drop. rewrite skipn_firstn_comm. rewrite firstn_firstn.
  f_equal. lia.
Qed.

Lemma ws_hdr_done_take c h :
  ws_hdr_done c (take (fh_hl (ws_fh (nth 1 h 0))) h) = ws_hdr_done c h.
Proof.
  pose proof (ws_fh_hl_range (nth 1 h 0)) as (Hr & _).
  unfold ws_hdr_done, ws_fsize. rewrite !nth_take by lia.
  unfold ws_fh. cbn [fh_hl fh_ext fh_masked].
  destruct (nth 1 h 0 mod 128 =? 127); [|destruct (nth 1 h 0 mod 128 =? 126)];
    destruct (128 <=? nth 1 h 0); rewrite ?ws_take_drop_take by lia; reflexivity.
Qed.

Lemma ws_run_hdr_done c h more m e :
  ws_hdr_ok c h = true -> fh_hl (ws_fh (nth 1 h 0)) <= len h -> ws_hdr_done c h = (m, e) ->
  ws_sim c (MHdr []) (h ++ more) e m (drop (fh_hl (ws_fh (nth 1 h 0))) h ++ more).
Proof.
  intros Hok Hl Hd. pose proof (ws_fh_hl_range (nth 1 h 0)) as (Hr & _).
  set (hl := fh_hl (ws_fh (nth 1 h 0))) in *.
  assert (Hnth : nth 1 (take hl h) 0 = nth 1 h 0) by (apply nth_take; lia).
  rewrite <- (take_drop hl h) at 1. rewrite <- app_assoc. apply ws_sim_app.
  rewrite ws_run_hdr_exact.
  - subst hl. rewrite ws_hdr_done_take. exact Hd.
  - unfold ws_hdr_ok in *. rewrite Hnth. exact Hok.
  - rewrite Hnth. apply len_take. lia.
Qed.

Lemma ws_run_frame c hd mask x :
  ws_hdr_ok c hd = true -> len hd = fh_hl (ws_fh (nth 1 hd 0)) ->
  ws_hdr_done c hd = (MBody mask (len x) [], []) -> 0 < len x ->
  ws_run c (MHdr []) (hd ++ x) = (MHdr [], [WMsg (ws_unmask c mask x)]).
Proof.
  intros Hok Hl Hd Hx. rewrite ws_run_app, ws_run_hdr_exact, Hd by assumption. cbv iota beta.
  rewrite ws_run_body by (rewrite len_nil; lia). cbn [app]. rewrite Z.eqb_refl. reflexivity.
Qed.

(* between two calls of coap_ws_read *)
Definition ws_winv (c : ws_cfg) (s : ws_rstate) : Prop :=
  w_closed s = true \/
  (w_closed s = false /\ w_up s = false /\ wfb (w_http s) /\ ws_find_nl (w_http s) = None /\
   len (w_http s) < ws_http_buf - 1) \/
  (w_closed s = false /\ w_up s = true /\ w_allhdr s = true /\ 0 < w_dsize s <= wsc_rxbuf c /\
   len (w_data s) < w_dsize s) \/
  (w_closed s = false /\ w_up s = true /\ w_allhdr s = false /\ wfb (w_rdh s) /\ len (w_rdh s) <= ws_max_fs).

(* between two arrivals: nothing that is buffered can be processed further *)
Definition ws_qinv (c : ws_cfg) (s : ws_rstate) : Prop :=
  w_closed s = true \/
  (w_closed s = false /\ w_up s = false /\ wfb (w_http s) /\ ws_find_nl (w_http s) = None /\
   len (w_http s) < ws_http_buf - 1) \/
  (w_closed s = false /\ w_up s = true /\ w_allhdr s = true /\ 0 < w_dsize s <= wsc_rxbuf c /\
   len (w_data s) < w_dsize s) \/
  (w_closed s = false /\ w_up s = true /\ w_allhdr s = false /\ wfb (w_rdh s) /\ ws_hdr_waiting c (w_rdh s)).

Lemma ws_waiting_len c h : ws_hdr_waiting c h -> len h < ws_max_fs.
Proof.
  unfold ws_hdr_waiting, ws_max_fs. pose proof (ws_fh_hl_range (nth 1 h 0)) as Hr. intros [H|[_ H]]; lia.
Qed.

Lemma ws_qinv_winv c s : ws_qinv c s -> ws_winv c s.
Proof.
  unfold ws_qinv, ws_winv. intros [H|[H|[H|(H1 & H2 & H3 & H4 & H5)]]]; auto.
  right; right; right. pose proof (ws_waiting_len c _ H5). repeat split; try assumption. lia.
Qed.

Lemma ws_abs_closed s : w_closed s = true -> ws_abs s = (MClosed, []).
Proof. unfold ws_abs. intros ->. reflexivity. Qed.

Lemma ws_abs_hs s : w_closed s = false -> w_up s = false -> ws_abs s = (MHs (w_flags s) [], w_http s).
Proof. unfold ws_abs. intros -> ->. reflexivity. Qed.

Lemma ws_abs_body s :
  w_closed s = false -> w_up s = true -> w_allhdr s = true ->
  ws_abs s = (MBody (w_mask s) (w_dsize s) (w_data s), []).
Proof. unfold ws_abs. intros -> -> ->. reflexivity. Qed.

Lemma ws_abs_hdr s :
  w_closed s = false -> w_up s = true -> w_allhdr s = false -> ws_abs s = (MHdr [], w_rdh s).
Proof. unfold ws_abs. intros -> -> ->. reflexivity. Qed.

Lemma ws_qinv_run c s :
  ws_qinv c s -> ws_run c (fst (ws_abs s)) (snd (ws_abs s)) = (ws_mode_of s, []).
Proof.
  unfold ws_qinv, ws_mode_of.
  intros [H|[(H0 & H1 & _ & H2 & H3)|[(H0 & H1 & H2 & H3)|(H0 & H1 & H2 & _ & H3)]]].
  - rewrite ws_abs_closed, H by assumption. reflexivity.
  - rewrite ws_abs_hs, H0, H1 by assumption. apply (ws_run_hs_wait c _ _ []); assumption.
  - rewrite ws_abs_body, H0, H1, H2 by assumption. reflexivity.
  - rewrite ws_abs_hdr, H0, H1, H2 by assumption. apply (ws_run_hdr_wait c _ []). assumption.
Qed.

Definition ws_evr (r : ws_ret) : list ws_ev := match r with RFrame p => [WMsg p] | _ => [] end.

(* What a call of coap_ws_read (or of one of its stages) returns, when it is made with the bytes
   [avail] on the socket while the automaton in mode m has [input] before it: the automaton emits
   the events of the call and goes on from the mode and the buffered bytes of the new state.
   A call that returns no frame has taken all of avail, or some of it and can be repeated, and
   nothing that it leaves buffered can be processed further; after a frame, less input is left
   than before (read ahead and on the socket): the variant of the loop in coap_read_session. *)
Definition ws_call_ok (c : ws_cfg) (m : ws_mode) (input avail : bytes)
    (res : ws_rstate * ws_ret * bytes * list ws_ev) : Prop :=
  let '(s1, r, a1, e1) := res in
  (length a1 <= length avail)%nat /\ wfb a1 /\
  ws_sim c m input (e1 ++ ws_evr r) (fst (ws_abs s1)) (snd (ws_abs s1) ++ a1) /\
  (w_closed s1 = true \/
   w_closed s1 = false /\
   match r with
   | RErr => False
   | RNone => ws_qinv c s1 /\ (a1 = [] \/ (length a1 < length avail)%nat)
   | RFrame _ => w_up s1 = true /\ w_allhdr s1 = false /\ wfb (w_rdh s1) /\ len (w_rdh s1) <= ws_max_fs /\
                 (length (w_rdh s1 ++ a1) < length input)%nat
   end).

Lemma ws_call_ok_trans {c m input e0 m' input' avail avail' s1 r a1 e1} :
  ws_sim c m input e0 m' input' -> (length avail' <= length avail)%nat ->
  (length input' <= length input)%nat ->
  ws_call_ok c m' input' avail' (s1, r, a1, e1) ->
  ws_call_ok c m input avail (s1, r, a1, e0 ++ e1).
Proof.
  intros Hsim Hla Hmu (H1 & H2 & H3 & H4). split; [lia|]. split; [assumption|]. split.
  - rewrite <- app_assoc. exact (ws_sim_trans Hsim H3).
  - destruct H4 as [H4|(H4 & H5)]; [left; assumption|right]. split; [assumption|].
    destruct r; [|destruct H5 as (H5 & [H6|H6])|assumption].
    + repeat split; try apply H5. lia.
    + split; [assumption|left; assumption].
    + split; [assumption|right; lia].
Qed.

Lemma ws_call_closed c m input avail s1 r a1 e1 :
  w_closed s1 = true -> (length a1 <= length avail)%nat -> wfb a1 ->
  ws_run c m input = (MClosed, e1 ++ ws_evr r) ->
  ws_call_ok c m input avail (s1, r, a1, e1).
Proof.
  intros Hc Hla Wa Hrun. split; [assumption|]. split; [assumption|]. split; [|left; assumption].
  rewrite ws_abs_closed by assumption. unfold ws_sim. cbn [fst snd].
  rewrite Hrun, ws_run_closed, app_nil_r. reflexivity.
Qed.

(* once the session is closed, neither the kind of result nor what else the state holds matters *)
Lemma ws_call_ok_closed {c m input avail s1 r a1 e1} s2 :
  ws_call_ok c m input avail (s1, r, a1, e1) -> w_closed s1 = true -> w_closed s2 = true ->
  ws_call_ok c m input avail (s2, RNone, a1, e1 ++ ws_evr r).
Proof.
  intros (H1 & H2 & H3 & _) Hc1 Hc2. split; [assumption|]. split; [assumption|].
  split; [|left; assumption]. rewrite ws_abs_closed in * by assumption. cbn [ws_evr].
  rewrite app_nil_r. exact H3.
Qed.

Lemma ws_call_waiting c m input avail s1 :
  ws_qinv c s1 -> ws_run c m input = (ws_mode_of s1, []) ->
  ws_call_ok c m input avail (s1, RNone, [], []).
Proof.
  intros Hq Hrun. split; [cbn [length]; lia|]. split; [constructor|]. split.
  - unfold ws_sim. rewrite app_nil_r, (ws_qinv_run c s1 Hq). exact Hrun.
  - destruct (w_closed s1); [left; reflexivity|right]. repeat split; [assumption|left; reflexivity].
Qed.

Lemma ws_data_stage_spec c s avail :
  wsc_fix c = ws_fixed -> w_closed s = false -> w_up s = true -> w_allhdr s = true ->
  0 < w_dsize s <= wsc_rxbuf c -> len (w_data s) < w_dsize s -> wfb avail ->
  ws_call_ok c (MBody (w_mask s) (w_dsize s) (w_data s)) avail avail
    (ws_data_stage c s (wsc_rxbuf c) avail).
Proof.
  intros Hfix Hc Hup Hall Hsz Hd Wa. unfold ws_data_stage. rewrite Hfix.
  cbn [wsf_drain ws_fixed andb]. replace (wsc_rxbuf c <? w_dsize s) with false by lia.
  pose proof (len_nonneg (w_data s)) as Hd0.
  pose proof (ws_rd_spec (w_dsize s - len (w_data s)) avail ltac:(lia) Wa) as Hrd.
  destruct (ws_rd (w_dsize s - len (w_data s)) avail) as [chunk a'].
  destruct Hrd as (Hav & _ & Wa' & Hlc & Hshort & Hla).
  pose proof (ws_run_body c (w_mask s) (w_dsize s) chunk (w_data s) Hd ltac:(lia)) as Hrun.
  destruct chunk as [|c0 ch].
  - assert (a' = []) by (apply Hshort; rewrite len_nil; lia). subst a'. cbn [app] in Hav. subst avail.
    apply ws_call_waiting; [|unfold ws_mode_of; rewrite Hc, Hup, Hall; reflexivity].
    right; right; left. repeat split; assumption || lia.
  - set (chunk := c0 :: ch) in *.
    assert (Hcl : (0 < length chunk)%nat) by (subst chunk; cbn [length]; lia).
    replace (wsc_rxbuf c <? len (w_data s ++ chunk)) with false by (rewrite len_app; lia).
    rewrite len_app in Hrun |- *.
    destruct (len (w_data s) + len chunk =? w_dsize s) eqn:Ef.
    + split; [lia|]. split; [assumption|]. split.
      * rewrite ws_abs_hdr by (assumption || reflexivity). rewrite <- Hav. apply ws_sim_app. exact Hrun.
      * right. split; [assumption|]. cbn [w_up w_allhdr w_rdh app]. rewrite len_nil.
        repeat split; [assumption|constructor|unfold ws_max_fs; lia|lia].
    + assert (a' = []) by (apply Hshort; lia). subst a'. rewrite app_nil_r in Hav. subst avail.
      apply ws_call_waiting; [|unfold ws_mode_of; cbn [w_closed w_up w_allhdr]; rewrite Hc, Hup; exact Hrun].
      right; right; left. cbn [w_closed w_up w_allhdr w_dsize w_data]. rewrite len_app.
      repeat split; assumption || lia.
Qed.

Lemma ws_be_nonneg : forall l acc, wfb l -> 0 <= acc -> 0 <= fold_left (fun a b : Z => a * 256 + b) l acc.
Proof.
  induction l as [|b l IH]; intros acc W Ha; cbn [fold_left]; [assumption|].
  apply wfb_cons in W. destruct W as [Hb W]. apply IH; [assumption|]. unfold is_byte in Hb. lia.
Qed.

Lemma ws_fsize_nonneg h : wfb h -> 0 <= ws_fsize h.
Proof.
  intros W. unfold ws_fsize, ws_be. repeat case_if.
  1,2: apply ws_be_nonneg; [apply wfb_take, wfb_drop; assumption|lia].
  apply Z.mod_pos_bound. lia.
Qed.

Lemma ws_hdr_done_cases c h : wfb h ->
  (exists code, ws_hdr_done c h = (MClosed, [WClose code])) \/
  ws_hdr_done c h = (MHdr [], [WZero]) \/
  exists mask size, ws_hdr_done c h = (MBody mask size [], []) /\ 0 < size <= wsc_rxbuf c.
Proof.
  intros W. pose proof (ws_fsize_nonneg h W). unfold ws_hdr_done. cbv zeta.
  destruct (negb _ && negb _); [left; eexists; reflexivity|].
  destruct (_ =? 8); [left; eexists; reflexivity|].
  destruct (wsc_rxbuf c <? ws_fsize h) eqn:Ebig; [left; eexists; reflexivity|].
  destruct (ws_fsize h =? 0) eqn:Ez; [right; left; reflexivity|].
  right; right. eexists _, _. split; [reflexivity|lia].
Qed.

(* the drain loop of coap_ws_close does not read the body of a frame that was refused *)
Lemma ws_drain_refuses c s avail n :
  wsf_drain (wsc_fix c) = true -> w_allhdr s = true -> ws_drain_buf < w_dsize s ->
  ws_drain n c s avail = (s, avail, false).
Proof.
  intros Hfix Ha Hd. destruct n; [reflexivity|]. cbn [ws_drain]. destruct avail; [reflexivity|].
  rewrite Ha, Hfix. replace (ws_drain_buf <? w_dsize s) with true by lia. reflexivity.
Qed.

(* coap_ws_read closes the session for the headers for which the automaton does *)
Lemma ws_after_hdr_closes c s h a1 code :
  wsc_fix c = ws_fixed -> ws_drain_buf <= wsc_rxbuf c ->
  ws_hdr_done c h = (MClosed, [WClose code]) ->
  exists s1, ws_after_hdr c s h (wsc_rxbuf c) a1 = (s1, RNone, a1, [WClose code]) /\ w_closed s1 = true.
Proof.
  intros Hfix Hdb. unfold ws_hdr_done, ws_after_hdr. cbv zeta.
  destruct (negb (nth 0 h 0 mod 16 =? 2) && negb (nth 0 h 0 mod 16 =? 8)).
  { intros [= <-]. eexists. split; reflexivity. }
  destruct (nth 0 h 0 mod 16 =? 8).
  { intros [= <-]. eexists. split; reflexivity. }
  destruct (wsc_rxbuf c <? ws_fsize h) eqn:Ebig; [|destruct (ws_fsize h =? 0); discriminate].
  intros [= <-]. rewrite ws_drain_refuses.
  - eexists. split; reflexivity.
  - rewrite Hfix. reflexivity.
  - reflexivity.
  - cbn [w_dsize]. lia.
Qed.

(* ... and for a frame that it accepts, it hands over what lies in the header buffer if that is
   the whole payload, and goes on to the data stage if not *)
Lemma ws_after_hdr_data c s h a1 mask size :
  ws_hdr_done c h = (MBody mask size [], []) -> 0 < size ->
  ws_after_hdr c s h (wsc_rxbuf c) a1 =
  let body := drop (fh_hl (ws_fh (nth 1 h 0))) h in
  if size <=? len body then
    (mkWs (w_up s) (w_flags s) (w_http s) (drop size body) false mask size [] (w_closed s),
     RFrame (ws_unmask c mask (take size body)), a1, [])
  else
    ws_data_stage c (mkWs (w_up s) (w_flags s) (w_http s) h true mask size body (w_closed s))
      (wsc_rxbuf c) a1.
Proof.
  unfold ws_hdr_done, ws_after_hdr. cbv zeta.
  destruct (negb (nth 0 h 0 mod 16 =? 2) && negb (nth 0 h 0 mod 16 =? 8)); [discriminate|].
  destruct (nth 0 h 0 mod 16 =? 8); [discriminate|].
  destruct (wsc_rxbuf c <? ws_fsize h); [discriminate|].
  destruct (ws_fsize h =? 0); [discriminate|].
  intros [= <- <-] Hsz. set (size := ws_fsize h) in *.
  set (body := drop (fh_hl (ws_fh (nth 1 h 0))) h). pose proof (len_nonneg body) as Hb.
  destruct (0 <? len body) eqn:E0.
  - destruct (len body <=? size) eqn:E1; [|replace (size <=? len body) with true by lia; reflexivity].
    destruct (len body =? size) eqn:E2; [|replace (size <=? len body) with false by lia; reflexivity].
    replace (size <=? len body) with true by lia.
    rewrite (drop_all size body), (take_all size body) by lia. reflexivity.
  - replace (size <=? len body) with false by lia.
    rewrite (ws_len_zero_nil body) by lia. cbn [app].
    destruct (ws_data_stage c _ (wsc_rxbuf c) a1) as [[[s2 r2] a2] e2]. reflexivity.
Qed.

Lemma ws_after_hdr_spec c s h a1 :
  wsc_fix c = ws_fixed -> ws_drain_buf <= wsc_rxbuf c ->
  w_closed s = false -> w_up s = true -> wfb h -> wfb a1 ->
  len h <= ws_max_fs -> fh_hl (ws_fh (nth 1 h 0)) <= len h -> ws_hdr_ok c h = true ->
  ~ In WZero (snd (ws_run c (MHdr []) (h ++ a1))) ->
  ws_call_ok c (MHdr []) (h ++ a1) a1 (ws_after_hdr c s h (wsc_rxbuf c) a1).
Proof.
  intros Hfix Hdb Hc Hup Wh Wa Hlen Hhl Hok Hz.
  pose proof (ws_fh_hl_range (nth 1 h 0)) as (Hr & _).
  set (body := drop (fh_hl (ws_fh (nth 1 h 0))) h).
  assert (Hbl : len h = fh_hl (ws_fh (nth 1 h 0)) + len body) by (subst body; rewrite len_drop; lia).
  assert (Wb : wfb body) by (apply wfb_drop; assumption).
  destruct (ws_hdr_done_cases c h Wh) as [(code & Hd)|[Hd|(mask & size & Hd & Hsz)]];
    pose proof (ws_run_hdr_done c h a1 _ _ Hok Hhl Hd) as Hsim; fold body in Hsim.
  - destruct (ws_after_hdr_closes c s h a1 code Hfix Hdb Hd) as (s1 & -> & Hc1).
    apply ws_call_closed; [assumption|lia|assumption|].
    unfold ws_sim in Hsim. rewrite Hsim, ws_run_closed. reflexivity.
  - (* an empty frame *)
    exfalso. apply Hz. unfold ws_sim in Hsim. rewrite Hsim.
    destruct (ws_run c (MHdr []) (body ++ a1)). left. reflexivity.
  - rewrite (ws_after_hdr_data c s h a1 mask size Hd) by lia. fold body. cbv zeta.
    destruct (size <=? len body) eqn:Ele.
    + (* the header buffer holds the whole frame; what follows it is kept as the next header *)
      split; [lia|]. split; [assumption|]. split.
      * rewrite ws_abs_hdr by (assumption || reflexivity). cbn [w_rdh ws_evr app].
        refine (ws_sim_trans Hsim _).
        rewrite <- (take_drop size body) at 1. rewrite <- app_assoc. apply ws_sim_app.
        rewrite ws_run_body by (rewrite len_nil, ?len_take; lia). cbn [app].
        rewrite len_take, Z.eqb_refl by lia. reflexivity.
      * right. split; [assumption|]. cbn [w_up w_allhdr w_rdh]. rewrite !app_length.
        assert (Hld : len (drop size body) = len body - size) by (apply len_drop; lia).
        repeat split; [assumption|apply wfb_drop; assumption|lia|unfold len in *; lia].
    + (* the payload, or the rest of it, is still to be read *)
      set (s' := mkWs (w_up s) (w_flags s) (w_http s) h true mask size body (w_closed s)).
      pose proof (ws_data_stage_spec c s' a1 Hfix Hc Hup eq_refl Hsz ltac:(cbn [s' w_data w_dsize]; lia) Wa)
        as Hds.
      destruct (ws_data_stage c s' (wsc_rxbuf c) a1) as [[[s1 r] a2] e1].
      refine (ws_call_ok_trans (e0 := []) _ (le_n _) _ Hds); [|rewrite app_length; lia].
      refine (ws_sim_trans Hsim _). apply ws_sim_app.
      rewrite ws_run_body by (rewrite len_nil; lia). cbn [app].
      replace (len body =? size) with false by lia. reflexivity.
Qed.

Lemma ws_frame_part_spec c s avail :
  wsc_fix c = ws_fixed -> ws_drain_buf <= wsc_rxbuf c ->
  ws_winv c s -> w_closed s = false -> w_up s = true -> wfb avail ->
  ~ In WZero (snd (ws_run c (fst (ws_abs s)) (snd (ws_abs s) ++ avail))) ->
  ws_call_ok c (fst (ws_abs s)) (snd (ws_abs s) ++ avail) avail
    (ws_frame_part c s (wsc_rxbuf c) avail).
Proof.
  intros Hfix Hdb W Hc Hup Wa. unfold ws_frame_part.
  destruct W as [W|[(W0 & W1 & _)|[(_ & _ & W2 & W3 & W4)|(_ & _ & W2 & W3 & W4)]]];
    try congruence; rewrite W2.
  { (* a frame is in progress *)
    rewrite ws_abs_body by assumption. intros _. apply ws_data_stage_spec; assumption. }
  rewrite ws_abs_hdr by assumption. cbn [fst snd].
  pose proof (len_nonneg (w_rdh s)) as Hr0.
  pose proof (ws_rd_spec (ws_max_fs - len (w_rdh s)) avail ltac:(lia) Wa) as Hrd.
  destruct (ws_rd (ws_max_fs - len (w_rdh s)) avail) as [chunk a'].
  destruct Hrd as (Hav & Wc & Wa' & Hlc & Hshort & Hla).
  set (h := w_rdh s ++ chunk).
  assert (Hin : w_rdh s ++ avail = h ++ a') by (subst h; rewrite <- app_assoc, Hav; reflexivity).
  assert (Hlh : len h = len (w_rdh s) + len chunk) by apply len_app.
  assert (Wh : wfb h) by (apply wfb_app; split; assumption).
  rewrite Hin. intros Hz.
  pose proof (ws_fh_hl_range (nth 1 h 0)) as (Hr & _).
  assert (Hwait : ws_hdr_waiting c h ->
    ws_call_ok c (MHdr []) (h ++ a') avail
      (mkWs (w_up s) (w_flags s) (w_http s) h false (w_mask s) (w_dsize s) (w_data s) (w_closed s),
       RNone, a', [])).
  { intros Hw. rewrite Hshort, app_nil_r by (apply ws_waiting_len in Hw; lia).
    apply ws_call_waiting.
    - right; right; right. repeat split; assumption.
    - unfold ws_mode_of. cbn [w_closed w_up w_allhdr w_rdh]. rewrite Hc, Hup.
      apply (ws_run_hdr_wait c h []). assumption. }
  destruct (len h <? 2) eqn:E2; [apply Hwait; left; lia|].
  destruct (wsc_server c && negb (fh_masked (ws_fh (nth 1 h 0)))) eqn:Esrv.
  { apply andb_prop in Esrv. destruct Esrv as (Es & Em). apply negb_true_iff in Em.
    apply ws_call_closed; [reflexivity|lia|assumption|].
    destruct h as [|x0 [|x1 h']]; [discriminate E2..|]. apply ws_run_hdr_unmasked; assumption. }
  assert (Hok : ws_hdr_ok c h = true) by (unfold ws_hdr_ok; rewrite Esrv; reflexivity).
  destruct (len h <? fh_hl (ws_fh (nth 1 h 0))) eqn:Ehl; [apply Hwait; right; split; [assumption|lia]|].
  pose proof (ws_after_hdr_spec c s h a' Hfix Hdb Hc Hup Wh Wa' ltac:(lia) ltac:(lia) Hok Hz) as Hspec.
  destruct (ws_after_hdr c s h (wsc_rxbuf c) a') as [[[s1 r] a1] e1].
  refine (ws_call_ok_trans (ws_sim_refl _ _ _) _ (le_n _) Hspec). lia.
Qed.

Lemma ws_read_spec c s avail :
  wsc_fix c = ws_fixed -> ws_drain_buf <= wsc_rxbuf c ->
  ws_winv c s -> w_closed s = false -> wfb avail ->
  ~ In WZero (snd (ws_run c (fst (ws_abs s)) (snd (ws_abs s) ++ avail))) ->
  ws_call_ok c (fst (ws_abs s)) (snd (ws_abs s) ++ avail) avail
    (ws_read c s (wsc_rxbuf c) avail).
Proof.
  intros Hfix Hdb W Hc Wa. unfold ws_read. destruct (w_up s) eqn:Hup.
  { apply ws_frame_part_spec; assumption. }
  destruct W as [W|[(_ & _ & W2 & W3 & W4)|[(_ & W1 & _)|(_ & W1 & _)]]]; try congruence.
  pose proof (ws_hs_spec c Hfix (S (length avail)) (w_flags s) (w_http s) avail W2 Wa W3
                ltac:(lia) ltac:(lia)) as Hs.
  rewrite ws_abs_hs by assumption. cbn [fst snd]. intros Hz.
  destruct (ws_hs (S (length avail)) c (w_flags s) (w_http s) avail false) as [res oob].
  destruct res as [lft f' a'|http' f' a'|a'|]; [| | |contradiction].
  - (* handshake complete *)
    destruct Hs as (-> & Wl & Wa' & Hl13 & Hlt & Hmu & Hsim). cbn [app].
    set (s' := mkWs true f' [] lft false (w_mask s) (w_dsize s) (w_data s) (w_closed s)).
    assert (Habs' : ws_abs s' = (MHdr [], lft)) by (apply ws_abs_hdr; assumption || reflexivity).
    destruct lft as [|l0 lf].
    + split; [lia|]. split; [assumption|]. rewrite Habs'. split; [exact Hsim|].
      right. split; [assumption|]. split; [|right; assumption].
      right; right; right. repeat split; try assumption. left. reflexivity.
    + set (lft := l0 :: lf) in *.
      assert (Ws' : ws_winv c s').
      { right; right; right. repeat split; try assumption. apply Z.lt_le_incl, Hl13. }
      pose proof (ws_frame_part_spec c s' a' Hfix Hdb Ws' Hc eq_refl Wa') as Hfp.
      rewrite Habs' in Hfp. specialize (Hfp (ws_sim_nozero Hsim Hz)).
      destruct (ws_frame_part c s' (wsc_rxbuf c) a') as [[[s2 r2] a2] e2].
      refine (ws_call_ok_trans Hsim _ _ Hfp); rewrite ?app_length; lia.
  - (* more of the handshake needed *)
    destruct Hs as (-> & -> & Wh' & Hn & Hl & Hrun).
    apply ws_call_waiting; [|unfold ws_mode_of; cbn [w_closed w_up]; rewrite Hc; exact Hrun].
    right; left. repeat split; assumption.
  - (* handshake failed *)
    destruct Hs as (-> & Wa' & Hla & Hrun). apply ws_call_closed; [reflexivity|assumption..].
Qed.

Lemma ws_session_loop_spec c :
  wsc_fix c = ws_fixed -> ws_drain_buf <= wsc_rxbuf c ->
  forall fuel s avail,
  ws_winv c s -> w_closed s = false -> wfb avail ->
  (length (snd (ws_abs s) ++ avail) < fuel)%nat ->
  ~ In WZero (snd (ws_run c (fst (ws_abs s)) (snd (ws_abs s) ++ avail))) ->
  let '(s', a', evs) := ws_session_loop fuel c s avail in
  ws_call_ok c (fst (ws_abs s)) (snd (ws_abs s) ++ avail) avail (s', RNone, a', evs).
Proof.
  intros Hfix Hdb. induction fuel as [|fu IH]; intros s avail W Hc Wa Hfu Hz; [lia|].
  cbn [ws_session_loop].
  pose proof (ws_read_spec c s avail Hfix Hdb W Hc Wa Hz) as Hrd.
  destruct (ws_read c s (wsc_rxbuf c) avail) as [[[s1 r] a1] e1].
  destruct r as [p| |].
  - (* a frame *)
    rewrite Hfix. cbn [wsf_strand ws_fixed andb]. destruct (w_closed s1) eqn:Hc1; cbn [negb].
    { exact (ws_call_ok_closed s1 Hrd Hc1 Hc1). }
    destruct Hrd as (Hla & Wa1 & Hsim & [Hcl|(_ & Hu & Ha & Wr & Hlr & Hmu)]); [congruence|].
    specialize (IH s1 a1). rewrite (ws_abs_hdr s1 Hc1 Hu Ha) in IH, Hsim. cbn [fst snd] in IH.
    specialize (IH ltac:(right; right; right; repeat split; assumption) Hc1 Wa1 ltac:(lia)
                   (ws_sim_nozero Hsim Hz)).
    destruct (ws_session_loop fu c s1 a1) as [[s2 a2] e2].
    replace (e1 ++ WMsg p :: e2) with ((e1 ++ [WMsg p]) ++ e2) by (rewrite <- app_assoc; reflexivity).
    exact (ws_call_ok_trans Hsim Hla (Nat.lt_le_incl _ _ Hmu) IH).
  - (* nothing to hand over *)
    exact Hrd.
  - (* error: the session has been closed *)
    assert (Hcl : w_closed s1 = true) by (destruct Hrd as (_ & _ & _ & [Hcl|(_ & [])]); exact Hcl).
    rewrite Hcl. exact (ws_call_ok_closed (ws_set_closed s1) Hrd Hcl eq_refl).
Qed.

Lemma ws_qinv_run_app c s avail :
  ws_qinv c s ->
  ws_run c (fst (ws_abs s)) (snd (ws_abs s) ++ avail) = ws_run c (ws_mode_of s) avail.
Proof.
  intros Hq. rewrite ws_run_app, (ws_qinv_run c s Hq). cbn [app].
  destruct (ws_run c (ws_mode_of s) avail). reflexivity.
Qed.

Lemma ws_mode_of_closed s : ws_mode_of s = MClosed <-> w_closed s = true.
Proof.
  unfold ws_mode_of. destruct (w_closed s); [tauto|]. destruct (w_up s); cbn [negb]; [|easy].
  destruct (w_allhdr s); easy.
Qed.

(* closing emits an event *)
Lemma ws_step_closed_inv c m b : ws_step c m b = (MClosed, []) -> m = MClosed.
Proof.
  destruct m as [f line|h|mask size acc|]; cbn [ws_step]; [|unfold ws_hdr_done| |reflexivity];
    repeat case_if; try discriminate.
  destruct (ws_process_line c f (ws_strip_cr line)); discriminate.
Qed.

Lemma ws_run_closed_inv c : forall x m, ws_run c m x = (MClosed, []) -> m = MClosed.
Proof.
  induction x as [|b x IH]; intros m H; cbn [ws_run] in H; [inversion H; reflexivity|].
  destruct (ws_step c m b) as [m1 e1] eqn:Es. destruct (ws_run c m1 x) as [m2 e2] eqn:Er.
  inversion H; subst m2. apply app_eq_nil in H2. destruct H2 as (-> & ->).
  specialize (IH m1 Er). subst m1. eapply ws_step_closed_inv. eassumption.
Qed.

Lemma ws_abs_len s : (length (snd (ws_abs s)) <= length (w_http s) + length (w_rdh s))%nat.
Proof.
  unfold ws_abs. destruct (w_closed s); cbn [snd length]; [lia|].
  destruct (w_up s); cbn [negb snd]; [|lia]. destruct (w_allhdr s); cbn [snd length]; lia.
Qed.

Lemma ws_pump_closed fuel c s avail : w_closed s = true -> ws_pump fuel c s avail = (s, []).
Proof. intros Hc. destruct fuel, avail; cbn [ws_pump]; rewrite ?Hc; reflexivity. Qed.

(* a closed session ignores what arrives, as the automaton does *)
Lemma ws_pump_spec_closed fuel c s avail s' evs :
  w_closed s = true -> ws_pump fuel c s avail = (s', evs) ->
  ws_run c (ws_mode_of s) avail = (ws_mode_of s', evs) /\ s' = s.
Proof.
  intros Hc H. rewrite ws_pump_closed in H by assumption. injection H as <- <-.
  rewrite (proj2 (ws_mode_of_closed s) Hc), ws_run_closed. split; reflexivity.
Qed.

Theorem ws_pump_spec c :
  wsc_fix c = ws_fixed -> ws_drain_buf <= wsc_rxbuf c ->
  forall fuel s avail s' evs,
  ws_qinv c s -> wfb avail -> (length avail < fuel)%nat ->
  ~ In WZero (snd (ws_run c (ws_mode_of s) avail)) ->
  ws_pump fuel c s avail = (s', evs) ->
  ws_run c (ws_mode_of s) avail = (ws_mode_of s', evs) /\ ws_qinv c s'.
Proof.
  intros Hfix Hdb. induction fuel as [|fu IH]; intros s avail s' evs Hq Wa Hfu Hz H; [lia|].
  destruct (w_closed s) eqn:Hc.
  { destruct (ws_pump_spec_closed _ c s avail s' evs Hc H) as (Hrun & ->). split; assumption. }
  destruct avail as [|b0 av]; [injection H as <- <-; split; [reflexivity|assumption]|].
  set (avail := b0 :: av) in *.
  cbn [ws_pump] in H. fold avail in H. rewrite Hc in H.
  unfold ws_session_read in H. rewrite Hfix in H. cbn [wsf_buf ws_fixed] in H.
  rewrite <- (ws_qinv_run_app c s avail Hq) in Hz |- *. pose proof (ws_abs_len s) as Habl.
  pose proof (ws_session_loop_spec c Hfix Hdb (S (S (length (w_http s) + length (w_rdh s) + length avail)))
                s avail (ws_qinv_winv c s Hq) Hc Wa ltac:(rewrite app_length; lia) Hz) as Hl.
  destruct (ws_session_loop _ c s avail) as [[s1 a1] e1].
  destruct Hl as (Hla & Wa1 & Hsim & Hpost). cbn [ws_evr] in Hsim. rewrite app_nil_r in Hsim.
  assert (Hq1 : ws_qinv c s1) by (destruct Hpost as [?|(_ & ? & _)]; [left|]; assumption).
  assert (Hz1 : ~ In WZero (snd (ws_run c (ws_mode_of s1) a1))).
  { rewrite <- (ws_qinv_run_app c s1 a1 Hq1). eapply ws_sim_nozero; eassumption. }
  unfold ws_sim in Hsim. rewrite (ws_qinv_run_app c s1 a1 Hq1) in Hsim.
  assert (Hrec : forall s2 e2, ws_pump fu c s1 a1 = (s2, e2) ->
                 ws_run c (fst (ws_abs s)) (snd (ws_abs s) ++ avail) = (ws_mode_of s2, e1 ++ e2) /\
                 ws_qinv c s2).
  { intros s2 e2 Hp2. rewrite Hsim. destruct Hpost as [Hc1|(_ & _ & Hprog)].
    - destruct (ws_pump_spec_closed fu c s1 a1 s2 e2 Hc1 Hp2) as (-> & ->). split; [reflexivity|assumption].
    - assert (Hfu1 : (length a1 < fu)%nat)
        by (destruct Hprog as [->|?]; subst avail; cbn [length] in *; lia).
      destruct (IH s1 a1 s2 e2 Hq1 Wa1 Hfu1 Hz1 Hp2) as (-> & Hq2). split; [reflexivity|assumption]. }
  destruct e1 as [|ev e1'].
  - destruct (len a1 =? len avail) eqn:El; [exfalso|exact (Hrec _ _ H)].
    (* no event and nothing consumed: the reader would be stuck *)
    destruct Hpost as [Hc1|(_ & _ & [->|Hlt])].
    + rewrite (proj2 (ws_mode_of_closed s1) Hc1), ws_run_closed, (ws_qinv_run_app c s avail Hq) in Hsim.
      apply ws_run_closed_inv, ws_mode_of_closed in Hsim. congruence.
    + discriminate El.
    + unfold len in El. lia.
  - destruct (ws_pump fu c s1 a1) as [s2 e2]. injection H as <- <-. apply Hrec. reflexivity.
Qed.

Lemma ws_nozero_prefix {c m a b} :
  ~ In WZero (snd (ws_run c m (a ++ b))) -> ~ In WZero (snd (ws_run c m a)).
Proof.
  rewrite ws_run_app. destruct (ws_run c m a) as [m1 e1], (ws_run c m1 b) as [m2 e2]. cbn [snd].
  intros H Hin. apply H, in_or_app. left. assumption.
Qed.

Lemma ws_arrivals_cons c s a tl :
  ws_arrivals c s (a :: tl) =
  let '(s1, e1) := ws_pump (16 + 2 * length a) c s a in
  let '(s2, e2) := ws_arrivals c s1 tl in (s2, e1 ++ e2).
Proof. reflexivity. Qed.

(* C05_ws_events_function_of_bytes: what the repaired reader delivers is what the automaton delivers for the
   concatenation of the arrivals *)
Theorem ws_arrivals_spec c :
  wsc_fix c = ws_fixed -> ws_drain_buf <= wsc_rxbuf c ->
  forall arr s s' evs,
  ws_qinv c s -> Forall wfb arr ->
  ~ In WZero (snd (ws_run c (ws_mode_of s) (concat arr))) ->
  ws_arrivals c s arr = (s', evs) ->
  ws_run c (ws_mode_of s) (concat arr) = (ws_mode_of s', evs) /\ ws_qinv c s'.
Proof.
  intros Hfix Hdb. induction arr as [|a tl IH]; intros s s' evs Hq Wf Hz H.
  - injection H as <- <-. split; [reflexivity|assumption].
  - apply Forall_cons_iff in Wf as (Wa & Wtl). cbn [concat] in *.
    (* unfolding ws_arrivals by conversion here would make the kernel unfold ws_pump 16 times *)
    rewrite ws_arrivals_cons in H.
    destruct (ws_pump (16 + 2 * length a) c s a) as [s1 e1] eqn:Hp.
    destruct (ws_arrivals c s1 tl) as [s2 e2] eqn:Ha. injection H as <- <-.
    destruct (ws_pump_spec c Hfix Hdb (16 + 2 * length a) s a s1 e1 Hq Wa ltac:(lia)
                (ws_nozero_prefix Hz) Hp) as (Hr1 & Hq1).
    apply (ws_sim_app _ _ _ (concat tl)) in Hr1.
    destruct (IH s1 s2 e2 Hq1 Wtl (ws_sim_nozero Hr1 Hz) Ha) as (Hr2 & Hq2).
    unfold ws_sim in Hr1. rewrite Hr1, Hr2. split; [reflexivity|assumption].
Qed.

Corollary ws_arrivals_run c s arr m evs :
  wsc_fix c = ws_fixed -> ws_drain_buf <= wsc_rxbuf c -> ws_qinv c s -> Forall wfb arr ->
  ws_run c (ws_mode_of s) (concat arr) = (m, evs) -> ~ In WZero evs ->
  snd (ws_arrivals c s arr) = evs /\ ws_mode_of (fst (ws_arrivals c s arr)) = m.
Proof.
  intros Hfix Hdb Hq W Hrun Hz. destruct (ws_arrivals c s arr) as [s1 e1] eqn:H1.
  destruct (ws_arrivals_spec c Hfix Hdb arr s s1 e1 Hq W ltac:(rewrite Hrun; exact Hz) H1) as (R & _).
  rewrite Hrun in R. injection R as -> ->. split; reflexivity.
Qed.

(* C05_ws_chunking *)
Corollary ws_arrivals_independent c s arr1 arr2 :
  wsc_fix c = ws_fixed -> ws_drain_buf <= wsc_rxbuf c ->
  ws_qinv c s -> Forall wfb arr1 -> Forall wfb arr2 -> concat arr1 = concat arr2 ->
  ~ In WZero (snd (ws_run c (ws_mode_of s) (concat arr1))) ->
  snd (ws_arrivals c s arr1) = snd (ws_arrivals c s arr2) /\
  ws_mode_of (fst (ws_arrivals c s arr1)) = ws_mode_of (fst (ws_arrivals c s arr2)).
Proof.
  intros Hfix Hdb Hq W1 W2 Hc Hz.
  destruct (ws_run c (ws_mode_of s) (concat arr1)) as [m evs] eqn:Hrun.
  destruct (ws_arrivals_run c s arr1 m evs Hfix Hdb Hq W1 Hrun Hz) as (-> & ->). rewrite Hc in Hrun.
  destruct (ws_arrivals_run c s arr2 m evs Hfix Hdb Hq W2 Hrun Hz) as (-> & ->). split; reflexivity.
Qed.

Definition ws_ev_clean (e : ws_ev) : Prop :=
  match e with WOob | WStuck | WFuel => False | _ => True end.

Lemma ws_step_clean c m b : Forall ws_ev_clean (snd (ws_step c m b)).
Proof.
  destruct m as [f line|h|mask size acc|]; cbn [ws_step]; [|unfold ws_hdr_done| |];
    repeat case_if; try (repeat constructor).
  destruct (ws_process_line c f (ws_strip_cr line)); repeat constructor.
Qed.

Lemma ws_run_clean c : forall x m, Forall ws_ev_clean (snd (ws_run c m x)).
Proof.
  induction x as [|b x IH]; intros m; cbn [ws_run]; [constructor|].
  pose proof (ws_step_clean c m b) as Hs. destruct (ws_step c m b) as [m1 e1]. specialize (IH m1).
  destruct (ws_run c m1 x) as [m2 e2]. cbn [snd] in *. apply Forall_app. split; assumption.
Qed.

(* C05_ws_no_oob *)
Corollary ws_arrivals_clean c s arr :
  wsc_fix c = ws_fixed -> ws_drain_buf <= wsc_rxbuf c ->
  ws_qinv c s -> Forall wfb arr ->
  ~ In WZero (snd (ws_run c (ws_mode_of s) (concat arr))) ->
  Forall ws_ev_clean (snd (ws_arrivals c s arr)).
Proof.
  intros Hfix Hdb Hq W Hz. pose proof (ws_run_clean c (concat arr) (ws_mode_of s)) as Hc.
  destruct (ws_run c (ws_mode_of s) (concat arr)) as [m evs] eqn:Hrun.
  destruct (ws_arrivals_run c s arr m evs Hfix Hdb Hq W Hrun Hz) as (-> & _). exact Hc.
Qed.

Lemma ws_init_qinv c : ws_qinv c ws_init.
Proof.
  right; left. cbn [ws_init w_closed w_up w_http]. repeat split; try constructor.
Qed.

(* C05_ws_longline: a handshake line that fills the buffer closes the session *)
Theorem ws_longline_closes c arr x more s' evs :
  wsc_fix c = ws_fixed -> ws_drain_buf <= wsc_rxbuf c -> Forall wfb arr ->
  concat arr = x ++ more -> ws_find_nl x = None -> len x = ws_http_buf - 1 ->
  ws_arrivals c ws_init arr = (s', evs) ->
  evs = [WFail] /\ w_closed s' = true.
Proof.
  intros Hfix Hdb W Hc Hn Hl H.
  destruct (ws_arrivals_run c ws_init arr MClosed [WFail] Hfix Hdb (ws_init_qinv c) W) as (He & Hm).
  - rewrite Hc. apply ws_run_app_closed, ws_run_hs_full; assumption.
  - intros [E|[]]. discriminate.
  - rewrite H in He, Hm. split; [exact He|]. apply ws_mode_of_closed. exact Hm.
Qed.

Inductive ws_lform := L7 | L16 | L64.
Definition ws_lenbytes (lf : ws_lform) (n : Z) : bytes :=
  match lf with
  | L7 => [128 + n]
  | L16 => [254; n / 256; n mod 256]
  | L64 => [255; 0; 0; 0; 0; (n / 16777216) mod 256; (n / 65536) mod 256; (n / 256) mod 256; n mod 256]
  end.
Definition ws_lform_ok (lf : ws_lform) (n : Z) : Prop :=
  match lf with L7 => n <= 125 | L16 => n < 65536 | L64 => n < 4294967296 end.

(* a masked binary frame as a client sends it (FIN set, opcode 2) *)
Definition ws_mk_frame (lf : ws_lform) (mask p : bytes) : bytes :=
  130 :: ws_lenbytes lf (len p) ++ mask ++ ws_xor mask 0 p.

Lemma ws_xor_len mask : forall p i, len (ws_xor mask i p) = len p.
Proof. induction p as [|b p IH]; intros i; cbn [ws_xor]; [reflexivity|]. rewrite !len_cons, IH. reflexivity. Qed.

Lemma ws_xor_invol mask : wfb mask -> forall p i, wfb p -> ws_xor mask i (ws_xor mask i p) = p.
Proof.
  intros Wm. induction p as [|b p IH]; intros i Wp; cbn [ws_xor]; [reflexivity|].
  apply wfb_cons in Wp. destruct Wp as [Hb Wp]. unfold is_byte in Hb.
  replace (b <? 0) with false by lia.
  set (m := nth (Z.to_nat (i mod 4)) mask 0).
  assert (Hm : 0 <= m).
  { subst m. destruct (nth_in_or_default (Z.to_nat (i mod 4)) mask 0) as [Hin|Hd]; [|rewrite Hd; lia].
    unfold wfb in Wm. rewrite Forall_forall in Wm. specialize (Wm _ Hin). unfold is_byte in Wm. lia. }
  assert (Hx : 0 <= Z.lxor b m) by (apply Z.lxor_nonneg; lia).
  replace (Z.lxor b m <? 0) with false by lia.
  rewrite Z.lxor_assoc, Z.lxor_nilpotent, Z.lxor_0_r. rewrite IH by assumption. reflexivity.
Qed.

(* the length bytes of a masked frame, as ws_fh and ws_fsize read them *)
Lemma ws_lenbytes_spec lf n rest :
  0 <= n -> ws_lform_ok lf n ->
  exists b1 tl, ws_lenbytes lf n = b1 :: tl /\ fh_masked (ws_fh b1) = true /\
                fh_ext (ws_fh b1) = len tl /\ ws_fsize (130 :: ws_lenbytes lf n ++ rest) = n.
Proof.
  intros Hn Hok. destruct lf; cbn [ws_lenbytes ws_lform_ok] in *; do 2 eexists; (split; [reflexivity|]).
  - unfold ws_fsize, ws_fh. cbn [fh_ext fh_masked app nth].
    replace ((128 + n) mod 128 =? 127) with false by lia.
    replace ((128 + n) mod 128 =? 126) with false by lia. repeat split; lia.
  - repeat split. unfold ws_fsize. cbn [app nth]. change (254 mod 128 =? 127) with false.
    change (254 mod 128 =? 126) with true. cbv iota. unfold take, drop, ws_be. cbn [Z.to_nat].
    change (Pos.to_nat 2) with 2%nat. cbn [skipn firstn fold_left]. lia.
  - repeat split. unfold ws_fsize. cbn [app nth]. change (255 mod 128 =? 127) with true. cbv iota.
    unfold take, drop, ws_be. cbn [Z.to_nat]. change (Pos.to_nat 2) with 2%nat.
    change (Pos.to_nat 8) with 8%nat. cbn [skipn firstn fold_left]. lia.
Qed.

Lemma ws_frame_run c lf mask p :
  wsc_server c = true -> len mask = 4 -> wfb mask -> wfb p ->
  1 <= len p <= wsc_rxbuf c -> ws_lform_ok lf (len p) ->
  ws_run c (MHdr []) (ws_mk_frame lf mask p) = (MHdr [], [WMsg p]).
Proof.
  intros Hsrv Hlm Wm Wp Hn Hok.
  destruct (ws_lenbytes_spec lf (len p) mask ltac:(lia) Hok) as (b1 & tl & Elb & Hmask & Hext & Hsize).
  pose proof (ws_fh_hl_range b1) as (_ & _ & Hhl). rewrite Hmask, Hext in Hhl.
  set (hd := 130 :: ws_lenbytes lf (len p) ++ mask) in *.
  assert (Hnth1 : nth 1 hd 0 = b1) by (subst hd; rewrite Elb; reflexivity).
  assert (Hlhd : len hd = 2 + len tl + 4).
  { subst hd. rewrite Elb. cbn [app]. rewrite !len_cons, len_app. lia. }
  assert (Hdone : ws_hdr_done c hd = (MBody mask (len p) [], [])).
  { unfold ws_hdr_done. rewrite Hnth1, Hmask, Hsize. change (nth 0 hd 0) with 130.
    change (130 mod 16) with 2. cbn [Z.eqb Pos.eqb negb andb].
    replace (wsc_rxbuf c <? len p) with false by lia. replace (len p =? 0) with false by lia.
    replace (2 + fh_ext (ws_fh b1)) with (len (130 :: ws_lenbytes lf (len p)))
      by (rewrite Elb, !len_cons; lia).
    subst hd. rewrite app_comm_cons, drop_app_exact, take_all by lia. reflexivity. }
  replace (ws_mk_frame lf mask p) with (hd ++ ws_xor mask 0 p)
    by (unfold ws_mk_frame; subst hd; cbn [app]; rewrite <- app_assoc; reflexivity).
  rewrite <- (ws_xor_len mask p 0) in Hdone.
  rewrite (ws_run_frame c hd mask); [| |rewrite Hnth1; lia|exact Hdone|rewrite ws_xor_len; lia].
  - unfold ws_unmask. rewrite Hsrv, ws_xor_invol by assumption. reflexivity.
  - unfold ws_hdr_ok. rewrite Hnth1, Hmask, andb_false_r. reflexivity.
Qed.

Fixpoint ws_frames_of (l : list (ws_lform * bytes * bytes)) : bytes :=
  match l with
  | [] => []
  | (lf, mask, p) :: tl => ws_mk_frame lf mask p ++ ws_frames_of tl
  end.

Definition ws_frame_ok (c : ws_cfg) (x : ws_lform * bytes * bytes) : Prop :=
  let '(lf, mask, p) := x in
  len mask = 4 /\ wfb mask /\ wfb p /\ 1 <= len p <= wsc_rxbuf c /\ ws_lform_ok lf (len p).

(* C05_ws_frames (automaton): a sequence of frames is delivered as exactly their payloads *)
Theorem ws_frames_run c : wsc_server c = true -> forall l,
  Forall (ws_frame_ok c) l ->
  ws_run c (MHdr []) (ws_frames_of l) = (MHdr [], map (fun x => WMsg (snd x)) l).
Proof.
  intros Hsrv. induction l as [|[[lf mask] p] tl IH]; intros H; [reflexivity|].
  inversion H as [|? ? Hx Htl]; subst. destruct Hx as (H1 & H2 & H3 & H4 & H5).
  cbn [ws_frames_of map snd]. rewrite ws_run_app, ws_frame_run, IH by assumption. reflexivity.
Qed.

(* C05_ws_frames: an accepted handshake followed by frames of messages, arriving in any pieces, is
   delivered as "connected" and exactly the payloads, in order *)
Theorem ws_stream_delivered c hs l arr :
  wsc_fix c = ws_fixed -> ws_drain_buf <= wsc_rxbuf c -> wsc_server c = true ->
  ws_run c (MHs ws_flags0 []) hs = (MHdr [], [WConnected]) ->
  Forall (ws_frame_ok c) l -> Forall wfb arr -> concat arr = hs ++ ws_frames_of l ->
  snd (ws_arrivals c ws_init arr) = WConnected :: map (fun x => WMsg (snd x)) l /\
  ws_mode_of (fst (ws_arrivals c ws_init arr)) = MHdr [].
Proof.
  intros Hfix Hdb Hsrv Hhs Hl W Hc. apply ws_arrivals_run; try assumption.
  - apply ws_init_qinv.
  - rewrite Hc. change (ws_mode_of ws_init) with (MHs ws_flags0 []).
    rewrite ws_run_app, Hhs, ws_frames_run by assumption. reflexivity.
  - intros [E|Hin]; [discriminate|]. apply in_map_iff in Hin. destruct Hin as (x & E & _). discriminate.
Qed.

(* coap_read_session hands a returned frame of at least 2 bytes (the size of a CoAP-over-WebSocket
   header) to coap_pdu_parse *)
Inductive ws_obs := WDeliver (m : msg) | WIgnored (p : bytes) | WOther (e : ws_ev).
Definition ws_observe_ev (e : ws_ev) : ws_obs :=
  match e with
  | WMsg p => if 2 <=? len p then match parse WS p with Some m => WDeliver m | None => WIgnored p end
              else WIgnored p
  | _ => WOther e
  end.
Definition ws_observe (evs : list ws_ev) : list ws_obs := map ws_observe_ev evs.

Lemma ws_serialize_len m : 2 <= len (serialize WS m).
Proof.
  unfold serialize, header. rewrite len_app, !len_cons, len_nil.
  pose proof (len_nonneg (token_area (m_token m) ++ content_area m)). lia.
Qed.

Theorem ws_observe_messages ms :
  Forall msg_wf ms ->
  ws_observe (map (fun m => WMsg (serialize WS m)) ms) = map (fun m => WDeliver (norm_fields WS m)) ms.
Proof.
  induction 1 as [|m tl W _ IH]; [reflexivity|].
  cbn [map ws_observe ws_observe_ev]. pose proof (ws_serialize_len m).
  replace (2 <=? len (serialize WS m)) with true by lia.
  rewrite parse_serialize by assumption. f_equal. exact IH.
Qed.
