(* Concrete runs of the WebSocket reader model with the handshake checks of Stream/WsHandshake.v
   (server sessions, at the end a client session): the four defects of the code as found (each
   refutes the chunking statement or the "closes instead of being buffered" statement) and the
   same inputs on the repaired reader. *)
From LibcoapV Require Import Base.Tactics Base.Bytes Stream.WsReader Stream.WsHandshake
  Stream.WsReaderProofs.
Local Open Scope Z_scope.

Definition ws_w_mask : bytes := [1; 2; 3; 4].
Definition ws_w_get : bytes := [0; 1; 177; 97].          (* GET /a *)
Definition ws_w_ping : bytes := [0; 226; 32].            (* 7.02 Ping with Custody option *)
Definition ws_w_frame (p : bytes) : bytes := ws_mk_frame L7 ws_w_mask p.
Definition ws_w_stream : bytes := ws_request ++ ws_w_frame ws_w_get ++ ws_w_frame ws_w_ping.

Definition ws_w_cut (n : Z) (s : bytes) : list bytes := [take n s; drop n s].

Definition ws_has_undef (evs : list ws_ev) : bool :=
  existsb (fun e => match e with WMsg p => existsb (fun b => b <? 0) p | _ => false end) evs.
Definition ws_has_ev (x : ws_ev -> bool) (evs : list ws_ev) : bool := existsb x evs.
Definition ws_is_oob (e : ws_ev) := match e with WOob => true | _ => false end.
Definition ws_is_stuck (e : ws_ev) := match e with WStuck => true | _ => false end.
Definition ws_is_close (e : ws_ev) := match e with WClose _ => true | WFail => true | _ => false end.

Lemma ws_request_accepted :
  ws_run (ws_server_cfg ws_fixed) (MHs ws_flags0 []) ws_request = (MHdr [], [WConnected]).
Proof. vm_compute. reflexivity. Qed.

(* (1) as found: a frame received over two calls is assembled from an indeterminate buffer *)
Theorem ws_orig_stack_buffer_refuted :
  exists arr1 arr2, concat arr1 = concat arr2 /\
    snd (ws_arrivals (ws_server_cfg ws_orig) ws_init arr1) <>
    snd (ws_arrivals (ws_server_cfg ws_orig) ws_init arr2) /\
    ws_has_undef (snd (ws_arrivals (ws_server_cfg ws_orig) ws_init arr2)) = true.
Proof.
  exists [ws_w_stream], (ws_w_cut (len ws_request + 8) ws_w_stream).
  split; [vm_compute; reflexivity|]. split; [vm_compute; discriminate|vm_compute; reflexivity].
Qed.

(* (2) as found: a 160-byte handshake line writes http_hdr[160] and the session spins for ever *)
Definition ws_w_longline : bytes := ws_s3 ++ ws_crlf ++ repeat 76 200.
Theorem ws_orig_longline_refuted :
  let evs := snd (ws_arrivals (ws_server_cfg ws_orig) ws_init [ws_w_longline]) in
  ws_has_ev ws_is_oob evs = true /\ ws_has_ev ws_is_stuck evs = true /\ ws_has_ev ws_is_close evs = false.
Proof. vm_compute. repeat split. Qed.

(* (3) as found: the body of a refused oversized frame is read into the 100-byte buffer of
   coap_ws_close *)
Definition ws_w_oversize : bytes := ws_request ++ [130; 254; 16; 0; 1; 2; 3; 4] ++ repeat 122 300.
Theorem ws_orig_oversize_refuted :
  ws_has_ev ws_is_oob (snd (ws_arrivals (ws_server_cfg ws_orig) ws_init [ws_w_oversize])) = true.
Proof. vm_compute. reflexivity. Qed.

(* (4) as found: what the read-ahead holds is processed only when more bytes arrive - the close
   for an unmasked frame behind a Ping depends on the segmentation *)
Definition ws_w_strand : bytes := ws_request ++ ws_w_frame ws_w_ping ++ [130; 2; 0; 1].
Theorem ws_orig_strand_refuted :
  exists arr1 arr2, concat arr1 = concat arr2 /\
    snd (ws_arrivals (ws_server_cfg ws_orig) ws_init arr1) <>
    snd (ws_arrivals (ws_server_cfg ws_orig) ws_init arr2).
Proof.
  exists [ws_w_strand], (ws_w_cut (len ws_request + 9) ws_w_strand).
  split; [vm_compute; reflexivity|vm_compute; discriminate].
Qed.

(* the same inputs on the repaired reader (non-vacuity of the positive theorems) *)
Example ws_fixed_witnesses :
  snd (ws_arrivals (ws_server_cfg ws_fixed) ws_init (ws_w_cut (len ws_request + 8) ws_w_stream)) =
    [WConnected; WMsg ws_w_get; WMsg ws_w_ping] /\
  snd (ws_arrivals (ws_server_cfg ws_fixed) ws_init [ws_w_stream]) =
    [WConnected; WMsg ws_w_get; WMsg ws_w_ping] /\
  snd (ws_arrivals (ws_server_cfg ws_fixed) ws_init [ws_w_longline]) = [WFail] /\
  snd (ws_arrivals (ws_server_cfg ws_fixed) ws_init [ws_w_oversize]) = [WConnected; WClose 1009] /\
  snd (ws_arrivals (ws_server_cfg ws_fixed) ws_init [ws_w_strand]) =
    snd (ws_arrivals (ws_server_cfg ws_fixed) ws_init (ws_w_cut (len ws_request + 9) ws_w_strand)).
Proof. vm_compute. repeat split. Qed.

Lemma ws_server_cfg_fixed_ok :
  wsc_fix (ws_server_cfg ws_fixed) = ws_fixed /\ ws_drain_buf <= wsc_rxbuf (ws_server_cfg ws_fixed) /\
  wsc_server (ws_server_cfg ws_fixed) = true.
Proof. repeat split. unfold ws_drain_buf. cbn. lia. Qed.

(* client session: frames from the server are not masked *)
Definition ws_w_uframe (p : bytes) : bytes := 130 :: len p :: p.
Definition ws_w_content : bytes := [0; 69; 255; 97].      (* 2.05 Content "a" *)
Definition ws_w_cstream : bytes := ws_response ++ ws_w_uframe ws_w_content ++ ws_w_uframe ws_w_ping.

Lemma ws_response_accepted :
  ws_run (ws_client_cfg ws_fixed) (MHs ws_flags0 []) ws_response = (MHdr [], [WConnected]).
Proof. vm_compute. reflexivity. Qed.

(* (4') as found, client session: two small frames that arrive together - the second one sits in
   the read-ahead buffer and is not delivered until further bytes arrive *)
Theorem ws_orig_client_strand_refuted :
  exists arr1 arr2, concat arr1 = concat arr2 /\
    snd (ws_arrivals (ws_client_cfg ws_orig) ws_init arr1) = [WConnected; WMsg ws_w_content] /\
    snd (ws_arrivals (ws_client_cfg ws_orig) ws_init arr2) = [WConnected; WMsg ws_w_content; WMsg ws_w_ping].
Proof.
  exists [ws_w_cstream], (ws_w_cut (len ws_response + 6) ws_w_cstream).
  split; [vm_compute; reflexivity|]. split; vm_compute; reflexivity.
Qed.

Example ws_fixed_client_witness :
  snd (ws_arrivals (ws_client_cfg ws_fixed) ws_init [ws_w_cstream]) =
    [WConnected; WMsg ws_w_content; WMsg ws_w_ping] /\
  wsc_fix (ws_client_cfg ws_fixed) = ws_fixed /\ ws_drain_buf <= wsc_rxbuf (ws_client_cfg ws_fixed).
Proof. split; [vm_compute; reflexivity|]. split; [reflexivity|]. unfold ws_drain_buf. cbn. lia. Qed.
