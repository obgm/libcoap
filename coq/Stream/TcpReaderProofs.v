(* Proofs about the TCP stream reader model (Stream/TcpReader.v): the reader's loop computes the
   frames of the byte stream (tcp_frames), whatever the reads it arrives in. *)
From LibcoapV Require Import Base.Tactics Base.Bytes Base.BytesProofs Wire.OptCodec Wire.Pdu
  Wire.OptCodecProofs Wire.PduProofs Stream.TcpReader.
Local Open Scope Z_scope.

Lemma tcp_len_length {A} (l : list A) : len l = Z.of_nat (length l).
Proof. reflexivity. Qed.

Lemma tcp_take_nonpos {A} n (l : list A) : n <= 0 -> take n l = [].
Proof. apply take_nonpos. Qed.

Lemma tcp_drop_nonpos {A} n (l : list A) : n <= 0 -> drop n l = l.
Proof. apply drop_nonpos. Qed.

Lemma tcp_take_cons {A} n (x : A) l : 1 <= n -> take n (x :: l) = x :: take (n - 1) l.
Proof.
  intros H. unfold take. replace (Z.to_nat n) with (S (Z.to_nat (n - 1))) by lia. reflexivity.
Qed.

Lemma tcp_take_app_le {A} n (a b : list A) : n <= len a -> take n (a ++ b) = take n a.
Proof.
  unfold take, len. intros H. rewrite firstn_app.
  replace (Z.to_nat n - length a)%nat with 0%nat by lia. cbn [firstn]. apply app_nil_r.
Qed.

Lemma tcp_len_drop_sub {A} n (l : list A) : 0 <= n -> len (drop n l) = Z.max 0 (len l - n).
Proof. apply len_drop_max. Qed.

Lemma tcp_length_drop {A} n (l : list A) :
  1 <= n -> l <> [] -> (length (drop n l) < length l)%nat.
Proof.
  intros H Hl. unfold drop. rewrite skipn_length. destruct l; [congruence|]. cbn [length]. lia.
Qed.

Lemma tcp_concat_wfb chunks : Forall wfb chunks -> wfb (concat chunks).
Proof. induction 1; cbn [concat]; [constructor|apply wfb_app; split; assumption]. Qed.

Lemma tcp_hdr_size_cases b0 :
  tcp_hdr_size b0 = 2 \/ tcp_hdr_size b0 = 3 \/ tcp_hdr_size b0 = 4 \/ tcp_hdr_size b0 = 6.
Proof. unfold tcp_hdr_size, header_size. repeat case_if; lia. Qed.

Lemma tcp_tok_ext_cases b0 : tcp_tok_ext b0 = 0 \/ tcp_tok_ext b0 = 1 \/ tcp_tok_ext b0 = 2.
Proof. unfold tcp_tok_ext. repeat case_if; lia. Qed.

Lemma tcp_hdr_size_le_len b0 : 2 <= tcp_hdr_size b0 <= tcp_hdr_len b0.
Proof.
  unfold tcp_hdr_len. pose proof (tcp_hdr_size_cases b0). pose proof (tcp_tok_ext_cases b0). lia.
Qed.

Lemma tcp_hdr_len_range b0 : 2 <= tcp_hdr_len b0 <= 8.
Proof.
  unfold tcp_hdr_len. pose proof (tcp_hdr_size_cases b0). pose proof (tcp_tok_ext_cases b0). lia.
Qed.

(* The token part reads only the extension bytes, and counts them: a size of at most 12 means
   there are none. *)
Lemma tcp_tok_size_spec b0 ts :
  tcp_tok_ext b0 <= len ts ->
  exists t, (forall more, tcp_tok_size (b0 mod 16) (ts ++ more) = Some t) /\
            (wfb ts -> tcp_tok_ext b0 <= t /\ (t <= 12 -> tcp_tok_ext b0 = 0)).
Proof.
  unfold tcp_tok_size, tcp_tok_ext.
  destruct (b0 mod 16 <? 13) eqn:E1; [|destruct (b0 mod 16 =? 13) eqn:E2; [|destruct (b0 mod 16 =? 14) eqn:E3]].
  - replace (b0 mod 16 =? 13) with false by lia. replace (b0 mod 16 =? 14) with false by lia.
    intros _. exists (b0 mod 16). split; [reflexivity|lia].
  - destruct ts as [|t0 ts]; [rewrite len_nil; lia|]. intros _. exists (t0 + 13 + 1).
    split; [reflexivity|]. intros [W0 _]%wfb_cons. unfold is_byte in W0. lia.
  - destruct ts as [|t0 [|t1 ts]]; rewrite ?len_cons, ?len_nil; try lia. intros _.
    exists (t0 * 256 + t1 + 269 + 2). split; [reflexivity|].
    intros [W0 [W1 _]%wfb_cons]%wfb_cons. unfold is_byte in W0, W1. lia.
  - intros _. exists 0. split; [reflexivity|lia].
Qed.

Lemma tcp_add_tok_spec base b0 ts :
  tcp_tok_ext b0 <= len ts ->
  exists size, (forall more, tcp_add_tok base (b0 mod 16) (ts ++ more) = Some size) /\
               (0 <= base -> wfb ts -> tcp_tok_ext b0 <= size /\ (size <= 12 -> tcp_tok_ext b0 = 0)).
Proof.
  intros H. destruct (tcp_tok_size_spec b0 ts H) as (t & Ht & Hb). exists (base + t). split.
  - intros more. unfold tcp_add_tok. rewrite Ht. reflexivity.
  - intros Hbase W. specialize (Hb W). lia.
Qed.

(* r has another element, by the bound H on its length *)
Ltac tcp_expose r H :=
  let x := fresh "x" in
  destruct r as [|x r]; [exfalso; rewrite len_nil in H; lia | rewrite len_cons in H].

(* A header of tcp_hdr_len bytes determines the size, whatever follows it. *)
Lemma tcp_parse_size_spec b0 r :
  tcp_hdr_len b0 <= len (b0 :: r) ->
  exists size,
    (forall more, tcp_parse_size (b0 :: r ++ more) = Some size) /\
    (wfb (b0 :: r) -> tcp_tok_ext b0 <= size /\ (size <= 12 -> tcp_tok_ext b0 = 0)).
Proof.
  unfold tcp_hdr_len, tcp_hdr_size, header_size, tcp_parse_size. rewrite len_cons. intros H.
  assert (Hte : 0 <= tcp_tok_ext b0) by (pose proof (tcp_tok_ext_cases b0); lia).
  (* the four forms of Len differ in the bytes the header holds and the value they stand for;
     what remains of r is the token part *)
  destruct (b0 / 16 <? 13); [|destruct (b0 / 16 =? 13); [|destruct (b0 / 16 =? 14)]];
    [tcp_expose r H; destruct (tcp_add_tok_spec (b0 / 16) b0 r) as (size & Hs & Hb)
    |do 2 tcp_expose r H; destruct (tcp_add_tok_spec (x + 13) b0 r) as (size & Hs & Hb)
    |do 3 tcp_expose r H; destruct (tcp_add_tok_spec (x * 256 + x0 + 269) b0 r) as (size & Hs & Hb)
    |do 5 tcp_expose r H;
     destruct (tcp_add_tok_spec (x * 16777216 + x0 * 65536 + x1 * 256 + x2 + 65805) b0 r)
       as (size & Hs & Hb)];
    try lia;
    (exists size; split; [exact Hs|]; intros W;
     repeat match goal with
            | H : wfb (_ :: _) |- _ => apply wfb_cons in H; destruct H
            end;
     unfold is_byte in *; apply Hb; [lia|assumption]).
Qed.

(* The first tcp_hdr_len bytes of a string announce a size, the same whatever follows them; on
   bytes the announced frame is at least as long as its header, longer unless the size is 0. *)
Lemma tcp_announced_size bs b0 r :
  bs = b0 :: r -> tcp_hdr_len b0 <= len bs ->
  exists size,
    tcp_parse_size (take (tcp_hdr_len b0) bs) = Some size /\ tcp_parse_size bs = Some size /\
    (wfb bs -> tcp_hdr_len b0 <= tcp_hdr_size b0 + size /\
               (size <> 0 -> tcp_hdr_len b0 < tcp_hdr_size b0 + size)).
Proof.
  intros -> H. pose proof (tcp_hdr_len_range b0) as Hr.
  pose proof (tcp_take_cons (tcp_hdr_len b0) b0 r ltac:(lia)) as Ht.
  destruct (tcp_parse_size_spec b0 (take (tcp_hdr_len b0 - 1) r)) as (size & Hs & Hb);
    [rewrite <- Ht, len_take; lia|].
  exists size. split; [|split].
  - rewrite Ht, <- (app_nil_r (take _ r)). apply Hs.
  - rewrite <- (take_drop (tcp_hdr_len b0) (b0 :: r)), Ht. apply Hs.
  - intros W. rewrite <- Ht in Hb. specialize (Hb (wfb_take _ _ W)).
    pose proof (tcp_tok_ext_cases b0). unfold tcp_hdr_len. lia.
Qed.

Lemma tcp_split_nil c F : tcp_split F c [] = ([], Some []).
Proof. destruct F; reflexivity. Qed.

Lemma tcp_split_short c F b0 r :
  len (b0 :: r) < tcp_hdr_len b0 -> tcp_split F c (b0 :: r) = ([], Some (b0 :: r)).
Proof.
  intros H. destruct F; cbn [tcp_split];
    replace (len (b0 :: r) <? tcp_hdr_len b0) with true by lia; reflexivity.
Qed.

(* Each frame taken off is at least a header long, so any fuel from the length up is enough. *)
Lemma tcp_split_fuel c : forall F1 F2 bs,
  wfb bs -> (length bs <= F1)%nat -> (length bs <= F2)%nat ->
  tcp_split F1 c bs = tcp_split F2 c bs.
Proof.
  induction F1 as [|F1 IH]; intros F2 bs W H1 H2;
    (destruct bs as [|b0 r]; [rewrite !tcp_split_nil; reflexivity|]); [cbn [length] in H1; lia|].
  destruct F2 as [|F2]; [cbn [length] in H2; lia|].
  destruct (Z_lt_le_dec (len (b0 :: r)) (tcp_hdr_len b0)) as [Hl|Hl];
    [rewrite !tcp_split_short by assumption; reflexivity|].
  destruct (tcp_announced_size _ b0 r eq_refl Hl) as (size & Hs & _ & Hb). specialize (Hb W).
  cbn [tcp_split]. replace (len (b0 :: r) <? tcp_hdr_len b0) with false by lia. rewrite Hs.
  destruct (tcp_oversize c size); [reflexivity|].
  destruct (len (b0 :: r) <? tcp_hdr_size b0 + size); [reflexivity|].
  pose proof (tcp_hdr_len_range b0).
  assert (Hd : (length (drop (tcp_hdr_size b0 + size) (b0 :: r)) < length (b0 :: r))%nat)
    by (apply tcp_length_drop; [lia|discriminate]).
  rewrite (IH F2); [reflexivity|apply wfb_drop; assumption|lia|lia].
Qed.

Lemma tcp_frames_fuel c F bs :
  wfb bs -> (length bs <= F)%nat -> tcp_split F c bs = tcp_frames c bs.
Proof. intros W H. apply tcp_split_fuel; [assumption|lia|lia]. Qed.

Lemma tcp_frames_short c b0 r :
  len (b0 :: r) < tcp_hdr_len b0 -> tcp_frames c (b0 :: r) = ([], Some (b0 :: r)).
Proof. apply tcp_split_short. Qed.

(* One step of the splitter once the header is complete, whatever follows it; no fuel. *)
Lemma tcp_frames_hdr c b0 r size y :
  let bs := (b0 :: r) ++ y in
  wfb (b0 :: r) -> wfb y -> tcp_hdr_len b0 <= len (b0 :: r) ->
  tcp_parse_size (take (tcp_hdr_len b0) (b0 :: r)) = Some size ->
  tcp_frames c bs =
  if tcp_oversize c size then ([TClose], None)
  else
    let total := tcp_hdr_size b0 + size in
    if len bs <? total then ([], Some bs)
    else let '(e, r') := tcp_frames c (drop total bs) in (TMsg (take total bs) :: e, r').
Proof.
  intros bs W Wy Hl Hs. pose proof (len_nonneg y) as Hy. pose proof (tcp_hdr_len_range b0) as Hr.
  assert (Wbs : wfb bs) by (apply wfb_app; split; assumption).
  assert (Hl' : tcp_hdr_len b0 <= len bs) by (unfold bs; rewrite len_app; lia).
  assert (Hs' : tcp_parse_size (take (tcp_hdr_len b0) bs) = Some size)
    by (unfold bs; rewrite tcp_take_app_le by lia; exact Hs).
  destruct (tcp_announced_size bs b0 (r ++ y) eq_refl Hl') as (size' & Hs'' & _ & Hb).
  rewrite Hs' in Hs''. injection Hs'' as <-. specialize (Hb Wbs).
  change bs with (b0 :: (r ++ y)) in *. unfold tcp_frames at 1. cbn [length tcp_split]. cbv zeta.
  replace (len (b0 :: r ++ y) <? tcp_hdr_len b0) with false by lia. rewrite Hs'.
  destruct (tcp_oversize c size); [reflexivity|].
  destruct (len (b0 :: r ++ y) <? tcp_hdr_size b0 + size); [reflexivity|].
  assert (Hd : (length (drop (tcp_hdr_size b0 + size) (b0 :: r ++ y)) < length (b0 :: r ++ y))%nat)
    by (apply tcp_length_drop; [lia|discriminate]).
  rewrite tcp_frames_fuel; [reflexivity|apply wfb_drop; assumption|cbn [length] in Hd; lia].
Qed.

(* a complete frame that the reader accepts *)
Definition tcp_frame (c : tcp_cfg) (f : bytes) : Prop :=
  wfb f /\ exists b0 r size,
    f = b0 :: r /\ tcp_hdr_len b0 <= len f /\
    tcp_parse_size (take (tcp_hdr_len b0) f) = Some size /\
    tcp_oversize c size = false /\ len f = tcp_hdr_size b0 + size.

Lemma tcp_frames_frame c f y :
  tcp_frame c f -> wfb y ->
  tcp_frames c (f ++ y) = let '(e, r) := tcp_frames c y in (TMsg f :: e, r).
Proof.
  intros (W & b0 & r & size & -> & Hl & Hs & Ho & Ht) Wy. pose proof (len_nonneg y) as Hy.
  rewrite (tcp_frames_hdr c b0 r size y W Wy Hl Hs), Ho. cbv zeta. rewrite <- Ht, len_app.
  replace (len (b0 :: r) + len y <? len (b0 :: r)) with false by lia.
  rewrite take_app_exact, drop_app_exact. reflexivity.
Qed.

(* The splitter peels complete frames off the front until it is left with an incomplete one or
   meets a header that announces too much; neither TOob nor TFuel arises on bytes. *)
Lemma tcp_frames_ind c (P : bytes -> list tcp_ev * option bytes -> Prop) :
  (forall bs, P bs ([], Some bs)) ->
  (forall bs, (forall y, wfb y -> tcp_frames c (bs ++ y) = ([TClose], None)) -> P bs ([TClose], None)) ->
  (forall f rest e r, tcp_frame c f -> wfb rest -> P rest (e, r) -> P (f ++ rest) (TMsg f :: e, r)) ->
  forall bs, wfb bs -> P bs (tcp_frames c bs).
Proof.
  intros Hpart Hclose Hframe bs. remember (length bs) as n eqn:Hn.
  assert (Hle : (length bs <= n)%nat) by lia. clear Hn. revert bs Hle.
  induction n as [|n IH]; intros bs Hn W;
    (destruct bs as [|b0 r]; [apply Hpart|]); [cbn [length] in Hn; lia|].
  destruct (Z_lt_le_dec (len (b0 :: r)) (tcp_hdr_len b0)) as [Hl|Hl];
    [rewrite (tcp_frames_short c b0 r Hl); apply Hpart|].
  destruct (tcp_announced_size _ b0 r eq_refl Hl) as (size & Hs & _ & Hb). specialize (Hb W).
  pose proof (tcp_frames_hdr c b0 r size) as Hstep. cbv zeta in Hstep.
  rewrite <- (app_nil_r (b0 :: r)) at 2. rewrite (Hstep [] W (Forall_nil _) Hl Hs), app_nil_r.
  destruct (tcp_oversize c size) eqn:Ho.
  { apply Hclose. intros y Wy. rewrite (Hstep y W Wy Hl Hs). reflexivity. }
  destruct (len (b0 :: r) <? tcp_hdr_size b0 + size) eqn:E; [apply Hpart|].
  remember (tcp_hdr_size b0 + size) as total eqn:Et.
  assert (Ht : 2 <= tcp_hdr_len b0 <= total /\ total <= len (b0 :: r))
    by (pose proof (tcp_hdr_len_range b0); lia).
  clear E Hb Hl.
  assert (Hd : (length (drop total (b0 :: r)) < length (b0 :: r))%nat)
    by (apply tcp_length_drop; [lia|discriminate]).
  assert (Hf : tcp_frame c (take total (b0 :: r))).
  { split; [apply wfb_take; assumption|]. exists b0, (take (total - 1) r), size.
    rewrite len_take by lia. repeat split; try assumption; try lia.
    - apply tcp_take_cons. lia.
    - rewrite <- (take_drop total (b0 :: r)) in Hs.
      rewrite tcp_take_app_le in Hs by (rewrite len_take; lia). exact Hs. }
  specialize (IH (drop total (b0 :: r)) ltac:(lia) (wfb_drop _ _ W)).
  destruct (tcp_frames c (drop total (b0 :: r))) as [e r'].
  pose proof (Hframe _ _ e r' Hf (wfb_drop _ _ W) IH) as HP. rewrite take_drop in HP. exact HP.
Qed.

(* the splitter resumed on what it left over, with more bytes *)
Definition tcp_frames_from (c : tcp_cfg) (held : option bytes) (y : bytes) :=
  match held with None => ([], None) | Some r => tcp_frames c (r ++ y) end.

Lemma tcp_frames_app c x y :
  wfb x -> wfb y ->
  tcp_frames c (x ++ y) =
  let '(e1, r1) := tcp_frames c x in let '(e2, r2) := tcp_frames_from c r1 y in (e1 ++ e2, r2).
Proof.
  intros Wx Wy. revert x Wx.
  apply (tcp_frames_ind c (fun x out => tcp_frames c (x ++ y) =
    let '(e1, r1) := out in let '(e2, r2) := tcp_frames_from c r1 y in (e1 ++ e2, r2))).
  - intros bs. cbn [tcp_frames_from]. destruct (tcp_frames c (bs ++ y)). reflexivity.
  - intros bs Hbs. apply Hbs. exact Wy.
  - intros f rest e r Hf Wr IH. rewrite <- app_assoc, tcp_frames_frame, IH; try assumption.
    + destruct (tcp_frames_from c r y). reflexivity.
    + apply wfb_app. split; assumption.
Qed.

Definition tcp_ev_clean (e : tcp_ev) : Prop :=
  match e with TMsg _ | TClose => True | _ => False end.

Lemma tcp_frames_clean c bs : wfb bs -> Forall tcp_ev_clean (fst (tcp_frames c bs)).
Proof.
  apply (tcp_frames_ind c (fun _ out => Forall tcp_ev_clean (fst out))).
  - constructor.
  - repeat constructor.
  - intros f rest e r _ _ IH. constructor; [exact I|exact IH].
Qed.

Lemma tcp_frames_concat c fs :
  Forall (tcp_frame c) fs -> tcp_frames c (concat fs) = (map TMsg fs, Some []).
Proof.
  induction 1 as [|f tl Hf Htl IH]; [reflexivity|]. cbn [concat map].
  rewrite tcp_frames_frame, IH; [reflexivity|assumption|].
  apply tcp_concat_wfb. apply (Forall_impl _ (fun f H => proj1 H) Htl).
Qed.

Definition tcp_wf (c : tcp_cfg) (s : tcp_rstate) : Prop :=
  match s with
  | TIdle | TClosed => True
  | THdr h => wfb h /\ exists b0 r, h = b0 :: r /\ len h < tcp_hdr_len b0
  | TBody acc total =>
      wfb acc /\ exists b0 r size,
        acc = b0 :: r /\ tcp_hdr_len b0 <= len acc < total /\
        tcp_parse_size (take (tcp_hdr_len b0) acc) = Some size /\
        tcp_oversize c size = false /\ total = tcp_hdr_size b0 + size
  end.

(* what a well-formed state holds is an incomplete frame *)
Lemma tcp_frames_from_nil c s :
  tcp_wf c s -> tcp_frames_from c (tcp_pending s) [] = ([], tcp_pending s).
Proof.
  destruct s as [|h|acc total|]; cbn [tcp_wf tcp_pending tcp_frames_from]; [reflexivity| | |reflexivity].
  - intros (_ & b0 & r & -> & Hl). rewrite app_nil_r. apply tcp_frames_short. exact Hl.
  - intros (W & b0 & r & size & -> & Hl & Hs & Ho & ->).
    rewrite (tcp_frames_hdr c b0 r size [] W (Forall_nil _) (proj1 Hl) Hs), Ho. cbv zeta.
    rewrite app_nil_r. replace (len (b0 :: r) <? tcp_hdr_size b0 + size) with true by lia.
    reflexivity.
Qed.

Lemma tcp_wf_pending_wfb c s pend : tcp_wf c s -> tcp_pending s = Some pend -> wfb pend.
Proof.
  destruct s; cbn [tcp_wf tcp_pending]; intros W [= <-]; try constructor; destruct W; assumption.
Qed.

Lemma tcp_frames_from_app c s a b :
  tcp_wf c s -> wfb a -> wfb b ->
  tcp_frames_from c (tcp_pending s) (a ++ b) =
  let '(e1, r1) := tcp_frames_from c (tcp_pending s) a in
  let '(e2, r2) := tcp_frames_from c r1 b in (e1 ++ e2, r2).
Proof.
  intros W Wa Wb. destruct (tcp_pending s) as [pend|] eqn:Ep; [|reflexivity].
  cbn [tcp_frames_from]. rewrite app_assoc. apply tcp_frames_app; [|assumption].
  apply wfb_app. split; [exact (tcp_wf_pending_wfb c s pend W Ep)|assumption].
Qed.

Lemma tcp_pending_none s : tcp_pending s = None -> s = TClosed.
Proof. destruct s; cbn [tcp_pending]; congruence. Qed.

(* the session fields are a function of the bytes held *)
Lemma tcp_pending_inj c s1 s2 :
  tcp_wf c s1 -> tcp_wf c s2 -> tcp_pending s1 = tcp_pending s2 -> s1 = s2.
Proof.
  destruct s1 as [|h1|a1 t1|]; destruct s2 as [|h2|a2 t2|]; cbn [tcp_wf tcp_pending];
    intros W1 W2 H; try reflexivity; try discriminate; inversion H; subst.
  - destruct W2 as (_ & b0 & r & E & _). discriminate.
  - destruct W2 as (_ & b0 & r & size & E & _). discriminate.
  - destruct W1 as (_ & b0 & r & E & _). discriminate.
  - reflexivity.
  - destruct W1 as (_ & b0 & r & E1 & H1). destruct W2 as (_ & b0' & r' & size & E2 & H2 & _).
    rewrite E1 in E2. inversion E2; subst. lia.
  - destruct W1 as (_ & b0 & r & size & E & _). discriminate.
  - destruct W2 as (_ & b0 & r & E2 & H2). destruct W1 as (_ & b0' & r' & size & E1 & H1 & _).
    rewrite E1 in E2. inversion E2; subst. lia.
  - destruct W1 as (_ & b0 & r & size & E1 & _ & Hs1 & _ & ->).
    destruct W2 as (_ & b0' & r' & size' & E2 & _ & Hs2 & _ & ->).
    rewrite E1 in E2. inversion E2; subst. rewrite Hs1 in Hs2. inversion Hs2. reflexivity.
Qed.

(* What one pass of the reader's loop owes the splitter: from a state that holds [held], given
   p, it reports e1 and leaves [rest] unread, and the split of held ++ p is e1 followed by the
   split of what the new state holds ++ rest. *)
Definition tcp_step_ok c (held : option bytes) (p : bytes) (out : tcp_rstate * list tcp_ev * bytes) :=
  let '(s1, e1, rest) := out in
  tcp_wf c s1 /\ wfb rest /\ (length rest < length p)%nat /\
  tcp_frames_from c held p =
  let '(e2, r2) := tcp_frames_from c (tcp_pending s1) rest in (e1 ++ e2, r2).

Lemma tcp_step_keep c pend p s1 pend1 rest :
  tcp_pending s1 = Some pend1 -> pend1 ++ rest = pend ++ p ->
  tcp_wf c s1 -> wfb rest -> (length rest < length p)%nat ->
  tcp_step_ok c (Some pend) p (s1, [], rest).
Proof.
  intros Ep E W1 Wr Hl. repeat split; try assumption. rewrite Ep. cbn [tcp_frames_from].
  rewrite E. destruct (tcp_frames c (pend ++ p)). reflexivity.
Qed.

Lemma tcp_step_msg c pend p f rest :
  f ++ rest = pend ++ p -> tcp_frame c f -> wfb rest -> (length rest < length p)%nat ->
  tcp_step_ok c (Some pend) p (TIdle, [TMsg f], rest).
Proof.
  intros E Hf Wr Hl. repeat split; try assumption. cbn [tcp_frames_from tcp_pending app].
  rewrite <- E, tcp_frames_frame by assumption. destruct (tcp_frames c rest). reflexivity.
Qed.

(* Copying n = min (missing, available) bytes from p to [cur] does not overshoot [target]; the
   loop's test "n = missing" asks whether it has been reached. *)
Lemma tcp_fill cur p target :
  let n := Z.min (target - len cur) (len p) in
  let cur' := cur ++ take n p in
  wfb cur -> len cur < target -> wfb p -> p <> [] ->
  wfb cur' /\ wfb (drop n p) /\ (length (drop n p) < length p)%nat /\ cur' ++ drop n p = cur ++ p /\
  len cur < len cur' <= target /\ (n =? target - len cur) = (len cur' =? target).
Proof.
  intros n cur' Wc Hl Wp Hp.
  assert (Hlp : 1 <= len p) by (destruct p; [congruence|rewrite len_cons; pose proof (len_nonneg p); lia]).
  assert (Hlen : len cur' = len cur + n) by (unfold cur'; rewrite len_app, len_take; lia).
  repeat split; try lia.
  - apply wfb_app. split; [assumption|apply wfb_take; assumption].
  - apply wfb_drop. assumption.
  - apply tcp_length_drop; [lia|assumption].
  - unfold cur'. rewrite <- app_assoc, take_drop. reflexivity.
Qed.

Lemma tcp_iter_idle c p :
  wfb p -> p <> [] -> tcp_step_ok c (Some []) p (tcp_iter true c TIdle p).
Proof.
  intros Wp Hp. destruct p as [|b r]; [congruence|]. apply wfb_cons in Wp as [Hb Wr].
  cbn [tcp_iter]. pose proof (tcp_hdr_size_le_len b). pose proof (tcp_hdr_len_range b).
  replace (tcp_hdr_size b =? 0) with false by lia.
  eapply tcp_step_keep; [reflexivity|reflexivity| |assumption|cbn [length]; lia].
  split; [apply wfb_cons; split; [assumption|constructor]|]. exists b, []. split; [reflexivity|].
  rewrite len_cons, len_nil. lia.
Qed.

Lemma tcp_iter_hdr c h p :
  tcp_wf c (THdr h) -> wfb p -> p <> [] -> tcp_step_ok c (Some h) p (tcp_iter true c (THdr h) p).
Proof.
  intros (Wh & b0 & hr & -> & Hl) Wp Hp. cbn [tcp_iter].
  change (tcp_hdr_size b0 + tcp_tok_ext b0) with (tcp_hdr_len b0).
  destruct (tcp_fill (b0 :: hr) p (tcp_hdr_len b0) Wh Hl Wp Hp) as (Wh' & Wd & Hd & Happ & Hlen & ->).
  set (n := Z.min (tcp_hdr_len b0 - len (b0 :: hr)) (len p)) in *.
  change ((b0 :: hr) ++ take n p) with (b0 :: (hr ++ take n p)) in *.
  set (h' := b0 :: (hr ++ take n p)) in *.
  pose proof (tcp_hdr_len_range b0) as Hr. pose proof (tcp_hdr_size_le_len b0) as Hr'.
  replace (tcp_hdr_buf <? len h') with false by (unfold tcp_hdr_buf; lia).
  destruct (len h' =? tcp_hdr_len b0) eqn:E.
  - destruct (tcp_announced_size h' b0 _ eq_refl ltac:(lia)) as (size & Hs & -> & Hb).
    specialize (Hb Wh').
    destruct (tcp_oversize c size) eqn:Eo; [|destruct (size =? 0) eqn:Ez].
    + repeat split; [constructor|destruct p; [congruence|cbn [length]; lia]|].
      cbn [tcp_frames_from tcp_pending]. rewrite <- Happ. subst h'.
      rewrite (tcp_frames_hdr c b0 (hr ++ take n p) size (drop n p)), Eo by (assumption || lia).
      reflexivity.
    + apply (tcp_step_msg c _ p h'); try assumption. split; [assumption|].
      exists b0, (hr ++ take n p), size. repeat split; try assumption; lia.
    + eapply tcp_step_keep; try eassumption; [reflexivity|]. split; [assumption|].
      exists b0, (hr ++ take n p), size. repeat split; try assumption; lia.
  - eapply tcp_step_keep; try eassumption; [reflexivity|]. split; [assumption|].
    exists b0, (hr ++ take n p). split; [reflexivity|lia].
Qed.

Lemma tcp_iter_body c acc total p :
  tcp_wf c (TBody acc total) -> wfb p -> p <> [] ->
  tcp_step_ok c (Some acc) p (tcp_iter true c (TBody acc total) p).
Proof.
  intros (Wa & b0 & ar & size & -> & Hl & Hs & Ho & ->) Wp Hp. cbn [tcp_iter].
  destruct (tcp_fill (b0 :: ar) p _ Wa (proj2 Hl) Wp Hp) as (Wa' & Wd & Hd & Happ & Hlen & ->).
  set (n := Z.min (tcp_hdr_size b0 + size - len (b0 :: ar)) (len p)) in *.
  assert (Hs' : tcp_parse_size (take (tcp_hdr_len b0) ((b0 :: ar) ++ take n p)) = Some size)
    by (rewrite tcp_take_app_le by lia; exact Hs).
  destruct (len ((b0 :: ar) ++ take n p) =? tcp_hdr_size b0 + size) eqn:E.
  - apply (tcp_step_msg c _ p ((b0 :: ar) ++ take n p)); try assumption. split; [assumption|].
    exists b0, (ar ++ take n p), size. repeat split; try assumption; lia.
  - eapply tcp_step_keep; try eassumption; [reflexivity|]. split; [assumption|].
    exists b0, (ar ++ take n p), size. repeat split; try assumption; lia.
Qed.

Lemma tcp_iter_refines c s p :
  tcp_wf c s -> wfb p -> p <> [] -> tcp_step_ok c (tcp_pending s) p (tcp_iter true c s p).
Proof.
  destruct s as [|h|acc total|]; intros W Wp Hp;
    [apply tcp_iter_idle|apply tcp_iter_hdr|apply tcp_iter_body|]; try assumption.
  repeat split; [constructor|destruct p; [congruence|cbn [length]; lia]].
Qed.

Lemma tcp_loop_nil fuel fx c s : tcp_loop fuel fx c s [] = (s, []).
Proof. destruct fuel; reflexivity. Qed.

Lemma tcp_loop_refines c : forall fuel s p s' evs,
  tcp_wf c s -> wfb p -> (length p <= fuel)%nat ->
  tcp_loop fuel true c s p = (s', evs) ->
  tcp_wf c s' /\ tcp_frames_from c (tcp_pending s) p = (evs, tcp_pending s').
Proof.
  induction fuel as [|f IH]; intros s p s' evs W Wp HF Hl;
    (destruct p as [|b r];
     [rewrite tcp_loop_nil in Hl; injection Hl as <- <-; split;
      [assumption|apply tcp_frames_from_nil; assumption]|]); [cbn [length] in HF; lia|].
  cbn [tcp_loop] in Hl.
  pose proof (tcp_iter_refines c s (b :: r) W Wp ltac:(discriminate)) as Hit.
  destruct (tcp_iter true c s (b :: r)) as [[s1 e1] rest].
  destruct Hit as (W1 & Wr & Hlen & Hfr). cbn [length] in HF, Hlen.
  destruct (tcp_loop f true c s1 rest) as [s2 e2] eqn:Hl2. injection Hl as <- <-.
  destruct (IH s1 rest s2 e2 W1 Wr ltac:(lia) Hl2) as (W2 & Hrec).
  split; [assumption|]. rewrite Hfr, Hrec. reflexivity.
Qed.

Lemma tcp_feed_spec c s p s' evs :
  tcp_wf c s -> wfb p -> tcp_feed c s p = (s', evs) ->
  tcp_wf c s' /\ tcp_frames_from c (tcp_pending s) p = (evs, tcp_pending s').
Proof. intros W Wp Hf. exact (tcp_loop_refines c (length p) s p s' evs W Wp (le_n _) Hf). Qed.

(* the events of a run are the frames of (what was pending ++ what was fed): a function of the
   bytes alone *)
Theorem tcp_feed_frames c s p pend s' evs :
  tcp_wf c s -> wfb p -> tcp_pending s = Some pend -> tcp_feed c s p = (s', evs) ->
  tcp_frames c (pend ++ p) = (evs, tcp_pending s') /\ tcp_wf c s'.
Proof.
  intros W Wp Ep Hf. destruct (tcp_feed_spec c s p s' evs W Wp Hf) as (W' & H).
  rewrite Ep in H. split; assumption.
Qed.

Lemma tcp_feed_wf c s p s' evs :
  tcp_wf c s -> wfb p -> tcp_feed c s p = (s', evs) -> tcp_wf c s'.
Proof. intros W Wp Hf. apply (tcp_feed_spec c s p s' evs W Wp Hf). Qed.

Lemma tcp_feed_closed c p : tcp_feed c TClosed p = (TClosed, []).
Proof.
  destruct p as [|b r]; [reflexivity|]. unfold tcp_feed, tcp_feed_gen.
  cbn [length tcp_loop tcp_iter]. rewrite tcp_loop_nil. reflexivity.
Qed.

(* C05_tcp_split: feeding a ++ b is feeding a, then b *)
Theorem tcp_feed_app c s a b :
  tcp_wf c s -> wfb a -> wfb b ->
  tcp_feed c s (a ++ b) =
  let '(s1, e1) := tcp_feed c s a in
  let '(s2, e2) := tcp_feed c s1 b in (s2, e1 ++ e2).
Proof.
  intros W Wa Wb.
  destruct (tcp_feed c s (a ++ b)) as [s3 e3] eqn:H3.
  destruct (tcp_feed c s a) as [s1 e1] eqn:H1.
  destruct (tcp_feed c s1 b) as [s2 e2] eqn:H2.
  destruct (tcp_feed_spec c s a s1 e1 W Wa H1) as (W1 & F1).
  destruct (tcp_feed_spec c s1 b s2 e2 W1 Wb H2) as (W2 & F2).
  destruct (tcp_feed_spec c s (a ++ b) s3 e3 W) as (W3 & F3);
    [apply wfb_app; split; assumption|assumption|].
  rewrite tcp_frames_from_app, F1, F2 in F3 by assumption. injection F3 as <- Hp.
  f_equal. symmetry. apply (tcp_pending_inj c); assumption.
Qed.

(* any list of reads is equivalent to one read of the concatenation: the fact behind
   C05_tcp_chunking *)
Theorem tcp_feed_chunks_concat c : forall chunks s,
  tcp_wf c s -> Forall wfb chunks ->
  tcp_feed_chunks true c s chunks = tcp_feed c s (concat chunks).
Proof.
  induction chunks as [|p tl IH]; intros s W Wc; [reflexivity|].
  inversion Wc as [|? ? Wp Wtl]; subst.
  cbn [tcp_feed_chunks concat]. rewrite tcp_feed_app by (try apply tcp_concat_wfb; assumption).
  fold (tcp_feed c s p). destruct (tcp_feed c s p) as [s1 e1] eqn:H1.
  rewrite IH; [reflexivity|exact (tcp_feed_wf c s p s1 e1 W Wp H1)|assumption].
Qed.

Corollary tcp_chunking_independent c s ch1 ch2 :
  tcp_wf c s -> Forall wfb ch1 -> Forall wfb ch2 -> concat ch1 = concat ch2 ->
  tcp_feed_chunks true c s ch1 = tcp_feed_chunks true c s ch2.
Proof.
  intros W W1 W2 H. rewrite !tcp_feed_chunks_concat by assumption. rewrite H. reflexivity.
Qed.

(* no out-of-bounds access to read_header[], no fuel exhaustion *)
Theorem tcp_feed_clean c s p s' evs :
  tcp_wf c s -> wfb p -> tcp_feed c s p = (s', evs) -> Forall tcp_ev_clean evs.
Proof.
  intros W Wp Hf. destruct (tcp_feed_spec c s p s' evs W Wp Hf) as (_ & F).
  destruct (tcp_pending s) as [pend|] eqn:Ep; cbn [tcp_frames_from] in F.
  - change evs with (fst (evs, tcp_pending s')). rewrite <- F. apply tcp_frames_clean.
    apply wfb_app. split; [exact (tcp_wf_pending_wfb c s pend W Ep)|assumption].
  - injection F as <- _. constructor.
Qed.

Lemma tcp_feed_nil c s : tcp_feed c s [] = (s, []).
Proof. reflexivity. Qed.

Lemma tcp_read_session_S f fx c s avail :
  tcp_read_session (S f) fx c s avail =
  let chunk := take (tcp_rxbuf c) avail in
  let rest := drop (tcp_rxbuf c) avail in
  let '(s1, e1) := tcp_feed_gen fx c s chunk in
  match tcp_pending s1 with
  | None => (s1, e1, rest)
  | Some _ =>
      if len chunk =? tcp_rxbuf c then
        let '(s2, e2, r2) := tcp_read_session f fx c s1 rest in (s2, e1 ++ e2, r2)
      else (s1, e1, rest)
  end.
Proof. cbn [tcp_read_session]. destruct (tcp_feed_gen fx c s _) as [[] e1]; reflexivity. Qed.

(* one call of coap_read_session = the reader fed with everything that was available (the
   socket is drained unless the session was closed) *)
Lemma tcp_read_session_feed c : 0 < tcp_rxbuf c -> forall fuel s avail s' e' rest',
  tcp_wf c s -> wfb avail -> (length avail < fuel)%nat ->
  tcp_read_session fuel true c s avail = (s', e', rest') ->
  tcp_feed c s avail = (s', e') /\ (rest' = [] \/ s' = TClosed).
Proof.
  intros HR. induction fuel as [|f IH]; intros s avail s' e' rest' W Wa HF H; [lia|].
  rewrite tcp_read_session_S in H. cbv zeta in H. fold (tcp_feed c s) in H.
  pose proof (wfb_take (tcp_rxbuf c) _ Wa) as Wc. pose proof (wfb_drop (tcp_rxbuf c) _ Wa) as Wr.
  rewrite <- (take_drop (tcp_rxbuf c) avail) at 1. rewrite tcp_feed_app by assumption.
  destruct (tcp_feed c s (take (tcp_rxbuf c) avail)) as [s1 e1] eqn:H1.
  pose proof (tcp_feed_wf c s _ s1 e1 W Wc H1) as W1.
  pose proof (len_take_min (tcp_rxbuf c) avail ltac:(lia)) as Hc.
  pose proof (len_drop_max (tcp_rxbuf c) avail ltac:(lia)) as Hd.
  destruct (tcp_pending s1) eqn:Ep.
  2:{ apply tcp_pending_none in Ep. subst s1. injection H as <- <- <-.
      rewrite tcp_feed_closed, app_nil_r. split; [reflexivity|right; reflexivity]. }
  destruct (len (take (tcp_rxbuf c) avail) =? tcp_rxbuf c) eqn:E.
  - (* a full buffer: read again *)
    destruct (tcp_read_session f true c s1 _) as [[s2 e2] r2] eqn:H2. injection H as <- <- <-.
    destruct (IH s1 _ s2 e2 r2 W1 Wr ltac:(unfold len in *; lia) H2) as (-> & Hr2).
    split; [reflexivity|exact Hr2].
  - (* a short read: the socket is empty *)
    injection H as <- <- <-.
    assert (Hnil : drop (tcp_rxbuf c) avail = []) by (apply drop_all; lia).
    rewrite Hnil, tcp_feed_nil, app_nil_r. split; [reflexivity|left; reflexivity].
Qed.

Lemma tcp_pump_cons f fx c s b r :
  tcp_pump (S f) fx c s (b :: r) =
  match tcp_pending s with
  | None => (s, [])
  | Some _ =>
      let '(s1, e1, rest) := tcp_read_session (S (length (b :: r))) fx c s (b :: r) in
      let '(s2, e2) := tcp_pump f fx c s1 rest in (s2, e1 ++ e2)
  end.
Proof. destruct s; reflexivity. Qed.

Lemma tcp_pump_done fuel fx c s rest :
  rest = [] \/ s = TClosed -> tcp_pump fuel fx c s rest = (s, []).
Proof. intros [-> | ->]; destruct fuel; try destruct rest; reflexivity. Qed.

(* the level-triggered event loop delivers exactly what one big read would: its first call of
   coap_read_session leaves nothing for a second *)
Theorem tcp_pump_feed c : 0 < tcp_rxbuf c -> forall fuel s avail,
  tcp_wf c s -> wfb avail -> (length avail < fuel)%nat ->
  tcp_pump fuel true c s avail = tcp_feed c s avail.
Proof.
  intros HR fuel s avail W Wa HF.
  destruct avail as [|b r]; [destruct fuel; reflexivity|]. destruct fuel as [|f]; [lia|].
  rewrite tcp_pump_cons. destruct (tcp_pending s) eqn:Ep.
  2:{ apply tcp_pending_none in Ep. subst s. rewrite tcp_feed_closed. reflexivity. }
  destruct (tcp_read_session _ true c s (b :: r)) as [[s1 e1] rest] eqn:H1.
  destruct (tcp_read_session_feed c HR _ _ _ s1 e1 rest W Wa (Nat.lt_succ_diag_r _) H1)
    as (-> & Hrest).
  rewrite tcp_pump_done, app_nil_r by assumption. reflexivity.
Qed.

(* C05_tcp_arrivals_one_read: however the kernel delivers the stream, the result is that of one read *)
Theorem tcp_arrivals_feed c : 0 < tcp_rxbuf c -> forall arr s,
  tcp_wf c s -> Forall wfb arr ->
  tcp_arrivals true c s arr = tcp_feed c s (concat arr).
Proof.
  intros HR. induction arr as [|a tl IH]; intros s W Wc; [reflexivity|].
  inversion Wc as [|? ? Wa Wtl]; subst.
  cbn [tcp_arrivals concat]. rewrite tcp_pump_feed by (try assumption; lia).
  rewrite tcp_feed_app by (try apply tcp_concat_wfb; assumption).
  destruct (tcp_feed c s a) as [s1 e1] eqn:H1.
  rewrite IH; [reflexivity|exact (tcp_feed_wf c s a s1 e1 W Wa H1)|assumption].
Qed.

Corollary tcp_arrivals_independent c s arr1 arr2 :
  0 < tcp_rxbuf c -> tcp_wf c s -> Forall wfb arr1 -> Forall wfb arr2 ->
  concat arr1 = concat arr2 -> tcp_arrivals true c s arr1 = tcp_arrivals true c s arr2.
Proof.
  intros HR W W1 W2 H. rewrite !tcp_arrivals_feed by assumption. rewrite H. reflexivity.
Qed.

Definition tcp_msg_size (m : msg) : Z := len (token_area (m_token m)) + len (content_area m).

(* the message fits the 32-bit length form and both caps *)
Definition tcp_msg_fits (c : tcp_cfg) (m : msg) : Prop :=
  len (content_area m) < 65805 + 4294967296 /\ tcp_oversize c (tcp_msg_size m) = false.

Lemma tcp_first_byte q k : 0 <= k < 16 -> (16 * q + k) / 16 = q /\ (16 * q + k) mod 16 = k.
Proof. lia. Qed.

(* coap_pdu_parse_size reads back the Len that coap_pdu_encode_header wrote *)
Lemma tcp_parse_size_header m more :
  len (content_area m) < 65805 + 4294967296 ->
  tcp_parse_size (header TCP m ++ more) =
  tcp_add_tok (len (content_area m)) (tkl_nib (m_token m)) more.
Proof.
  intros Hfit. pose proof (tkl_nib_range (m_token m)) as Ht.
  pose proof (len_nonneg (content_area m)) as Hl.
  set (l := len (content_area m)) in *. set (k := tkl_nib (m_token m)) in *.
  assert (Hb : forall q, (16 * q + k) / 16 = q /\ (16 * q + k) mod 16 = k)
    by (intros q; apply tcp_first_byte; lia).
  unfold header. fold l k.
  destruct (l <=? 12) eqn:E1; [|destruct (l <=? 268) eqn:E2; [|destruct (l <=? 65804) eqn:E3]].
  - cbn [app tcp_parse_size]. destruct (Hb l) as (-> & ->).
    replace (l <? 13) with true by lia. reflexivity.
  - change (208 + k) with (16 * 13 + k). cbn [app tcp_parse_size]. destruct (Hb 13) as (-> & ->).
    cbn [Z.ltb Z.eqb Z.compare Pos.compare Pos.compare_cont Pos.eqb]. f_equal. lia.
  - change (224 + k) with (16 * 14 + k). cbn [app be16 tcp_parse_size].
    destruct (Hb 14) as (-> & ->).
    cbn [Z.ltb Z.eqb Z.compare Pos.compare Pos.compare_cont Pos.eqb]. f_equal. clear Hb. lia.
  - change (240 + k) with (16 * 15 + k). cbn [app be32 tcp_parse_size].
    destruct (Hb 15) as (-> & ->).
    cbn [Z.ltb Z.eqb Z.compare Pos.compare Pos.compare_cont Pos.eqb]. f_equal. clear Hb. lia.
Qed.

Lemma tcp_tok_size_token_area t more :
  len t <= 65804 ->
  tcp_tok_size (tkl_nib t) (token_area t ++ more) = Some (len (token_area t)) /\
  (if tkl_nib t =? 13 then 1 else if tkl_nib t =? 14 then 2 else 0) <= len (token_area t).
Proof.
  intros Hl. pose proof (len_nonneg t) as H0. unfold tcp_tok_size, tkl_nib, token_area.
  destruct (len t <? 13) eqn:E1.
  - rewrite E1. replace (len t =? 13) with false by lia. replace (len t =? 14) with false by lia.
    split; [reflexivity|lia].
  - destruct (len t <? 269) eqn:E2.
    + cbn [Z.ltb Z.eqb Z.compare Pos.compare Pos.compare_cont Pos.eqb app].
      rewrite len_cons. split; [f_equal; lia|lia].
    + cbn [Z.ltb Z.eqb Z.compare Pos.compare Pos.compare_cont Pos.eqb app be16].
      rewrite !len_cons. split; [f_equal; lia|lia].
Qed.

Lemma tcp_serialize_frame c m : msg_wf m -> tcp_msg_fits c m -> tcp_frame c (serialize TCP m).
Proof.
  intros W (Hfit & Hover). split; [apply serialize_wfb; assumption|].
  destruct (header_shape TCP m) as (b0 & tl & Hh & Hsz & Htk).
  destruct (tcp_tok_size_token_area (m_token m) (content_area m)) as (Htok & Hte);
    [apply W|].
  pose proof (len_nonneg (content_area m)) as Hc.
  assert (Hlen : len (serialize TCP m) = tcp_hdr_size b0 + tcp_msg_size m).
  { unfold serialize, tcp_msg_size, tcp_hdr_size. rewrite !len_app, Hsz. reflexivity. }
  assert (Hhl : tcp_hdr_len b0 <= len (serialize TCP m)).
  { rewrite Hlen. unfold tcp_hdr_len, tcp_msg_size, tcp_tok_ext. rewrite Htk. lia. }
  assert (Heq : serialize TCP m = b0 :: tl ++ token_area (m_token m) ++ content_area m)
    by (unfold serialize; rewrite Hh; reflexivity).
  destruct (tcp_announced_size _ b0 _ Heq Hhl) as (size & Hs & Hs' & _).
  exists b0, (tl ++ token_area (m_token m) ++ content_area m), (tcp_msg_size m).
  repeat split; try assumption. rewrite Hs, <- Hs'. unfold serialize.
  rewrite tcp_parse_size_header by assumption. unfold tcp_add_tok. rewrite Htok.
  unfold tcp_msg_size. f_equal. lia.
Qed.

Lemma tcp_serialize_frames c ms :
  Forall (fun m => msg_wf m /\ tcp_msg_fits c m) ms -> Forall (tcp_frame c) (map (serialize TCP) ms).
Proof.
  intros H. apply Forall_map.
  apply (Forall_impl _ (fun m H => tcp_serialize_frame c m (proj1 H) (proj2 H)) H).
Qed.

Lemma tcp_feed_concat c fs :
  Forall (tcp_frame c) fs -> tcp_feed c TIdle (concat fs) = (TIdle, map TMsg fs).
Proof.
  intros H. destruct (tcp_feed c TIdle (concat fs)) as [s' evs] eqn:Hf.
  destruct (tcp_feed_spec c TIdle (concat fs) s' evs I) as (W' & F); [|exact Hf|].
  { apply tcp_concat_wfb. apply (Forall_impl _ (fun f H => proj1 H) H). }
  cbn [tcp_frames_from tcp_pending app] in F. rewrite tcp_frames_concat in F by assumption.
  injection F as <- Hp. f_equal. apply (tcp_pending_inj c); [assumption|exact I|symmetry; exact Hp].
Qed.

(* C05_tcp_frames *)
Theorem tcp_feed_stream c ms :
  Forall (fun m => msg_wf m /\ tcp_msg_fits c m) ms ->
  tcp_feed c TIdle (concat (map (serialize TCP) ms)) =
  (TIdle, map (fun m => TMsg (serialize TCP m)) ms).
Proof.
  intros H. rewrite tcp_feed_concat, map_map by (apply tcp_serialize_frames; exact H). reflexivity.
Qed.

(* every one of these frames is accepted by the PDU parser and decodes to the message *)
Theorem tcp_observe_stream ms :
  Forall msg_wf ms ->
  tcp_observe (map (fun m => TMsg (serialize TCP m)) ms) = map (fun m => TDeliver (norm_fields TCP m)) ms.
Proof.
  induction 1 as [|m tl W _ IH]; [reflexivity|].
  cbn [map tcp_observe tcp_observe_ev]. rewrite parse_serialize by assumption.
  f_equal. exact IH.
Qed.

(* C05_tcp_oversize: as soon as the header of an oversized frame is complete the session is
   closed; nothing of the frame is kept and later bytes are ignored *)
Theorem tcp_oversize_closes c h b0 r size rest :
  h = b0 :: r -> wfb h -> wfb rest -> len h = tcp_hdr_len b0 ->
  tcp_parse_size h = Some size -> tcp_oversize c size = true ->
  tcp_feed c TIdle (h ++ rest) = (TClosed, [TClose]).
Proof.
  intros -> Wh Wr Hlen Hs Ho.
  destruct (tcp_feed c TIdle ((b0 :: r) ++ rest)) as [s' evs] eqn:Hf.
  destruct (tcp_feed_spec c TIdle ((b0 :: r) ++ rest) s' evs I) as (_ & F);
    [apply wfb_app; split; assumption|exact Hf|].
  cbn [tcp_frames_from tcp_pending app] in F.
  change (b0 :: r ++ rest) with ((b0 :: r) ++ rest) in F.
  rewrite (tcp_frames_hdr c b0 r size rest), Ho in F;
    [|assumption|assumption|lia|rewrite take_all by lia; exact Hs].
  injection F as <- Hp. f_equal. apply tcp_pending_none. symmetry. exact Hp.
Qed.

(* "partial_read += bytes_read" after "bytes_read -= n": a TCP8 message (3-byte header) read as
   1 + 1 + rest loses the second byte *)
Definition tcp_wit_cfg := tcp_cfg_of_mtu tcp_hard_cap_default.
Definition tcp_wit_msg : bytes := [208; 1; 1; 177; 97; 255; 1; 2; 3; 4; 5; 6; 7; 8; 9; 10; 11].
Definition tcp_wit_chunks : list bytes := [[208]; [1]; [1; 177; 97; 255; 1; 2; 3; 4; 5; 6; 7; 8; 9; 10; 11]].

Theorem tcp_orig_refuted :
  exists c chunks, snd (tcp_feed_chunks false c TIdle chunks) <> snd (tcp_feed_orig c TIdle (concat chunks)).
Proof. exists tcp_wit_cfg, tcp_wit_chunks. vm_compute. discriminate. Qed.

(* non-vacuity: the same chunking of the same message on the repaired reader *)
Example tcp_fixed_witness :
  tcp_feed_chunks true tcp_wit_cfg TIdle tcp_wit_chunks = (TIdle, [TMsg tcp_wit_msg]) /\
  tcp_feed tcp_wit_cfg TIdle tcp_wit_msg = (TIdle, [TMsg tcp_wit_msg]).
Proof. vm_compute. split; reflexivity. Qed.
