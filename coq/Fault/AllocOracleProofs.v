(* C18 - correctness of the allocation-trace oracle:
     fa_verdict tr = FaClean  <->  fa_spec tr
   plus soundness of the reported culprits (leak ids are allocated and never released, a
   reported double free really is one).
   The oracle's state is related to the ids the prefix read so far has allocated ([pa]) and
   released ([pf]); one lemma says what a step does under that relation, and every theorem
   about whole traces is a short induction over it. *)
From LibcoapV Require Import Base.Tactics Fault.AllocOracle.
Local Open Scope Z_scope.

Lemma fa_mem_In : forall i l, fa_mem i l = true <-> In i l.
Proof.
  unfold fa_mem. intros i l. rewrite existsb_exists. split.
  - intros (x & Hx & E). apply Z.eqb_eq in E. subst. exact Hx.
  - intros H. exists i. split; [exact H | apply Z.eqb_refl].
Qed.

Lemma fa_mem_nIn : forall i l, fa_mem i l = false <-> ~ In i l.
Proof. intros i l. rewrite <- fa_mem_In. symmetry. apply not_true_iff_false. Qed.

Lemma fa_remove_In : forall i l x, NoDup l -> (In x (fa_remove i l) <-> In x l /\ x <> i).
Proof.
  induction l as [|y tl IH]; intros x ND; cbn [fa_remove]; [cbn; tauto|].
  inversion ND as [|? ? Hy NDt]; subst.
  destruct (y =? i) eqn:E; cbn [In].
  - apply Z.eqb_eq in E. subst y. intuition congruence.
  - apply Z.eqb_neq in E. rewrite (IH x NDt). intuition congruence.
Qed.

Lemma fa_remove_NoDup : forall i l, NoDup l -> NoDup (fa_remove i l).
Proof.
  induction l as [|y tl IH]; intros ND; cbn [fa_remove]; [constructor|].
  inversion ND as [|? ? Hy NDt]; subst.
  destruct (y =? i); [exact NDt|].
  constructor; [|apply IH; exact NDt].
  intros H. apply (fa_remove_In i tl y NDt) in H. tauto.
Qed.

(* recursive form of the specification, relative to what the prefix allocated/released *)
Definition fa_ev_ok (pa pf : list Z) (e : fa_ev) : Prop :=
  (forall i, In i (fa_ev_allocs e) -> 0 < i /\ ~ In i pa) /\
  (forall i, In i (fa_ev_frees e) -> In i pa /\ ~ In i pf) /\
  (forall i, In i (fa_ev_uses e) -> In i pa /\ ~ In i pf).

Fixpoint fa_ok_from (pa pf : list Z) (tr : list fa_ev) : Prop :=
  match tr with
  | [] => forall i, In i pa -> In i pf
  | e :: tl => fa_ev_ok pa pf e /\ fa_ok_from (pa ++ fa_ev_allocs e) (pf ++ fa_ev_frees e) tl
  end.

(* an event lists at most one id of each kind *)
Lemma fa_all_nil : forall P : Z -> Prop, (forall i, In i [] -> P i) <-> True.
Proof. intros P. split; [trivial | intros _ i []]. Qed.

Lemma fa_all_one : forall (P : Z -> Prop) x, (forall i, In i [x] -> P i) <-> P x.
Proof.
  intros P x. split; [intros H; apply H; left; reflexivity | intros H i [<-|[]]; exact H].
Qed.

Definition fa_repr (pa pf : list Z) (st : fa_state) : Prop :=
  (forall i, In i (snd st) <-> In i pa) /\
  (forall i, In i (fst st) <-> In i pa /\ ~ In i pf) /\
  NoDup (fst st) /\
  (forall i, In i pf -> In i pa).

Lemma fa_repr_init : fa_repr [] [] ([], []).
Proof.
  unfold fa_repr; cbn [fst snd]. split; [tauto|]. split; [cbn; tauto|]. split; [constructor|tauto].
Qed.

Lemma fa_alloc_id_spec : forall pa pf st i,
  fa_repr pa pf st ->
  match fa_alloc_id st i with
  | inl st1 => (0 < i /\ ~ In i pa) /\ fa_repr (pa ++ [i]) pf st1
  | inr r => ~ (0 < i /\ ~ In i pa) /\ r = FaIllFormed i
  end.
Proof.
  intros pa pf [live seen] i (Hs & Hl & ND & Hsub). unfold fa_alloc_id. cbn [fst snd] in *.
  destruct (i <=? 0) eqn:E1; cbn [orb]; [split; [lia|reflexivity]|].
  destruct (fa_mem i seen) eqn:E2.
  - apply fa_mem_In, Hs in E2. split; [tauto|reflexivity].
  - apply fa_mem_nIn in E2. rewrite Hs in E2.
    assert (Hn : ~ In i pf) by (intros Hf; exact (E2 (Hsub i Hf))).
    split; [split; [lia|exact E2]|]. unfold fa_repr; cbn [fst snd]. split; [|split; [|split]].
    + intros x. cbn [In]. rewrite in_app_iff, Hs. cbn [In]. tauto.
    + intros x. cbn [In]. rewrite in_app_iff, Hl. cbn [In]. split; [|tauto].
      intros [<-|H]; [split; [right; left; reflexivity|exact Hn] | tauto].
    + constructor; [|exact ND]. rewrite Hl. tauto.
    + intros x Hx. rewrite in_app_iff. left. exact (Hsub x Hx).
Qed.

Lemma fa_free_id_spec : forall pa pf st i,
  fa_repr pa pf st ->
  match fa_free_id st i with
  | inl st1 => (In i pa /\ ~ In i pf) /\ fa_repr pa (pf ++ [i]) st1
  | inr r => ~ (In i pa /\ ~ In i pf) /\ (r = FaDoubleFree i /\ In i pf \/ r = FaBadFree i)
  end.
Proof.
  intros pa pf [live seen] i (Hs & Hl & ND & Hsub). unfold fa_free_id. cbn [fst snd] in *.
  destruct (fa_mem i live) eqn:E.
  - apply fa_mem_In, Hl in E. split; [exact E|].
    unfold fa_repr; cbn [fst snd]. split; [exact Hs|split; [|split]].
    + intros x. rewrite (fa_remove_In i live x ND), Hl, in_app_iff. cbn [In]. split.
      * intros [[Ha Hf] Hne]. split; [exact Ha|]. intros [Hc|[Hc|[]]]; [tauto|congruence].
      * intros [Ha Hf]. split; [tauto|]. intros ->. tauto.
    + apply fa_remove_NoDup. exact ND.
    + intros x. rewrite in_app_iff. cbn [In]. intros [Hx|[<-|[]]]; [exact (Hsub x Hx)|tauto].
  - apply fa_mem_nIn in E. rewrite Hl in E.
    destruct (fa_mem i seen) eqn:E2; (split; [exact E|]); [left|right; reflexivity].
    apply fa_mem_In, Hs in E2. split; [reflexivity|].
    destruct (in_dec Z.eq_dec i pf); tauto.
Qed.

(* what an error verdict of a single step tells: it is not one of the verdicts of a complete
   run, and a double free names an id the event releases and the prefix released already *)
Definition fa_err_ok (pf : list Z) (e : fa_ev) (r : fa_result) : Prop :=
  match r with
  | FaClean | FaLeak _ => False
  | FaDoubleFree i => In i (fa_ev_frees e) /\ In i pf
  | _ => True
  end.

Lemma fa_step_spec : forall pa pf st e,
  fa_repr pa pf st ->
  match fa_step st e with
  | inl st1 => fa_ev_ok pa pf e /\ fa_repr (pa ++ fa_ev_allocs e) (pf ++ fa_ev_frees e) st1
  | inr r => ~ fa_ev_ok pa pf e /\ fa_err_ok pf e r
  end.
Proof.
  intros pa pf st e HR. unfold fa_ev_ok.
  destruct e as [i| |i| |o n|o]; cbn [fa_step fa_ev_allocs fa_ev_frees fa_ev_uses].
  - pose proof (fa_alloc_id_spec pa pf st i HR) as H.
    destruct (fa_alloc_id st i) as [st1|r]; rewrite fa_all_one, !fa_all_nil, ?app_nil_r;
      [tauto | destruct H as [H ->]; cbn; tauto].
  - rewrite !fa_all_nil, !app_nil_r. tauto.
  - pose proof (fa_free_id_spec pa pf st i HR) as H.
    destruct (fa_free_id st i) as [st1|r]; rewrite fa_all_one, !fa_all_nil, ?app_nil_r;
      [tauto | destruct H as [H [[-> Hf]| ->]]; cbn; tauto].
  - rewrite !fa_all_nil, !app_nil_r. tauto.
  - destruct (o =? 0) eqn:Eo.
    + pose proof (fa_alloc_id_spec pa pf st n HR) as H.
      destruct (fa_alloc_id st n) as [st1|r]; rewrite fa_all_one, !fa_all_nil, ?app_nil_r;
        [tauto | destruct H as [H ->]; cbn; tauto].
    + pose proof (fa_free_id_spec pa pf st o HR) as H.
      destruct (fa_free_id st o) as [st1|r]; [destruct H as [H HR1]|].
      * pose proof (fa_alloc_id_spec pa _ st1 n HR1) as H1.
        destruct (fa_alloc_id st1 n) as [st2|r]; rewrite !fa_all_one, fa_all_nil;
          [tauto | destruct H1 as [H1 ->]; cbn; tauto].
      * rewrite !fa_all_one, fa_all_nil.
        destruct H as [H [[-> Hf]| ->]]; cbn; rewrite ?Eo; cbn; tauto.
  - destruct (o =? 0); [rewrite !fa_all_nil, !app_nil_r; tauto|].
    destruct HR as (Hs & Hl & ND & Hsub).
    destruct (fa_mem o (fst st)) eqn:E; rewrite fa_all_one, !fa_all_nil, ?app_nil_r.
    + apply fa_mem_In, Hl in E. unfold fa_repr. tauto.
    + apply fa_mem_nIn in E. rewrite Hl in E. cbn. tauto.
Qed.

Lemma fa_run_ok_from : forall tr pa pf st,
  fa_repr pa pf st -> (fa_run st tr = FaClean <-> fa_ok_from pa pf tr).
Proof.
  induction tr as [|e tl IH]; intros pa pf st HR; cbn [fa_run fa_ok_from].
  - destruct HR as (_ & Hl & _). destruct (fst st) as [|x l].
    + split; [intros _ i Hi|reflexivity].
      destruct (in_dec Z.eq_dec i pf) as [Hf|Hf]; [exact Hf|].
      destruct (proj2 (Hl i) (conj Hi Hf)).
    + split; [discriminate|]. intros H.
      destruct (proj1 (Hl x) (or_introl eq_refl)) as [Ha Hf]. destruct (Hf (H x Ha)).
  - pose proof (fa_step_spec pa pf st e HR) as HS.
    destruct (fa_step st e) as [st1|r]; destruct HS as [He HR1].
    + rewrite (IH _ _ _ HR1). tauto.
    + split; [intros ->; destruct HR1 | tauto].
Qed.

(* the recursive form is the positional one *)
Lemma fa_ok_from_pos : forall tr pa pf,
  fa_ok_from pa pf tr <->
  (forall pre e post, tr = pre ++ e :: post ->
     fa_ev_ok (pa ++ fa_allocs pre) (pf ++ fa_frees pre) e) /\
  (forall i, In i (pa ++ fa_allocs tr) -> In i (pf ++ fa_frees tr)).
Proof.
  induction tr as [|e tl IH]; intros pa pf; cbn [fa_ok_from].
  - cbn [fa_allocs fa_frees flat_map]. rewrite !app_nil_r. split; [intros H|tauto].
    split; [intros [|] ? ? E; discriminate E | exact H].
  - rewrite IH. unfold fa_allocs, fa_frees. cbn [flat_map]. rewrite !app_assoc. split.
    + intros (He & H & L). split; [|exact L].
      intros [|e1 pre] e0 post E; injection E as <- ->.
      * cbn [flat_map]. rewrite !app_nil_r. exact He.
      * cbn [flat_map]. rewrite !app_assoc. exact (H pre e0 post eq_refl).
    + intros [H L]. split; [|split; [|exact L]].
      * specialize (H [] e tl eq_refl). cbn [flat_map] in H. rewrite !app_nil_r in H. exact H.
      * intros pre e0 post ->. specialize (H (e :: pre) e0 post eq_refl).
        cbn [flat_map] in H. rewrite !app_assoc in H. exact H.
Qed.

Lemma fa_spec_ok_from : forall tr, fa_spec tr <-> fa_ok_from [] [] tr.
Proof.
  intros tr. rewrite fa_ok_from_pos. cbn [app]. split.
  - intros [Ha Hf Hu L]. split; [|exact L]. intros pre e post E.
    split; [|split]; intros i Hi;
      [exact (Ha _ _ _ _ E Hi) | exact (Hf _ _ _ _ E Hi) | exact (Hu _ _ _ _ E Hi)].
  - intros [H L]. constructor; [| | |exact L]; intros pre e post i E Hi;
      destruct (H pre e post E) as (Ha & Hf & Hu);
      [exact (Ha i Hi) | exact (Hf i Hi) | exact (Hu i Hi)].
Qed.

Theorem fa_verdict_clean_iff : forall tr, fa_verdict tr = FaClean <-> fa_spec tr.
Proof.
  intros tr. rewrite fa_spec_ok_from. apply fa_run_ok_from, fa_repr_init.
Qed.

Lemma fa_run_leak_sound : forall tr pa pf st ids,
  fa_repr pa pf st -> fa_run st tr = FaLeak ids ->
  ids <> [] /\
  forall i, In i ids <-> In i (pa ++ fa_allocs tr) /\ ~ In i (pf ++ fa_frees tr).
Proof.
  induction tr as [|e tl IH]; intros pa pf st ids HR H; cbn [fa_run] in H.
  - destruct HR as (_ & Hl & _).
    destruct (fst st) as [|x l]; [discriminate|]. injection H as <-.
    split; [discriminate|]. cbn [fa_allocs fa_frees flat_map]. rewrite !app_nil_r. exact Hl.
  - pose proof (fa_step_spec pa pf st e HR) as HS.
    destruct (fa_step st e) as [st1|r]; destruct HS as [_ HR1].
    + unfold fa_allocs, fa_frees. cbn [flat_map]. rewrite !app_assoc. exact (IH _ _ _ _ HR1 H).
    + subst r. destruct HR1.
Qed.

Theorem fa_verdict_leak_sound : forall tr ids,
  fa_verdict tr = FaLeak ids ->
  ids <> [] /\ forall i, In i ids <-> In i (fa_allocs tr) /\ ~ In i (fa_frees tr).
Proof.
  intros tr ids H. exact (fa_run_leak_sound tr [] [] _ ids fa_repr_init H).
Qed.

Lemma fa_run_double_free_sound : forall tr pa pf st i,
  fa_repr pa pf st -> fa_run st tr = FaDoubleFree i ->
  exists pre e post, tr = pre ++ e :: post /\ In i (fa_ev_frees e) /\
                     In i (pf ++ fa_frees pre).
Proof.
  induction tr as [|e tl IH]; intros pa pf st i HR H; cbn [fa_run] in H.
  - destruct (fst st); discriminate.
  - pose proof (fa_step_spec pa pf st e HR) as HS.
    destruct (fa_step st e) as [st1|r]; destruct HS as [_ HR1].
    + destruct (IH _ _ _ _ HR1 H) as (pre & e0 & post & -> & Hi & Hf).
      exists (e :: pre), e0, post. split; [reflexivity|]. split; [exact Hi|].
      unfold fa_frees. cbn [flat_map]. rewrite app_assoc. exact Hf.
    + subst r. destruct HR1 as [Hi Hf]. exists [], e, tl.
      split; [reflexivity|]. split; [exact Hi|]. rewrite app_nil_r. exact Hf.
Qed.

Theorem fa_verdict_double_free_sound : forall tr i,
  fa_verdict tr = FaDoubleFree i ->
  exists pre e post, tr = pre ++ e :: post /\ In i (fa_ev_frees e) /\ In i (fa_frees pre).
Proof.
  intros tr i H. exact (fa_run_double_free_sound tr [] [] _ i fa_repr_init H).
Qed.

Lemma fa_ok_from_nodup : forall tr pa pf,
  fa_ok_from pa pf tr -> NoDup pf -> NoDup (pf ++ fa_frees tr).
Proof.
  induction tr as [|e tl IH]; intros pa pf H ND; cbn [fa_ok_from] in H.
  - cbn. rewrite app_nil_r. exact ND.
  - destruct H as [(_ & Hf & _) H]. unfold fa_frees. cbn [flat_map]. rewrite app_assoc.
    apply (IH _ _ H). clear H.
    assert (H1 : forall a, (In a pa /\ ~ In a pf) -> NoDup (pf ++ [a])).
    { intros a [_ Ha]. apply (NoDup_Add (Add_app a pf [])). rewrite app_nil_r. tauto. }
    destruct e as [a| |a| |o n|o]; cbn [fa_ev_frees] in *; try destruct (o =? 0);
      rewrite ?app_nil_r; try exact ND; apply H1, Hf; left; reflexivity.
Qed.

Theorem fa_spec_no_double_free : forall tr, fa_spec tr -> NoDup (fa_frees tr).
Proof.
  intros tr H. apply fa_spec_ok_from in H.
  exact (fa_ok_from_nodup tr [] [] H (NoDup_nil Z)).
Qed.

(* non-vacuity: a trace with a growing buffer, a failed allocation, a failed realloc *)
Example fa_example_clean :
  fa_spec [FaAlloc 1; FaAlloc 2; FaRealloc 2 3; FaAllocFail; FaReallocFail 3; FaFreeNull;
           FaFree 3; FaRealloc 0 4; FaFree 1; FaFree 4].
Proof. apply fa_verdict_clean_iff. reflexivity. Qed.

Example fa_example_leak :
  fa_verdict [FaAlloc 1; FaAlloc 2; FaRealloc 2 3; FaFree 1] = FaLeak [3].
Proof. reflexivity. Qed.

Example fa_example_double_free :
  fa_verdict [FaAlloc 1; FaFree 1; FaAlloc 2; FaFree 1; FaFree 2] = FaDoubleFree 1.
Proof. reflexivity. Qed.

Example fa_example_stale_realloc :
  fa_verdict [FaAlloc 1; FaRealloc 1 2; FaRealloc 1 3; FaFree 2] = FaDoubleFree 1.
Proof. reflexivity. Qed.

Example fa_example_wild_free : fa_verdict [FaAlloc 1; FaFree 0; FaFree 1] = FaBadFree 0.
Proof. reflexivity. Qed.

Example fa_example_not_spec :
  ~ fa_spec [FaAlloc 1; FaAlloc 2; FaFree 1].
Proof. intros H. apply fa_verdict_clean_iff in H. discriminate H. Qed.
