(* C18 - in every branch of the send path, failure branches included, the PDU handed to
   coap_send is consumed: released exactly once or held by exactly one queue. *)
From Coq Require Import Bool.
From LibcoapV Require Import Fault.SendOwner.

(* A property of outcomes holds of a conditional when it holds of both branches; the test taken
   is kept as a hypothesis.  Applied repeatedly it visits each leaf of a decision tree once. *)
Lemma fa_if : forall (f : fa_send_out -> bool) (c : bool) a b,
  (c = true -> f a = true) -> (c = false -> f b = true) -> f (if c then a else b) = true.
Proof. intros f [|] a b Ha Hb; auto. Qed.

(* What coap_send_internal may hand back to coap_send_lkd: a settled outcome without lg_crcv
   entry, never RetOne, and RetDropped only from the loop detection of a 5.08 response. *)
Definition fa_internal_ok (is508 : bool) (o : fa_send_out) : bool :=
  fa_send_ok o && fa_own_eqb (so_lg o) OwNone &&
  match so_ret o with RetMid | RetInvalid => true | RetDropped => is508 | RetOne => false end.

(* Every leaf is acceptable whatever path leads to it; only whether the loop detection is on
   and whether a node is wanted have to be known, because the leaves mention them. *)
Lemma fa_send_internal_ok : forall v, fa_internal_ok (se_is_508 v) (fa_send_internal v) = true.
Proof.
  intro v. cbv beta zeta delta [fa_send_internal].
  destruct (se_is_508 v); cbn [andb];
    destruct (se_con v && negb (se_reliable v));
    repeat (apply fa_if; intros _); reflexivity.
Qed.

(* Recording the lg_crcv entry (listed, or released when the send failed) leaves every clause of
   [fa_send_ok] as it was, provided the PDU was not dropped. *)
Lemma fa_lg_ok : forall o,
  fa_internal_ok false o = true ->
  fa_send_ok (Build_fa_send_out (so_ret o) (so_pdu o) (so_enc o) (so_node o) (so_dnode o)
                (match so_ret o with RetInvalid => OwFreed | _ => OwListed end)) = true.
Proof.
  intros [r p e n dn lg] H. unfold fa_internal_ok in H.
  cbn [so_ret so_pdu so_enc so_node so_dnode so_lg] in *.
  apply andb_prop in H as [H Hr]. apply andb_prop in H as [H Hlg].
  destruct lg; try discriminate Hlg. destruct r; try discriminate Hr; exact H.
Qed.

Theorem fa_send_consumes : forall v, fa_env_wf v -> fa_send_ok (fa_send v) = true.
Proof.
  intros v [Wlg W508].
  (* lg_crcv entries are for requests, and a request is not a 5.08 *)
  assert (Hlg : se_need_lg_crcv v = true -> se_is_508 v = false).
  { intro N. destruct (se_is_508 v); [|reflexivity].
    rewrite (Wlg N) in W508. discriminate (W508 eq_refl). }
  unfold fa_send.
  generalize (fa_send_internal_ok v). generalize (fa_send_internal v). intros o Hi.
  assert (Ho : fa_send_ok o = true).
  { unfold fa_internal_ok in Hi.
    apply andb_prop in Hi as [Hi _]. apply andb_prop in Hi as [Hi _]. exact Hi. }
  repeat (apply fa_if; intro); try reflexivity; try exact Ho.
  apply fa_lg_ok. rewrite Hlg in Hi by assumption. exact Hi.
Qed.

(* what the driver observes is a projection of the outcome, and the acceptor demands of it no
   more than [fa_send_ok] demands of the caller's PDU *)
Lemma fa_send_ok_obs : forall o, fa_send_ok o = true -> fa_obs_ok (fa_send_obs o) = true.
Proof.
  intros [r p e n dn lg]. unfold fa_send_ok, fa_send_obs, fa_cur.
  cbn [so_ret so_pdu so_enc so_node so_dnode so_lg].
  rewrite !andb_true_iff. intros [[[[[_ Hp] He] _] _] Hr].
  destruct p; try discriminate Hp; try reflexivity;
    (destruct e; try discriminate He; destruct r; try discriminate Hr; reflexivity).
Qed.

Theorem fa_send_obs_accepted : forall v, fa_env_wf v -> fa_obs_ok (fa_send_obs (fa_send v)) = true.
Proof. intros v W. apply fa_send_ok_obs, fa_send_consumes, W. Qed.

(* the acceptor is not trivially true *)
Example fa_obs_rejects_leak : fa_obs_ok (false, true, false, false) = false.
Proof. reflexivity. Qed.
Example fa_obs_rejects_double_hold : fa_obs_ok (true, true, true, true) = false.
Proof. reflexivity. Qed.
Example fa_obs_rejects_freed_in_queue : fa_obs_ok (true, false, true, false) = false.
Proof. reflexivity. Qed.

(* [fa_env_wf] is not vacuous: a Confirmable request over UDP in block mode, everything
   succeeding, ends in the send queue with its lg_crcv entry listed *)
Definition fa_env_plain : fa_send_env :=
  Build_fa_send_env true true true false true true true false true true true false false
                    true true false false true false true true false false true true true
                    true false true false true false true false true false true.

Example fa_plain_wf : fa_env_wf fa_env_plain.
Proof. split; intros; reflexivity || discriminate. Qed.

Example fa_plain_in_sendq :
  so_ret (fa_send fa_env_plain) = RetMid /\ so_pdu (fa_send fa_env_plain) = OwSendQ /\
  so_lg (fa_send fa_env_plain) = OwListed.
Proof. vm_compute. repeat split; reflexivity. Qed.
