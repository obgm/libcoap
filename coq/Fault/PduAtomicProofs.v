(* C18 - PDU layer atomicity under any allocation-failure pattern. *)
From LibcoapV Require Import Base.Tactics Base.Bytes Base.BytesProofs Wire.OptCodec Wire.Pdu
  Wire.Build Fault.PduAtomic.
Local Open Scope Z_scope.

(* the growth loop terminates above the requested size (fuel is never exhausted) *)
Lemma fa_grow_ge : forall fuel new size,
  0 < new -> size <= new + Z.of_nat fuel -> size <= fa_grow fuel new size.
Proof.
  induction fuel as [|f IH]; intros new size Hn Hs; cbn [fa_grow].
  - lia.
  - destruct (new <? size) eqn:E.
    + apply IH; lia.
    + lia.
Qed.

Lemma fa_first_size_ge : forall alloc size, size <= fa_first_size alloc size.
Proof.
  intros alloc size. unfold fa_first_size. apply fa_grow_ge; [lia|].
  destruct (Z_le_gt_dec size 0); [lia|].
  rewrite Nat2Z.inj_succ, Z2Nat.id by lia. lia.
Qed.

Definition fa_failed_between (fails : nat -> bool) (n n1 : nat) : Prop :=
  exists k, (n <= k < n1)%nat /\ fails k = true.

Lemma fa_failed_between_mono : forall fails n n1 m m1,
  (m <= n)%nat -> (n1 <= m1)%nat -> fa_failed_between fails n n1 -> fa_failed_between fails m m1.
Proof. intros fails n n1 m m1 Hm Hm1 (k & Hk & Hf). exists k. split; [lia|exact Hf]. Qed.

(* What coap_pdu_resize and coap_pdu_check_resize have in common when asked for [size] bytes:
   alloc_size stays within max_size, success means that the size is within max_size, and a
   refusal of a size within max_size is a failed attempt *)
Definition fa_alloc_ok (fails : nat -> bool) (n : nat) (mx alloc size : Z)
  (res : bool * Z * nat) : Prop :=
  let '(ok, a, n1) := res in
  (n <= n1)%nat /\ 0 <= a /\ (mx <> 0 -> a <= mx) /\
  (ok = true -> mx = 0 \/ size <= mx) /\
  (ok = false -> a = alloc /\ ((mx = 0 \/ size <= mx) -> fa_failed_between fails n n1)).

(* a refusal leaves alloc_size alone and, for a size within max_size, has seen a failed attempt;
   a grant is of a size within max_size *)
Lemma fa_alloc_ok_refused : forall fails n n1 mx alloc size,
  0 <= alloc -> (mx <> 0 -> alloc <= mx) -> (n <= n1)%nat ->
  (mx = 0 \/ size <= mx -> fa_failed_between fails n n1) ->
  fa_alloc_ok fails n mx alloc size (false, alloc, n1).
Proof.
  intros fails n n1 mx alloc size Ha Hm Hn Hf.
  split; [exact Hn|]. split; [exact Ha|]. split; [exact Hm|]. split; [discriminate|].
  intros _. split; [reflexivity|exact Hf].
Qed.

Lemma fa_alloc_ok_granted : forall fails n n1 mx alloc size a,
  0 <= a -> (mx <> 0 -> a <= mx) -> (n <= n1)%nat -> mx = 0 \/ size <= mx ->
  fa_alloc_ok fails n mx alloc size (true, a, n1).
Proof.
  intros fails n n1 mx alloc size a Ha Hm Hn Hfit.
  split; [exact Hn|]. split; [exact Ha|]. split; [exact Hm|]. split; [intros _; exact Hfit|discriminate].
Qed.

Lemma fa_resize_ok : forall fails n mx alloc new,
  0 <= alloc -> (mx <> 0 -> alloc <= mx) -> 0 <= new ->
  fa_alloc_ok fails n mx alloc new (fa_resize fails n mx alloc new).
Proof.
  intros fails n mx alloc new Ha Hm Hn. unfold fa_resize, fa_try.
  destruct (alloc <? new) eqn:E1; [|apply fa_alloc_ok_granted; lia].
  destruct (negb (mx =? 0) && (mx <? new)) eqn:E2.
  { apply fa_alloc_ok_refused; [exact Ha|exact Hm|lia|intros [E|E]; lia]. }
  destruct (fails n) eqn:EF; cbn [negb]; [|apply fa_alloc_ok_granted; lia].
  apply fa_alloc_ok_refused; [exact Ha|exact Hm|lia|]. intros _. exists n. split; [lia|exact EF].
Qed.

Lemma fa_alloc_ok_le : forall fails n mx alloc size new res,
  size <= new -> (mx = 0 \/ new <= mx) ->
  fa_alloc_ok fails n mx alloc new res -> fa_alloc_ok fails n mx alloc size res.
Proof.
  intros fails n mx alloc size new [[ok a] n1] Hs Hfit (L1 & L2 & L3 & L4 & L5).
  split; [exact L1|]. split; [exact L2|]. split; [exact L3|]. split.
  - intros Hok. destruct (L4 Hok); lia.
  - intros Hok. destruct (L5 Hok) as [E G]. split; [exact E|]. intros _. exact (G Hfit).
Qed.

Lemma fa_check_resize_ok : forall fails n mx alloc size,
  0 <= alloc -> (mx <> 0 -> alloc <= mx) -> 0 <= size ->
  fa_alloc_ok fails n mx alloc size (fa_check_resize fails n mx alloc size).
Proof.
  intros fails n mx alloc size Ha Hm Hs. unfold fa_check_resize.
  generalize (fa_first_size alloc size) (fa_first_size_ge alloc size). intros g HG.
  destruct (alloc <? size) eqn:E1.
  - destruct (negb (mx =? 0) && (mx <? g)) eqn:E2.
    + (* capped to max_size *)
      destruct (mx <? size) eqn:E3.
      * apply fa_alloc_ok_refused; [exact Ha|exact Hm|lia|intros [E|E]; lia].
      * apply (fa_alloc_ok_le _ _ _ _ size mx); [lia|lia|]. apply fa_resize_ok; lia.
    + destruct (g <? size) eqn:E3; [lia|].
      apply (fa_alloc_ok_le _ _ _ _ size g); [lia|lia|]. apply fa_resize_ok; lia.
  - apply fa_alloc_ok_granted; lia.
Qed.

Lemma fits_iff : forall p size, fits p size = true <-> (p_max p = 0 \/ size <= p_max p).
Proof. intros. unfold fits. lia. Qed.

Lemma used_nonneg : forall m, 0 <= used m.
Proof. intros. unfold used, len. lia. Qed.

Lemma opt_encode_size_nonneg : forall d l, 0 <= l -> 0 <= opt_encode_size d l.
Proof. intros d l Hl. unfold opt_encode_size, ext_size. repeat case_if; lia. Qed.

Lemma add_opt_raw_false : forall q num v,
  fst (add_opt_raw q num v) = false -> snd (add_opt_raw q num v) = q.
Proof. intros q num v. unfold add_opt_raw. repeat case_if; cbn [fst snd]; congruence. Qed.

(* atomicity of one step against its specification [s], the result of the fault-free
   builder on the message [q]: success is the specified result; a failure leaves the message
   untouched, and either the specification fails as well or an allocation attempt failed *)
Definition fa_atomic (fails : nat -> bool) (n : nat) (q : pdu) (s : bool * pdu)
  (out : bool * fa_pdu * nat) : Prop :=
  let '(r, p1, n1) := out in
  fa_inv p1 /\ (n <= n1)%nat /\
  (r = true -> s = (true, fp_pdu p1)) /\
  (r = false -> fp_pdu p1 = q /\ (s = (false, q) \/ fa_failed_between fails n n1)).

Lemma fa_atomic_refuse : forall fails n p,
  fa_inv p -> fa_atomic fails n (fp_pdu p) (false, fp_pdu p) (false, p, n).
Proof.
  intros fails n p HI. split; [exact HI|]. split; [lia|]. split; [discriminate|].
  intros _. split; [reflexivity|left; reflexivity].
Qed.

(* the shape shared by token, option and payload: ask for [size] bytes, then write [new] or
   keep the message and record the alloc_size *)
Lemma fa_atomic_commit : forall fails n p size new res,
  fa_inv p -> p_max new = p_max (fp_pdu p) ->
  fa_alloc_ok fails n (p_max (fp_pdu p)) (fp_alloc p) size res ->
  fa_atomic fails n (fp_pdu p)
    (if fits (fp_pdu p) size then (true, new) else (false, fp_pdu p))
    (let '(ok, a, n1) := res in
     if ok then (true, mkFaPdu new a, n1) else (false, fa_set_alloc p a, n1)).
Proof.
  intros fails n p size new [[ok a] n1] [Ha Hm] Hmax (L1 & L2 & L3 & L4 & L5).
  unfold fa_atomic, fa_inv, fa_set_alloc. destruct ok; cbn [fp_pdu fp_alloc].
  - rewrite (proj2 (fits_iff _ size) (L4 eq_refl)), Hmax.
    repeat split; try assumption; discriminate.
  - destruct (L5 eq_refl) as [-> L6].
    split; [split; assumption|]. split; [exact L1|]. split; [discriminate|].
    intros _. split; [reflexivity|].
    destruct (fits (fp_pdu p) size) eqn:F; [right|left; reflexivity].
    apply L6, fits_iff, F.
Qed.

Lemma fa_add_opt_raw_atomic : forall fails n p num v,
  fa_inv p ->
  fa_atomic fails n (fp_pdu p) (add_opt_raw (fp_pdu p) num v) (fa_add_opt_raw fails n p num v).
Proof.
  intros fails n p num v HI. unfold fa_add_opt_raw, add_opt_raw. cbv zeta.
  case_if; [apply fa_atomic_refuse; exact HI|].
  apply fa_atomic_commit; [exact HI|reflexivity|].
  destruct HI as [Ha Hm]. apply fa_check_resize_ok; [exact Ha|exact Hm|].
  pose proof (used_nonneg (p_msg (fp_pdu p))) as Hu.
  apply Z.add_nonneg_nonneg; [exact Hu|]. apply opt_encode_size_nonneg, len_nonneg.
Qed.

Definition fa_hop_added (q : pdu) : pdu := snd (add_opt_raw q 16 [16]).

(* every builder operation is atomic against Build.apply_op, except a Proxy-Uri /
   Proxy-Scheme option with the implicit Hop-Limit: that one is two atomic insertions, and the
   result of the first is ignored *)
Lemma fa_apply_op_cases : forall fails n p o,
  fa_inv p ->
  fa_atomic fails n (fp_pdu p) (apply_op (fp_pdu p) o) (fa_apply_op fails n p o) \/
  exists num v r0 p0 n0,
    o = OpOpt num v /\ fa_hop_step (fp_pdu p) num = true /\
    fa_atomic fails n (fp_pdu p) (add_opt_raw (fp_pdu p) 16 [16]) (r0, p0, n0) /\
    apply_op (fp_pdu p) o = add_opt_raw (fa_hop_added (fp_pdu p)) num v /\
    fa_atomic fails n0 (fp_pdu p0) (add_opt_raw (fp_pdu p0) num v) (fa_apply_op fails n p o).
Proof.
  intros fails n p o HI. pose proof HI as [Ha Hm].
  destruct o as [t|num v|d]; unfold fa_apply_op, apply_op; cbv zeta.
  - left. case_if; [apply fa_atomic_refuse; exact HI|].
    case_if; [apply fa_atomic_refuse; exact HI|].
    apply fa_atomic_commit; [exact HI|reflexivity|].
    apply fa_check_resize_ok; [exact Ha|exact Hm|apply len_nonneg].
  - destruct (m_payload (p_msg (fp_pdu p))); [|left; apply fa_atomic_refuse; exact HI].
    case_if; [left; apply fa_atomic_refuse; exact HI|].
    fold (fa_hop_step (fp_pdu p) num). destruct (fa_hop_step (fp_pdu p) num) eqn:EH.
    + right. pose proof (fa_add_opt_raw_atomic fails n p 16 [16] HI) as A0.
      destruct (fa_add_opt_raw fails n p 16 [16]) as [[r0 p0] n0].
      exists num, v, r0, p0, n0. split; [reflexivity|]. split; [exact EH|].
      split; [exact A0|]. split; [reflexivity|].
      apply fa_add_opt_raw_atomic. exact (proj1 A0).
    + left. apply fa_add_opt_raw_atomic. exact HI.
  - left. destruct d as [|b d']; [repeat split; try exact HI; try lia; discriminate|].
    destruct (m_payload (p_msg (fp_pdu p))); [|apply fa_atomic_refuse; exact HI].
    apply fa_atomic_commit; [exact HI|reflexivity|].
    apply fa_resize_ok; [exact Ha|exact Hm|].
    pose proof (used_nonneg (p_msg (fp_pdu p))). pose proof (len_nonneg (b :: d')). lia.
Qed.

(* what the statements below ask of a step that is atomic from attempt [m] on *)
Lemma fa_atomic_elim : forall fails n m q s r p1 n1,
  (n <= m)%nat -> fa_atomic fails m q s (r, p1, n1) ->
  (r = true -> s = (true, fp_pdu p1)) /\ (r = false -> fp_pdu p1 = q) /\
  (r = false -> fst s = true -> fa_failed_between fails n n1).
Proof.
  intros fails n m q s r p1 n1 Hm (_ & _ & S & F).
  split; [exact S|]. split; [intros Hr; exact (proj1 (F Hr))|].
  intros Hr Hs. destruct (F Hr) as [_ [E|G]]; [rewrite E in Hs; discriminate Hs|].
  exact (fa_failed_between_mono _ _ _ _ _ Hm (le_n n1) G).
Qed.

(* C18, PDU layer: every builder operation, under ANY failure pattern *)
Theorem fa_apply_op_atomic : forall fails n p o r p1 n1,
  fa_inv p -> fa_apply_op fails n p o = (r, p1, n1) ->
  fa_inv p1 /\ (n <= n1)%nat /\
  (* success: the result is the specified one; if the implicit Hop-Limit of a Proxy-Uri /
     Proxy-Scheme option could not be allocated, the one specified for the message without
     that step *)
  (r = true ->
     apply_op (fp_pdu p) o = (true, fp_pdu p1) \/
     (exists num v, o = OpOpt num v /\ fa_hop_step (fp_pdu p) num = true /\
                    add_opt_raw (fp_pdu p) num v = (true, fp_pdu p1))) /\
  (* failure: the abstract message is untouched, except that the implicit Hop-Limit may
     already have been inserted (as in the model without faults) *)
  (r = false ->
     fp_pdu p1 = fp_pdu p \/
     (exists num v, o = OpOpt num v /\ fa_hop_step (fp_pdu p) num = true /\
                    fp_pdu p1 = fa_hop_added (fp_pdu p))) /\
  (* a failure that the fault-free specification does not have is due to a failed attempt *)
  (r = false -> fst (apply_op (fp_pdu p) o) = true -> fa_failed_between fails n n1).
Proof.
  intros fails n p o r p1 n1 HI H.
  destruct (fa_apply_op_cases fails n p o HI)
    as [A|(num & v & r0 & p0 & n0 & -> & EH & A0 & ES & A1)]; rewrite H in *.
  - destruct (fa_atomic_elim fails n n _ _ _ _ _ (le_n n) A) as (S & F & G).
    destruct A as (I1 & N1 & _). tauto.
  - destruct A0 as (I0 & N0 & S0 & F0). pose proof A1 as (I1 & N1 & _).
    split; [exact I1|]. split; [lia|]. destruct r0.
    + (* Hop-Limit inserted: the specification, on the message that has it *)
      assert (EQ : fa_hop_added (fp_pdu p) = fp_pdu p0)
        by (unfold fa_hop_added; rewrite (S0 eq_refl); reflexivity).
      rewrite EQ in ES. rewrite <- ES in A1.
      destruct (fa_atomic_elim fails n n0 _ _ _ _ _ N0 A1) as (S & F & G).
      split; [intros Hr; left; exact (S Hr)|]. split; [|exact G].
      intros Hr. right. exists num, v. rewrite EQ. auto.
    + destruct (F0 eq_refl) as [E0 [EA|G0]]; rewrite E0 in A1.
      * (* the specification could not insert it either *)
        assert (EQ : fa_hop_added (fp_pdu p) = fp_pdu p)
          by (unfold fa_hop_added; rewrite EA; reflexivity).
        rewrite EQ in ES. rewrite <- ES in A1.
        destruct (fa_atomic_elim fails n n0 _ _ _ _ _ N0 A1) as (S & F & G). tauto.
      * (* its allocation failed: the option goes in without it *)
        destruct A1 as (_ & _ & S1 & F1).
        split; [intros Hr; right; exists num, v; auto|].
        split; [intros Hr; left; exact (proj1 (F1 Hr))|].
        intros _ _. exact (fa_failed_between_mono _ _ _ _ _ (le_n n) N1 G0).
Qed.

(* without failures the model is exactly Wire/Build.v (C01's builder) *)
Lemma fa_atomic_nofault : forall fails n q s r p1 n1,
  (forall k, fails k = false) -> fa_atomic fails n q s (r, p1, n1) -> s = (r, fp_pdu p1).
Proof.
  intros fails n q s r p1 n1 HF (_ & _ & S & F). destruct r; [exact (S eq_refl)|].
  destruct (F eq_refl) as [-> [E|(k & _ & Hk)]]; [exact E|].
  rewrite HF in Hk. discriminate Hk.
Qed.

Theorem fa_apply_op_nofault : forall fails n p o r p1 n1,
  (forall k, fails k = false) -> fa_inv p ->
  fa_apply_op fails n p o = (r, p1, n1) ->
  apply_op (fp_pdu p) o = (r, fp_pdu p1).
Proof.
  intros fails n p o r p1 n1 HF HI H.
  destruct (fa_apply_op_cases fails n p o HI)
    as [A|(num & v & r0 & p0 & n0 & _ & _ & A0 & -> & A1)]; rewrite H in *.
  - exact (fa_atomic_nofault _ _ _ _ _ _ _ HF A).
  - unfold fa_hop_added. rewrite (fa_atomic_nofault _ _ _ _ _ _ _ HF A0).
    exact (fa_atomic_nofault _ _ _ _ _ _ _ HF A1).
Qed.

(* coap_pdu_init: a PDU or nothing *)
Theorem fa_pdu_init_atomic : forall fails n ty code mid size,
  0 <= size ->
  match fa_pdu_init fails n ty code mid size with
  | (Some p, n1) => fp_pdu p = pdu_init ty code mid size /\ fa_inv p /\ n1 = S (S n) /\
                    fails n = false /\ fails (S n) = false
  | (None, n1) => fa_max_init < size \/ fa_failed_between fails n n1
  end.
Proof.
  intros fails n ty code mid size Hs. unfold fa_pdu_init, fa_try.
  destruct (fails n) eqn:E1; cbn [negb].
  - right. exists n. split; [lia|exact E1].
  - destruct (fa_max_init <? size) eqn:E2; [left; lia|].
    destruct (fails (S n)) eqn:E3; cbn [negb].
    + right. exists (S n). split; [lia|exact E3].
    + cbn [fp_pdu]. split; [reflexivity|]. split; [|tauto].
      unfold fa_inv, pdu_init; cbn [fp_alloc fp_pdu p_max]. lia.
Qed.

Theorem fa_run_ops_inv : forall fails ops n p rs p1 n1,
  fa_inv p -> fa_run_ops fails n p ops = (rs, p1, n1) ->
  fa_inv p1 /\ (n <= n1)%nat /\ length rs = length ops.
Proof.
  induction ops as [|o tl IH]; intros n p rs p1 n1 HI H; cbn [fa_run_ops] in H.
  - inversion H; subst. split; [exact HI|]. split; [lia|reflexivity].
  - destruct (fa_apply_op fails n p o) as [[r p2] n2] eqn:E1.
    destruct (fa_run_ops fails n2 p2 tl) as [[rs2 p3] n3] eqn:E2.
    inversion H; subst.
    destruct (fa_apply_op_atomic _ _ _ _ _ _ _ HI E1) as (I2 & N2 & _).
    destruct (IH _ _ _ _ _ I2 E2) as (I3 & N3 & L3).
    split; [exact I3|]. split; [lia|]. cbn [length]. rewrite L3. reflexivity.
Qed.

Theorem fa_run_ops_nofault : forall fails ops n p rs p1 n1,
  (forall k, fails k = false) -> fa_inv p ->
  fa_run_ops fails n p ops = (rs, p1, n1) ->
  run_ops (fp_pdu p) ops = (rs, fp_pdu p1).
Proof.
  induction ops as [|o tl IH]; intros n p rs p1 n1 HF HI H; cbn [fa_run_ops] in H; cbn [run_ops].
  - inversion H; subst. reflexivity.
  - destruct (fa_apply_op fails n p o) as [[r p2] n2] eqn:E1.
    destruct (fa_run_ops fails n2 p2 tl) as [[rs2 p3] n3] eqn:E2.
    inversion H; subst.
    rewrite (fa_apply_op_nofault _ _ _ _ _ _ _ HF HI E1).
    destruct (fa_apply_op_atomic _ _ _ _ _ _ _ HI E1) as (I2 & _).
    rewrite (IH _ _ _ _ _ HF I2 E2). reflexivity.
Qed.

(* non-vacuity: a concrete failure pattern makes exactly the growing operation fail and
   leaves the message as it was; and the strict form of atomicity does not hold for the
   implicit Hop-Limit step *)
Definition fa_ex_ops : list bop :=
  [OpToken [1; 2]; OpOpt 11 (repeat 7 100%nat); OpOpt 11 (repeat 8 200%nat); OpData [9; 9]].

Example fa_example_fault_hits :
  match fa_pdu_init (fa_fails_of [2%nat]) 0 0 1 77 1152 with
  | (Some p, n) =>
      let '(rs, p1, n1) := fa_run_ops (fa_fails_of [2%nat]) n p fa_ex_ops in
      rs = [true; true; false; true] /\
      m_opts (p_msg (fp_pdu p1)) = [(11, repeat 7 100%nat)] /\ n1 = 3%nat
  | _ => False
  end.
Proof. vm_compute. repeat split; reflexivity. Qed.

(* Proxy-Uri in a request whose implicit Hop-Limit allocation fails: the operation succeeds,
   but the message is not the one the fault-free builder produces *)
Theorem fa_strict_atomicity_refuted :
  exists fails n p o r p1 n1,
    fa_inv p /\ fa_apply_op fails n p o = (r, p1, n1) /\ r = true /\
    apply_op (fp_pdu p) o <> (true, fp_pdu p1).
Proof.
  exists (fa_fails_of [0%nat]), 0%nat,
         (mkFaPdu (mkPdu (mkMsg 0 1 7 [] [(11, repeat 65 254%nat)] []) 0) 256),
         (OpOpt 35 [99]).
  eexists. eexists. eexists.
  split; [unfold fa_inv; cbn; lia|]. split; [vm_compute; reflexivity|].
  split; [reflexivity|]. vm_compute. discriminate.
Qed.
