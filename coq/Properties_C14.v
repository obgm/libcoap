(* C14 - OSCORE protection round-trips, matches RFC 8613, and any tampering is rejected.
   Statements only; proofs live in Oscore/*Proofs.v.  The objects are the Gallina reference of
   Oscore/*.v (written from the RFCs, extracted and run against libcoap on every check). *)
From LibcoapV Require Import Base.Tactics Base.Bytes Wire.OptCodec Wire.Pdu Wire.PduProofs
  Oscore.Aes128 Oscore.Ccm Oscore.CcmProofs Oscore.Cbor Oscore.OscOption Oscore.OscOptionProofs
  Oscore.Protect Oscore.ProtectProofs Oscore.RangeProofs Oscore.DatagramProofs Oscore.Vectors.
Local Open Scope Z_scope.

(* the compressed COSE object (OSCORE option value): decoding inverts encoding *)
Theorem C14_option_roundtrip : forall piv kidctx kid,
  len piv <= 5 ->
  match kidctx with Some c => len c <= 255 | None => True end ->
  osc_opt_decode (osc_opt_encode piv kidctx kid) = Some (piv, kidctx, kid).
Proof. exact osc_opt_decode_encode. Qed.
Print Assumptions C14_option_roundtrip.

(* the decoder accepts only canonical encodings: a byte string that decodes IS the encoding of
   what it decodes to, so two different option values never carry the same content *)
Theorem C14_option_canonical : forall v piv kc kid,
  wfb v -> osc_opt_decode v = Some (piv, kc, kid) -> osc_opt_encode piv kc kid = v.
Proof. exact osc_opt_encode_decode. Qed.
Print Assumptions C14_option_canonical.

(* class E / class U split followed by the recipient's merge restores the option list, for
   every ascending option list and every way of classing option numbers *)
Theorem C14_split_merge : forall (P : Z -> bool) (l : list opt),
  ascending 0 l ->
  osc_merge (filter (fun o : opt => P (fst o)) l) (filter (fun o : opt => negb (P (fst o))) l) = l.
Proof. exact osc_split_merge. Qed.
Print Assumptions C14_split_merge.

(* what the recipient keeps of the outer options of a protected message are exactly the class U
   options of the original (the Observe copy and the OSCORE option are discarded) *)
Theorem C14_outer_kept : forall ov l,
  osc_kept_outer (insert_opt OSC_OPT ov (osc_outer_opts l)) = filter (fun o => osc_is_outer (fst o)) l.
Proof. exact osc_kept_of_sent. Qed.
Print Assumptions C14_outer_kept.

(* AES-CCM: decryption inverts encryption, for every key, nonce, AAD and message *)
Theorem C14_ccm_correct : forall key nonce aad msg,
  osc_ccm_dec key nonce aad (osc_ccm_enc key nonce aad msg) = Some msg.
Proof. exact osc_ccm_dec_enc. Qed.
Print Assumptions C14_ccm_correct.

(* the CTR key stream covers the whole message (the zero-extension of osc_xor is never used) *)
Theorem C14_ccm_stream_covers : forall key nonce n,
  0 <= n -> n <= len (osc_ccm_stream (osc_key_schedule key) nonce n).
Proof. exact osc_ccm_stream_covers. Qed.
Print Assumptions C14_ccm_stream_covers.

(* the two endpoints deriving from the same master secret / salt / id context are paired *)
Theorem C14_derived_contexts_paired : forall secret salt idctx a b,
  osc_paired (osc_derive secret salt idctx a b) (osc_derive secret salt idctx b a).
Proof. exact osc_derive_paired. Qed.
Print Assumptions C14_derived_contexts_paired.

(* unprotect (protect m) = m : requests *)
Theorem C14_request_roundtrip : forall c s m seq,
  osc_paired c s -> osc_ctx_ok c -> osc_msg_ok m -> 0 <= seq < 1099511627776 ->
  exists o, osc_protect_req c m seq = Some o /\ osc_unprotect_req s o = Some m.
Proof. exact osc_request_roundtrip. Qed.
Print Assumptions C14_request_roundtrip.

(* responses: with or without a Partial IV of their own; the Observe value of a
   notification comes back as the low bytes of the notification's Partial IV (RFC 8613
   4.1.3.5.2), everything else unchanged *)
Theorem C14_response_roundtrip : forall c s m req_piv send_piv seq,
  osc_paired c s -> osc_msg_ok m -> 0 <= seq < 1099511627776 ->
  exists o, osc_protect_resp s m req_piv send_piv seq = Some o /\
            osc_unprotect_resp c (m_token m) req_piv o =
            Some (osc_resp_view m (osc_resp_piv m send_piv seq)).
Proof. exact osc_response_roundtrip. Qed.
Print Assumptions C14_response_roundtrip.

Theorem C14_response_roundtrip_without_observe : forall c s m req_piv send_piv seq,
  osc_paired c s -> osc_msg_ok m -> 0 <= seq < 1099511627776 ->
  osc_has OSC_OBSERVE (m_opts m) = false ->
  exists o, osc_protect_resp s m req_piv send_piv seq = Some o /\
            osc_unprotect_resp c (m_token m) req_piv o = Some m.
Proof. exact osc_response_roundtrip_plain. Qed.
Print Assumptions C14_response_roundtrip_without_observe.

(* datagram level: protect, serialise for UDP, parse (C01's codec theorem), verify = the
   original message; needs byte-valued context material (true of every derived context) *)
Theorem C14_request_datagram_roundtrip : forall c s m seq,
  osc_paired c s -> osc_sec_bytes c -> msg_wf m -> osc_is_request (m_code m) = true ->
  osc_has OSC_OPT (m_opts m) = false -> osc_has 35 (m_opts m) = false ->
  0 <= seq < 1099511627776 ->
  exists o, osc_protect_req c m seq = Some o /\
            match parse UDP (serialize UDP o) with
            | Some o' => osc_unprotect_req s o'
            | None => None
            end = Some m.
Proof. exact osc_request_datagram_roundtrip. Qed.
Print Assumptions C14_request_datagram_roundtrip.

Theorem C14_response_datagram_roundtrip : forall c s m req_piv send_piv seq,
  osc_paired c s -> osc_sec_bytes s -> msg_wf m -> 64 <= m_code m < 224 ->
  osc_has OSC_OPT (m_opts m) = false -> osc_has 35 (m_opts m) = false ->
  wfb req_piv -> 0 <= seq < 1099511627776 ->
  exists o, osc_protect_resp s m req_piv send_piv seq = Some o /\
            match parse UDP (serialize UDP o) with
            | Some o' => osc_unprotect_resp c (m_token m) req_piv o'
            | None => None
            end = Some (osc_resp_view m (osc_resp_piv m send_piv seq)).
Proof. exact osc_response_datagram_roundtrip. Qed.
Print Assumptions C14_response_datagram_roundtrip.

(* every context derived by HKDF from ids of at most 7 bytes is byte-valued *)
Theorem C14_derived_context_bytes : forall secret salt idctx a b,
  wfb a -> len a <= 7 -> wfb b -> len b <= 7 ->
  match idctx with Some x => wfb x /\ len x <= 240 | None => True end ->
  osc_sec_bytes (osc_derive secret salt idctx a b).
Proof. exact osc_derive_bytes. Qed.
Print Assumptions C14_derived_context_bytes.

(* AES-CCM maps bytes to bytes *)
Theorem C14_ciphertext_bytes : forall key nonce aad msg,
  wfb key -> wfb nonce -> wfb aad -> wfb msg -> wfb (osc_ccm_enc key nonce aad msg).
Proof. exact osc_ccm_enc_wfb. Qed.
Print Assumptions C14_ciphertext_bytes.

(* nonce: injective in (sender id, sequence number) for ids up to 7 bytes and sequence
   numbers below 2^40 *)
Theorem C14_nonce_injective : forall id seq id' seq' iv,
  len id <= 7 -> len id' <= 7 ->
  0 <= seq < 1099511627776 -> 0 <= seq' < 1099511627776 ->
  osc_nonce id (osc_piv_bytes seq) iv = osc_nonce id' (osc_piv_bytes seq') iv ->
  id = id' /\ seq = seq'.
Proof. exact osc_nonce_inj. Qed.
Print Assumptions C14_nonce_injective.

(* AAD: injective encoding of (algorithm, request kid, request Partial IV) *)
Theorem C14_aad_binds : forall alg kid piv alg' kid' piv',
  -4294967296 <= alg < 4294967296 -> -4294967296 <= alg' < 4294967296 ->
  len kid < 65536 -> len kid' < 65536 -> len piv < 65536 -> len piv' < 65536 ->
  osc_aad alg kid piv = osc_aad alg' kid' piv' ->
  alg = alg' /\ kid = kid' /\ piv = piv'.
Proof. exact osc_aad_inj. Qed.
Print Assumptions C14_aad_binds.

(* tamper rejection, hypothesis-free part (real AES-CCM) *)

(* the tag is compared: a protected request whose tag was changed in any way is rejected *)
Theorem C14_changed_tag_rejected : forall c s m seq o0 ct tag tag',
  osc_paired c s -> osc_ctx_ok c -> osc_msg_ok m -> 0 <= seq < 1099511627776 ->
  osc_protect_req c m seq = Some o0 ->
  m_payload o0 = ct ++ tag -> len tag = 8 -> len tag' = 8 -> tag' <> tag ->
  osc_unprotect_req s (mkMsg (m_type o0) (m_code o0) (m_mid o0) (m_token o0) (m_opts o0) (ct ++ tag'))
  = None.
Proof. exact osc_request_tag_checked. Qed.
Print Assumptions C14_changed_tag_rejected.

(* whatever AES-CCM accepts is the encryption of what it returns, and anything shorter than a
   tag is rejected *)
Theorem C14_ccm_accepts_only_encryptions : forall key nonce aad c msg,
  osc_ccm_dec key nonce aad c = Some msg -> c = osc_ccm_enc key nonce aad msg.
Proof. exact osc_ccm_dec_sound. Qed.
Print Assumptions C14_ccm_accepts_only_encryptions.

Theorem C14_ccm_truncated_rejected : forall key nonce aad c,
  len c < 8 -> osc_ccm_dec key nonce aad c = None.
Proof. exact osc_ccm_dec_short. Qed.
Print Assumptions C14_ccm_truncated_rejected.

(* a request for another recipient id is rejected whatever the AEAD does *)
Theorem C14_other_recipient_rejected : forall dec c s m seq o0,
  osc_ctx_ok c -> 0 <= seq < 1099511627776 -> osc_protect_req c m seq = Some o0 ->
  sc_rid s <> sc_sid c -> osc_unprotect_req_gen dec s o0 = None.
Proof. exact osc_request_other_recipient. Qed.
Print Assumptions C14_other_recipient_rejected.

(* the handler of an OSCORE-only resource sees nothing but successfully verified requests *)
Theorem C14_oscore_only_gate : forall dec s o m',
  osc_server_deliver dec s true o = Some m' -> osc_unprotect_req_gen dec s o = Some m'.
Proof. exact osc_only_gate. Qed.
Print Assumptions C14_oscore_only_gate.

(* context lookup rule (RFC 8613 8.2 step 2), whatever the AEAD: a request is only verified
   against the context whose Recipient ID is the received kid and whose ID Context is exactly the
   received kid context (none = empty) - never a prefix, an extension or another value *)
Theorem C14_context_lookup_rule : forall dec s o m',
  osc_unprotect_req_gen dec s o = Some m' ->
  exists ov piv kc,
    osc_find_opt OSC_OPT (m_opts o) = Some ov /\
    osc_opt_decode (snd ov) = Some (piv, kc, Some (sc_rid s)) /\
    osc_ctx_bytes kc = osc_ctx_bytes (sc_idctx s).
Proof. exact osc_request_lookup_rule. Qed.
Print Assumptions C14_context_lookup_rule.

Theorem C14_kid_context_of_other_length_rejected : forall dec s o c ov piv kc kid,
  sc_idctx s = Some c ->
  osc_find_opt OSC_OPT (m_opts o) = Some ov ->
  osc_opt_decode (snd ov) = Some (piv, kc, kid) ->
  len (osc_ctx_bytes kc) <> len c ->
  osc_unprotect_req_gen dec s o = None.
Proof. exact osc_request_kid_context_length. Qed.
Print Assumptions C14_kid_context_of_other_length_rejected.

(* tamper rejection UNDER AN ASSUMED IDEAL AEAD.
   The premise [forall n a c p, dec K n a c = Some p -> sent n a c] (ideal ciphertext integrity:
   under key K nothing decrypts except what was emitted under K) is NOT proved for AES-CCM - with
   a 64-bit tag it holds up to a forgery probability of 2^-64 per attempt.  It is a premise of
   each theorem below (a Section hypothesis in Oscore/ProtectProofs.v), never an assumption of the
   development. *)

(* exactly one message was emitted under the key: whatever the recipient accepts carries the
   genuine ciphertext and an OSCORE option that decodes to the genuine Partial IV and kid - any
   change of ciphertext, Partial IV or kid is rejected *)
Theorem C14_tamper_rejected_under_ideal_aead : forall (dec : osc_aead_dec) (K : bytes) (sent : bytes -> bytes -> bytes -> Prop),
  (forall n a c p, dec K n a c = Some p -> sent n a c) ->
  forall c s m seq o0 o m',
  osc_paired c s -> sc_rkey s = K -> len (sc_sid c) <= 7 -> 0 <= seq < 1099511627776 ->
  osc_protect_req c m seq = Some o0 ->
  (forall n a ct, sent n a ct ->
     n = osc_nonce (sc_sid c) (osc_piv_bytes seq) (sc_iv c) /\
     a = osc_aad OSC_ALG (sc_sid c) (osc_piv_bytes seq) /\ ct = m_payload o0) ->
  osc_unprotect_req_gen dec s o = Some m' ->
  m_payload o = m_payload o0 /\
  exists ov kc, osc_find_opt OSC_OPT (m_opts o) = Some ov /\
                osc_opt_decode (snd ov) = Some (osc_piv_bytes seq, kc, Some (sc_sid c)).
Proof. exact osc_request_tamper_rejected. Qed.
Print Assumptions C14_tamper_rejected_under_ideal_aead.

(* ... and what is handed out is the genuine protected content; only type, message id, token and
   outer options (which OSCORE does not protect) come from the received message *)
Theorem C14_accepted_content_under_ideal_aead : forall (dec : osc_aead_dec) (K : bytes) (sent : bytes -> bytes -> bytes -> Prop),
  (forall n a c p, dec K n a c = Some p -> sent n a c) ->
  forall c s m seq o0 o m' pt0 code inner pl,
  osc_paired c s -> sc_rkey s = K -> len (sc_sid c) <= 7 -> 0 <= seq < 1099511627776 ->
  osc_protect_req c m seq = Some o0 ->
  (forall n a ct, sent n a ct ->
     n = osc_nonce (sc_sid c) (osc_piv_bytes seq) (sc_iv c) /\
     a = osc_aad OSC_ALG (sc_sid c) (osc_piv_bytes seq) /\ ct = m_payload o0) ->
  dec K (osc_nonce (sc_sid c) (osc_piv_bytes seq) (sc_iv c))
        (osc_aad OSC_ALG (sc_sid c) (osc_piv_bytes seq)) (m_payload o0) = Some pt0 ->
  osc_parse_plaintext pt0 = Some (code, inner, pl) ->
  osc_unprotect_req_gen dec s o = Some m' ->
  m' = mkMsg (m_type o) code (m_mid o) (m_token o) (osc_merge (osc_kept_outer (m_opts o)) inner) pl.
Proof. exact osc_request_accepted_content. Qed.
Print Assumptions C14_accepted_content_under_ideal_aead.

(* a different context (nothing was emitted under the recipient's key): everything is rejected *)
Theorem C14_different_context_rejected_under_ideal_aead : forall (dec : osc_aead_dec) (K : bytes) (sent : bytes -> bytes -> bytes -> Prop),
  (forall n a c p, dec K n a c = Some p -> sent n a c) ->
  forall s o, sc_rkey s = K -> (forall n a c, ~ sent n a c) -> osc_unprotect_req_gen dec s o = None.
Proof. exact osc_request_unknown_key_rejected. Qed.
Print Assumptions C14_different_context_rejected_under_ideal_aead.

(* responses: an accepted response has the request's token, the genuine ciphertext and an OSCORE
   option yielding the genuine nonce *)
Theorem C14_response_tamper_rejected_under_ideal_aead : forall (dec : osc_aead_dec) (K : bytes) (sent : bytes -> bytes -> bytes -> Prop),
  (forall n a c p, dec K n a c = Some p -> sent n a c) ->
  forall c tok req_piv n0 a0 c0 o m',
  sc_rkey c = K ->
  (forall n a ct, sent n a ct -> n = n0 /\ a = a0 /\ ct = c0) ->
  osc_unprotect_resp_gen dec c tok req_piv o = Some m' ->
  m_token o = tok /\ m_payload o = c0 /\
  exists ov piv kc kid,
    osc_find_opt OSC_OPT (m_opts o) = Some ov /\
    osc_opt_decode (snd ov) = Some (piv, kc, kid) /\
    n0 = match piv with
         | [] => osc_nonce (sc_sid c) req_piv (sc_iv c)
         | _ => osc_nonce (sc_rid c) piv (sc_iv c)
         end.
Proof. exact osc_response_tamper_rejected. Qed.
Print Assumptions C14_response_tamper_rejected_under_ideal_aead.

Theorem C14_response_accepted_content_under_ideal_aead :
  forall (dec : osc_aead_dec) (K : bytes) (sent : bytes -> bytes -> bytes -> Prop),
  (forall n a c p, dec K n a c = Some p -> sent n a c) ->
  forall c tok req_piv n0 a0 c0 o m' pt0 code inner pl,
  sc_rkey c = K ->
  (forall n a ct, sent n a ct -> n = n0 /\ a = a0 /\ ct = c0) ->
  dec K n0 a0 c0 = Some pt0 ->
  osc_parse_plaintext pt0 = Some (code, inner, pl) ->
  osc_unprotect_resp_gen dec c tok req_piv o = Some m' ->
  exists piv,
    m' = mkMsg (m_type o) code (m_mid o) (m_token o)
           (osc_merge (osc_kept_outer (m_opts o)) (osc_fix_observe piv inner)) pl.
Proof. exact osc_response_accepted_content. Qed.
Print Assumptions C14_response_accepted_content_under_ideal_aead.

(* non-vacuity: the ideal functionality "decrypt only the one emitted triple" meets the premise,
   and with it the genuine RFC 8613 C.4 request is accepted *)
Theorem C14_ideal_aead_premise_satisfiable : forall k0 n0 a0 c0 p0 n a c p,
  osc_ideal_dec k0 n0 a0 c0 p0 k0 n a c = Some p -> n = n0 /\ a = a0 /\ c = c0.
Proof. exact osc_ideal_dec_integrity. Qed.
Print Assumptions C14_ideal_aead_premise_satisfiable.

(* the reference reproduces RFC 8613 appendix C (tests of the reference) *)
Theorem C14_reference_reproduces_rfc8613_c4 :
  option_map (serialize UDP) (osc_protect_req osc_c1_client (osc_c_request 23839 [0; 0; 57; 116]) 20)
  = Some [68; 2; 93; 31; 0; 0; 57; 116; 57; 108; 111; 99; 97; 108; 104; 111; 115; 116; 98; 9; 20;
          255; 97; 47; 16; 146; 241; 119; 111; 28; 22; 104; 179; 130; 94].
Proof. exact osc_vec_c4. Qed.
Print Assumptions C14_reference_reproduces_rfc8613_c4.

Theorem C14_reference_reproduces_rfc8613_c7 :
  option_map (serialize UDP) (osc_protect_resp osc_c1_server osc_c_response [20] false 0)
  = Some [100; 68; 93; 31; 0; 0; 57; 116; 144; 255; 219; 170; 209; 233; 167; 231; 178; 168; 19;
          211; 195; 21; 36; 55; 131; 3; 205; 175; 174; 17; 145; 6].
Proof. exact osc_vec_c7. Qed.
Print Assumptions C14_reference_reproduces_rfc8613_c7.
