(* C11 - the session stays referenced while it has observers: in every reachable state of the
   model the references a session holds through subscriptions (obst_ref: +1 in coap_add_observer,
   -1 on every path that frees a subscription) equal the number of its subscriptions. *)
From LibcoapV Require Import Base.Tactics Observe.Observe Observe.ObserveProofs.
Local Open Scope Z_scope.

Definition ob_cnt (s : Z) (l : list ob_sub) : Z :=
  Z.of_nat (length (filter (fun x => obsb_sess x =? s) l)).

Lemma ob_count_sess_cons : forall s r rs,
  ob_count_sess s (r :: rs) = ob_cnt s (obrs_subs r) + ob_count_sess s rs.
Proof. reflexivity. Qed.

Lemma ob_cnt_cons : forall s x l,
  ob_cnt s (x :: l) = (if obsb_sess x =? s then 1 else 0) + ob_cnt s l.
Proof.
  intros s x l. unfold ob_cnt. cbn [filter]. destruct (obsb_sess x =? s); cbn [length]; lia.
Qed.

Lemma ob_cnt_app : forall s a b, ob_cnt s (a ++ b) = ob_cnt s a + ob_cnt s b.
Proof. intros s a b. unfold ob_cnt. rewrite filter_app, app_length. lia. Qed.

Lemma ob_cnt_nonneg : forall s l, 0 <= ob_cnt s l.
Proof. intros. unfold ob_cnt. lia. Qed.

Lemma ob_count_sess_app : forall s a b,
  ob_count_sess s (a ++ b) = ob_count_sess s a + ob_count_sess s b.
Proof.
  intros s a b. induction a as [|r a IH]; cbn [app]; [reflexivity|].
  rewrite !ob_count_sess_cons, IH. lia.
Qed.

Lemma ob_count_map : forall s f rs,
  (forall r, ob_cnt s (obrs_subs (f r)) = ob_cnt s (obrs_subs r)) ->
  ob_count_sess s (map f rs) = ob_count_sess s rs.
Proof.
  intros s f rs H. induction rs as [|r rs IH]; cbn [map]; [reflexivity|].
  rewrite !ob_count_sess_cons, H, IH. reflexivity.
Qed.

Lemma ob_ref_get_add : forall rf s0 d s,
  ob_ca_get (ob_ref_add rf s0 d) s = ob_ca_get rf s + (if s0 =? s then d else 0).
Proof.
  intros rf s0 d s. unfold ob_ref_add. cbn [ob_ca_get].
  destruct (s0 =? s) eqn:E; [apply Z.eqb_eq in E; subst|]; lia.
Qed.

Definition ob_refs_ok (st : ob_state) : Prop :=
  forall s, ob_ca_get (obst_ref st) s = ob_count_sess s (obst_res st).

Lemma ob_cnt_remove1 : forall s0 t0 s l,
  ob_cnt s (fst (ob_remove1 (ob_sub_is s0 t0) l)) =
  ob_cnt s l - (if snd (ob_remove1 (ob_sub_is s0 t0) l) && (s0 =? s) then 1 else 0).
Proof.
  intros s0 t0 s. induction l as [|x l IH]; cbn [ob_remove1]; [cbn; lia|].
  destruct (ob_sub_is s0 t0 x) eqn:E.
  - cbn [fst snd andb]. rewrite ob_cnt_cons. apply ob_sub_is_kt in E. injection E as -> _. lia.
  - destruct (ob_remove1 (ob_sub_is s0 t0) l) as [l' b]. cbn [fst snd] in *.
    rewrite !ob_cnt_cons, IH. lia.
Qed.

Lemma ob_del_in_res_cnt : forall s0 t0 x s,
  ob_cnt s (obrs_subs (fst (ob_del_in_res s0 t0 x))) =
  ob_cnt s (obrs_subs x) - (if snd (ob_del_in_res s0 t0 x) && (s0 =? s) then 1 else 0).
Proof.
  intros s0 t0 x s. unfold ob_del_in_res. pose proof (ob_cnt_remove1 s0 t0 s (obrs_subs x)) as R.
  destruct (ob_remove1 (ob_sub_is s0 t0) (obrs_subs x)) as [l b]. exact R.
Qed.

Lemma ob_replace_key_cnt : forall s0 key l s,
  ob_cnt s (ob_replace_key s0 key l) =
  ob_cnt s l - (if s0 =? s then match ob_find (ob_sub_keyis s0 key) l with Some _ => 1 | None => 0 end
                else 0).
Proof.
  intros s0 key l s. unfold ob_replace_key.
  destruct (ob_find (ob_sub_keyis s0 key) l) as [old|] eqn:F; [|destruct (s0 =? s); lia].
  (* old itself matches (s0, its token): something is removed *)
  apply ob_find_some in F. destruct F as [Hin Hk]. apply ob_sub_keyis_kk in Hk. injection Hk as Hs _.
  rewrite ob_cnt_remove1, (ob_remove1_found _ _ old Hin); [destruct (s0 =? s); reflexivity|].
  apply ob_sub_is_kt. unfold ob_kt. rewrite Hs. reflexivity.
Qed.

Lemma ob_add_observer_cnt : forall s0 t0 o l s,
  ob_cnt s (fst (ob_add_observer s0 t0 o l)) =
  ob_cnt s l + (if s0 =? s then snd (ob_add_observer s0 t0 o l) else 0).
Proof.
  intros s0 t0 o l s. rewrite ob_add_observer_eq.
  destruct (ob_find (ob_sub_is s0 t0) l); cbn [fst snd]; [destruct (s0 =? s); lia|].
  rewrite ob_cnt_cons, ob_replace_key_cnt. cbn [obsb_sess].
  destruct (s0 =? s), (ob_find (ob_sub_keyis s0 (ob_key o)) l); lia.
Qed.

Lemma ob_cancel_subs_cnt : forall s0 t0 o l s,
  ob_cnt s (fst (ob_cancel_subs s0 t0 o l)) =
  ob_cnt s l - (if snd (ob_cancel_subs s0 t0 o l) && (s0 =? s) then 1 else 0).
Proof.
  intros s0 t0 o l s. unfold ob_cancel_subs.
  destruct (ob_find (ob_sub_is s0 t0) l); [apply ob_cnt_remove1|].
  destruct (ob_find (ob_sub_keyis s0 (ob_key o)) l); [apply ob_cnt_remove1 | cbn; lia].
Qed.

Lemma ob_failed_subs_cnt : forall p s0 t0 l s,
  ob_cnt s (fst (ob_failed_subs p s0 t0 l)) =
  ob_cnt s l - (if snd (ob_failed_subs p s0 t0 l) && (s0 =? s) then 1 else 0).
Proof.
  intros p s0 t0 l s. induction l as [|x l IH]; cbn [ob_failed_subs]; [cbn; lia|].
  destruct (ob_sub_is s0 t0 x) eqn:E.
  - apply ob_sub_is_kt in E. injection E as E _.
    destruct (obpr_max_fail p <=? obsb_fail x + 1); cbn [fst snd andb]; rewrite !ob_cnt_cons;
      cbn [obsb_sess]; rewrite E; lia.
  - destruct (ob_failed_subs p s0 t0 l) as [l' b]. cbn [fst snd] in *. rewrite !ob_cnt_cons, IH. lia.
Qed.

Lemma ob_count_upd : forall s r f rs x,
  ob_get_res r rs = Some x ->
  ob_count_sess s (ob_upd_res r f rs) =
  ob_count_sess s rs - ob_cnt s (obrs_subs x) + ob_cnt s (obrs_subs (f x)).
Proof.
  intros s r f rs x. induction rs as [|y rs IH]; cbn [ob_get_res ob_upd_res]; intro G; [discriminate|].
  destruct (obrs_id y =? r); rewrite !ob_count_sess_cons; [injection G as ->|rewrite (IH G)]; lia.
Qed.

Lemma ob_count_upd_same : forall s r f rs,
  (forall x, ob_cnt s (obrs_subs (f x)) = ob_cnt s (obrs_subs x)) ->
  ob_count_sess s (ob_upd_res r f rs) = ob_count_sess s rs.
Proof.
  intros s r f rs H. destruct (ob_get_res r rs) as [x|] eqn:G.
  - rewrite (ob_count_upd s r f rs x G), H. lia.
  - rewrite (ob_upd_res_none _ _ _ G). reflexivity.
Qed.

Lemma ob_count_drop : forall s r rs x,
  ob_get_res r rs = Some x ->
  ob_count_sess s (ob_drop_res r rs) = ob_count_sess s rs - ob_cnt s (obrs_subs x).
Proof.
  intros s r rs x. induction rs as [|y rs IH]; cbn [ob_get_res ob_drop_res]; intro G; [discriminate|].
  destruct (obrs_id y =? r); rewrite !ob_count_sess_cons; [injection G as ->|rewrite (IH G)]; lia.
Qed.

Lemma ob_count_touch : forall s s0 t0 rs, ob_count_sess s (ob_touch s0 t0 rs) = ob_count_sess s rs.
Proof.
  intros s s0 t0 rs. apply ob_count_map. intro r. cbn [obrs_subs ob_set_subs].
  induction (obrs_subs r) as [|x l IH]; [reflexivity|]. cbn [map]. rewrite !ob_cnt_cons, IH.
  unfold ob_touch_sub. destruct (ob_sub_is s0 t0 x); reflexivity.
Qed.

Lemma ob_del_all_res_cnt : forall s0 t0 rs s,
  ob_count_sess s (fst (ob_del_all_res s0 t0 rs)) =
  ob_count_sess s rs - (if s0 =? s then snd (ob_del_all_res s0 t0 rs) else 0).
Proof.
  intros s0 t0. induction rs as [|r rs IH]; intro s; cbn [ob_del_all_res].
  - cbn. destruct (s0 =? s); lia.
  - pose proof (ob_del_in_res_cnt s0 t0 r s) as R. destruct (ob_del_in_res s0 t0 r) as [r' b].
    specialize (IH s). destruct (ob_del_all_res s0 t0 rs) as [tl' n]. cbn [fst snd] in *.
    rewrite !ob_count_sess_cons, R, IH. destruct b, (s0 =? s); cbn [andb]; lia.
Qed.

Lemma ob_failed_all_cnt : forall p s0 t0 rs s,
  ob_count_sess s (fst (ob_failed_all p s0 t0 rs)) =
  ob_count_sess s rs - (if s0 =? s then snd (ob_failed_all p s0 t0 rs) else 0).
Proof.
  intros p s0 t0. induction rs as [|r rs IH]; intro s; cbn [ob_failed_all].
  - cbn. destruct (s0 =? s); lia.
  - pose proof (ob_failed_subs_cnt p s0 t0 (obrs_subs r) s) as R.
    destruct (ob_failed_subs p s0 t0 (obrs_subs r)) as [l b]. specialize (IH s).
    destruct (ob_failed_all p s0 t0 rs) as [tl' n]. cbn [fst snd] in *.
    rewrite !ob_count_sess_cons. cbn [obrs_subs ob_set_subs]. rewrite R, IH.
    destruct b, (s0 =? s); cbn [andb]; lia.
Qed.

Lemma ob_rst_by_last_cnt : forall s0 k rs s,
  ob_count_sess s (fst (ob_rst_by_last s0 k rs)) =
  ob_count_sess s rs - (if snd (ob_rst_by_last s0 k rs) && (s0 =? s) then 1 else 0).
Proof.
  intros s0 k. induction rs as [|r rs IH]; intro s; cbn [ob_rst_by_last]; [cbn; lia|].
  destruct (ob_find (fun x => (obsb_last x =? k) && (obsb_sess x =? s0)) (obrs_subs r)) as [x|] eqn:F.
  - cbn [fst snd andb]. rewrite !ob_count_sess_cons, ob_del_in_res_cnt.
    (* x is in the list and has session s0, so the deletion by (s0, token of x) finds something *)
    apply ob_find_some in F. destruct F as [Hin Hp]. apply andb_true_iff in Hp. destruct Hp as [_ Hs].
    assert (snd (ob_del_in_res s0 (obsb_tok x) r) = true) as ->; [|cbn [andb]; lia].
    unfold ob_del_in_res. pose proof (ob_remove1_found (ob_sub_is s0 (obsb_tok x)) _ x Hin) as Fl.
    destruct (ob_remove1 (ob_sub_is s0 (obsb_tok x)) (obrs_subs r)). apply Fl.
    unfold ob_sub_is. rewrite Hs. apply ob_bytes_eqb_refl.
  - specialize (IH s). destruct (ob_rst_by_last s0 k rs) as [tl' b]. cbn [fst snd] in *.
    rewrite !ob_count_sess_cons, IH. lia.
Qed.

Lemma ob_count_lost : forall s0 rs s,
  ob_count_sess s (map (ob_lost_res s0) rs) = if s0 =? s then 0 else ob_count_sess s rs.
Proof.
  intros s0 rs s. induction rs as [|r rs IH]; cbn [map]; [destruct (s0 =? s); reflexivity|].
  rewrite !ob_count_sess_cons, IH. cbn [ob_lost_res obrs_subs ob_set_subs].
  assert (ob_cnt s (filter (fun x => negb (obsb_sess x =? s0)) (obrs_subs r)) =
          if s0 =? s then 0 else ob_cnt s (obrs_subs r)) as ->; [|destruct (s0 =? s); lia].
  induction (obrs_subs r) as [|x l IHl]; cbn [filter]; [destruct (s0 =? s); reflexivity|].
  destruct (obsb_sess x =? s0) eqn:E1; cbn [negb]; rewrite ?ob_cnt_cons, IHl;
    destruct (s0 =? s) eqn:E2, (obsb_sess x =? s) eqn:E3; lia.
Qed.

(* the notify loop releases one reference per observer it removes (error answers) *)
Lemma ob_notify_subs_refs : forall p r subs l subs' pd l' outs s,
  ob_notify_subs p r subs l = (subs', pd, l', outs) ->
  ob_ca_get (oblp_ref l') s - ob_cnt s subs' = ob_ca_get (oblp_ref l) s - ob_cnt s subs.
Proof.
  intros p r. induction subs as [|x tl IH]; intros l subs' pd l' outs s H.
  - inversion H; subst. reflexivity.
  - rewrite ob_notify_subs_cons in H.
    destruct (ob_notify_one p r x l) as [[[xs pd1] l1] o1] eqn:E1.
    destruct (ob_notify_subs p r tl l1) as [[[tl' pd2] l2] o2] eqn:E2. inversion H; subst.
    specialize (IH _ _ _ _ _ s E2). rewrite ob_cnt_app, ob_cnt_cons.
    assert (ob_ca_get (oblp_ref l1) s - ob_cnt s xs =
            ob_ca_get (oblp_ref l) s - if obsb_sess x =? s then 1 else 0); [|lia].
    unfold ob_notify_one in E1.
    destruct (negb (obrs_dirty r) && negb (obsb_dirty x)); [|destruct (_ || _); [|destruct (obrs_err r)]];
      inversion E1; subst; cbn [oblp_ref ob_lp_pend ob_lp_sent ob_lp_release];
      rewrite ?ob_ref_get_add, ?ob_cnt_cons; cbn [obsb_sess]; unfold ob_cnt; cbn [filter length];
      destruct (obsb_sess x =? s); lia.
Qed.

Lemma ob_notify_all_refs : forall p rs l rs' l' outs s,
  ob_notify_all p rs l = (rs', l', outs) ->
  ob_ca_get (oblp_ref l') s - ob_count_sess s rs' = ob_ca_get (oblp_ref l) s - ob_count_sess s rs.
Proof.
  intros p. induction rs as [|r rs IH]; intros l rs' l' outs s H; cbn [ob_notify_all] in H.
  - inversion H; subst. reflexivity.
  - destruct (ob_notify_res p r l) as [[r1 l1] o1] eqn:E1.
    destruct (ob_notify_all p rs l1) as [[tl' l2] o2] eqn:E2. inversion H; subst.
    rewrite !ob_count_sess_cons. specialize (IH _ _ _ _ s E2).
    assert (ob_ca_get (oblp_ref l1) s - ob_cnt s (obrs_subs r1) =
            ob_ca_get (oblp_ref l) s - ob_cnt s (obrs_subs r));
      [|lia].
    unfold ob_notify_res in E1. destruct (obrs_dirty r || obrs_pdirty r).
    + destruct (ob_notify_subs p r (obrs_subs r) l) as [[[subs' pd] l0] outs0] eqn:E.
      inversion E1; subst. exact (ob_notify_subs_refs _ _ _ _ _ _ _ _ s E).
    + inversion E1; subst. reflexivity.
Qed.

Lemma ob_gone_subs_refs : forall p r ca subs rf s,
  ob_ca_get (snd (ob_gone_subs p r ca subs rf)) s = ob_ca_get rf s - ob_cnt s subs.
Proof.
  intros p r ca. induction subs as [|x tl IH]; intros rf s; cbn [ob_gone_subs]; [cbn; lia|].
  specialize (IH (ob_ref_add rf (obsb_sess x) (-1)) s).
  destruct (ob_gone_subs p r ca tl (ob_ref_add rf (obsb_sess x) (-1))) as [outs rf'].
  rewrite ob_ref_get_add in IH. cbn [snd] in IH.
  destruct (ob_blocked p (obrs_mode r) ca x || ob_in_transfer ca (obsb_sess x)); cbn [snd];
    rewrite IH, ob_cnt_cons; destruct (obsb_sess x =? s); lia.
Qed.

Lemma ob_step_refs : forall p st op, ob_refs_ok st -> ob_refs_ok (fst (ob_step p st op)).
Proof.
  intros p st op H s. specialize (H s). destruct op; cbn [ob_step fst].
  - unfold ob_register. destruct (ob_get_res r (obst_res st)) as [res|] eqn:G; [|exact H].
    pose proof (ob_add_observer_cnt s0 t o (obrs_subs res) s) as A.
    destruct (ob_add_observer s0 t o (obrs_subs res)) as [l d]. cbn [fst snd] in A.
    set (rs2 := ob_touch s0 t (ob_upd_res r (fun x => ob_set_subs x l) (obst_res st))).
    assert (C1 : ob_count_sess s rs2 = ob_count_sess s (obst_res st) + (if s0 =? s then d else 0)).
    { subst rs2. rewrite ob_count_touch, (ob_count_upd s r _ _ res G). cbn [obrs_subs ob_set_subs]. lia. }
    destruct (obrs_err res); cbn [fst obst_ref obst_res]; rewrite !ob_ref_get_add, H; [|lia].
    destruct (ob_get_res r rs2) as [x2|] eqn:G2.
    + rewrite (ob_count_upd s r _ _ x2 G2), ob_del_in_res_cnt, C1.
      destruct (snd (ob_del_in_res s0 t x2)), (s0 =? s); cbn [andb]; lia.
    + rewrite (ob_upd_res_none _ _ _ G2), C1. destruct (s0 =? s); lia.
  - unfold ob_cancel. destruct (ob_get_res r (obst_res st)) as [res|] eqn:G; [|exact H].
    pose proof (ob_cancel_subs_cnt s0 t o (obrs_subs res) s) as A.
    destruct (ob_cancel_subs s0 t o (obrs_subs res)) as [l b]. cbn [fst snd obst_ref obst_res] in *.
    rewrite (ob_count_upd s r _ _ res G). cbn [obrs_subs ob_set_subs]. rewrite A.
    destruct b; [rewrite ob_ref_get_add|]; destruct (s0 =? s); cbn [andb]; lia.
  - unfold ob_change. cbn [obst_ref obst_res]. rewrite H. symmetry. apply ob_count_upd_same.
    intro x. unfold ob_change_res. destruct (obrs_subs x) eqn:E; [rewrite E|]; reflexivity.
  - unfold ob_iostep. destruct (obst_pending st); [|exact H].
    destruct (ob_notify_all p (obst_res st) (ob_mk_lp ca false (obst_nk st) (obst_fl st) (obst_ref st)))
      as [[rs l] outs] eqn:E. cbn [fst obst_ref obst_res].
    pose proof (ob_notify_all_refs _ _ _ _ _ _ s E) as R. cbn [oblp_ref] in R. lia.
  - unfold ob_ack. destruct (ob_fl_find s0 k (obst_fl st)) as [f|]; [|exact H]. cbn [obst_ref obst_res].
    destruct (obfl_ok f); [rewrite ob_count_touch|]; exact H.
  - unfold ob_rst. destruct (ob_fl_find s0 k (obst_fl st)) as [f|].
    + pose proof (ob_del_all_res_cnt s0 (obfl_tok f) (obst_res st) s) as R.
      destruct (ob_del_all_res s0 (obfl_tok f) (obst_res st)) as [rs n]. cbn [fst snd obst_ref obst_res] in *.
      rewrite ob_ref_get_add, R. destruct (s0 =? s); lia.
    + pose proof (ob_rst_by_last_cnt s0 k (obst_res st) s) as R.
      destruct (ob_rst_by_last s0 k (obst_res st)) as [rs b]. cbn [fst snd obst_ref obst_res] in *.
      rewrite R. destruct b; [rewrite ob_ref_get_add|]; destruct (s0 =? s); cbn [andb]; lia.
  - unfold ob_confailed. destruct (ob_fl_find s0 k (obst_fl st)) as [f|]; [|exact H].
    pose proof (ob_failed_all_cnt p s0 (obfl_tok f) (obst_res st) s) as R.
    destruct (ob_failed_all p s0 (obfl_tok f) (obst_res st)) as [rs n]. cbn [fst snd obst_ref obst_res] in *.
    rewrite ob_ref_get_add, R. destruct (s0 =? s); lia.
  - unfold ob_set_err. cbn [obst_ref obst_res]. rewrite H. symmetry. apply ob_count_upd_same. reflexivity.
  - unfold ob_session_lost. cbn [obst_ref obst_res]. rewrite ob_ref_get_add, ob_count_lost, H.
    destruct (s0 =? s) eqn:E; [apply Z.eqb_eq in E; subst|]; lia.
  - unfold ob_delete_resource. destruct (ob_get_res r (obst_res st)) as [res|] eqn:G; [|exact H].
    pose proof (ob_gone_subs_refs p res ca (obrs_subs res) (obst_ref st) s) as R.
    destruct (ob_gone_subs p res ca (obrs_subs res) (obst_ref st)) as [outs rf].
    cbn [fst snd obst_ref obst_res] in *.
    rewrite R, H, ob_count_sess_app, (ob_count_drop s r _ res G), ob_count_sess_cons. cbn. lia.
Qed.

Lemma ob_init_refs : forall modes, ob_refs_ok (ob_init modes).
Proof.
  intros modes s. unfold ob_init. cbn [obst_ref obst_res ob_ca_get].
  assert (Hz : forall id, ob_count_sess s (ob_init_res id modes) = 0); [|rewrite Hz; reflexivity].
  induction modes as [|[m v] tl IH]; intro id; cbn [ob_init_res]; [reflexivity|].
  rewrite ob_count_sess_cons, IH. reflexivity.
Qed.

Lemma ob_run_refs : forall p ops st, ob_refs_ok st -> ob_refs_ok (fst (ob_run p st ops)).
Proof. intro p. exact (ob_run_inv ob_refs_ok p (ob_step_refs p)). Qed.

Lemma ob_cnt_in : forall s l x, In x l -> obsb_sess x = s -> 0 < ob_cnt s l.
Proof.
  intros s l x Hx Hs. induction l as [|y l IH]; [destruct Hx|]. rewrite ob_cnt_cons.
  pose proof (ob_cnt_nonneg s l). destruct Hx as [->|Hx]; [rewrite Hs, Z.eqb_refl; lia|].
  specialize (IH Hx). destruct (obsb_sess y =? s); lia.
Qed.

Lemma ob_count_sess_in : forall s rs r, In r rs -> ob_cnt s (obrs_subs r) <= ob_count_sess s rs.
Proof.
  intros s rs r Hr. induction rs as [|r0 rs IH]; [destruct Hr|]. rewrite ob_count_sess_cons.
  destruct Hr as [->|Hr].
  - assert (0 <= ob_count_sess s rs); [|lia]. clear. induction rs as [|r1 rs IH]; [reflexivity|].
    rewrite ob_count_sess_cons. pose proof (ob_cnt_nonneg s (obrs_subs r1)). lia.
  - specialize (IH Hr). pose proof (ob_cnt_nonneg s (obrs_subs r0)). lia.
Qed.

(* C11: the session stays referenced while it has observers - for every op sequence the
   references held through subscriptions equal the number of the session's subscriptions, in
   particular they are positive while it has one (coap_io_prepare_io frees only sessions with
   ref = 0) *)
Theorem ob_session_pinned : forall p modes ops s st,
  st = fst (ob_run p (ob_init modes) ops) ->
  (ob_ca_get (obst_ref st) s = ob_count_sess s (obst_res st)) /\
  (forall r x, In r (obst_res st) -> In x (obrs_subs r) -> obsb_sess x = s -> 0 < ob_ca_get (obst_ref st) s).
Proof.
  intros p modes ops s st Hst. pose proof (ob_run_refs p ops _ (ob_init_refs modes) s) as H.
  rewrite <- Hst in H. split; [exact H|]. intros r x Hr Hx Hs. rewrite H.
  pose proof (ob_cnt_in s _ x Hx Hs). pose proof (ob_count_sess_in s _ r Hr). lia.
Qed.
