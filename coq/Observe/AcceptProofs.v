(* C11 - what acceptance by the acceptor of Accept.v means (soundness), stated over histories.
   Together with SimProofs.ob_model_accepted these are the C11 theorems about the model; the same
   (extracted) acceptor judges the implementation's histories on every run of the check. *)
From LibcoapV Require Import Base.Tactics Base.BytesProofs Observe.Observe Observe.Accept
  Observe.ObserveProofs.
Local Open Scope Z_scope.

(* Lists whose elements carry a key, looked up with [ob_find] and a test for the key.  Both levels
   of the acceptor's table are such lists: resources by id, the observers of a resource by
   (session, token). *)
Section Keyed.
  Context {A K : Type} (key : A -> K).

  Lemma kl_find_app : forall (f : A -> bool) l1 l2,
    ob_find f (l1 ++ l2) = match ob_find f l1 with Some x => Some x | None => ob_find f l2 end.
  Proof.
    intros f l1 l2. induction l1 as [|y l1 IH]; cbn [app ob_find]; [reflexivity|].
    destruct (f y); [reflexivity | exact IH].
  Qed.

  Lemma kl_keys_map : forall (g : A -> A) l,
    (forall x, key (g x) = key x) -> map key (map g l) = map key l.
  Proof. intros g l Hg. rewrite map_map. apply map_ext. exact Hg. Qed.

  Variables (f : A -> bool) (k : K).
  Hypothesis f_key : forall x, f x = true <-> key x = k.

  Lemma kl_same_key : forall x y, key x = key y -> f x = f y.
  Proof.
    intros x y H. destruct (f y) eqn:Ey.
    - apply f_key. rewrite H. apply f_key. exact Ey.
    - destruct (f x) eqn:Ex; [|reflexivity]. apply f_key in Ex. rewrite H in Ex.
      apply f_key in Ex. congruence.
  Qed.

  Lemma kl_find_some : forall l x, ob_find f l = Some x -> In x l /\ key x = k.
  Proof.
    intros l x H. apply ob_find_some in H. destruct H as [H1 H2]. split; [|apply f_key]; assumption.
  Qed.

  Lemma kl_find_none : forall l, ob_find f l = None -> ~ In k (map key l).
  Proof.
    intros l H Hin. apply in_map_iff in Hin. destruct Hin as [x [Hx Hin]].
    apply f_key in Hx. rewrite (ob_find_none f l H x Hin) in Hx. discriminate.
  Qed.

  Lemma kl_find_in : forall l x, NoDup (map key l) -> In x l -> key x = k -> ob_find f l = Some x.
  Proof.
    induction l as [|y l IH]; intros x Hd Hin Hx; [destruct Hin|]. cbn [ob_find map] in *.
    inversion Hd as [|a b Hn Hd']; subst a b. destruct Hin as [->|Hin].
    - apply f_key in Hx. rewrite Hx. reflexivity.
    - destruct (f y) eqn:Ey; [|apply IH; assumption]. exfalso. apply Hn.
      apply f_key in Ey. rewrite Ey, <- Hx. apply in_map. assumption.
  Qed.

  Lemma kl_find_map : forall (g : A -> A) l,
    (forall x, key (g x) = key x) -> ob_find f (map g l) = option_map g (ob_find f l).
  Proof.
    intros g l Hg. induction l as [|y l IH]; cbn [map ob_find option_map]; [reflexivity|].
    rewrite (kl_same_key (g y) y (Hg y)). destruct (f y); [reflexivity | exact IH].
  Qed.

  (* a filter that decides by key *)
  Lemma kl_find_filter : forall (p : A -> bool) (q : K -> bool) l,
    (forall x, p x = q (key x)) -> ob_find f (filter p l) = if q k then ob_find f l else None.
  Proof.
    intros p q l Hp. induction l as [|y l IH]; cbn [filter ob_find]; [destruct (q k); reflexivity|].
    rewrite Hp. destruct (f y) eqn:Ey.
    - apply f_key in Ey as Ek. rewrite Ek. destruct (q k); [|exact IH]. cbn [ob_find]. rewrite Ey. reflexivity.
    - destruct (q (key y)); [|exact IH]. cbn [ob_find]. rewrite Ey. exact IH.
  Qed.

  Lemma kl_find_remove : forall l, NoDup (map key l) -> ob_find f (fst (ob_remove1 f l)) = None.
  Proof. intros l H. apply ob_find_none_iff. exact (ob_remove1_gone key f k l f_key H). Qed.

  Lemma kl_find_remove_other : forall (f' : A -> bool) (k' : K) l,
    (forall x, f' x = true <-> key x = k') -> k' <> k ->
    ob_find f (fst (ob_remove1 f' l)) = ob_find f l.
  Proof.
    intros f' k' l Hf' Hne. induction l as [|y l IH]; cbn [ob_remove1 ob_find fst]; [reflexivity|].
    destruct (f' y) eqn:E'.
    - cbn [fst]. destruct (f y) eqn:Ey; [|reflexivity].
      apply Hf' in E'. apply f_key in Ey. congruence.
    - destruct (ob_remove1 f' l) as [l' b]. cbn [fst ob_find] in *.
      destruct (f y); [reflexivity | exact IH].
  Qed.
End Keyed.

Definition ac_kt (o : ac_obs) : Z * ob_tok := (acao_s o, acao_t o).

Lemma ac_obs_is_kt : forall s t o, ac_obs_is s t o = true <-> ac_kt o = (s, t).
Proof.
  intros s t o. unfold ac_obs_is, ac_kt. rewrite andb_true_iff, Z.eqb_eq, ob_bytes_eqb_eq.
  split; [intros [A B]; subst; reflexivity | intro H; inversion H; auto].
Qed.

Definition ac_find (rs : list ac_res) (r s : Z) (t : ob_tok) : option ac_obs :=
  match ac_get r rs with
  | Some y => ob_find (ac_obs_is s t) (acar_obs y)
  | None => None
  end.

Definition ac_entry (st : ac_state) := ac_find (acas_res st).

Definition ac_reg (st : ac_state) (r s : Z) (t : ob_tok) : bool :=
  match ac_entry st r s t with Some _ => true | None => false end.

Definition ac_res_wf (y : ac_res) : Prop := NoDup (map ac_kt (acar_obs y)).
Definition ac_wf (rs : list ac_res) : Prop := NoDup (map acar_id rs) /\ Forall ac_res_wf rs.

Lemma find_map_keep : forall (f : ac_obs -> ac_obs) s t l,
  (forall o, ac_kt (f o) = ac_kt o) ->
  ob_find (ac_obs_is s t) (map f l) = option_map f (ob_find (ac_obs_is s t) l).
Proof. intros f s t. exact (kl_find_map ac_kt _ _ (ac_obs_is_kt s t) f). Qed.

Lemma find_del_same : forall s t l,
  NoDup (map ac_kt l) -> ob_find (ac_obs_is s t) (ac_del s t l) = None.
Proof. intros s t. exact (kl_find_remove ac_kt _ _ (ac_obs_is_kt s t)). Qed.

Lemma find_del_other : forall s t s' t' l,
  (s', t') <> (s, t) -> ob_find (ac_obs_is s t) (ac_del s' t' l) = ob_find (ac_obs_is s t) l.
Proof.
  intros s t s' t' l. exact (kl_find_remove_other ac_kt _ _ (ac_obs_is_kt s t) _ _ l (ac_obs_is_kt s' t')).
Qed.

Lemma find_own : forall l o,
  NoDup (map ac_kt l) -> In o l -> ob_find (ac_obs_is (acao_s o) (acao_t o)) l = Some o.
Proof. intros l o Hl Hin. exact (kl_find_in ac_kt _ _ (ac_obs_is_kt _ _) l o Hl Hin eq_refl). Qed.

(* functions on the list of observers that only remove *)
Definition ac_thins (g : list ac_obs -> list ac_obs) : Prop := forall l, ob_thin eq (g l) l.

Lemma thins_nodup : forall g l, ac_thins g -> NoDup (map ac_kt l) -> NoDup (map ac_kt (g l)).
Proof. intros g l Hg. apply (ob_thin_nodup eq); [intros ? ? ->; reflexivity | apply Hg]. Qed.

Lemma thins_find : forall g s t l o,
  ac_thins g -> NoDup (map ac_kt l) ->
  ob_find (ac_obs_is s t) (g l) = Some o -> ob_find (ac_obs_is s t) l = Some o.
Proof.
  intros g s t l o Hg Hl F. apply (kl_find_some ac_kt _ _ (ac_obs_is_kt s t)) in F.
  destruct F as [Hin Hk]. destruct (ob_thin_in eq _ _ o (Hg l) Hin) as [x [Hx <-]].
  exact (kl_find_in ac_kt _ _ (ac_obs_is_kt s t) l o Hl Hx Hk).
Qed.

Lemma thins_none : forall g s t l,
  ac_thins g -> NoDup (map ac_kt l) -> ob_find (ac_obs_is s t) l = None ->
  ob_find (ac_obs_is s t) (g l) = None.
Proof.
  intros g s t l Hg Hl Hn. destruct (ob_find (ac_obs_is s t) (g l)) as [o|] eqn:F; [|reflexivity].
  rewrite (thins_find g s t l o Hg Hl F) in Hn. discriminate.
Qed.

Lemma thins_id : ac_thins (fun l => l).
Proof. intro l. apply ob_thin_refl. reflexivity. Qed.

Lemma thins_del : forall s t, ac_thins (ac_del s t).
Proof. intros s t l. apply ob_remove1_thin. reflexivity. Qed.

Lemma thins_replace_key : forall s key, ac_thins (ac_replace_key s key).
Proof.
  intros s key l. unfold ac_replace_key.
  destruct (ob_find (ac_obs_keyis s key) l); [apply thins_del | apply thins_id].
Qed.

Lemma thins_cancel_obs : forall s t o, ac_thins (ac_cancel_obs s t o).
Proof.
  intros s t o l. unfold ac_cancel_obs.
  destruct (ob_find (ac_obs_is s t) l); [apply thins_del | apply thins_replace_key].
Qed.

Lemma thins_lost : forall s, ac_thins (filter (fun o => negb (acao_s o =? s))).
Proof. intros s l. apply ob_filter_thin. reflexivity. Qed.

Lemma find_lost : forall s t s' l,
  ob_find (ac_obs_is s t) (filter (fun o => negb (acao_s o =? s')) l) =
  if negb (s =? s') then ob_find (ac_obs_is s t) l else None.
Proof.
  intros s t s' l.
  exact (kl_find_filter ac_kt _ _ (ac_obs_is_kt s t) _ (fun k => negb (fst k =? s')) l (fun o => eq_refl)).
Qed.

Lemma ac_get_find : forall r rs, ac_get r rs = ob_find (fun y => acar_id y =? r) rs.
Proof.
  intros r rs. induction rs as [|y rs IH]; cbn [ac_get ob_find]; [reflexivity|].
  destruct (acar_id y =? r); [reflexivity | exact IH].
Qed.

Lemma ac_drop_remove1 : forall r rs, ac_drop r rs = fst (ob_remove1 (fun y => acar_id y =? r) rs).
Proof.
  intros r rs. induction rs as [|y rs IH]; cbn [ac_drop ob_remove1]; [reflexivity|].
  destruct (acar_id y =? r); [reflexivity|]. rewrite IH.
  destruct (ob_remove1 (fun y0 => acar_id y0 =? r) rs). reflexivity.
Qed.

Lemma ac_get_in : forall r rs y, ac_get r rs = Some y -> In y rs /\ acar_id y = r.
Proof.
  intros r rs y. rewrite ac_get_find.
  exact (kl_find_some acar_id _ r (fun y0 => Z.eqb_eq (acar_id y0) r) rs y).
Qed.

Lemma ac_get_own : forall rs y, NoDup (map acar_id rs) -> In y rs -> ac_get (acar_id y) rs = Some y.
Proof.
  intros rs y Hd Hin. rewrite ac_get_find.
  exact (kl_find_in acar_id _ _ (fun y0 => Z.eqb_eq (acar_id y0) _) rs y Hd Hin eq_refl).
Qed.

Lemma ac_wf_get : forall r rs y, ac_wf rs -> ac_get r rs = Some y -> NoDup (map ac_kt (acar_obs y)).
Proof.
  intros r rs y [_ B] H. apply ac_get_in in H. destruct H as [H _].
  rewrite Forall_forall in B. exact (B y H).
Qed.

Lemma ac_get_upd : forall r r' f rs,
  ac_get r (ac_upd r' f rs) =
  if r =? r' then option_map (fun y => ac_mk_ar (acar_id y) (f (acar_obs y))) (ac_get r rs)
  else ac_get r rs.
Proof.
  intros r r' f. induction rs as [|y rs IH]; cbn [ac_upd ac_get]; [destruct (r =? r'); reflexivity|].
  destruct (acar_id y =? r') eqn:E1; cbn [ac_get acar_id].
  - apply Z.eqb_eq in E1. subst r'. rewrite (Z.eqb_sym r). destruct (acar_id y =? r); reflexivity.
  - destruct (acar_id y =? r) eqn:E2; [|exact IH]. apply Z.eqb_eq in E2. subst r. rewrite E1. reflexivity.
Qed.

Lemma ac_get_map : forall r (g : list ac_obs -> list ac_obs) rs,
  ac_get r (map (fun y => ac_mk_ar (acar_id y) (g (acar_obs y))) rs) =
  option_map (fun y => ac_mk_ar (acar_id y) (g (acar_obs y))) (ac_get r rs).
Proof.
  intros r g rs. rewrite !ac_get_find.
  exact (kl_find_map acar_id _ r (fun y => Z.eqb_eq (acar_id y) r)
           (fun y => ac_mk_ar (acar_id y) (g (acar_obs y))) rs (fun y => eq_refl)).
Qed.

Lemma ac_upd_ids : forall r f rs, map acar_id (ac_upd r f rs) = map acar_id rs.
Proof.
  intros r f. induction rs as [|y rs IH]; cbn [ac_upd map]; [reflexivity|].
  destruct (acar_id y =? r); cbn [map acar_id]; [reflexivity | f_equal; assumption].
Qed.

(* [f] need only behave on the list it is applied to *)
Lemma ac_upd_wf_at : forall r f rs,
  ac_wf rs -> (forall y, ac_get r rs = Some y -> NoDup (map ac_kt (f (acar_obs y)))) ->
  ac_wf (ac_upd r f rs).
Proof.
  intros r f rs [A B] Hf. split; [rewrite ac_upd_ids; assumption|]. clear A.
  induction B as [|y rs By B IH]; cbn [ac_upd ac_get] in *; [constructor|].
  destruct (acar_id y =? r); constructor; auto. apply Hf. reflexivity.
Qed.

Lemma ac_upd_wf : forall r f rs,
  (forall l, NoDup (map ac_kt l) -> NoDup (map ac_kt (f l))) -> ac_wf rs -> ac_wf (ac_upd r f rs).
Proof.
  intros r f rs Hf Hwf. apply ac_upd_wf_at; [assumption|]. intros y G. apply Hf.
  exact (ac_wf_get r rs y Hwf G).
Qed.

Lemma ac_map_wf : forall g rs,
  (forall l, NoDup (map ac_kt l) -> NoDup (map ac_kt (g l))) -> ac_wf rs ->
  ac_wf (map (fun y => ac_mk_ar (acar_id y) (g (acar_obs y))) rs).
Proof.
  intros g rs Hg [A B]. split; [rewrite map_map; exact A|].
  apply Forall_map. eapply Forall_impl; [|exact B]. intros y Hy. apply Hg. exact Hy.
Qed.

(* coap_delete_resource followed by the application adding the resource anew *)
Lemma ac_drop_wf : forall r rs, ac_wf rs -> ac_wf (ac_drop r rs ++ [ac_mk_ar r []]).
Proof.
  intros r rs [A B]. rewrite ac_drop_remove1. split.
  - apply (ob_remove1_readd acar_id _ r); [intro y; apply Z.eqb_eq | exact A | reflexivity].
  - apply Forall_app. split; [|repeat constructor]. rewrite Forall_forall in *.
    intros y Hin. apply B. eapply ob_remove1_in. exact Hin.
Qed.

Lemma ac_find_upd : forall r s t r' f rs,
  ac_find (ac_upd r' f rs) r s t =
  if r =? r' then match ac_get r rs with
                  | Some y => ob_find (ac_obs_is s t) (f (acar_obs y))
                  | None => None
                  end
  else ac_find rs r s t.
Proof.
  intros r s t r' f rs. unfold ac_find. rewrite ac_get_upd.
  destruct (r =? r'); [|reflexivity]. destruct (ac_get r rs); reflexivity.
Qed.

Lemma ac_find_map : forall r s t g rs,
  ac_find (map (fun y => ac_mk_ar (acar_id y) (g (acar_obs y))) rs) r s t =
  match ac_get r rs with
  | Some y => ob_find (ac_obs_is s t) (g (acar_obs y))
  | None => None
  end.
Proof.
  intros r s t g rs. unfold ac_find. rewrite ac_get_map. destruct (ac_get r rs); reflexivity.
Qed.

Lemma ac_find_drop : forall r s t r' rs,
  NoDup (map acar_id rs) ->
  ac_find (ac_drop r' rs ++ [ac_mk_ar r' []]) r s t = if r =? r' then None else ac_find rs r s t.
Proof.
  intros r s t r' rs Hd. unfold ac_find. rewrite !ac_get_find, ac_drop_remove1, kl_find_app.
  destruct (Z.eqb_spec r r') as [->|Hne].
  - rewrite (kl_find_remove acar_id _ r' (fun y => Z.eqb_eq (acar_id y) r')) by assumption.
    cbn [ob_find acar_id]. rewrite Z.eqb_refl. reflexivity.
  - rewrite (kl_find_remove_other acar_id _ r (fun y => Z.eqb_eq (acar_id y) r) _ r'
               rs (fun y => Z.eqb_eq (acar_id y) r')) by congruence.
    destruct (ob_find (fun y => acar_id y =? r) rs); [reflexivity|].
    cbn [ob_find acar_id]. rewrite (proj2 (Z.eqb_neq r' r)) by congruence. reflexivity.
Qed.

Definition ac_shrinks (rs rs' : list ac_res) : Prop :=
  ac_wf rs' /\ forall r s t o, ac_find rs' r s t = Some o -> ac_find rs r s t = Some o.

Lemma shrinks_refl : forall rs, ac_wf rs -> ac_shrinks rs rs.
Proof. intros rs H. split; auto. Qed.

Lemma shrinks_trans : forall a b c, ac_shrinks a b -> ac_shrinks b c -> ac_shrinks a c.
Proof. intros a b c [_ H1] [W H2]. split; auto. Qed.

Lemma shrinks_none : forall rs rs' r s t,
  ac_shrinks rs rs' -> ac_find rs r s t = None -> ac_find rs' r s t = None.
Proof.
  intros rs rs' r s t [_ H] Hn. destruct (ac_find rs' r s t) as [o|] eqn:F; [|reflexivity].
  rewrite (H r s t o F) in Hn. discriminate.
Qed.

Lemma ac_upd_shrinks : forall r f rs, ac_wf rs -> ac_thins f -> ac_shrinks rs (ac_upd r f rs).
Proof.
  intros r f rs Hwf Hf. split; [apply ac_upd_wf; [intros l; apply thins_nodup; assumption | assumption]|].
  intros r' s t o H. rewrite ac_find_upd in H. destruct (r' =? r); [|assumption].
  unfold ac_find. destruct (ac_get r' rs) as [y|] eqn:G; [|discriminate].
  exact (thins_find f s t _ o Hf (ac_wf_get r' rs y Hwf G) H).
Qed.

Lemma ac_map_shrinks : forall g rs,
  ac_wf rs -> ac_thins g -> ac_shrinks rs (map (fun y => ac_mk_ar (acar_id y) (g (acar_obs y))) rs).
Proof.
  intros g rs Hwf Hg. split; [apply ac_map_wf; [intros l; apply thins_nodup; assumption | assumption]|].
  intros r s t o H. rewrite ac_find_map in H. unfold ac_find.
  destruct (ac_get r rs) as [y|] eqn:G; [|discriminate].
  exact (thins_find g s t _ o Hg (ac_wf_get r rs y Hwf G) H).
Qed.

(* the first resource with an observer whose latest notification is k loses that observer *)
Lemma ac_rst_by_last_upd : forall s k rs,
  NoDup (map acar_id rs) ->
  (ac_rst_by_last s k rs = rs /\
   forall y, In y rs -> ob_find (fun o => (acao_lastk o =? k) && (acao_s o =? s)) (acar_obs y) = None) \/
  exists y o, In y rs /\
    ob_find (fun o => (acao_lastk o =? k) && (acao_s o =? s)) (acar_obs y) = Some o /\
    ac_rst_by_last s k rs = ac_upd (acar_id y) (ac_del s (acao_t o)) rs.
Proof.
  intros s k. induction rs as [|y rs IH]; intro Hd; cbn [ac_rst_by_last map] in *.
  - left. split; [reflexivity | intros y []].
  - inversion Hd as [|a b Hn Hd']; subst a b.
    destruct (ob_find (fun o => (acao_lastk o =? k) && (acao_s o =? s)) (acar_obs y)) as [o|] eqn:F.
    + right. exists y, o. split; [left; reflexivity|]. split; [assumption|].
      cbn [ac_upd]. rewrite Z.eqb_refl. reflexivity.
    + destruct (IH Hd') as [[E N]|[y' [o [Hin [F' E]]]]].
      * left. rewrite E. split; [reflexivity|]. intros y' [<-|Hin]; auto.
      * right. exists y', o. split; [right; assumption|]. split; [assumption|].
        cbn [ac_upd]. rewrite E. destruct (Z.eqb_spec (acar_id y) (acar_id y')) as [Heq|]; [|reflexivity].
        exfalso. apply Hn. rewrite Heq. apply in_map. assumption.
Qed.

Lemma ac_find_kt : forall rs r s t o, ac_find rs r s t = Some o -> ac_kt o = (s, t).
Proof.
  intros rs r s t o H. unfold ac_find in H. destruct (ac_get r rs); [|discriminate].
  apply ob_find_some in H. apply ac_obs_is_kt. apply H.
Qed.

Lemma ac_find_upd_map : forall f r s t r' rs,
  (forall o, ac_kt (f o) = ac_kt o) ->
  ac_find (ac_upd r' (map f) rs) r s t = option_map (if r =? r' then f else fun o => o) (ac_find rs r s t).
Proof.
  intros f r s t r' rs Hf. rewrite ac_find_upd. unfold ac_find.
  destruct (r =? r'), (ac_get r rs) as [y|]; try reflexivity.
  - apply find_map_keep. exact Hf.
  - destruct (ob_find (ac_obs_is s t) (acar_obs y)); reflexivity.
Qed.

Lemma ac_upd_map_wf : forall f r rs,
  (forall o, ac_kt (f o) = ac_kt o) -> ac_wf rs -> ac_wf (ac_upd r (map f) rs).
Proof.
  intros f r rs Hf. apply ac_upd_wf. intros l Hl. rewrite (kl_keys_map ac_kt); assumption.
Qed.

Section UpdateAt.
  Variables (f h : ac_obs -> ac_obs) (r s : Z) (t : ob_tok).
  Hypothesis f_at : forall o, f o = if ac_obs_is s t o then h o else o.
  Hypothesis h_kt : forall o, ac_kt (h o) = ac_kt o.

  Lemma ac_at_kt : forall o, ac_kt (f o) = ac_kt o.
  Proof. intro o. rewrite f_at. destruct (ac_obs_is s t o); [apply h_kt | reflexivity]. Qed.

  Lemma ac_find_upd_at_same : forall rs,
    ac_find (ac_upd r (map f) rs) r s t = option_map h (ac_find rs r s t).
  Proof.
    intro rs. rewrite ac_find_upd_map by exact ac_at_kt. rewrite Z.eqb_refl.
    destruct (ac_find rs r s t) as [o|] eqn:F; [|reflexivity]. cbn [option_map].
    rewrite f_at, (proj2 (ac_obs_is_kt s t o) (ac_find_kt _ _ _ _ _ F)). reflexivity.
  Qed.

  Lemma ac_find_upd_at_other : forall r' s' t' rs,
    (r, s, t) <> (r', s', t') -> ac_find (ac_upd r (map f) rs) r' s' t' = ac_find rs r' s' t'.
  Proof.
    intros r' s' t' rs Hne. rewrite ac_find_upd_map by exact ac_at_kt.
    destruct (ac_find rs r' s' t') as [o|] eqn:F; [|reflexivity]. cbn [option_map].
    destruct (Z.eqb_spec r' r) as [->|]; [|reflexivity]. rewrite f_at.
    destruct (ac_obs_is s t o) eqn:E; [|reflexivity]. exfalso. apply Hne.
    apply ac_obs_is_kt in E. rewrite (ac_find_kt _ _ _ _ _ F) in E. congruence.
  Qed.
End UpdateAt.

Lemma ac_find_upd_del_same : forall r s t rs,
  ac_wf rs -> ac_find (ac_upd r (ac_del s t) rs) r s t = None.
Proof.
  intros r s t rs Hwf. rewrite ac_find_upd, Z.eqb_refl. destruct (ac_get r rs) as [y|] eqn:G; [|reflexivity].
  apply find_del_same. exact (ac_wf_get r rs y Hwf G).
Qed.

Lemma ac_find_upd_del_other : forall r s t r' s' t' rs,
  (r, s, t) <> (r', s', t') -> ac_find (ac_upd r (ac_del s t) rs) r' s' t' = ac_find rs r' s' t'.
Proof.
  intros r s t r' s' t' rs Hne. rewrite ac_find_upd. destruct (Z.eqb_spec r' r) as [->|]; [|reflexivity].
  unfold ac_find. destruct (ac_get r rs); [|reflexivity]. apply find_del_other. congruence.
Qed.

Lemma ac_find_del_everywhere : forall r s t rs,
  ac_wf rs -> ac_find (ac_del_everywhere s t rs) r s t = None.
Proof.
  intros r s t rs Hwf. unfold ac_del_everywhere. rewrite ac_find_map.
  destruct (ac_get r rs) as [y|] eqn:G; [|reflexivity]. apply find_del_same. exact (ac_wf_get _ _ _ Hwf G).
Qed.

Definition ac_out_key (o : ob_out) : option (Z * Z * ob_tok) :=
  match o with
  | ObNotify _ r s t _ _ => Some (r, s, t)
  | ObErr _ r s t _ => Some (r, s, t)
  | ObGone r s t => Some (r, s, t)
  | ObRegResp _ _ _ _ => None
  end.

Definition ac_cur (o : ac_obs) : Z := (acao_val o + acao_chg o) mod ob_M.

Definition ac_after_notify (o : ac_obs) (v : Z) (con : bool) (k : Z) : ac_obs :=
  ac_mk_ao (acao_s o) (acao_t o) (acao_key o) v 0 false (if con then 0 else acao_run o + 1) k (acao_since o).

Lemma out_step_notify : forall c w k r s t v con w',
  ac_out_step c w (ObNotify k r s t v con) = inl w' ->
  exists o, ac_find (acaw_res w) r s t = Some o /\ v = ac_cur o /\
            (1 <= acao_chg o \/ acao_weak o = true) /\
            (ac_mode c r <> 2 -> (if con then 0 else acao_run o + 1) <= accf_max_non c) /\
            k = acaw_nk w /\
            w' = ac_note w (ac_upd r (map (ac_notified s t v (if con then 0 else acao_run o + 1) k))
                                  (acaw_res w)) k r s t con true.
Proof.
  intros c w k r s t v con w' H. cbn [ac_out_step] in H. unfold ac_find, ac_cur.
  destruct (Z.eqb_spec k (acaw_nk w)) as [Ek|]; [|discriminate].
  destruct (ac_get r (acaw_res w)) as [res|]; [|discriminate].
  destruct (ob_find (ac_obs_is s t) (acar_obs res)) as [e|]; [|discriminate].
  destruct (Z.eqb_spec v ((acao_val e + acao_chg e) mod ob_M)) as [Ev|]; [|discriminate].
  destruct ((1 <=? acao_chg e) || acao_weak e) eqn:Ec; [|discriminate].
  destruct (negb (ac_mode c r =? 2) && (accf_max_non c <? (if con then 0 else acao_run e + 1))) eqn:Er;
    [discriminate|].
  cbn [negb] in H. exists e. repeat split; try assumption; try congruence.
  - apply orb_true_iff in Ec. rewrite Z.leb_le in Ec. exact Ec.
  - intro Hm. apply andb_false_iff in Er. rewrite negb_false_iff, Z.eqb_eq, Z.ltb_ge in Er.
    destruct Er; [contradiction | assumption].
Qed.

Lemma out_step_err : forall c w k r s t con w',
  ac_out_step c w (ObErr k r s t con) = inl w' ->
  exists o, ac_find (acaw_res w) r s t = Some o /\
            w' = ac_note w (ac_upd r (ac_del s t) (acaw_res w)) k r s t con false.
Proof.
  intros c w k r s t con w' H. cbn [ac_out_step] in H. unfold ac_find.
  destruct (negb (k =? acaw_nk w)); [discriminate|].
  destruct (ac_get r (acaw_res w)) as [res|]; [|discriminate].
  destruct (ob_find (ac_obs_is s t) (acar_obs res)) as [e|]; [|discriminate].
  exists e. split; [reflexivity | congruence].
Qed.

Lemma ac_notified_at : forall s t v run k o,
  ac_notified s t v run k o =
  if ac_obs_is s t o
  then ac_mk_ao (acao_s o) (acao_t o) (acao_key o) v 0 false run k (acao_since o) else o.
Proof. reflexivity. Qed.

Lemma out_step_other : forall c w out w' r s t,
  ac_out_step c w out = inl w' -> ac_out_key out <> Some (r, s, t) ->
  ac_find (acaw_res w') r s t = ac_find (acaw_res w) r s t.
Proof.
  intros c w out w' r s t H Hk. destruct out as [k r0 s0 t0 v con|k r0 s0 t0 con| |];
    try discriminate H; cbn [ac_out_key] in Hk.
  - apply out_step_notify in H. destruct H as [o [_ [_ [_ [_ [_ ->]]]]]].
    apply (ac_find_upd_at_other _ _ r0 s0 t0 (ac_notified_at _ _ _ _ _)); [reflexivity | congruence].
  - apply out_step_err in H. destruct H as [o [_ ->]].
    apply ac_find_upd_del_other. congruence.
Qed.

Lemma out_step_wf : forall c w out w',
  ac_out_step c w out = inl w' -> ac_wf (acaw_res w) -> ac_wf (acaw_res w').
Proof.
  intros c w out w' H Hwf. destruct out as [k r0 s0 t0 v con|k r0 s0 t0 con| |]; try discriminate H.
  - apply out_step_notify in H. destruct H as [o [_ [_ [_ [_ [_ ->]]]]]].
    apply ac_upd_map_wf; [|assumption].
    exact (ac_at_kt _ _ s0 t0 (ac_notified_at _ _ _ _ _) (fun o => eq_refl)).
  - apply out_step_err in H. destruct H as [o [_ ->]].
    apply ac_upd_shrinks; [assumption | apply thins_del].
Qed.

Lemma outs_wf : forall c outs w w', ac_outs c w outs = inl w' -> ac_wf (acaw_res w) -> ac_wf (acaw_res w').
Proof.
  intros c. induction outs as [|o outs IH]; intros w w' H Hwf; cbn [ac_outs] in H.
  - inversion H; subst. assumption.
  - destruct (ac_out_step c w o) as [w1|] eqn:E; [|discriminate].
    eapply IH; [eassumption|]. eapply out_step_wf; eassumption.
Qed.

Lemma outs_other : forall c r s t outs w w',
  ac_outs c w outs = inl w' -> (forall o, In o outs -> ac_out_key o <> Some (r, s, t)) ->
  ac_find (acaw_res w') r s t = ac_find (acaw_res w) r s t.
Proof.
  intros c r s t. induction outs as [|o outs IH]; intros w w' H Hk; cbn [ac_outs] in H.
  - inversion H; subst. reflexivity.
  - destruct (ac_out_step c w o) as [w1|] eqn:E; [|discriminate].
    rewrite (IH w1 w' H (fun o' Ho' => Hk o' (or_intror Ho'))).
    eapply out_step_other; [eassumption|]. apply Hk. left. reflexivity.
Qed.

Lemma out_step_registered : forall c w out w' r s t,
  ac_out_step c w out = inl w' -> ac_out_key out = Some (r, s, t) ->
  exists e, ac_find (acaw_res w) r s t = Some e.
Proof.
  intros c w out w' r s t H Hk. destruct out as [k r0 s0 t0 v con|k r0 s0 t0 con| |];
    try discriminate H; cbn [ac_out_key] in Hk; inversion Hk; subst r0 s0 t0.
  - apply out_step_notify in H. destruct H as [e [F _]]. exists e. exact F.
  - apply out_step_err in H. destruct H as [e [F _]]. exists e. exact F.
Qed.

(* observers do not appear during a step: nothing goes to one that is not registered at its start *)
Lemma outs_none_stays : forall c r s t outs w w',
  ac_outs c w outs = inl w' -> ac_find (acaw_res w) r s t = None ->
  (forall o, In o outs -> ac_out_key o <> Some (r, s, t)) /\ ac_find (acaw_res w') r s t = None.
Proof.
  intros c r s t. induction outs as [|o outs IH]; intros w w' H Hn; cbn [ac_outs] in H.
  - inversion H; subst. split; [intros o [] | assumption].
  - destruct (ac_out_step c w o) as [w1|] eqn:E; [|discriminate].
    assert (Hk : ac_out_key o <> Some (r, s, t)).
    { intro Hk. destruct (out_step_registered _ _ _ _ _ _ _ E Hk) as [e He]. congruence. }
    rewrite <- (out_step_other _ _ _ _ r s t E Hk) in Hn. destruct (IH w1 w' H Hn) as [I1 I2].
    split; [|assumption]. intros o' [<-|Hin]; [assumption | apply I1; assumption].
Qed.

Lemma outs_registered : forall c r s t outs w w' o,
  ac_outs c w outs = inl w' -> In o outs -> ac_out_key o = Some (r, s, t) ->
  exists e, ac_find (acaw_res w) r s t = Some e.
Proof.
  intros c r s t outs w w' o H Hin Hk.
  destruct (ac_find (acaw_res w) r s t) as [e|] eqn:F; [exists e; reflexivity|].
  destruct (outs_none_stays _ _ _ _ _ _ _ H F) as [N _]. destruct (N o Hin Hk).
Qed.

Lemma outs_err_gone : forall c k r s t con outs w w',
  ac_outs c w outs = inl w' -> ac_wf (acaw_res w) -> In (ObErr k r s t con) outs ->
  ac_find (acaw_res w') r s t = None.
Proof.
  intros c k r s t con. induction outs as [|o outs IH]; intros w w' H Hwf Hin; [destruct Hin|].
  cbn [ac_outs] in H. destruct (ac_out_step c w o) as [w1|] eqn:E; [|discriminate].
  destruct Hin as [->|Hin]; [|exact (IH w1 w' H (out_step_wf _ _ _ _ E Hwf) Hin)].
  apply out_step_err in E. destruct E as [e [_ ->]].
  refine (proj2 (outs_none_stays _ _ _ _ _ _ _ H _)). apply ac_find_upd_del_same. assumption.
Qed.

Lemma option_eq_dec_key : forall (x : option (Z * Z * ob_tok)) (k : Z * Z * ob_tok),
  {x = Some k} + {x <> Some k}.
Proof.
  intros x k. decide equality. decide equality; [apply list_eq_dec; apply Z.eq_dec|].
  decide equality; apply Z.eq_dec.
Qed.

Definition ac_no_notify (r s : Z) (t : ob_tok) (outs : list ob_out) : Prop :=
  forall k v con, ~ In (ObNotify k r s t v con) outs.

Lemma no_notify_cons : forall r s t o outs,
  (forall k v con, o <> ObNotify k r s t v con) -> ac_no_notify r s t outs -> ac_no_notify r s t (o :: outs).
Proof. intros r s t o outs Ho H k v con [Heq|Hin]; [exact (Ho _ _ _ Heq) | exact (H _ _ _ Hin)]. Qed.

(* exactly one notification goes to (r, s, t); it passes the checks against the entry [o] and
   leaves [o'] *)
Definition ac_notified_once (c : ac_cfg) (outs : list ob_out) (r s : Z) (t : ob_tok)
                            (o o' : ac_obs) : Prop :=
  exists k v con,
    In (ObNotify k r s t v con) outs /\
    (forall k' v' con', In (ObNotify k' r s t v' con') outs -> k' = k /\ v' = v /\ con' = con) /\
    v = ac_cur o /\ (1 <= acao_chg o \/ acao_weak o = true) /\
    (ac_mode c r <> 2 -> (if con then 0 else acao_run o + 1) <= accf_max_non c) /\
    o' = ac_after_notify o v con k.

Lemma notified_once_cons : forall c r s t o0 outs o o',
  (forall k v con, o0 <> ObNotify k r s t v con) ->
  ac_notified_once c outs r s t o o' -> ac_notified_once c (o0 :: outs) r s t o o'.
Proof.
  intros c r s t o0 outs o o' Ho [k [v [con [I1 [I2 I3]]]]]. exists k, v, con.
  split; [right; exact I1|]. split; [|exact I3].
  intros k' v' con' [Heq|Hin]; [destruct (Ho _ _ _ Heq) | exact (I2 _ _ _ Hin)].
Qed.

(* what one accepted I/O step does to one registered observer: at most one notification, since
   it leaves acao_chg = 0 and acao_weak = false and no second one passes *)
Lemma outs_entry : forall c r s t outs w w' o,
  ac_outs c w outs = inl w' -> ac_wf (acaw_res w) -> ac_find (acaw_res w) r s t = Some o ->
  exists o', (ac_no_notify r s t outs /\ o' = o \/ ac_notified_once c outs r s t o o') /\
             (ac_find (acaw_res w') r s t = Some o' \/ ac_find (acaw_res w') r s t = None).
Proof.
  intros c r s t. induction outs as [|o0 outs IH]; intros w w' o H Hwf F; cbn [ac_outs] in H.
  - inversion H; subst. exists o. split; [left; split; [intros k v con [] | reflexivity] | left; exact F].
  - destruct (ac_out_step c w o0) as [w1|] eqn:E; [|discriminate].
    pose proof (out_step_wf _ _ _ _ E Hwf) as Hwf1.
    destruct (option_eq_dec_key (ac_out_key o0) (r, s, t)) as [Hk|Hk].
    + destruct o0 as [k r0 s0 t0 v con|k r0 s0 t0 con| |]; try discriminate E;
        cbn [ac_out_key] in Hk; inversion Hk; subst r0 s0 t0.
      * apply out_step_notify in E. destruct E as [o1 [F1 [Hv [Hchk [Hrun [_ ->]]]]]].
        rewrite F in F1. inversion F1; subst o1. cbn [ac_note acaw_res] in IH, Hwf1.
        destruct (IH _ w' (ac_after_notify o v con k) H Hwf1) as [o' [[[N ->]|N] Hw']].
        { cbn [ac_note acaw_res].
          rewrite (ac_find_upd_at_same _ _ r s t (ac_notified_at _ _ _ _ _) (fun x => eq_refl)), F.
          reflexivity. }
        -- exists (ac_after_notify o v con k). split; [right | exact Hw']. exists k, v, con.
           split; [left; reflexivity|]. split; [|auto].
           intros k' v' con' [Heq|Hin]; [inversion Heq; auto | destruct (N _ _ _ Hin)].
        -- destruct N as [k' [v' [con' [_ [_ [_ [[Hc|Hc] _]]]]]]]; [cbn in Hc; lia | discriminate].
      * apply out_step_err in E. destruct E as [_ [_ ->]].
        destruct (outs_none_stays _ _ _ _ _ _ _ H (ac_find_upd_del_same r s t _ Hwf)) as [N1 N2].
        exists o. split; [left; split; [|reflexivity] | right; exact N2].
        apply no_notify_cons; [discriminate|]. intros k' v' con' Hin. exact (N1 _ Hin eq_refl).
    + rewrite <- (out_step_other _ _ _ _ r s t E Hk) in F.
      assert (Ho0 : forall k v con, o0 <> ObNotify k r s t v con) by (intros k v con ->; exact (Hk eq_refl)).
      destruct (IH w1 w' o H Hwf1 F) as [o' [[[N Ho']|N] Hw']]; exists o'; (split; [|exact Hw']).
      * left. split; [apply no_notify_cons; assumption | exact Ho'].
      * right. apply notified_once_cons; assumption.
Qed.

Definition ac_is_change (op : ob_op) (r : Z) : bool :=
  match op with ObOpChange r' => r' =? r | _ => false end.

Definition ac_msg_free (op : ob_op) (outs : list ob_out) (r s : Z) (t : ob_tok) : Prop :=
  ac_no_notify r s t outs /\
  (forall o v, (op, outs) <> (ObOpRegister r s t o, [ObRegResp r s t (Some v)])).

Definition ac_refreshed (o : ac_obs) (v : Z) : ac_obs :=
  ac_mk_ao (acao_s o) (acao_t o) (acao_key o) v 0 true (acao_run o) (acao_lastk o) (acao_since o).

Lemma ac_quiet_inv : forall outs st st', ac_quiet outs st = AcOk st' -> outs = [] /\ st' = st.
Proof. intros outs st st' H. destruct outs; cbn in H; [inversion H; auto | discriminate]. Qed.

Lemma ac_register_inv : forall st r s t o outs st',
  ac_register st r s t o outs = AcOk st' ->
  (ac_get r (acas_res st) = None /\ outs = [] /\ st' = st) \/
  exists v f, outs = [ObRegResp r s t v] /\ st' = ac_set_res st (ac_upd r f (acas_res st)) /\
    match ac_entry st r s t, v with
    | Some o1, Some v0 => v0 = ac_cur o1 /\ f = map (ac_refresh s t v0)
    | Some _, None => f = ac_del s t
    | None, Some v0 =>
        0 <= v0 < ob_M /\
        f = (fun l => ac_mk_ao s t (ob_key o) v0 0 true 0 (-1) (acas_nk st) :: ac_replace_key s (ob_key o) l)
    | None, None => f = ac_replace_key s (ob_key o)
    end.
Proof.
  intros st r s t o outs st' H. unfold ac_register in H. unfold ac_entry, ac_find.
  destruct (ac_get r (acas_res st)) as [res|].
  2:{ left. destruct outs; [inversion H; auto | discriminate]. }
  right. destruct outs as [|[| | |r' s' t' v] [|o2 outs]]; try discriminate.
  destruct ((r' =? r) && (s' =? s) && ob_bytes_eqb t' t) eqn:Eid; [|discriminate].
  apply andb_true_iff in Eid. destruct Eid as [Eid E3]. apply andb_true_iff in Eid.
  destruct Eid as [E1 E2]. apply Z.eqb_eq in E1, E2. apply ob_bytes_eqb_eq in E3. subst r' s' t'.
  exists v. destruct (ob_find (ac_obs_is s t) (acar_obs res)) as [o1|], v as [v0|].
  - destruct (Z.eqb_spec v0 ((acao_val o1 + acao_chg o1) mod ob_M)); [|discriminate].
    inversion H. eexists. auto.
  - inversion H. eexists. auto.
  - destruct ((0 <=? v0) && (v0 <? ob_M)) eqn:Er; [|discriminate]. inversion H. eexists.
    split; [reflexivity|]. split; [reflexivity|]. split; [lia | reflexivity].
  - inversion H. eexists. auto.
Qed.

Lemma ac_iostep_inv : forall c st ca outs st',
  ac_iostep c st ca outs = AcOk st' ->
  exists w, ac_outs c (ac_mk_aw (acas_res st) (acas_fl st) (acas_nk st) (acas_sent st) ca) outs = inl w /\
            ac_all_settled c (acaw_cnt w) (acaw_res w) = true /\
            st' = ac_mk_as (acaw_res w) (acaw_fl w) (acaw_nk w) (acaw_sent w).
Proof.
  intros c st ca outs st' H. unfold ac_iostep in H.
  destruct (ac_outs c _ outs) as [w|]; [|discriminate]. exists w.
  destruct (ac_all_settled c (acaw_cnt w) (acaw_res w)); [|discriminate]. inversion H. auto.
Qed.

Lemma ac_gone_ok_spec : forall r l outs, ac_gone_ok r l outs = true ->
  forall out, In out outs -> exists s t e, out = ObGone r s t /\ ob_find (ac_obs_is s t) l = Some e.
Proof.
  intros r l. induction outs as [|o outs IH]; intros H out Hin; [destruct Hin|].
  destruct o as [| |r' s t|]; cbn [ac_gone_ok] in H; try discriminate. apply andb_true_iff in H. destruct H as [H H2].
  destruct Hin as [<-|Hin]; [|exact (IH H2 out Hin)]. apply andb_true_iff in H. destruct H as [Er Ef].
  apply Z.eqb_eq in Er. subst r'. destruct (ob_find (ac_obs_is s t) l) as [e|] eqn:F; [|discriminate].
  exists s, t, e. auto.
Qed.

Lemma ac_delete_inv : forall st r outs st',
  ac_delete st r outs = AcOk st' ->
  (ac_get r (acas_res st) = None /\ outs = [] /\ st' = st) \/
  exists res, ac_get r (acas_res st) = Some res /\ ac_gone_ok r (acar_obs res) outs = true /\
              st' = ac_set_res st (ac_drop r (acas_res st) ++ [ac_mk_ar r []]).
Proof.
  intros st r outs st' H. unfold ac_delete in H. destruct (ac_get r (acas_res st)) as [res|].
  - right. exists res. destruct (ac_gone_ok r (acar_obs res) outs); [|discriminate]. inversion H. auto.
  - left. destruct outs; [inversion H; auto | discriminate].
Qed.

Lemma ac_rst_by_last_shrinks : forall s k rs, ac_wf rs -> ac_shrinks rs (ac_rst_by_last s k rs).
Proof.
  intros s k rs Hwf. destruct (ac_rst_by_last_upd s k rs (proj1 Hwf)) as [[-> _]|[y [o [_ [_ ->]]]]].
  - apply shrinks_refl. assumption.
  - apply ac_upd_shrinks; [assumption | apply thins_del].
Qed.

Lemma ac_rst_strict_shrinks : forall s k st rs, ac_wf rs -> ac_shrinks rs (ac_rst_strict s k st rs).
Proof.
  intros s k st rs Hwf. unfold ac_rst_strict.
  destruct (ac_sent_find k (acas_sent st)) as [n|]; [|apply shrinks_refl; assumption].
  destruct (acsn_s n =? s); [|apply shrinks_refl; assumption].
  apply ac_upd_shrinks; [assumption|]. intros l.
  destruct (ob_find (ac_obs_is s (acsn_t n)) l) as [o1|]; [|apply thins_id].
  destruct (acao_since o1 <=? k); [apply thins_del | apply thins_id].
Qed.

(* what libcoap honours of an RST, before the strict rule is applied on top *)
Lemma ac_rst_lenient_shrinks : forall st s k,
  ac_wf (acas_res st) ->
  ac_shrinks (acas_res st)
    (acas_res match ob_fl_find s k (acas_fl st) with
              | Some f =>
                  ac_mk_as (ac_del_everywhere s (obfl_tok f) (acas_res st))
                    (ob_fl_cancel s (obfl_tok f) (ob_fl_remove s k (acas_fl st))) (acas_nk st) (acas_sent st)
              | None => ac_set_res st (ac_rst_by_last s k (acas_res st))
              end).
Proof.
  intros st s k Hwf. destruct (ob_fl_find s k (acas_fl st)) as [f|]; cbn [acas_res ac_set_res].
  - apply ac_map_shrinks; [assumption | apply thins_del].
  - apply ac_rst_by_last_shrinks. assumption.
Qed.

Lemma ac_rst_shrinks : forall c st s k,
  ac_wf (acas_res st) -> ac_shrinks (acas_res st) (acas_res (ac_rst c st s k)).
Proof.
  intros c st s k Hwf. pose proof (ac_rst_lenient_shrinks st s k Hwf) as S1. unfold ac_rst.
  destruct (accf_strict c); [|exact S1]. cbn [acas_res ac_set_res].
  eapply shrinks_trans; [exact S1|]. apply ac_rst_strict_shrinks. apply S1.
Qed.

Lemma ac_confailed_shrinks : forall st s k,
  ac_wf (acas_res st) -> ac_shrinks (acas_res st) (acas_res (ac_confailed st s k)).
Proof.
  intros st s k Hwf. unfold ac_confailed.
  destruct (ob_fl_find s k (acas_fl st)) as [f|]; [|apply shrinks_refl; assumption].
  cbn [acas_res]. apply ac_map_shrinks; [assumption | apply thins_del].
Qed.

Lemma ac_lost_shrinks : forall st s,
  ac_wf (acas_res st) -> ac_shrinks (acas_res st) (acas_res (ac_lost st s)).
Proof. intros st s Hwf. apply ac_map_shrinks; [assumption | apply thins_lost]. Qed.

(* what an accepted entry (op, outs) does to an observer that is registered afterwards *)
Definition ac_effect (c : ac_cfg) (st : ac_state) (op : ob_op) (outs : list ob_out)
                     (r s : Z) (t : ob_tok) (o' : ac_obs) : Prop :=
  (* it was there and nothing was said to it *)
  (exists o, ac_entry st r s t = Some o /\ ac_msg_free op outs r s t /\
             o' = if ac_is_change op r then ac_bump o else o) \/
  (* it was notified (exactly once) *)
  (exists o ca,
     op = ObOpIoStep ca /\ ac_entry st r s t = Some o /\ ac_notified_once c outs r s t o o') \/
  (* its registration was refreshed (same token) *)
  (exists o opts v,
     op = ObOpRegister r s t opts /\ outs = [ObRegResp r s t (Some v)] /\
     ac_entry st r s t = Some o /\ v = ac_cur o /\ o' = ac_refreshed o v) \/
  (* it was created *)
  (exists opts v,
     op = ObOpRegister r s t opts /\ outs = [ObRegResp r s t (Some v)] /\
     ac_entry st r s t = None /\ 0 <= v < ob_M /\
     o' = ac_mk_ao s t (ob_key opts) v 0 true 0 (-1) (acas_nk st)).

Definition ac_step_ok (c : ac_cfg) (st : ac_state) (op : ob_op) (outs : list ob_out)
                      (st' : ac_state) : Prop :=
  ac_wf (acas_res st') /\
  forall r s t o', ac_entry st' r s t = Some o' -> ac_effect c st op outs r s t o'.

Lemma msg_free_nil : forall op r s t, ac_msg_free op [] r s t.
Proof. intros op r s t. split; [intros k v con [] | intros o v Heq; discriminate]. Qed.

Lemma msg_free_reg : forall r0 s0 t0 o v r s t,
  (r0, s0, t0) <> (r, s, t) -> ac_msg_free (ObOpRegister r0 s0 t0 o) [ObRegResp r0 s0 t0 v] r s t.
Proof.
  intros r0 s0 t0 o v r s t Hne. split.
  - intros k v' con [Heq|[]]. discriminate.
  - intros o1 v1 Heq. apply Hne. congruence.
Qed.

Lemma shrinks_ok : forall c st op st',
  ac_shrinks (acas_res st) (acas_res st') -> (forall r, ac_is_change op r = false) ->
  ac_step_ok c st op [] st'.
Proof.
  intros c st op st' [W S] Hc. split; [exact W|]. intros r s t o' E. left. exists o'.
  split; [exact (S r s t o' E)|]. split; [apply msg_free_nil|]. rewrite Hc. reflexivity.
Qed.

Lemma ac_refresh_at : forall s t v o, ac_refresh s t v o = if ac_obs_is s t o then ac_refreshed o v else o.
Proof. reflexivity. Qed.

Lemma ac_register_ok : forall c st r s t o outs st',
  ac_wf (acas_res st) -> ac_register st r s t o outs = AcOk st' ->
  ac_step_ok c st (ObOpRegister r s t o) outs st'.
Proof.
  intros c st r s t o outs st' Hwf H. apply ac_register_inv in H.
  destruct H as [[_ [-> ->]]|[v [f [-> [-> Hf]]]]];
    [apply shrinks_ok; [apply shrinks_refl; assumption | reflexivity]|].
  unfold ac_step_ok, ac_entry in *. cbn [acas_res ac_set_res].
  (* observers under another key stay as they are *)
  assert (Hother : forall r' s' t' o', (r, s, t) <> (r', s', t') ->
            ac_find (acas_res st) r' s' t' = Some o' ->
            ac_effect c st (ObOpRegister r s t o) [ObRegResp r s t v] r' s' t' o').
  { intros r' s' t' o' Hne E. left. exists o'. split; [exact E|].
    split; [apply msg_free_reg; assumption | reflexivity]. }
  (* a registration that only removes, our observer included *)
  assert (Hthin : forall g, ac_thins g -> ac_find (ac_upd r g (acas_res st)) r s t = None ->
            ac_wf (ac_upd r g (acas_res st)) /\
            forall r' s' t' o', ac_find (ac_upd r g (acas_res st)) r' s' t' = Some o' ->
              ac_effect c st (ObOpRegister r s t o) [ObRegResp r s t v] r' s' t' o').
  { intros g Hg Hn. destruct (ac_upd_shrinks r g _ Hwf Hg) as [W S]. split; [exact W|].
    intros r' s' t' o' E. apply Hother; [|exact (S _ _ _ _ E)]. intro Heq. congruence. }
  destruct (ac_find (acas_res st) r s t) as [o1|] eqn:E0, v as [v0|].
  - destruct Hf as [Hv ->].
    pose proof (ac_refresh_at s t v0) as Hat.
    split; [apply ac_upd_map_wf; [exact (ac_at_kt _ _ s t Hat (fun x => eq_refl)) | assumption]|].
    intros r' s' t' o' E. destruct (option_eq_dec_key (Some (r, s, t)) (r', s', t')) as [Heq|Hne].
    + inversion Heq; subst r' s' t'.
      rewrite (ac_find_upd_at_same _ _ r s t Hat (fun x => eq_refl)), E0 in E. inversion E.
      right. right. left. exists o1, o, v0. auto.
    + rewrite (ac_find_upd_at_other _ _ r s t Hat (fun x => eq_refl)) in E by congruence.
      apply Hother; [congruence | exact E].
  - subst f. apply Hthin; [apply thins_del | apply ac_find_upd_del_same; assumption].
  - destruct Hf as [Hr ->]. unfold ac_find in E0.
    set (new := ac_mk_ao s t (ob_key o) v0 0 true 0 (-1) (acas_nk st)). split.
    + apply ac_upd_wf_at; [assumption|]. intros y G. rewrite G in E0.
      pose proof (ac_wf_get _ _ _ Hwf G) as Hl. cbn [map]. constructor.
      * apply (kl_find_none ac_kt _ _ (ac_obs_is_kt s t)).
        apply thins_none; [apply thins_replace_key | assumption | assumption].
      * apply thins_nodup; [apply thins_replace_key | exact Hl].
    + intros r' s' t' o' E. rewrite ac_find_upd in E.
      destruct (Z.eqb_spec r' r) as [->|Hne]; [|apply Hother; [congruence | exact E]].
      destruct (ac_get r (acas_res st)) as [y|] eqn:G; [|discriminate].
      pose proof (ac_wf_get _ _ _ Hwf G) as Hl. cbn [ob_find] in E.
      destruct (ac_obs_is s' t' new) eqn:Eis.
      * apply ac_obs_is_kt in Eis. inversion Eis; subst s' t'. inversion E.
        right. right. right. exists o, v0. unfold ac_entry, ac_find. rewrite G. auto.
      * apply Hother.
        { intro Heq. inversion Heq; subst s' t'.
          rewrite (proj2 (ac_obs_is_kt s t new) eq_refl) in Eis. discriminate. }
        unfold ac_find. rewrite G. exact (thins_find _ s' t' _ o' (thins_replace_key s (ob_key o)) Hl E).
  - subst f. apply Hthin; [apply thins_replace_key|].
    exact (shrinks_none _ _ _ _ _ (ac_upd_shrinks r _ _ Hwf (thins_replace_key _ _)) E0).
Qed.

Lemma ac_change_ok : forall c st r0,
  ac_wf (acas_res st) ->
  ac_step_ok c st (ObOpChange r0) [] (ac_set_res st (ac_upd r0 (map ac_bump) (acas_res st))).
Proof.
  intros c st r0 Hwf. split; [apply ac_upd_map_wf; [reflexivity | assumption]|].
  intros r s t o' E. unfold ac_entry in *. cbn [acas_res ac_set_res] in E.
  rewrite ac_find_upd_map in E by reflexivity.
  destruct (ac_find (acas_res st) r s t) as [o|] eqn:E0; [|discriminate]. inversion E.
  left. exists o. split; [exact E0|]. split; [apply msg_free_nil|].
  cbn [ac_is_change]. rewrite (Z.eqb_sym r0 r). destruct (r =? r0); reflexivity.
Qed.

Lemma ac_iostep_ok : forall c st ca outs st',
  ac_wf (acas_res st) -> ac_iostep c st ca outs = AcOk st' -> ac_step_ok c st (ObOpIoStep ca) outs st'.
Proof.
  intros c st ca outs st' Hwf H. apply ac_iostep_inv in H. destruct H as [w [E [_ ->]]].
  split; [exact (outs_wf _ _ _ _ E Hwf)|]. intros r s t o' E1. unfold ac_entry in E1. cbn [acas_res] in E1.
  destruct (ac_entry st r s t) as [q|] eqn:E0.
  - destruct (outs_entry c r s t outs _ w q E Hwf E0) as [o1 [I1 [I2|I2]]];
      rewrite E1 in I2; [|discriminate]. inversion I2; subst o1. destruct I1 as [[I1 ->]|I1].
    + left. exists q. split; [exact E0|]. split; [|reflexivity].
      split; [exact I1 | intros o1 v1 Heq; discriminate].
    + right. left. exists q, ca. auto.
  - rewrite (proj2 (outs_none_stays _ _ _ _ _ _ _ E E0)) in E1. discriminate.
Qed.

Lemma ac_delete_ok : forall c st r0 ca outs st',
  ac_wf (acas_res st) -> ac_delete st r0 outs = AcOk st' -> ac_step_ok c st (ObOpDeleteResource r0 ca) outs st'.
Proof.
  intros c st r0 ca outs st' Hwf H. apply ac_delete_inv in H.
  destruct H as [[_ [-> ->]]|[res [_ [GO ->]]]];
    [apply shrinks_ok; [apply shrinks_refl; assumption | reflexivity]|].
  split; [apply ac_drop_wf; assumption|]. intros r s t o' E. unfold ac_entry in E.
  cbn [acas_res ac_set_res] in E. rewrite ac_find_drop in E by apply Hwf.
  destruct (r =? r0); [discriminate|]. left. exists o'. split; [exact E|]. split; [|reflexivity].
  split; [|intros o1 v1 Heq; discriminate]. intros k v con Hin.
  destruct (ac_gone_ok_spec _ _ _ GO _ Hin) as [s1 [t1 [e [Heq _]]]]. discriminate.
Qed.

Lemma ac_step_effect : forall c st op outs st',
  ac_wf (acas_res st) -> ac_step c st (op, outs) = AcOk st' -> ac_step_ok c st op outs st'.
Proof.
  intros c st op outs st' Hwf H. destruct op; cbn [ac_step] in H;
    try (apply ac_quiet_inv in H; destruct H as [-> ->]).
  - exact (ac_register_ok c _ _ _ _ _ _ _ Hwf H).
  - apply shrinks_ok; [|reflexivity]. apply ac_upd_shrinks; [assumption | apply thins_cancel_obs].
  - apply ac_change_ok. assumption.
  - exact (ac_iostep_ok _ _ _ _ _ Hwf H).
  - apply shrinks_ok; [apply shrinks_refl; assumption | reflexivity].
  - apply shrinks_ok; [apply ac_rst_shrinks; assumption | reflexivity].
  - apply shrinks_ok; [apply ac_confailed_shrinks; assumption | reflexivity].
  - apply shrinks_ok; [apply shrinks_refl; assumption | reflexivity].
  - apply shrinks_ok; [apply ac_lost_shrinks; assumption | reflexivity].
  - exact (ac_delete_ok _ _ _ _ _ _ Hwf H).
Qed.

Lemma ac_step_wf : forall c st e st',
  ac_wf (acas_res st) -> ac_step c st e = AcOk st' -> ac_wf (acas_res st').
Proof. intros c st [op outs] st' Hwf H. exact (proj1 (ac_step_effect _ _ _ _ _ Hwf H)). Qed.

Lemma ac_step_entry : forall c st op outs st' r s t o',
  ac_wf (acas_res st) -> ac_step c st (op, outs) = AcOk st' -> ac_entry st' r s t = Some o' ->
  ac_effect c st op outs r s t o'.
Proof. intros c st op outs st' r s t o' Hwf H. exact (proj2 (ac_step_effect _ _ _ _ _ Hwf H) r s t o'). Qed.

Fixpoint ac_go (c : ac_cfg) (st : ac_state) (tr : list (ob_op * list ob_out)) : option ac_state :=
  match tr with
  | [] => Some st
  | e :: tl => match ac_step c st e with AcOk st' => ac_go c st' tl | AcBad _ => None end
  end.

Lemma ac_run_go : forall c tr st i st', ac_run c st i tr = inl st' <-> ac_go c st tr = Some st'.
Proof.
  intros c. induction tr as [|e tl IH]; intros st i st'; cbn [ac_run ac_go].
  - split; intro H; inversion H; reflexivity.
  - destruct (ac_step c st e); [apply IH|]. split; discriminate.
Qed.

Lemma ac_go_app : forall c t1 t2 st,
  ac_go c st (t1 ++ t2) = match ac_go c st t1 with Some s1 => ac_go c s1 t2 | None => None end.
Proof.
  intros c. induction t1 as [|e tl IH]; intros t2 st; cbn [app ac_go]; [reflexivity|].
  destruct (ac_step c st e); [apply IH | reflexivity].
Qed.

Lemma ac_go_preserves : forall c (P : ac_state -> Prop),
  (forall st e st', P st -> ac_step c st e = AcOk st' -> P st') ->
  forall tr st st', P st -> ac_go c st tr = Some st' -> P st'.
Proof.
  intros c P Hstep. induction tr as [|e tl IH]; intros st st' HP H; cbn [ac_go] in H.
  - inversion H; subst. assumption.
  - destruct (ac_step c st e) as [st1|] eqn:E; [|discriminate]. exact (IH st1 st' (Hstep _ _ _ HP E) H).
Qed.

Lemma ac_go_wf : forall c tr st st', ac_wf (acas_res st) -> ac_go c st tr = Some st' -> ac_wf (acas_res st').
Proof. intro c. exact (ac_go_preserves c (fun st => ac_wf (acas_res st)) (ac_step_wf c)). Qed.

Lemma ac_init_res_ids : forall modes id y, In y (ac_init_res id modes) -> id <= acar_id y /\ acar_obs y = [].
Proof.
  induction modes as [|m tl IH]; cbn [ac_init_res]; intros id y H; [destruct H|].
  destruct H as [<-|H]; [cbn; split; [lia | reflexivity]|]. apply IH in H. destruct H. split; [lia | assumption].
Qed.

Lemma ac_init_wf : forall c, ac_wf (acas_res (ac_init c)).
Proof.
  intro c. unfold ac_init. cbn [acas_res]. generalize 0 as id. generalize (accf_modes c) as modes.
  induction modes as [|m tl IH]; intro id; cbn [ac_init_res].
  - split; constructor.
  - destruct (IH (id + 1)) as [A B]. split; cbn [map acar_id].
    + constructor; [|assumption]. intro H. apply in_map_iff in H. destruct H as [y [Hy Hin]].
      apply ac_init_res_ids in Hin. lia.
    + constructor; [unfold ac_res_wf; cbn; constructor | assumption].
Qed.

Definition ac_registers (e : ob_op * list ob_out) (r s : Z) (t : ob_tok) : Prop :=
  exists o v, e = (ObOpRegister r s t o, [ObRegResp r s t (Some v)]).

(* whatever an accepted entry sends to (r, s, t) - notification, error response, 4.04 - goes to
   an observer that was registered before that entry *)
Lemma ac_step_out_registered : forall c st op outs st' out r s t,
  ac_step c st (op, outs) = AcOk st' -> In out outs -> ac_out_key out = Some (r, s, t) ->
  exists o, ac_entry st r s t = Some o.
Proof.
  intros c st op outs st' out r s t H Hin Hk. destruct op; cbn [ac_step] in H;
    try (apply ac_quiet_inv in H; destruct H as [-> _]; destruct Hin).
  - apply ac_register_inv in H. destruct H as [[_ [-> _]]|[v [f [-> _]]]]; [destruct Hin|].
    destruct Hin as [<-|[]]. discriminate.
  - apply ac_iostep_inv in H. destruct H as [w [E _]].
    exact (outs_registered c r s t outs _ w out E Hin Hk).
  - apply ac_delete_inv in H. destruct H as [[_ [-> _]]|[res [G [GO _]]]]; [destruct Hin|].
    destruct (ac_gone_ok_spec _ _ _ GO _ Hin) as [s1 [t1 [e [-> F]]]]. inversion Hk; subst r0 s1 t1.
    exists e. unfold ac_entry, ac_find. rewrite G. exact F.
Qed.

(* an observer appears only through an accepted registration *)
Lemma ac_step_adds : forall c st op outs st' r s t,
  ac_wf (acas_res st) -> ac_step c st (op, outs) = AcOk st' ->
  ac_reg st r s t = false -> ac_reg st' r s t = true -> ac_registers (op, outs) r s t.
Proof.
  intros c st op outs st' r s t Hwf H H0 H1. unfold ac_reg in *.
  destruct (ac_entry st' r s t) as [o'|] eqn:E1; [|discriminate].
  destruct (ac_entry st r s t) as [o|] eqn:E0; [discriminate|].
  destruct (ac_step_entry c st op outs st' r s t o' Hwf H E1)
    as [[q [Q _]]|[[q [ca [_ [Q _]]]]|[[q [opts [v [_ [_ [Q _]]]]]]|[opts [v [A [B _]]]]]]];
    try congruence.
  subst. exists opts, v. reflexivity.
Qed.

(* C11: after (r, s, t) is not registered, nothing is sent to it until it registers again *)
Theorem ac_none_while_unregistered : forall c r s t tr st st',
  ac_wf (acas_res st) -> ac_go c st tr = Some st' -> ac_reg st r s t = false ->
  (forall e, In e tr -> ~ ac_registers e r s t) ->
  (forall e out, In e tr -> In out (snd e) -> ac_out_key out <> Some (r, s, t)) /\
  ac_reg st' r s t = false.
Proof.
  intros c r s t. induction tr as [|[op outs] tl IH]; intros st st' Hwf H H0 Hno; cbn [ac_go] in H.
  - inversion H; subst. split; [intros e out [] | assumption].
  - destruct (ac_step c st (op, outs)) as [st1|] eqn:E; [|discriminate].
    assert (H1 : ac_reg st1 r s t = false).
    { destruct (ac_reg st1 r s t) eqn:R1; [|reflexivity]. exfalso.
      apply (Hno (op, outs) (or_introl eq_refl)). eapply ac_step_adds; eassumption. }
    destruct (IH st1 st' (ac_step_wf _ _ _ _ Hwf E) H H1 (fun e He => Hno e (or_intror He))) as [I1 I2].
    split; [|assumption]. intros e out [<-|He] Hout Hk; [|eapply I1; eassumption].
    cbn [snd] in Hout. destruct (ac_step_out_registered _ _ _ _ _ _ _ _ _ E Hout Hk) as [q Hq].
    unfold ac_reg in H0. rewrite Hq in H0. discriminate.
Qed.

Lemma ac_reg_false : forall st r s t, ac_entry st r s t = None -> ac_reg st r s t = false.
Proof. intros st r s t H. unfold ac_reg. rewrite H. reflexivity. Qed.

(* C11: each de-registration event of the property leaves the observer unregistered. *)

(* Observe:1 with the token of the registration *)
Lemma ac_dereg_cancel : forall c st r s t o outs st',
  ac_wf (acas_res st) -> ac_step c st (ObOpCancel r s t o, outs) = AcOk st' -> ac_reg st' r s t = false.
Proof.
  intros c st r s t o outs st' Hwf H. cbn [ac_step] in H. apply ac_quiet_inv in H. destruct H as [_ ->].
  apply ac_reg_false. unfold ac_entry. cbn [acas_res ac_set_res]. rewrite ac_find_upd, Z.eqb_refl.
  destruct (ac_get r (acas_res st)) as [y|] eqn:G; [|reflexivity].
  pose proof (ac_wf_get _ _ _ Hwf G) as Hl. unfold ac_cancel_obs.
  destruct (ob_find (ac_obs_is s t) (acar_obs y)) as [q|] eqn:F; [apply find_del_same; assumption|].
  apply thins_none; [apply thins_replace_key | assumption | assumption].
Qed.

(* Observe:1 with another token but the cache key of the registration *)
Lemma ac_dereg_cancel_key : forall c st r s t t' o outs st' q,
  ac_wf (acas_res st) -> ac_step c st (ObOpCancel r s t' o, outs) = AcOk st' ->
  ac_entry st r s t' = None -> ac_entry st r s t = Some q -> acao_key q = ob_key o ->
  (forall q', ac_entry st r s (acao_t q') = Some q' -> acao_key q' = ob_key o -> acao_t q' = t) ->
  ac_reg st' r s t = false.
Proof.
  intros c st r s t t' o outs st' q Hwf H Hnone Hq Hkey Huniq. cbn [ac_step] in H.
  apply ac_quiet_inv in H. destruct H as [_ ->]. apply ac_reg_false. unfold ac_entry in *.
  cbn [acas_res ac_set_res]. rewrite ac_find_upd, Z.eqb_refl. unfold ac_find in *.
  destruct (ac_get r (acas_res st)) as [y|] eqn:G; [|reflexivity].
  pose proof (ac_wf_get _ _ _ Hwf G) as Hl. unfold ac_cancel_obs. rewrite Hnone. unfold ac_replace_key.
  apply ob_find_some in Hq. destruct Hq as [Hin Hm]. apply ac_obs_is_kt in Hm. injection Hm as Hs _.
  destruct (ob_find (ac_obs_keyis s (ob_key o)) (acar_obs y)) as [old|] eqn:Fk.
  - apply ob_find_some in Fk. destruct Fk as [Hold Hk]. unfold ac_obs_keyis in Hk.
    apply andb_true_iff in Hk. destruct Hk as [Hso Hk]. apply Z.eqb_eq in Hso. apply ob_opts_eqb_eq in Hk.
    rewrite <- (Huniq old); [apply find_del_same; assumption | | assumption].
    rewrite <- Hso. apply find_own; assumption.
  - pose proof (ob_find_none _ _ Fk q Hin) as Hf. unfold ac_obs_keyis in Hf.
    rewrite Hs, Z.eqb_refl, Hkey, ob_opts_eqb_refl in Hf. discriminate.
Qed.

(* an error-class response instead of a notification *)
Lemma ac_dereg_error : forall c st ca outs st' k r s t con,
  ac_wf (acas_res st) -> ac_step c st (ObOpIoStep ca, outs) = AcOk st' ->
  In (ObErr k r s t con) outs -> ac_reg st' r s t = false.
Proof.
  intros c st ca outs st' k r s t con Hwf H Hin. cbn [ac_step] in H. apply ac_iostep_inv in H.
  destruct H as [w [E [_ ->]]]. apply ac_reg_false. exact (outs_err_gone _ _ _ _ _ _ _ _ _ E Hwf Hin).
Qed.

(* the session is lost *)
Lemma ac_dereg_lost : forall c st s outs st' r t,
  ac_step c st (ObOpSessionLost s, outs) = AcOk st' -> ac_reg st' r s t = false.
Proof.
  intros c st s outs st' r t H. cbn [ac_step] in H. apply ac_quiet_inv in H. destruct H as [_ ->].
  apply ac_reg_false. unfold ac_entry, ac_lost. cbn [acas_res]. rewrite ac_find_map.
  destruct (ac_get r (acas_res st)); [|reflexivity]. rewrite find_lost, Z.eqb_refl. reflexivity.
Qed.

(* the resource is deleted *)
Lemma ac_dereg_deleted : forall c st r ca outs st' s t,
  ac_wf (acas_res st) -> ac_step c st (ObOpDeleteResource r ca, outs) = AcOk st' -> ac_reg st' r s t = false.
Proof.
  intros c st r ca outs st' s t Hwf H. cbn [ac_step] in H. apply ac_delete_inv in H. apply ac_reg_false.
  unfold ac_entry. destruct H as [[G [_ ->]]|[res [_ [_ ->]]]].
  - unfold ac_find. rewrite G. reflexivity.
  - cbn [acas_res ac_set_res]. rewrite ac_find_drop by apply Hwf. rewrite Z.eqb_refl. reflexivity.
Qed.

(* what the lenient rule has removed stays removed under the strict one *)
Lemma ac_strict_none : forall (strict : bool) s k st st1 r s' t,
  ac_wf (acas_res st1) -> ac_entry st1 r s' t = None ->
  ac_reg (if strict then ac_set_res st1 (ac_rst_strict s k st (acas_res st1)) else st1) r s' t = false.
Proof.
  intros strict s k st st1 r s' t Hwf Hn. apply ac_reg_false. destruct strict; [|exact Hn].
  exact (shrinks_none _ _ _ _ _ (ac_rst_strict_shrinks s k st _ Hwf) Hn).
Qed.

(* RST answering a confirmable notification that is still being retransmitted *)
Lemma ac_dereg_rst_inflight : forall c st s k outs st' f r,
  ac_wf (acas_res st) -> ac_step c st (ObOpRst s k, outs) = AcOk st' ->
  ob_fl_find s k (acas_fl st) = Some f -> ac_reg st' r s (obfl_tok f) = false.
Proof.
  intros c st s k outs st' f r Hwf H Hf. cbn [ac_step] in H. apply ac_quiet_inv in H.
  destruct H as [_ ->]. pose proof (ac_rst_lenient_shrinks st s k Hwf) as [W1 _].
  unfold ac_rst. rewrite Hf in *. apply ac_strict_none; [exact W1|].
  apply ac_find_del_everywhere. assumption.
Qed.

(* RST answering the latest notification of an observer (nothing of it in flight) *)
Lemma ac_dereg_rst_latest : forall c st s k outs st' r t q,
  ac_wf (acas_res st) -> ac_step c st (ObOpRst s k, outs) = AcOk st' ->
  ob_fl_find s k (acas_fl st) = None -> ac_entry st r s t = Some q -> acao_lastk q = k ->
  (forall r' t' q', ac_entry st r' s t' = Some q' -> acao_lastk q' = k -> r' = r /\ t' = t) ->
  ac_reg st' r s t = false.
Proof.
  intros c st s k outs st' r t q Hwf H Hf Hq Hk Huniq. cbn [ac_step] in H. apply ac_quiet_inv in H.
  destruct H as [_ ->]. pose proof (ac_rst_lenient_shrinks st s k Hwf) as [W1 _].
  unfold ac_rst. rewrite Hf in *. apply ac_strict_none; [exact W1|].
  unfold ac_entry in *. cbn [acas_res ac_set_res].
  destruct (ac_rst_by_last_upd s k _ (proj1 Hwf)) as [[_ N]|[y [o [Hy [F ->]]]]].
  - (* q itself has lastk = k *)
    exfalso. unfold ac_find in Hq. destruct (ac_get r (acas_res st)) as [y|] eqn:G; [|discriminate].
    apply ac_get_in in G. apply ob_find_some in Hq. destruct Hq as [Hin Hm].
    apply ac_obs_is_kt in Hm. injection Hm as Hs _.
    pose proof (ob_find_none _ _ (N y (proj1 G)) q Hin) as Hf1. cbv beta in Hf1.
    rewrite Hk, Hs, !Z.eqb_refl in Hf1. discriminate.
  - (* the observer that is removed is found under its own key, so it is ours *)
    apply ob_find_some in F. destruct F as [Ho Hp]. apply andb_true_iff in Hp.
    destruct Hp as [Hl Hs]. apply Z.eqb_eq in Hl, Hs.
    destruct (Huniq (acar_id y) (acao_t o) o) as [<- <-]; [|exact Hl|apply ac_find_upd_del_same; exact Hwf].
    unfold ac_find. rewrite (ac_get_own _ _ (proj1 Hwf) Hy), <- Hs. apply find_own; [|exact Ho].
    exact (proj1 (Forall_forall _ _) (proj2 Hwf) y Hy).
Qed.

(* a confirmable notification is given up *)
Lemma ac_dereg_giveup : forall c st s k outs st' f r,
  ac_wf (acas_res st) -> ac_step c st (ObOpConFailed s k, outs) = AcOk st' ->
  ob_fl_find s k (acas_fl st) = Some f -> ac_reg st' r s (obfl_tok f) = false.
Proof.
  intros c st s k outs st' f r Hwf H Hf. cbn [ac_step] in H. apply ac_quiet_inv in H.
  destruct H as [_ ->]. unfold ac_confailed. rewrite Hf. apply ac_reg_false.
  apply ac_find_del_everywhere. assumption.
Qed.

(* an error-class answer to the registration request itself *)
Lemma ac_dereg_failed_registration : forall c st r s t o st',
  ac_wf (acas_res st) -> ac_step c st (ObOpRegister r s t o, [ObRegResp r s t None]) = AcOk st' ->
  ac_reg st' r s t = false.
Proof.
  intros c st r s t o st' Hwf H. cbn [ac_step] in H. apply ac_register_inv in H.
  destruct H as [[_ [Hd _]]|[v [f [Ho [-> Hf]]]]]; [discriminate|]. injection Ho as <-.
  apply ac_reg_false. unfold ac_entry in *. cbn [acas_res ac_set_res].
  destruct (ac_find (acas_res st) r s t) eqn:E0; subst f.
  - apply ac_find_upd_del_same. assumption.
  - exact (shrinks_none _ _ _ _ _ (ac_upd_shrinks r _ _ Hwf (thins_replace_key _ _)) E0).
Qed.

(* the strict reading of the property: RST for any notification of the current registration *)
Lemma ac_dereg_rst_strict : forall c st s k outs st' n q,
  accf_strict c = true -> ac_wf (acas_res st) -> ac_step c st (ObOpRst s k, outs) = AcOk st' ->
  ac_sent_find k (acas_sent st) = Some n -> acsn_s n = s ->
  ac_entry st (acsn_r n) s (acsn_t n) = Some q -> acao_since q <= k ->
  ac_reg st' (acsn_r n) s (acsn_t n) = false.
Proof.
  intros c st s k outs st' n q Hstrict Hwf H Hn Hs Hq Hsince. cbn [ac_step] in H.
  apply ac_quiet_inv in H. destruct H as [_ ->]. pose proof (ac_rst_lenient_shrinks st s k Hwf) as [W1 S1].
  unfold ac_rst. rewrite Hstrict.
  set (st1 := match ob_fl_find s k (acas_fl st) with Some f => _ | None => _ end) in *.
  apply ac_reg_false. unfold ac_entry in *. cbn [acas_res ac_set_res].
  unfold ac_rst_strict. rewrite Hn, Hs, Z.eqb_refl, ac_find_upd, Z.eqb_refl.
  destruct (ac_get (acsn_r n) (acas_res st1)) as [y|] eqn:G; [|reflexivity].
  destruct (ob_find (ac_obs_is s (acsn_t n)) (acar_obs y)) as [o1|] eqn:F; [|exact F].
  (* what is still there is the old entry *)
  assert (Ho : ac_find (acas_res st1) (acsn_r n) s (acsn_t n) = Some o1) by (unfold ac_find; rewrite G; exact F).
  apply S1 in Ho. rewrite Hq in Ho. inversion Ho; subst o1.
  rewrite (proj2 (Z.leb_le _ _) Hsince). apply find_del_same. exact (ac_wf_get _ _ _ W1 G).
Qed.

(* a message with an Observe value for (r, s, t): a notification or an accepted registration *)
Definition ac_message (e : ob_op * list ob_out) (r s : Z) (t : ob_tok) (v : Z) : Prop :=
  (exists k con, In (ObNotify k r s t v con) (snd e)) \/
  (exists o, e = (ObOpRegister r s t o, [ObRegResp r s t (Some v)])).

(* a stretch of history during which (r, s, t) stays registered; counts the changes of r *)
Fixpoint ac_keep (c : ac_cfg) (r s : Z) (t : ob_tok) (st : ac_state)
                 (tr : list (ob_op * list ob_out)) : option (ac_state * Z) :=
  match tr with
  | [] => Some (st, 0)
  | e :: tl =>
      match ac_step c st e with
      | AcOk st' =>
          if ac_reg st' r s t then
            match ac_keep c r s t st' tl with
            | Some (st2, n) => Some (st2, n + (if ac_is_change (fst e) r then 1 else 0))
            | None => None
            end
          else None
      | AcBad _ => None
      end
  end.

Lemma ac_mod_add : forall a d n, ((a + d) mod ob_M + n) mod ob_M = (a + (n + d)) mod ob_M.
Proof. intros a d n. unfold ob_M. rewrite Z.add_mod_idemp_l by discriminate. f_equal. ring. Qed.

Lemma ac_cur_bump : forall o, ac_cur (ac_bump o) = (ac_cur o + 1) mod ob_M.
Proof.
  intro o. unfold ac_cur, ac_bump, ob_M. cbn. rewrite Z.add_assoc.
  rewrite Z.add_mod_idemp_l by discriminate. reflexivity.
Qed.

Lemma ac_cur_mod : forall o, ac_cur o mod ob_M = ac_cur o.
Proof. intro o. unfold ac_cur, ob_M. apply Z.mod_mod. lia. Qed.

Lemma ac_cur_range : forall o, 0 <= ac_cur o < ob_M.
Proof. intro o. unfold ac_cur, ob_M. apply Z.mod_pos_bound. lia. Qed.

(* one accepted entry, for an observer registered before and after it: the current value moves
   by exactly the changes of the resource; without a notification the count of
   non-confirmables stays; without any message the entry only counts the changes *)
Lemma ac_step_kept : forall c st op outs st' r s t o o',
  ac_wf (acas_res st) -> ac_step c st (op, outs) = AcOk st' ->
  ac_entry st r s t = Some o -> ac_entry st' r s t = Some o' ->
  ac_cur o' = (ac_cur o + (if ac_is_change op r then 1 else 0)) mod ob_M /\
  (ac_no_notify r s t outs -> acao_run o' = acao_run o) /\
  (ac_msg_free op outs r s t -> o' = if ac_is_change op r then ac_bump o else o).
Proof.
  intros c st op outs st' r s t o o' Hwf H E0 E1.
  destruct (ac_step_entry c st op outs st' r s t o' Hwf H E1)
    as [[q [Q [_ ->]]]|[[q [ca [-> [Q [k [v [con [Hin [_ [Hv [_ [_ ->]]]]]]]]]]]]|
        [[q [opts [v [-> [-> [Q [Hv ->]]]]]]]|[opts [v [_ [_ [Q _]]]]]]]];
    rewrite Q in E0; inversion E0; subst q.
  - destruct (ac_is_change op r).
    + split; [apply ac_cur_bump | auto].
    + rewrite Z.add_0_r, ac_cur_mod. auto.
  - cbn [ac_is_change]. split; [|split].
    + unfold ac_cur at 1. cbn. rewrite !Z.add_0_r, Hv, !ac_cur_mod. reflexivity.
    + intro N. destruct (N _ _ _ Hin).
    + intros [N _]. destruct (N _ _ _ Hin).
  - cbn [ac_is_change]. split; [|split].
    + unfold ac_cur at 1. cbn. rewrite !Z.add_0_r, Hv, !ac_cur_mod. reflexivity.
    + reflexivity.
    + intros [_ N]. destruct (N _ _ eq_refl).
Qed.

(* the same over a stretch during which the observer stays registered *)
Lemma ac_keep_entry : forall c r s t tr st st' n o,
  ac_wf (acas_res st) -> ac_entry st r s t = Some o -> ac_keep c r s t st tr = Some (st', n) ->
  ac_wf (acas_res st') /\ 0 <= n /\
  exists o', ac_entry st' r s t = Some o' /\ ac_cur o' = (ac_cur o + n) mod ob_M /\
    ((forall e, In e tr -> ac_no_notify r s t (snd e)) -> acao_run o' = acao_run o) /\
    ((forall e, In e tr -> ac_msg_free (fst e) (snd e) r s t) ->
     acao_chg o' = acao_chg o + n /\ acao_weak o' = acao_weak o /\ acao_val o' = acao_val o).
Proof.
  intros c r s t. induction tr as [|[op outs] tl IH]; intros st st' n o Hwf E0 H; cbn [ac_keep] in H.
  - inversion H; subst. split; [assumption|]. split; [lia|]. exists o. split; [assumption|].
    rewrite !Z.add_0_r, ac_cur_mod. auto.
  - destruct (ac_step c st (op, outs)) as [st1|] eqn:E; [|discriminate].
    destruct (ac_reg st1 r s t) eqn:R1; [|discriminate]. unfold ac_reg in R1.
    destruct (ac_entry st1 r s t) as [o1|] eqn:E1; [|discriminate].
    destruct (ac_keep c r s t st1 tl) as [[st2 n2]|] eqn:K; [|discriminate]. inversion H; subst st' n.
    destruct (IH st1 st2 n2 o1 (ac_step_wf _ _ _ _ Hwf E) E1 K) as [W [Hn [o' [E2 [C2 [R2 Q2]]]]]].
    destruct (ac_step_kept c st op outs st1 r s t o o1 Hwf E E0 E1) as [C1 [R1' Q1]]. cbn [fst].
    split; [assumption|]. split; [clear - Hn; destruct (ac_is_change op r); lia|].
    exists o'. split; [assumption|]. split; [|split].
    + rewrite C2, C1. apply ac_mod_add.
    + intro N. rewrite R2 by (intros e He; apply N; right; exact He).
      exact (R1' (N _ (or_introl eq_refl))).
    + intro N. destruct Q2 as [A1 [A2 A3]]; [intros e He; apply N; right; exact He|].
      rewrite A1, A2, A3, (Q1 (N _ (or_introl eq_refl))). clear.
      destruct (ac_is_change op r); cbn; repeat split; lia.
Qed.

Lemma ac_notify_checks : forall c st ca outs st' k r s t v con o,
  ac_wf (acas_res st) -> ac_step c st (ObOpIoStep ca, outs) = AcOk st' ->
  In (ObNotify k r s t v con) outs -> ac_entry st r s t = Some o ->
  v = ac_cur o /\ (1 <= acao_chg o \/ acao_weak o = true) /\
  (ac_mode c r <> 2 -> (if con then 0 else acao_run o + 1) <= accf_max_non c) /\
  (ac_entry st' r s t = Some (ac_after_notify o v con k) \/ ac_entry st' r s t = None).
Proof.
  intros c st ca outs st' k r s t v con o Hwf H Hin E0. cbn [ac_step] in H. apply ac_iostep_inv in H.
  destruct H as [w [E [_ ->]]].
  destruct (outs_entry c r s t outs _ w o E Hwf E0)
    as [o1 [[[I1 _]|[k' [v' [con' [_ [I2 [I3 [I4 [I5 ->]]]]]]]]] I6]].
  - destruct (I1 _ _ _ Hin).
  - destruct (I2 _ _ _ Hin) as [-> [-> ->]]. auto.
Qed.

(* the value of a message is the observer's current value before it, if the observer was
   registered *)
Lemma ac_message_before : forall c st e st' r s t v o,
  ac_wf (acas_res st) -> ac_step c st e = AcOk st' -> ac_message e r s t v ->
  ac_entry st r s t = Some o -> v = ac_cur o.
Proof.
  intros c st [op outs] st' r s t v o Hwf H [[k [con Hin]]|[opts Heq]] E0.
  - cbn [snd] in Hin. destruct op; cbn [ac_step] in H;
      try (apply ac_quiet_inv in H; destruct H as [-> _]; destruct Hin).
    + apply ac_register_inv in H. destruct H as [[_ [-> _]]|[v0 [f [-> _]]]]; [destruct Hin|].
      destruct Hin as [Heq|[]]. discriminate.
    + exact (proj1 (ac_notify_checks _ _ _ _ _ _ _ _ _ _ _ _ Hwf H Hin E0)).
    + apply ac_delete_inv in H. destruct H as [[_ [-> _]]|[res [_ [GO _]]]]; [destruct Hin|].
      destruct (ac_gone_ok_spec _ _ _ GO _ Hin) as [s1 [t1 [e [Heq _]]]]. discriminate.
  - inversion Heq; subst op outs. cbn [ac_step] in H. apply ac_register_inv in H.
    destruct H as [[_ [Hd _]]|[v0 [f [Ho [_ Hf]]]]]; [discriminate|]. inversion Ho; subst v0.
    rewrite E0 in Hf. apply Hf.
Qed.

(* and what the entry holds after it, with no change missed *)
Lemma ac_message_after : forall c st e st' r s t v o',
  ac_wf (acas_res st) -> ac_step c st e = AcOk st' -> ac_message e r s t v ->
  ac_entry st' r s t = Some o' -> acao_val o' = v /\ acao_chg o' = 0 /\ 0 <= v < ob_M.
Proof.
  intros c st [op outs] st' r s t v o' Hwf H M E1.
  destruct (ac_step_entry c st op outs st' r s t o' Hwf H E1)
    as [[q [Q [[F1 F2] _]]]|[[q [ca [-> [Q [k [v1 [con [Hin [Hu [Hv [_ [_ ->]]]]]]]]]]]]|
        [[q [opts [v1 [-> [-> [Q [Hv ->]]]]]]]|[opts [v1 [-> [-> [Q [Hr ->]]]]]]]]].
  - exfalso. destruct M as [[k [con Hin]]|[opts Heq]]; [eapply F1; eassumption | eapply F2; eassumption].
  - destruct M as [[k' [con' Hin']]|[opts Heq]]; [|discriminate]. cbn [snd] in Hin'.
    destruct (Hu _ _ _ Hin') as [_ [-> _]]. cbn. subst v1. auto using ac_cur_range.
  - destruct M as [[k' [con' [Heq|[]]]]|[opts' Heq]]; [discriminate|].
    inversion Heq; subst. cbn. auto using ac_cur_range.
  - destruct M as [[k' [con' [Heq|[]]]]|[opts' Heq]]; [discriminate|].
    inversion Heq; subst. cbn. auto.
Qed.

Lemma ac_cur_fresh : forall o, acao_chg o = 0 -> 0 <= acao_val o < ob_M -> ac_cur o = acao_val o.
Proof. intros o Hc Hv. unfold ac_cur. rewrite Hc, Z.add_0_r. apply Z.mod_small. exact Hv. Qed.

(* C11: two messages to the same registration, n changes of the resource between them:
   the second carries the first value plus n (mod 2^24) *)
Theorem ac_values_track_changes : forall c st0 e1 st1 mid st2 n e2 st3 r s t v1 v2,
  ac_wf (acas_res st0) ->
  ac_step c st0 e1 = AcOk st1 -> ac_message e1 r s t v1 -> ac_reg st1 r s t = true ->
  ac_keep c r s t st1 mid = Some (st2, n) ->
  ac_step c st2 e2 = AcOk st3 -> ac_message e2 r s t v2 ->
  0 <= n /\ v2 = (v1 + n) mod ob_M.
Proof.
  intros c st0 e1 st1 mid st2 n e2 st3 r s t v1 v2 Hwf H1 M1 R1 K H2 M2.
  unfold ac_reg in R1. destruct (ac_entry st1 r s t) as [o1|] eqn:E1; [|discriminate].
  destruct (ac_message_after _ _ _ _ _ _ _ _ _ Hwf H1 M1 E1) as [V1 [C1 Hr]].
  destruct (ac_keep_entry _ _ _ _ _ _ _ _ _ (ac_step_wf _ _ _ _ Hwf H1) E1 K) as [Hwf2 [Hn [o2 [E2 [C2 _]]]]].
  split; [assumption|]. rewrite (ac_message_before _ _ _ _ _ _ _ _ _ Hwf2 H2 M2 E2), C2.
  rewrite ac_cur_fresh, V1 by (rewrite ?V1; assumption). reflexivity.
Qed.

(* RFC 7641 freshness of the later value, given fewer than 2^23 changes in between *)
Corollary ac_values_fresh : forall v1 v2 n,
  0 <= v1 < ob_M -> v2 = (v1 + n) mod ob_M -> 1 <= n < 8388608 ->
  1 <= (v2 - v1) mod ob_M < 8388608.
Proof.
  intros v1 v2 n H1 H2 Hn. subst v2. unfold ob_M in *.
  replace (((v1 + n) mod 16777216 - v1) mod 16777216) with (n mod 16777216).
  - rewrite Z.mod_small; lia.
  - rewrite Zminus_mod_idemp_l. f_equal. lia.
Qed.

(* C11: a notification never repeats the value of the previous notification - between two
   consecutive notifications to one observer the resource has changed at least once *)
Theorem ac_notifications_differ : forall c st0 ca1 outs1 st1 mid st2 n ca2 outs2 st3 r s t k1 v1 c1 k2 v2 c2,
  ac_wf (acas_res st0) ->
  ac_step c st0 (ObOpIoStep ca1, outs1) = AcOk st1 -> In (ObNotify k1 r s t v1 c1) outs1 ->
  ac_reg st1 r s t = true ->
  ac_keep c r s t st1 mid = Some (st2, n) ->
  (forall e, In e mid -> ac_msg_free (fst e) (snd e) r s t) ->
  ac_step c st2 (ObOpIoStep ca2, outs2) = AcOk st3 -> In (ObNotify k2 r s t v2 c2) outs2 ->
  1 <= n /\ v2 = (v1 + n) mod ob_M.
Proof.
  intros c st0 ca1 outs1 st1 mid st2 n ca2 outs2 st3 r s t k1 v1 c1 k2 v2 c2 Hwf H1 I1 R1 K Hq H2 I2.
  split.
  - (* after the first notification: nothing missed, not weak *)
    destruct (ac_step_out_registered _ _ _ _ _ _ _ _ _ H1 I1 eq_refl) as [o0 E0].
    unfold ac_reg in R1.
    destruct (ac_notify_checks _ _ _ _ _ _ _ _ _ _ _ _ Hwf H1 I1 E0) as [_ [_ [_ [E1|E1]]]];
      rewrite E1 in R1; [|discriminate].
    destruct (ac_keep_entry _ _ _ _ _ _ _ _ _ (ac_step_wf _ _ _ _ Hwf H1) E1 K)
      as [Hwf2 [_ [o2 [E2 [_ [_ Q]]]]]].
    destruct (Q Hq) as [C1 [C2 _]]. cbn in C1, C2.
    destruct (ac_notify_checks _ _ _ _ _ _ _ _ _ _ _ _ Hwf2 H2 I2 E2) as [_ [[Hchk|Hchk] _]];
      [clear - Hchk C1; lia | congruence].
  - eapply (ac_values_track_changes c st0 _ st1 mid st2 n _ st3 r s t v1 v2); try eassumption.
    + left. exists k1, c1. assumption.
    + left. exists k2, c2. assumption.
Qed.

(* a run of consecutive NON notifications to one registration, with anything but notifications
   to it in between *)
Fixpoint ac_non_chain (c : ac_cfg) (r s : Z) (t : ob_tok) (st : ac_state)
                      (segs : list (list (ob_op * list ob_out) * (ob_op * list ob_out))) : Prop :=
  match segs with
  | [] => True
  | (mid, e) :: tl =>
      exists st2 n st3 ca outs k v,
        ac_keep c r s t st mid = Some (st2, n) /\
        (forall e', In e' mid -> ac_no_notify r s t (snd e')) /\
        e = (ObOpIoStep ca, outs) /\ ac_step c st2 e = AcOk st3 /\
        In (ObNotify k r s t v false) outs /\ ac_reg st3 r s t = true /\
        ac_non_chain c r s t st3 tl
  end.

(* C11: at least every (COAP_OBS_MAX_NON + 1)-th notification is confirmable: a run of
   non-confirmable notifications to one observer is at most COAP_OBS_MAX_NON long *)
Theorem ac_con_cadence : forall c r s t segs st o,
  ac_mode c r <> 2 -> ac_wf (acas_res st) -> ac_entry st r s t = Some o ->
  ac_non_chain c r s t st segs ->
  acao_run o + Z.of_nat (length segs) <= Z.max (acao_run o) (accf_max_non c).
Proof.
  intros c r s t. induction segs as [|[mid e] tl IH]; intros st o Hm Hwf E0 H; cbn [length ac_non_chain] in *.
  - lia.
  - destruct H as [st2 [n [st3 [ca [outs [k [v [K [Hq [-> [H2 [Hin [R3 Hc]]]]]]]]]]]]].
    destruct (ac_keep_entry _ _ _ _ _ _ _ _ _ Hwf E0 K) as [Hwf2 [_ [o2 [E2 [_ [C2 _]]]]]].
    specialize (C2 Hq).
    destruct (ac_notify_checks _ _ _ _ _ _ _ _ _ _ _ _ Hwf2 H2 Hin E2) as [_ [_ [Hrun Hafter]]].
    specialize (Hrun Hm). cbn in Hrun. unfold ac_reg in R3.
    destruct Hafter as [E3|E3]; rewrite E3 in R3; [|discriminate].
    specialize (IH st3 _ Hm (ac_step_wf _ _ _ _ Hwf2 H2) E3 Hc). cbn in IH. lia.
Qed.

Definition ac_out_con (s : Z) (o : ob_out) : Z :=
  match o with
  | ObNotify _ _ s' _ _ true => if s' =? s then 1 else 0
  | ObErr _ _ s' _ true => if s' =? s then 1 else 0
  | _ => 0
  end.

Fixpoint ac_count_con (s : Z) (outs : list ob_out) : Z :=
  match outs with
  | [] => 0
  | o :: tl => ac_out_con s o + ac_count_con s tl
  end.

Lemma ac_note_cnt : forall w rs k r s0 t con ok s,
  ob_ca_get (acaw_cnt (ac_note w rs k r s0 t con ok)) s =
  ob_ca_get (acaw_cnt w) s + if con then if s0 =? s then 1 else 0 else 0.
Proof.
  intros w rs k r s0 t con ok s. unfold ac_note. cbn [acaw_cnt]. destruct con; [|lia].
  unfold ob_ca_inc. cbn [ob_ca_get]. destruct (Z.eqb_spec s0 s) as [->|]; lia.
Qed.

Lemma out_step_cnt : forall c w o w' s,
  ac_out_step c w o = inl w' -> ob_ca_get (acaw_cnt w') s = ob_ca_get (acaw_cnt w) s + ac_out_con s o.
Proof.
  intros c w o w' s H. destruct o as [k r0 s0 t0 v con|k r0 s0 t0 con| |]; try discriminate H.
  - apply out_step_notify in H. destruct H as [e [_ [_ [_ [_ [_ ->]]]]]]. apply ac_note_cnt.
  - apply out_step_err in H. destruct H as [e [_ ->]]. apply ac_note_cnt.
Qed.

Lemma outs_cnt : forall c s outs w w',
  ac_outs c w outs = inl w' -> ob_ca_get (acaw_cnt w') s = ob_ca_get (acaw_cnt w) s + ac_count_con s outs.
Proof.
  intros c s. induction outs as [|o outs IH]; intros w w' H; cbn [ac_outs ac_count_con] in *.
  - inversion H; subst. lia.
  - destruct (ac_out_step c w o) as [w1|] eqn:E; [|discriminate].
    rewrite (IH w1 w' H), (out_step_cnt _ _ _ _ s E). lia.
Qed.

(* C11: once the I/O loop has run, every registered observer either has been sent the current
   value (acao_chg = 0: no change since its last message, see ac_chg_counts_changes) or sits
   behind a full NSTART window: con_active at the start of the step plus the confirmable
   messages of this step to its session reach NSTART - or behind an unfinished large (Block2)
   transmission to its session (input of the step under the key session + ob_lg_off).  The same
   holds after every later step, so the first step that finds a free slot delivers the
   then-current value. *)
Theorem ac_latest_after_step : forall c st ca outs st' r s t o',
  ac_step c st (ObOpIoStep ca, outs) = AcOk st' -> ac_entry st' r s t = Some o' ->
  acao_chg o' = 0 \/ accf_nstart c <= ob_ca_get ca s + ac_count_con s outs \/
  0 < ob_ca_get ca (s + ob_lg_off) + ac_count_con (s + ob_lg_off) outs.
Proof.
  intros c st ca outs st' r s t o' H E1. cbn [ac_step] in H. apply ac_iostep_inv in H.
  destruct H as [w [E [S ->]]]. unfold ac_entry, ac_find in E1. cbn [acas_res] in E1.
  destruct (ac_get r (acaw_res w)) as [y|] eqn:G; [|discriminate].
  apply ac_get_in in G. destruct G as [Hy _]. apply ob_find_some in E1. destruct E1 as [Ho Hm].
  unfold ac_all_settled in S. rewrite forallb_forall in S. specialize (S y Hy).
  rewrite forallb_forall in S. specialize (S o' Ho). unfold ac_settled, ob_in_transfer in S.
  apply ac_obs_is_kt in Hm. injection Hm as Hs _.
  rewrite Hs, !(outs_cnt c _ outs _ w E) in S. cbn [acaw_cnt] in S.
  apply orb_true_iff in S. destruct S as [S|S]; [apply orb_true_iff in S; destruct S as [S|S]|].
  - left. apply Z.eqb_eq. exact S.
  - right. left. apply Z.leb_le. exact S.
  - right. right. apply Z.ltb_lt. exact S.
Qed.

(* the meaning of acao_chg: the number of changes of the resource since the observer's last message *)
Theorem ac_chg_counts_changes : forall c st0 e1 st1 mid st2 n r s t v1,
  ac_wf (acas_res st0) ->
  ac_step c st0 e1 = AcOk st1 -> ac_message e1 r s t v1 -> ac_reg st1 r s t = true ->
  ac_keep c r s t st1 mid = Some (st2, n) ->
  (forall e, In e mid -> ac_msg_free (fst e) (snd e) r s t) ->
  exists o2, ac_entry st2 r s t = Some o2 /\ acao_chg o2 = n /\ acao_val o2 = v1.
Proof.
  intros c st0 e1 st1 mid st2 n r s t v1 Hwf H1 M1 R1 K Hq.
  unfold ac_reg in R1. destruct (ac_entry st1 r s t) as [o1|] eqn:E1; [|discriminate].
  destruct (ac_message_after _ _ _ _ _ _ _ _ _ Hwf H1 M1 E1) as [V1 [C1 _]].
  destruct (ac_keep_entry _ _ _ _ _ _ _ _ _ (ac_step_wf _ _ _ _ Hwf H1) E1 K) as [_ [_ [o2 [E2 [_ [_ Q]]]]]].
  destruct (Q Hq) as [A1 [_ A3]]. exists o2. split; [assumption|].
  rewrite A1, A3, C1. split; [reflexivity | exact V1].
Qed.

Definition ac_runs_ok (c : ac_cfg) (st : ac_state) : Prop :=
  forall r s t o, ac_entry st r s t = Some o ->
    0 <= acao_run o /\ (ac_mode c r <> 2 -> acao_run o <= accf_max_non c).

Lemma ac_step_runs_ok : forall c st e st',
  0 <= accf_max_non c -> ac_wf (acas_res st) -> ac_runs_ok c st -> ac_step c st e = AcOk st' ->
  ac_runs_ok c st'.
Proof.
  intros c st [op outs] st' Hmn Hwf Hok H r s t o' E1.
  destruct (ac_step_entry c st op outs st' r s t o' Hwf H E1)
    as [[q [Q [_ ->]]]|[[q [ca [_ [Q [k [v [con [_ [_ [_ [_ [Hrun ->]]]]]]]]]]]]|
        [[q [opts [v [_ [_ [Q [_ ->]]]]]]]|[opts [v [_ [_ [_ [_ ->]]]]]]]]];
    try destruct (Hok r s t q Q) as [A B].
  - destruct (ac_is_change op r); cbn; auto.
  - cbn. destruct con; (split; [lia | intros; auto]).
  - cbn. auto.
  - cbn. split; [lia | intros; assumption].
Qed.

Lemma ac_init_runs_ok : forall c, ac_runs_ok c (ac_init c).
Proof.
  intros c r s t o H. exfalso. unfold ac_entry, ac_find, ac_init in H. cbn [acas_res] in H.
  destruct (ac_get r (ac_init_res 0 (accf_modes c))) as [y|] eqn:G; [|discriminate].
  apply ac_get_in in G. destruct G as [G _]. apply ac_init_res_ids in G. destruct G as [_ G].
  rewrite G in H. discriminate.
Qed.

(* C11, headline form: in an accepted history (from the initial state), any run of consecutive
   non-confirmable notifications to one observer of a resource that is not NOTIFY_NON_ALWAYS has
   at most COAP_OBS_MAX_NON members - every (COAP_OBS_MAX_NON + 1)-th notification is confirmable *)
Theorem ac_con_every : forall c pre st r s t o segs,
  0 <= accf_max_non c -> ac_mode c r <> 2 ->
  ac_go c (ac_init c) pre = Some st -> ac_entry st r s t = Some o ->
  ac_non_chain c r s t st segs ->
  Z.of_nat (length segs) <= accf_max_non c.
Proof.
  intros c pre st r s t o segs Hmn Hm Hgo E0 Hc.
  assert (Hinv : ac_wf (acas_res st) /\ ac_runs_ok c st).
  { apply (ac_go_preserves c (fun st => ac_wf (acas_res st) /\ ac_runs_ok c st)) with (3 := Hgo).
    - intros st1 e st2 [W R] H.
      split; [exact (ac_step_wf _ _ _ _ W H) | exact (ac_step_runs_ok _ _ _ _ Hmn W R H)].
    - split; [apply ac_init_wf | apply ac_init_runs_ok]. }
  destruct Hinv as [Hwf Hok]. destruct (Hok r s t o E0) as [A B]. specialize (B Hm).
  pose proof (ac_con_cadence c r s t segs st o Hm Hwf E0 Hc). lia.
Qed.

(* acceptance of a whole history = the acceptor runs through it from its (well-formed) initial
   state; every prefix / segment then runs through as well, which is the form the theorems above use *)
Theorem ac_accepts_go : forall c t1 t2,
  ac_accepts c (t1 ++ t2) = true ->
  ac_wf (acas_res (ac_init c)) /\
  exists st1 st2, ac_go c (ac_init c) t1 = Some st1 /\ ac_wf (acas_res st1) /\ ac_go c st1 t2 = Some st2.
Proof.
  intros c t1 t2 H. split; [apply ac_init_wf|]. unfold ac_accepts in H.
  destruct (ac_run c (ac_init c) 0 (t1 ++ t2)) as [stf|] eqn:R; [|discriminate].
  apply ac_run_go in R. rewrite ac_go_app in R.
  destruct (ac_go c (ac_init c) t1) as [st1|] eqn:G1; [|discriminate].
  exists st1, stf. split; [reflexivity|]. split; [|assumption].
  eapply ac_go_wf; [apply ac_init_wf | eassumption].
Qed.
