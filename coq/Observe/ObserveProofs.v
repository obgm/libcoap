(* C11 - invariants of the Observe model (coq/Observe/Observe.v), proved for every op sequence:
   no two subscriptions of a resource share (session, token) or (session, cache key)
   (a re-registration replaces, never duplicates); the Observe counter stays a 24-bit number;
   the pending flags are consistent (dirty subscription => partiallydirty resource => context
   observe_pending), which is what makes "the latest state is eventually notified" true. *)
From LibcoapV Require Import Base.Tactics Base.BytesProofs Observe.Observe.
Local Open Scope Z_scope.

Lemma ob_bytes_eqb_eq : forall a b, ob_bytes_eqb a b = true <-> a = b.
Proof.
  induction a as [|x a IH]; destruct b as [|y b]; cbn [ob_bytes_eqb]; split; intro H;
    try reflexivity; try discriminate.
  - apply andb_true_iff in H. destruct H as [H1 H2]. apply Z.eqb_eq in H1. apply IH in H2.
    subst. reflexivity.
  - inversion H; subst. apply andb_true_iff. split; [apply Z.eqb_refl | apply IH; reflexivity].
Qed.

Lemma ob_bytes_eqb_refl : forall a, ob_bytes_eqb a a = true.
Proof. intro a. apply ob_bytes_eqb_eq. reflexivity. Qed.

Lemma ob_opts_eqb_eq : forall a b, ob_opts_eqb a b = true <-> a = b.
Proof.
  induction a as [|[n v] a IH]; destruct b as [|[m w] b]; cbn [ob_opts_eqb]; split; intro H;
    try reflexivity; try discriminate.
  - apply andb_true_iff in H. destruct H as [H H3]. apply andb_true_iff in H. destruct H as [H1 H2].
    apply Z.eqb_eq in H1. apply ob_bytes_eqb_eq in H2. apply IH in H3. subst. reflexivity.
  - inversion H; subst. rewrite Z.eqb_refl, ob_bytes_eqb_refl. cbn [andb]. apply IH. reflexivity.
Qed.

Lemma ob_opts_eqb_refl : forall a, ob_opts_eqb a a = true.
Proof. intro a. apply ob_opts_eqb_eq. reflexivity. Qed.

Definition ob_kt (x : ob_sub) : Z * ob_tok := (obsb_sess x, obsb_tok x).
Definition ob_kk (x : ob_sub) : Z * ob_opts := (obsb_sess x, obsb_key x).

Lemma ob_sub_is_kt : forall s t x, ob_sub_is s t x = true <-> ob_kt x = (s, t).
Proof.
  intros s t x. unfold ob_sub_is, ob_kt. rewrite andb_true_iff, Z.eqb_eq, ob_bytes_eqb_eq.
  split; [intros [A B]; subst; reflexivity | intro H; inversion H; auto].
Qed.

Lemma ob_sub_keyis_kk : forall s k x, ob_sub_keyis s k x = true <-> ob_kk x = (s, k).
Proof.
  intros s k x. unfold ob_sub_keyis, ob_kk. rewrite andb_true_iff, Z.eqb_eq, ob_opts_eqb_eq.
  split; [intros [A B]; subst; reflexivity | intro H; inversion H; auto].
Qed.

Section FindRemove.
  Context {A : Type}.

  Lemma ob_find_some : forall (f : A -> bool) l x, ob_find f l = Some x -> In x l /\ f x = true.
  Proof.
    induction l as [|y l IH]; cbn [ob_find]; intros x H; [discriminate|].
    destruct (f y) eqn:E.
    - inversion H; subst. split; [left; reflexivity | assumption].
    - apply IH in H. destruct H. split; [right|]; assumption.
  Qed.

  Lemma ob_find_none : forall (f : A -> bool) l, ob_find f l = None -> forall x, In x l -> f x = false.
  Proof.
    induction l as [|y l IH]; cbn [ob_find]; intros H x Hin; [destruct Hin|].
    destruct (f y) eqn:E; [discriminate|]. destruct Hin as [->|Hin]; [assumption | apply IH; assumption].
  Qed.

  Lemma ob_find_none_iff : forall (f : A -> bool) l,
    ob_find f l = None <-> (forall x, In x l -> f x = false).
  Proof.
    intros f l. split; [apply ob_find_none|].
    induction l as [|y l IH]; cbn [ob_find]; intro H; [reflexivity|].
    rewrite (H y (or_introl eq_refl)). apply IH. intros x Hx. apply H. right. assumption.
  Qed.

  Lemma ob_find_at : forall (f : A -> bool) pre x post,
    (forall y, In y pre -> f y = false) -> f x = true -> ob_find f (pre ++ x :: post) = Some x.
  Proof.
    intros f pre x post Hpre Hx. induction pre as [|y pre IH]; cbn [app ob_find].
    - rewrite Hx. reflexivity.
    - rewrite (Hpre y (or_introl eq_refl)). apply IH. intros z Hz. apply Hpre. right. assumption.
  Qed.

  Lemma ob_remove1_at : forall (f : A -> bool) pre x post,
    (forall y, In y pre -> f y = false) -> f x = true ->
    ob_remove1 f (pre ++ x :: post) = (pre ++ post, true).
  Proof.
    intros f pre x post Hpre Hx. induction pre as [|y pre IH]; cbn [app ob_remove1].
    - rewrite Hx. reflexivity.
    - rewrite (Hpre y (or_introl eq_refl)), IH; [reflexivity|].
      intros z Hz. apply Hpre. right. assumption.
  Qed.

  Lemma ob_map_at : forall (f : A -> bool) (g : A -> A) pre x post,
    (forall y, In y (pre ++ post) -> f y = false) -> f x = true ->
    map (fun y => if f y then g y else y) (pre ++ x :: post) = pre ++ g x :: post.
  Proof.
    intros f g pre x post Hn Hx.
    assert (Hid : forall l, (forall y, In y l -> f y = false) -> map (fun y => if f y then g y else y) l = l).
    { induction l as [|y l IH]; intro H; cbn [map]; [reflexivity|].
      rewrite (H y (or_introl eq_refl)), IH; [reflexivity|]. intros z Hz. apply H. right. assumption. }
    rewrite map_app. cbn [map]. rewrite Hx, !Hid; [reflexivity | |]; intros y Hy; apply Hn, in_app_iff; auto.
  Qed.

  (* l' arises from l by dropping some elements and putting R-related ones for the others *)
  Inductive ob_thin (R : A -> A -> Prop) : list A -> list A -> Prop :=
  | ob_thin_nil : ob_thin R [] []
  | ob_thin_drop : forall x l' l, ob_thin R l' l -> ob_thin R l' (x :: l)
  | ob_thin_keep : forall x' x l' l, R x' x -> ob_thin R l' l -> ob_thin R (x' :: l') (x :: l).

  Section Thin.
    Variable R : A -> A -> Prop.

    Lemma ob_thin_in : forall l' l y, ob_thin R l' l -> In y l' -> exists x, In x l /\ R y x.
    Proof.
      intros l' l y H. induction H as [|x l' l H IH|x' x l' l Hx H IH]; intro Hy.
      - destruct Hy.
      - destruct (IH Hy) as [z [Hz Hr]]. exists z. split; [right|]; assumption.
      - destruct Hy as [<-|Hy]; [exists x; split; [left; reflexivity | assumption]|].
        destruct (IH Hy) as [z [Hz Hr]]. exists z. split; [right|]; assumption.
    Qed.

    Lemma ob_thin_nodup : forall {B} (g : A -> B) l' l,
      (forall x' x, R x' x -> g x' = g x) -> ob_thin R l' l -> NoDup (map g l) -> NoDup (map g l').
    Proof.
      intros B g l' l Hg H. induction H as [|x l' l H IH|x' x l' l Hx H IH]; cbn [map]; intro Hd.
      - constructor.
      - inversion Hd; auto.
      - inversion Hd as [|? ? Hn Hd']; subst. constructor; [|auto].
        intro Hin. apply Hn. apply in_map_iff in Hin. destruct Hin as [y [Ey Hy]].
        destruct (ob_thin_in _ _ _ H Hy) as [z [Hz Hr]].
        rewrite <- (Hg _ _ Hx), <- Ey, (Hg _ _ Hr). apply in_map. assumption.
    Qed.

    Lemma ob_thin_app : forall a' a b' b, ob_thin R a' a -> ob_thin R b' b -> ob_thin R (a' ++ b') (a ++ b).
    Proof.
      intros a' a b' b Ha Hb. induction Ha; cbn [app];
        [assumption | apply ob_thin_drop | apply ob_thin_keep]; assumption.
    Qed.

    Hypothesis R_refl : forall x, R x x.

    Lemma ob_thin_refl : forall l, ob_thin R l l.
    Proof. induction l; [apply ob_thin_nil | apply ob_thin_keep]; auto. Qed.

    Lemma ob_remove1_thin : forall (f : A -> bool) l, ob_thin R (fst (ob_remove1 f l)) l.
    Proof.
      induction l as [|y l IH]; cbn [ob_remove1]; [constructor|].
      destruct (f y); [apply ob_thin_drop, ob_thin_refl|].
      destruct (ob_remove1 f l) as [l' b]. apply ob_thin_keep; [apply R_refl | exact IH].
    Qed.

    Lemma ob_filter_thin : forall (f : A -> bool) l, ob_thin R (filter f l) l.
    Proof.
      induction l as [|y l IH]; cbn [filter]; [apply ob_thin_nil|].
      destruct (f y); [apply ob_thin_keep | apply ob_thin_drop]; auto.
    Qed.
  End Thin.

  Lemma ob_map_thin : forall (R : A -> A -> Prop) h l, (forall x, R (h x) x) -> ob_thin R (map h l) l.
  Proof. intros R h l H. induction l; cbn [map]; [apply ob_thin_nil | apply ob_thin_keep]; auto. Qed.

  Lemma ob_remove1_in : forall (f : A -> bool) l x, In x (fst (ob_remove1 f l)) -> In x l.
  Proof.
    intros f l x H. destruct (ob_thin_in eq _ _ x (ob_remove1_thin eq (@eq_refl A) f l) H) as [y [Hy ->]].
    exact Hy.
  Qed.

  Lemma ob_remove1_keeps : forall (f : A -> bool) l x,
    In x l -> f x = false -> In x (fst (ob_remove1 f l)).
  Proof.
    induction l as [|y l IH]; cbn [ob_remove1]; intros x H Hf; [assumption|].
    destruct (f y) eqn:E.
    - destruct H as [->|H]; [congruence | assumption].
    - destruct (ob_remove1 f l) as [l' b] eqn:R. cbn [fst] in *.
      destruct H as [->|H]; [left; reflexivity | right; apply IH; assumption].
  Qed.

  Lemma ob_remove1_nodup : forall {B} (g : A -> B) (f : A -> bool) l,
    NoDup (map g l) -> NoDup (map g (fst (ob_remove1 f l))).
  Proof.
    intros B g f l. apply (ob_thin_nodup eq); [intros ? ? ->; reflexivity|].
    apply ob_remove1_thin. reflexivity.
  Qed.

  Lemma ob_remove1_gone : forall {B} (g : A -> B) (f : A -> bool) (v : B) l,
    (forall x, f x = true <-> g x = v) -> NoDup (map g l) ->
    forall x, In x (fst (ob_remove1 f l)) -> f x = false.
  Proof.
    intros B g f v l Hf. induction l as [|y l IH]; cbn [ob_remove1 map]; intros Hd x Hin;
      [destruct Hin|].
    inversion Hd as [|? ? Hn Hd']; subst. destruct (f y) eqn:E.
    - destruct (f x) eqn:Ex; [|reflexivity]. exfalso. apply Hn.
      apply Hf in E. apply Hf in Ex. rewrite E, <- Ex. apply in_map. assumption.
    - destruct (ob_remove1 f l) as [l' b] eqn:R. cbn [fst] in *.
      destruct Hin as [->|Hin]; [assumption | apply IH; assumption].
  Qed.

  (* the removed key is free again *)
  Lemma ob_remove1_readd : forall {B} (g : A -> B) (f : A -> bool) (v : B) l x,
    (forall y, f y = true <-> g y = v) -> NoDup (map g l) -> g x = v ->
    NoDup (map g (fst (ob_remove1 f l) ++ [x])).
  Proof.
    intros B g f v l x Hf Hd Hx. rewrite map_app. apply (NoDup_Add (Add_app (g x) _ [])).
    rewrite app_nil_r. split; [apply ob_remove1_nodup; exact Hd|]. intro H.
    apply in_map_iff in H. destruct H as [y [Ey Hy]]. rewrite Hx in Ey. apply Hf in Ey.
    rewrite (ob_remove1_gone g f v l Hf Hd y Hy) in Ey. discriminate.
  Qed.

  Lemma ob_remove1_flag : forall (f : A -> bool) l,
    snd (ob_remove1 f l) = match ob_find f l with Some _ => true | None => false end.
  Proof.
    induction l as [|y l IH]; cbn [ob_remove1 ob_find]; [reflexivity|].
    destruct (f y); [reflexivity|]. destruct (ob_remove1 f l) as [l' b]. cbn [snd] in *. assumption.
  Qed.

  Lemma ob_remove1_found : forall (f : A -> bool) l x,
    In x l -> f x = true -> snd (ob_remove1 f l) = true.
  Proof.
    intros f l x Hx Hf. rewrite ob_remove1_flag. destruct (ob_find f l) eqn:F; [reflexivity|].
    rewrite (ob_find_none _ _ F x Hx) in Hf. discriminate.
  Qed.

  Lemma ob_remove1_none : forall (f : A -> bool) l, ob_find f l = None -> fst (ob_remove1 f l) = l.
  Proof.
    induction l as [|y l IH]; cbn [ob_remove1 ob_find]; intro H; [reflexivity|].
    destruct (f y); [discriminate|]. destruct (ob_remove1 f l) as [l' b]. cbn [fst] in *.
    f_equal. apply IH. assumption.
  Qed.

End FindRemove.

Definition ob_uniq (l : list ob_sub) : Prop := NoDup (map ob_kt l) /\ NoDup (map ob_kk l).

Definition ob_same_keys (x' x : ob_sub) : Prop := ob_kt x' = ob_kt x /\ ob_kk x' = ob_kk x.

Definition ob_sub_le (x' x : ob_sub) : Prop :=
  ob_same_keys x' x /\ (obsb_dirty x' = true -> obsb_dirty x = true).

Lemma ob_sub_le_refl : forall x, ob_sub_le x x.
Proof. intro x. split; [split; reflexivity | auto]. Qed.

Lemma ob_uniq_thin : forall (R : ob_sub -> ob_sub -> Prop) l' l,
  (forall x' x, R x' x -> ob_same_keys x' x) -> ob_thin R l' l -> ob_uniq l -> ob_uniq l'.
Proof.
  intros R l' l HR H [A B]. split; [apply (ob_thin_nodup R ob_kt l' l) | apply (ob_thin_nodup R ob_kk l' l)];
    try assumption; intros x' x Hx; apply (HR x' x Hx).
Qed.

(* what a list of subscriptions may become without harm to the invariant below *)
Definition ob_subs_le (l' l : list ob_sub) : Prop :=
  (ob_uniq l -> ob_uniq l') /\
  (forall y, In y l' -> obsb_dirty y = true -> exists z, In z l /\ obsb_dirty z = true).

Lemma ob_thin_subs_le : forall l' l, ob_thin ob_sub_le l' l -> ob_subs_le l' l.
Proof.
  intros l' l H. split.
  - apply (ob_uniq_thin ob_sub_le); [|exact H]. intros x' x [K _]. exact K.
  - intros y Hy Hd. destruct (ob_thin_in _ _ _ y H Hy) as [z [Hz [_ D]]]. exists z. auto.
Qed.

(* the entry with this cache key, if there is one, gives way (coap_add_observer,
   coap_delete_observer_request) *)
Definition ob_replace_key (s : Z) (key : ob_opts) (l : list ob_sub) : list ob_sub :=
  match ob_find (ob_sub_keyis s key) l with
  | Some old => fst (ob_remove1 (ob_sub_is s (obsb_tok old)) l)
  | None => l
  end.

Lemma ob_add_observer_eq : forall s t o l,
  ob_add_observer s t o l =
  match ob_find (ob_sub_is s t) l with
  | Some _ => (l, 0)
  | None => (ob_mk_sub s t (ob_key o) 0 0 false (-1) :: ob_replace_key s (ob_key o) l,
             match ob_find (ob_sub_keyis s (ob_key o)) l with Some _ => 0 | None => 1 end)
  end.
Proof.
  intros s t o l. unfold ob_add_observer, ob_replace_key.
  destruct (ob_find (ob_sub_is s t) l); [reflexivity|].
  destruct (ob_find (ob_sub_keyis s (ob_key o)) l) as [old|]; [|reflexivity].
  destruct (ob_remove1 (ob_sub_is s (obsb_tok old)) l). reflexivity.
Qed.

Lemma ob_cancel_subs_eq : forall s t o l,
  fst (ob_cancel_subs s t o l) =
  match ob_find (ob_sub_is s t) l with
  | Some _ => fst (ob_remove1 (ob_sub_is s t) l)
  | None => ob_replace_key s (ob_key o) l
  end.
Proof.
  intros s t o l. unfold ob_cancel_subs, ob_replace_key.
  destruct (ob_find (ob_sub_is s t) l); [reflexivity|].
  destruct (ob_find (ob_sub_keyis s (ob_key o)) l); reflexivity.
Qed.

Lemma ob_replace_key_thin : forall s key l, ob_thin ob_sub_le (ob_replace_key s key l) l.
Proof.
  intros s key l. unfold ob_replace_key.
  destruct (ob_find (ob_sub_keyis s key) l); [apply ob_remove1_thin | apply ob_thin_refl];
    exact ob_sub_le_refl.
Qed.

(* nobody is left with the key: its one holder was removed *)
Lemma ob_replace_key_gone : forall s key l z,
  ob_uniq l -> In z (ob_replace_key s key l) -> ob_kk z <> (s, key).
Proof.
  intros s key l z [Ut Uk] Hz Hk. unfold ob_replace_key in Hz.
  destruct (ob_find (ob_sub_keyis s key) l) as [old|] eqn:F.
  - apply ob_find_some in F. destruct F as [Hold Hkk]. apply ob_sub_keyis_kk in Hkk.
    pose proof (ob_remove1_gone ob_kt _ (s, obsb_tok old) l (ob_sub_is_kt s (obsb_tok old)) Ut z Hz)
      as Hgone.
    apply ob_remove1_in in Hz.
    assert (z = old) by (apply (NoDup_map_inj ob_kk l); congruence). subst z.
    assert (Hm : ob_sub_is s (obsb_tok old) old = true).
    { apply ob_sub_is_kt. unfold ob_kt. unfold ob_kk in Hkk. congruence. }
    congruence.
  - apply (ob_sub_keyis_kk s key z) in Hk. rewrite (ob_find_none _ _ F z Hz) in Hk. discriminate.
Qed.

(* coap_add_observer keeps the list free of duplicates: the heart of "replaces, never duplicates" *)
Lemma ob_add_observer_le : forall s t o l, ob_subs_le (fst (ob_add_observer s t o l)) l.
Proof.
  intros s t o l. rewrite ob_add_observer_eq.
  destruct (ob_find (ob_sub_is s t) l) eqn:Ft; cbn [fst].
  { split; [auto | intros y Hy Hd; exists y; auto]. }
  pose proof (ob_replace_key_thin s (ob_key o) l) as T.
  destruct (ob_thin_subs_le _ _ T) as [TU TD]. split.
  - intro U. destruct (TU U) as [Ut Uk]. split; cbn [map]; constructor; try assumption.
    + intro H. apply in_map_iff in H. destruct H as [z [Ez Hz]].
      destruct (ob_thin_in _ _ _ z T Hz) as [z0 [Hz0 [[Ekt _] _]]].
      rewrite Ekt in Ez. apply (ob_sub_is_kt s t z0) in Ez. rewrite (ob_find_none _ _ Ft z0 Hz0) in Ez.
      discriminate.
    + intro H. apply in_map_iff in H. destruct H as [z [Ez Hz]].
      exact (ob_replace_key_gone s (ob_key o) l z U Hz Ez).
  - intros y [<-|Hy] Hd; [discriminate Hd | exact (TD y Hy Hd)].
Qed.

Lemma ob_get_res_find : forall r rs, ob_get_res r rs = ob_find (fun x => obrs_id x =? r) rs.
Proof. induction rs as [|y rs IH]; cbn [ob_get_res ob_find]; [|rewrite IH]; reflexivity. Qed.

Lemma ob_get_res_in : forall r rs x, ob_get_res r rs = Some x -> In x rs /\ obrs_id x = r.
Proof.
  intros r rs x H. rewrite ob_get_res_find in H. apply ob_find_some in H.
  destruct H as [H E]. apply Z.eqb_eq in E. auto.
Qed.

Lemma ob_get_res_none : forall r rs, ob_get_res r rs = None -> forall y, In y rs -> obrs_id y <> r.
Proof.
  intros r rs H y Hy. rewrite ob_get_res_find in H. apply Z.eqb_neq. exact (ob_find_none _ _ H y Hy).
Qed.

Lemma ob_get_res_app : forall r a x b,
  obrs_id x = r -> (forall y, In y a -> obrs_id y <> r) -> ob_get_res r (a ++ x :: b) = Some x.
Proof.
  intros r a x b Hx Ha. rewrite ob_get_res_find. apply ob_find_at; [|apply Z.eqb_eq; assumption].
  intros y Hy. apply Z.eqb_neq. apply Ha. assumption.
Qed.

Lemma ob_get_res_split : forall r rs x, ob_get_res r rs = Some x ->
  exists a b, rs = a ++ x :: b /\ obrs_id x = r /\ (forall y, In y a -> obrs_id y <> r).
Proof.
  induction rs as [|y rs IH]; cbn [ob_get_res]; intros x H; [discriminate|].
  destruct (obrs_id y =? r) eqn:E.
  - inversion H; subst. exists [], rs. apply Z.eqb_eq in E. split; [reflexivity|]. split; [assumption|].
    intros ? [].
  - destruct (IH x H) as [a [b [E1 [E2 E3]]]]. exists (y :: a), b. subst rs. split; [reflexivity|].
    split; [assumption|]. intros z [->|Hz]; [apply Z.eqb_neq; assumption | apply E3; assumption].
Qed.

Lemma ob_upd_res_split : forall r f a x b,
  obrs_id x = r -> (forall y, In y a -> obrs_id y <> r) ->
  ob_upd_res r f (a ++ x :: b) = a ++ f x :: b.
Proof.
  induction a as [|y a IH]; cbn [ob_upd_res app]; intros x b Hx Ha.
  - rewrite Hx, Z.eqb_refl. reflexivity.
  - assert (obrs_id y =? r = false) as -> by (apply Z.eqb_neq; apply Ha; left; reflexivity).
    f_equal. apply IH; [assumption|]. intros z Hz. apply Ha. right. assumption.
Qed.

Lemma ob_upd_res_none : forall r f rs, ob_get_res r rs = None -> ob_upd_res r f rs = rs.
Proof.
  induction rs as [|y rs IH]; cbn [ob_get_res ob_upd_res]; intro H; [reflexivity|].
  destruct (obrs_id y =? r); [discriminate|]. f_equal. apply IH. assumption.
Qed.

Lemma ob_upd_res_in : forall r f rs y, In y (ob_upd_res r f rs) ->
  In y rs \/ exists x, ob_get_res r rs = Some x /\ y = f x.
Proof.
  induction rs as [|z rs IH]; cbn [ob_upd_res ob_get_res]; intros y H; [destruct H|].
  destruct (obrs_id z =? r).
  - destruct H as [<-|H]; [right; exists z; auto | left; right; assumption].
  - destruct H as [<-|H]; [left; left; reflexivity|].
    destruct (IH y H) as [Hy|Hy]; [left; right; assumption | right; assumption].
Qed.

Lemma ob_drop_res_remove1 : forall r rs,
  ob_drop_res r rs = fst (ob_remove1 (fun x => obrs_id x =? r) rs).
Proof.
  induction rs as [|y rs IH]; cbn [ob_drop_res ob_remove1]; [reflexivity|].
  destruct (obrs_id y =? r); [reflexivity|]. rewrite IH.
  destruct (ob_remove1 (fun x => obrs_id x =? r) rs). reflexivity.
Qed.

Lemma ob_drop_res_split : forall r a x b,
  obrs_id x = r -> (forall y, In y a -> obrs_id y <> r) -> ob_drop_res r (a ++ x :: b) = a ++ b.
Proof.
  intros r a x b Hx Ha.
  rewrite ob_drop_res_remove1, ob_remove1_at; [reflexivity | | apply Z.eqb_eq; assumption].
  intros y Hy. apply Z.eqb_neq. apply Ha. assumption.
Qed.

Definition ob_res_ok (r : ob_res) : Prop :=
  ob_uniq (obrs_subs r) /\ 0 <= obrs_obs r < 16777216 /\
  (forall x, In x (obrs_subs r) -> obsb_dirty x = true -> obrs_pdirty r = true).

Definition ob_ok (st : ob_state) : Prop :=
  NoDup (map obrs_id (obst_res st)) /\ Forall ob_res_ok (obst_res st) /\
  (forall r, In r (obst_res st) -> obrs_dirty r = true \/ obrs_pdirty r = true -> obst_pending st = true).

Definition ob_flags (x : ob_res) : bool * bool := (obrs_dirty x, obrs_pdirty x).

(* x' is x but for its subscriptions (and the handler's answer) *)
Definition ob_res_le (x' x : ob_res) : Prop :=
  obrs_id x' = obrs_id x /\ obrs_obs x' = obrs_obs x /\ ob_flags x' = ob_flags x /\
  ob_subs_le (obrs_subs x') (obrs_subs x).

Lemma ob_res_le_ok : forall x' x, ob_res_le x' x -> ob_res_ok x -> ob_res_ok x'.
Proof.
  intros x' x [_ [Eo [Ef [LU LD]]]] [U [R D]]. injection Ef as _ Ep.
  split; [auto|]. split; [rewrite Eo; exact R|].
  intros y Hy Hd. destruct (LD y Hy Hd) as [z [Hz Hdz]]. rewrite Ep. exact (D z Hz Hdz).
Qed.

Lemma ob_set_subs_le : forall x l, ob_subs_le l (obrs_subs x) -> ob_res_le (ob_set_subs x l) x.
Proof. intros x l H. split; [|split; [|split]]; [reflexivity .. | exact H]. Qed.

Lemma ob_res_le_refl : forall x, ob_res_le x x.
Proof.
  intro x. split; [|split; [|split]]; [reflexivity .. |].
  split; [auto | intros y Hy Hd; exists y; auto].
Qed.

Lemma ob_res_le_refl_all : forall rs, Forall2 ob_res_le rs rs.
Proof. induction rs; constructor; [apply ob_res_le_refl | assumption]. Qed.

Lemma ob_ok_le : forall st rs' pend fl nk rf,
  ob_ok st -> Forall2 ob_res_le rs' (obst_res st) -> (obst_pending st = true -> pend = true) ->
  ob_ok (ob_mk_st rs' pend fl nk rf).
Proof.
  intros [rs pend0 fl0 nk0 rf0] rs' pend fl nk rf [A [B C]] H Hp. unfold ob_ok.
  cbn [obst_res obst_pending] in *. revert A B C.
  induction H as [|x' x rs' rs Hx H IH]; intros A B C;
    [repeat split; [constructor | constructor | intros ? []]|].
  cbn [map] in A. inversion A as [|? ? An Ad]; subst. inversion B as [|? ? Bx Br]; subst.
  destruct (IH Ad Br (fun r Hr => C r (or_intror Hr))) as [I1 [I2 I3]].
  assert (Eids : map obrs_id rs' = map obrs_id rs).
  { clear - H. induction H as [|? ? ? ? [E _]]; cbn [map]; congruence. }
  split; [|split].
  - cbn [map]. rewrite (proj1 Hx), Eids. exact A.
  - constructor; [exact (ob_res_le_ok _ _ Hx Bx) | exact I2].
  - intros y [<-|Hy] Hd; [|exact (I3 y Hy Hd)]. apply Hp, (C x (or_introl eq_refl)).
    destruct Hx as [_ [_ [Ef _]]]. injection Ef as E1 E2. rewrite <- E1, <- E2. exact Hd.
Qed.

Lemma ob_upd_res_le : forall r f rs,
  (forall x, ob_get_res r rs = Some x -> ob_res_le (f x) x) -> Forall2 ob_res_le (ob_upd_res r f rs) rs.
Proof.
  induction rs as [|y rs IH]; cbn [ob_upd_res ob_get_res]; intro H; [constructor|].
  destruct (obrs_id y =? r).
  - constructor; [apply H; reflexivity | apply ob_res_le_refl_all].
  - constructor; [apply ob_res_le_refl | exact (IH H)].
Qed.

Lemma ob_map_res_le : forall f rs, (forall x, ob_res_le (f x) x) -> Forall2 ob_res_le (map f rs) rs.
Proof. intros f rs H. induction rs; cbn [map]; constructor; auto. Qed.

Lemma ob_del_in_res_fst : forall s t x,
  fst (ob_del_in_res s t x) = ob_set_subs x (fst (ob_remove1 (ob_sub_is s t) (obrs_subs x))).
Proof.
  intros s t x. unfold ob_del_in_res. destruct (ob_remove1 (ob_sub_is s t) (obrs_subs x)). reflexivity.
Qed.

Lemma ob_del_in_res_le : forall s t x, ob_res_le (fst (ob_del_in_res s t x)) x.
Proof.
  intros s t x. rewrite ob_del_in_res_fst.
  apply ob_set_subs_le, ob_thin_subs_le, ob_remove1_thin. exact ob_sub_le_refl.
Qed.

Lemma ob_del_all_res_fst : forall s t rs,
  fst (ob_del_all_res s t rs) = map (fun r => fst (ob_del_in_res s t r)) rs.
Proof.
  intros s t. induction rs as [|r rs IH]; cbn [ob_del_all_res map]; [reflexivity|]. rewrite <- IH.
  destruct (ob_del_in_res s t r), (ob_del_all_res s t rs). reflexivity.
Qed.

Lemma ob_touch_le : forall s t rs, Forall2 ob_res_le (ob_touch s t rs) rs.
Proof.
  intros s t rs. apply ob_map_res_le. intro x. apply ob_set_subs_le, ob_thin_subs_le, ob_map_thin.
  intro y. unfold ob_touch_sub. destruct (ob_sub_is s t y); [|apply ob_sub_le_refl].
  split; [split; reflexivity | auto].
Qed.

Lemma ob_rst_by_last_le : forall s k rs, Forall2 ob_res_le (fst (ob_rst_by_last s k rs)) rs.
Proof.
  intros s k. induction rs as [|r rs IH]; cbn [ob_rst_by_last]; [constructor|].
  destruct (ob_find (fun x => (obsb_last x =? k) && (obsb_sess x =? s)) (obrs_subs r)).
  - constructor; [apply ob_del_in_res_le | apply ob_res_le_refl_all].
  - destruct (ob_rst_by_last s k rs). constructor; [apply ob_res_le_refl | exact IH].
Qed.

Lemma ob_failed_subs_thin : forall p s t l, ob_thin ob_sub_le (fst (ob_failed_subs p s t l)) l.
Proof.
  intros p s t. induction l as [|x l IH]; cbn [ob_failed_subs]; [apply ob_thin_nil|].
  destruct (ob_sub_is s t x).
  - destruct (obpr_max_fail p <=? obsb_fail x + 1); cbn [fst].
    + apply ob_thin_drop, ob_thin_refl, ob_sub_le_refl.
    + apply ob_thin_keep; [|apply ob_thin_refl, ob_sub_le_refl]. split; [split; reflexivity | auto].
  - destruct (ob_failed_subs p s t l). apply ob_thin_keep; [apply ob_sub_le_refl | exact IH].
Qed.

Lemma ob_failed_all_fst : forall p s t rs,
  fst (ob_failed_all p s t rs) =
  map (fun r => ob_set_subs r (fst (ob_failed_subs p s t (obrs_subs r)))) rs.
Proof.
  intros p s t. induction rs as [|r rs IH]; cbn [ob_failed_all map]; [reflexivity|]. rewrite <- IH.
  destruct (ob_failed_subs p s t (obrs_subs r)), (ob_failed_all p s t rs). reflexivity.
Qed.

(* coap_notify_observers at one subscriber: what is left of it in the list, whether it stays
   flagged, the loop state, the message *)
Definition ob_notify_one (p : ob_params) (r : ob_res) (x : ob_sub) (l : ob_loop)
  : list ob_sub * bool * ob_loop * list ob_out :=
  if negb (obrs_dirty r) && negb (obsb_dirty x) then ([x], false, ob_lp_pend l, [])
  else if ob_blocked p (obrs_mode r) (oblp_ca l) x || ob_in_transfer (oblp_ca l) (obsb_sess x) then
    ([ob_mk_sub (obsb_sess x) (obsb_tok x) (obsb_key x) (obsb_non x) (obsb_fail x) true (obsb_last x)],
     true, ob_lp_pend l, [])
  else
    let con := ob_is_con p (obrs_mode r) x in
    let k := oblp_nk l in
    if obrs_err r then
      ([], false, ob_lp_release (ob_lp_sent l x con false) (obsb_sess x),
       [ObErr k (obrs_id r) (obsb_sess x) (obsb_tok x) con])
    else
      ([ob_mk_sub (obsb_sess x) (obsb_tok x) (obsb_key x)
                  (if con || (obrs_mode r =? 2) then 0 else obsb_non x + 1) (obsb_fail x) false k],
       false, ob_lp_sent l x con true,
       [ObNotify k (obrs_id r) (obsb_sess x) (obsb_tok x) (obrs_obs r) con]).

Lemma ob_notify_subs_cons : forall p r x tl l,
  ob_notify_subs p r (x :: tl) l =
  let '(xs, pd1, l1, o1) := ob_notify_one p r x l in
  let '(tl', pd, l', outs) := ob_notify_subs p r tl l1 in
  (xs ++ tl', pd1 || pd, l', o1 ++ outs).
Proof.
  intros p r x tl l. cbn [ob_notify_subs]. unfold ob_notify_one.
  destruct (negb (obrs_dirty r) && negb (obsb_dirty x)),
           (ob_blocked p (obrs_mode r) (oblp_ca l) x), (ob_in_transfer (oblp_ca l) (obsb_sess x)),
           (obrs_err r); cbn [orb]; cbv beta iota zeta;
    match goal with |- context [ob_notify_subs p r tl ?L] =>
      destruct (ob_notify_subs p r tl L) as [[[tl' pd] l'] outs] end; reflexivity.
Qed.

Lemma ob_notify_one_thin : forall p r x l,
  ob_thin ob_same_keys (fst (fst (fst (ob_notify_one p r x l)))) [x].
Proof.
  intros p r x l. unfold ob_notify_one.
  destruct (negb (obrs_dirty r) && negb (obsb_dirty x));
    [|destruct (ob_blocked p (obrs_mode r) (oblp_ca l) x || ob_in_transfer (oblp_ca l) (obsb_sess x));
      [|destruct (obrs_err r)]]; cbn [fst];
    [apply ob_thin_keep | apply ob_thin_keep | apply ob_thin_drop | apply ob_thin_keep];
    try apply ob_thin_nil; split; reflexivity.
Qed.

Lemma ob_notify_subs_uniq : forall p r subs l,
  ob_uniq subs -> ob_uniq (fst (fst (fst (ob_notify_subs p r subs l)))).
Proof.
  intros p r subs l. apply (ob_uniq_thin ob_same_keys); [auto|]. revert l.
  induction subs as [|x tl IH]; intro l; [apply ob_thin_nil|].
  rewrite ob_notify_subs_cons. pose proof (ob_notify_one_thin p r x l) as T1.
  destruct (ob_notify_one p r x l) as [[[xs pd1] l1] o1]. specialize (IH l1).
  destruct (ob_notify_subs p r tl l1) as [[[tl' pd] l'] outs].
  exact (ob_thin_app _ _ [x] _ tl T1 IH).
Qed.

Lemma ob_notify_one_flags : forall p r x l xs pd l' outs,
  ob_notify_one p r x l = (xs, pd, l', outs) ->
  (forall y, In y xs -> obsb_dirty y = true -> pd = true) /\
  (pd = true -> oblp_pend l' = true) /\ (oblp_pend l = true -> oblp_pend l' = true).
Proof.
  intros p r x l xs pd l' outs H. unfold ob_notify_one in H.
  destruct (negb (obrs_dirty r) && negb (obsb_dirty x)) eqn:C1.
  { inversion H; subst. split; [|split; [discriminate | reflexivity]].
    intros y [<-|[]] Hd. rewrite Hd, andb_false_r in C1. discriminate. }
  destruct (ob_blocked p (obrs_mode r) (oblp_ca l) x || ob_in_transfer (oblp_ca l) (obsb_sess x)).
  { inversion H; subst. repeat split. }
  destruct (obrs_err r); inversion H; subst; (split; [|split; [discriminate | exact (fun Hp => Hp)]]).
  - intros y [].
  - intros y [<-|[]] Hd. discriminate Hd.
Qed.

Lemma ob_notify_subs_flags : forall p r subs l subs' pd l' outs,
  ob_notify_subs p r subs l = (subs', pd, l', outs) ->
  (forall x, In x subs' -> obsb_dirty x = true -> pd = true) /\
  (pd = true -> oblp_pend l' = true) /\ (oblp_pend l = true -> oblp_pend l' = true).
Proof.
  intros p r. induction subs as [|x tl IH]; intros l subs' pd l' outs H.
  - inversion H; subst. split; [intros ? []|]. split; [discriminate | auto].
  - rewrite ob_notify_subs_cons in H.
    destruct (ob_notify_one p r x l) as [[[xs pd1] l1] o1] eqn:E1.
    destruct (ob_notify_subs p r tl l1) as [[[tl' pd2] l2] o2] eqn:E2. inversion H; subst.
    destruct (ob_notify_one_flags _ _ _ _ _ _ _ _ E1) as [F1 [F2 F3]].
    destruct (IH _ _ _ _ _ E2) as [I1 [I2 I3]]. split; [|split].
    + intros y Hy Hd. apply orb_true_iff. apply in_app_iff in Hy. destruct Hy; eauto.
    + intro Hp. apply orb_true_iff in Hp. destruct Hp; auto.
    + auto.
Qed.

Lemma ob_notify_res_ok : forall p r l r' l' outs,
  ob_notify_res p r l = (r', l', outs) -> ob_res_ok r ->
  ob_res_ok r' /\ obrs_id r' = obrs_id r /\ obrs_dirty r' = false /\
  (obrs_pdirty r' = true -> oblp_pend l' = true) /\ (oblp_pend l = true -> oblp_pend l' = true).
Proof.
  intros p r l r' l' outs H [U [R D]]. unfold ob_notify_res in H.
  destruct (obrs_dirty r || obrs_pdirty r) eqn:C.
  - pose proof (ob_notify_subs_uniq p r (obrs_subs r) l U) as U'.
    destruct (ob_notify_subs p r (obrs_subs r) l) as [[[subs' pd] l0] outs0] eqn:E.
    inversion H; subst. destruct (ob_notify_subs_flags _ _ _ _ _ _ _ _ E) as [I1 [I2 I3]].
    split; [exact (conj U' (conj R I1))|]. repeat split; assumption.
  - inversion H; subst. apply orb_false_iff in C. destruct C as [_ C2].
    split; [exact (conj U (conj R D))|]. repeat split; [|auto]. cbn [obrs_pdirty]. rewrite C2. discriminate.
Qed.

Lemma ob_notify_all_ok : forall p rs l rs' l' outs,
  ob_notify_all p rs l = (rs', l', outs) -> Forall ob_res_ok rs ->
  Forall ob_res_ok rs' /\ map obrs_id rs' = map obrs_id rs /\
  (forall r', In r' rs' -> obrs_dirty r' = false /\ (obrs_pdirty r' = true -> oblp_pend l' = true)) /\
  (oblp_pend l = true -> oblp_pend l' = true).
Proof.
  intros p. induction rs as [|r tl IH]; intros l rs' l' outs H Hall; cbn [ob_notify_all] in H.
  - inversion H; subst. split; [constructor|]. split; [reflexivity|]. split; [intros ? [] | auto].
  - destruct (ob_notify_res p r l) as [[r1 l1] o1] eqn:E1.
    destruct (ob_notify_all p tl l1) as [[tl' l2] o2] eqn:E2. inversion H; subst.
    inversion Hall; subst.
    destruct (ob_notify_res_ok _ _ _ _ _ _ E1 H2) as [K1 [K2 [K3 [K4 K5]]]].
    destruct (IH _ _ _ _ E2 H3) as [J1 [J2 [J3 J4]]].
    split; [constructor; assumption|]. split; [cbn [map]; congruence|]. split; [|auto].
    intros z [<-|Hz]; [split; auto | apply J3; assumption].
Qed.

Lemma ob_register_ok : forall st r s t o, ob_ok st -> ob_ok (fst (ob_register st r s t o)).
Proof.
  intros st r s t o Hok. unfold ob_register.
  destruct (ob_get_res r (obst_res st)) as [res|] eqn:G; [|exact Hok].
  pose proof (ob_add_observer_le s t o (obrs_subs res)) as L.
  destruct (ob_add_observer s t o (obrs_subs res)) as [l d]. cbn [fst] in L.
  (* the state before the handler's answer is looked at *)
  assert (Hok2 : ob_ok (ob_mk_st (ob_touch s t (ob_upd_res r (fun x => ob_set_subs x l) (obst_res st)))
                              (obst_pending st) (obst_fl st) (obst_nk st) (obst_ref st))).
  { apply (ob_ok_le (ob_mk_st (ob_upd_res r (fun x => ob_set_subs x l) (obst_res st))
                              (obst_pending st) (obst_fl st) (obst_nk st) (obst_ref st)));
      [|apply ob_touch_le | auto].
    apply (ob_ok_le st); [exact Hok | | auto]. apply ob_upd_res_le.
    intros x Gx. rewrite G in Gx. inversion Gx; subst x. apply ob_set_subs_le. exact L. }
  destruct (obrs_err res); cbn [fst].
  - apply (ob_ok_le _ _ _ _ _ _ Hok2); [|auto]. apply ob_upd_res_le. intros x _. apply ob_del_in_res_le.
  - apply (ob_ok_le _ _ _ _ _ _ Hok2); [apply ob_res_le_refl_all | auto].
Qed.

Lemma ob_cancel_ok : forall st r s t o, ob_ok st -> ob_ok (ob_cancel st r s t o).
Proof.
  intros st r s t o Hok. unfold ob_cancel.
  destruct (ob_get_res r (obst_res st)) as [res|] eqn:G; [|exact Hok].
  pose proof (ob_cancel_subs_eq s t o (obrs_subs res)) as E.
  destruct (ob_cancel_subs s t o (obrs_subs res)) as [l b]. cbn [fst] in E.
  apply (ob_ok_le st); [exact Hok | | auto]. apply ob_upd_res_le.
  intros x Gx. rewrite G in Gx. inversion Gx; subst x. apply ob_set_subs_le, ob_thin_subs_le.
  rewrite E. destruct (ob_find (ob_sub_is s t) (obrs_subs res));
    [apply ob_remove1_thin; exact ob_sub_le_refl | apply ob_replace_key_thin].
Qed.

Lemma ob_upd_res_ids : forall r f rs,
  (forall x, obrs_id (f x) = obrs_id x) -> map obrs_id (ob_upd_res r f rs) = map obrs_id rs.
Proof.
  intros r f rs Hf. induction rs as [|y rs IH]; cbn [ob_upd_res]; [reflexivity|].
  destruct (obrs_id y =? r); cbn [map]; [rewrite Hf | rewrite IH]; reflexivity.
Qed.

Lemma ob_change_res_ok : forall x, ob_res_ok x -> ob_res_ok (ob_change_res x).
Proof.
  intros x H. unfold ob_change_res. destruct (obrs_subs x) eqn:Es; [exact H|].
  destruct H as [U [R D]]. rewrite <- Es. split; [exact U|].
  split; [apply Z.mod_pos_bound; lia | exact D].
Qed.

Lemma ob_change_ok : forall st r, ob_ok st -> ob_ok (ob_change st r).
Proof.
  intros st r [A [B C]]. unfold ob_change, ob_ok. cbn [obst_res obst_pending]. split; [|split].
  - rewrite ob_upd_res_ids; [exact A|]. intro x. unfold ob_change_res. destruct (obrs_subs x); reflexivity.
  - rewrite Forall_forall in *. intros y Hy. apply ob_upd_res_in in Hy.
    destruct Hy as [Hy|[x [G ->]]]; [auto|]. apply ob_change_res_ok, B, (ob_get_res_in _ _ _ G).
  - intros y Hy Hd. apply ob_upd_res_in in Hy. destruct Hy as [Hy|[x [G ->]]].
    + rewrite (C y Hy Hd). reflexivity.
    + unfold ob_has_subs. rewrite G. unfold ob_change_res in Hd.
      destruct (obrs_subs x); [|apply orb_true_r].
      rewrite (C x (proj1 (ob_get_res_in _ _ _ G)) Hd). reflexivity.
Qed.

Lemma ob_iostep_ok : forall p st ca, ob_ok st -> ob_ok (fst (ob_iostep p st ca)).
Proof.
  intros p st ca Hok. unfold ob_iostep. destruct (obst_pending st) eqn:P; [|exact Hok].
  destruct (ob_notify_all p (obst_res st) (ob_mk_lp ca false (obst_nk st) (obst_fl st) (obst_ref st)))
    as [[rs l] outs] eqn:E. cbn [fst]. destruct Hok as [A [B C]].
  destruct (ob_notify_all_ok _ _ _ _ _ _ E B) as [J1 [J2 [J3 J4]]].
  unfold ob_ok. cbn. split; [rewrite J2; assumption|]. split; [assumption|].
  intros y Hy [Hd|Hd]; destruct (J3 y Hy) as [K1 K2]; [congruence | auto].
Qed.

Lemma ob_ack_ok : forall st s k, ob_ok st -> ob_ok (ob_ack st s k).
Proof.
  intros st s k Hok. unfold ob_ack. destruct (ob_fl_find s k (obst_fl st)) as [f|]; [|exact Hok].
  apply (ob_ok_le st); [exact Hok | | auto].
  destruct (obfl_ok f); [apply ob_touch_le | apply ob_res_le_refl_all].
Qed.

Lemma ob_rst_ok : forall st s k, ob_ok st -> ob_ok (ob_rst st s k).
Proof.
  intros st s k Hok. unfold ob_rst. destruct (ob_fl_find s k (obst_fl st)) as [f|].
  - pose proof (ob_del_all_res_fst s (obfl_tok f) (obst_res st)) as E.
    destruct (ob_del_all_res s (obfl_tok f) (obst_res st)) as [rs n]. cbn [fst] in E. subst rs.
    apply (ob_ok_le st); [exact Hok | | auto]. apply ob_map_res_le. intro x. apply ob_del_in_res_le.
  - pose proof (ob_rst_by_last_le s k (obst_res st)) as L.
    destruct (ob_rst_by_last s k (obst_res st)) as [rs b]. apply (ob_ok_le st); auto.
Qed.

Lemma ob_confailed_ok : forall p st s k, ob_ok st -> ob_ok (ob_confailed p st s k).
Proof.
  intros p st s k Hok. unfold ob_confailed.
  destruct (ob_fl_find s k (obst_fl st)) as [f|]; [|exact Hok].
  pose proof (ob_failed_all_fst p s (obfl_tok f) (obst_res st)) as E.
  destruct (ob_failed_all p s (obfl_tok f) (obst_res st)) as [rs n]. cbn [fst] in E. subst rs.
  apply (ob_ok_le st); [exact Hok | | auto]. apply ob_map_res_le. intro x.
  apply ob_set_subs_le, ob_thin_subs_le, ob_failed_subs_thin.
Qed.

Lemma ob_session_lost_ok : forall st s, ob_ok st -> ob_ok (ob_session_lost st s).
Proof.
  intros st s Hok. apply (ob_ok_le st); [exact Hok | | auto]. apply ob_map_res_le. intro x.
  apply ob_set_subs_le, ob_thin_subs_le, ob_filter_thin. exact ob_sub_le_refl.
Qed.

Lemma ob_set_err_ok : forall st r b, ob_ok st -> ob_ok (ob_set_err st r b).
Proof.
  intros st r b Hok. apply (ob_ok_le st); [exact Hok | | auto]. apply ob_upd_res_le.
  intros x _. exact (ob_res_le_refl x).
Qed.

Lemma ob_delete_resource_ok : forall p st r ca, ob_ok st -> ob_ok (fst (ob_delete_resource p st r ca)).
Proof.
  intros p st r ca Hok. unfold ob_delete_resource.
  destruct (ob_get_res r (obst_res st)) as [res|]; [|exact Hok]. destruct Hok as [A [B C]].
  destruct (ob_gone_subs p res ca (obrs_subs res) (obst_ref st)) as [outs rf].
  unfold ob_ok. cbn [fst obst_res obst_pending]. rewrite ob_drop_res_remove1.
  set (rs' := fst (ob_remove1 (fun x => obrs_id x =? r) (obst_res st))).
  assert (Hin : forall y, In y rs' -> In y (obst_res st)) by (intro y; apply ob_remove1_in).
  split; [|split].
  - apply (ob_remove1_readd obrs_id _ r); [intro x; apply Z.eqb_eq | exact A | reflexivity].
  - apply Forall_app. rewrite Forall_forall in *. split; [auto|]. constructor; [|constructor].
    split; [split; constructor|]. split; [cbn; lia | intros ? []].
  - intros y Hy Hd. apply in_app_iff in Hy. destruct Hy as [Hy|[<-|[]]].
    + rewrite (C y (Hin y Hy) Hd). reflexivity.
    + destruct Hd; discriminate.
Qed.

Lemma ob_step_ok : forall p st op, ob_ok st -> ob_ok (fst (ob_step p st op)).
Proof.
  intros p st op H. destruct op; cbn [ob_step fst].
  - apply ob_register_ok; assumption.
  - apply ob_cancel_ok; assumption.
  - apply ob_change_ok; assumption.
  - apply ob_iostep_ok; assumption.
  - apply ob_ack_ok; assumption.
  - apply ob_rst_ok; assumption.
  - apply ob_confailed_ok; assumption.
  - apply ob_set_err_ok; assumption.
  - apply ob_session_lost_ok; assumption.
  - apply ob_delete_resource_ok; assumption.
Qed.

Lemma ob_init_res_ids : forall modes id y, In y (ob_init_res id modes) -> id <= obrs_id y.
Proof.
  induction modes as [|[m v] tl IH]; cbn [ob_init_res]; intros id y H; [destruct H|].
  destruct H as [<-|H]; [cbn; lia|]. apply IH in H. lia.
Qed.

Lemma ob_init_ok : forall modes, ob_ok (ob_init modes).
Proof.
  intro modes. unfold ob_init, ob_ok. cbn. generalize 0 as id.
  induction modes as [|[m v] tl IH]; intro id; cbn [ob_init_res map].
  - split; [constructor|]. split; [constructor | intros ? []].
  - destruct (IH (id + 1)) as [I1 [I2 I3]]. split; [|split].
    + constructor; [|assumption]. intro H. apply in_map_iff in H. destruct H as [y [Hy Hin]].
      apply ob_init_res_ids in Hin. cbn in Hy. lia.
    + constructor; [|assumption]. unfold ob_res_ok, ob_uniq. cbn.
      split; [split; constructor|]. split; [apply Z.mod_pos_bound; lia | intros ? []].
    + intros r [<-|Hr] Hd; [cbn in Hd; destruct Hd; discriminate | eapply I3; eassumption].
Qed.

Lemma ob_run_inv : forall (I : ob_state -> Prop) p,
  (forall st op, I st -> I (fst (ob_step p st op))) ->
  forall ops st, I st -> I (fst (ob_run p st ops)).
Proof.
  intros I p Hstep. induction ops as [|op tl IH]; intros st H; cbn [ob_run]; [exact H|].
  pose proof (Hstep st op H) as H1. destruct (ob_step p st op) as [st1 outs]. cbn [fst] in H1.
  specialize (IH st1 H1). destruct (ob_run p st1 tl) as [st2 tr]. exact IH.
Qed.

Lemma ob_run_ok : forall p ops st, ob_ok st -> ob_ok (fst (ob_run p st ops)).
Proof. intro p. exact (ob_run_inv ob_ok p (ob_step_ok p)). Qed.

(* C11: a re-registration replaces rather than duplicates - in every reachable state no two
   subscriptions of a resource have the same (session, token) or the same (session, cache key) *)
Theorem ob_no_duplicates : forall p modes ops r,
  In r (obst_res (fst (ob_run p (ob_init modes) ops))) ->
  NoDup (map (fun x => (obsb_sess x, obsb_tok x)) (obrs_subs r)) /\
  NoDup (map (fun x => (obsb_sess x, obsb_key x)) (obrs_subs r)).
Proof.
  intros p modes ops r H. pose proof (ob_run_ok p ops _ (ob_init_ok modes)) as [_ [B _]].
  rewrite Forall_forall in B. exact (proj1 (B r H)).
Qed.

(* non-vacuity: after these three registrations the resource has two subscriptions (the third
   request re-used the cache key of the first with a new token and replaced it) *)
Example ob_no_duplicates_witness :
  let ops := [ObOpRegister 0 1 [161] [(11, [114; 48]); (15, [97])];
              ObOpRegister 0 1 [162] [(11, [114; 48]); (15, [98])];
              ObOpRegister 0 1 [163] [(4, [9]); (11, [114; 48]); (15, [97])]] in
  map (fun r => map obsb_tok (obrs_subs r))
      (obst_res (fst (ob_run (ob_mk_pr 1 5 1) (ob_init [(0, 2)]) ops))) = [[[163]; [162]]].
Proof. vm_compute. reflexivity. Qed.

(* C11: while a notification is held back the pending flags persist - in every reachable state a
   subscription flagged dirty implies its resource is partiallydirty, and a dirty or partiallydirty
   resource implies the context's observe_pending, so the next coap_check_notify looks at it again;
   the Observe counter stays a 24-bit number *)
Theorem ob_pending_flags_persist : forall p modes ops st,
  st = fst (ob_run p (ob_init modes) ops) ->
  (forall r x, In r (obst_res st) -> In x (obrs_subs r) -> obsb_dirty x = true -> obrs_pdirty r = true) /\
  (forall r, In r (obst_res st) -> obrs_dirty r = true \/ obrs_pdirty r = true -> obst_pending st = true) /\
  (forall r, In r (obst_res st) -> 0 <= obrs_obs r < 16777216).
Proof.
  intros p modes ops st Hst. pose proof (ob_run_ok p ops _ (ob_init_ok modes)) as [_ [B C]].
  rewrite <- Hst in B, C. rewrite Forall_forall in B. split; [|split].
  - intros r x Hr Hx Hd. destruct (B r Hr) as [_ [_ D]]. eapply D; eassumption.
  - exact C.
  - intros r Hr. apply (B r Hr).
Qed.
