(* C11 - consequences for the model, stated without reference to the acceptor's state:
   combine SimProofs.ob_model_accepted with the soundness theorems of AcceptProofs. *)
From LibcoapV Require Import Base.Tactics Observe.Observe Observe.Accept Observe.SimProofs
  Observe.AcceptProofs.
Local Open Scope Z_scope.

Lemma ob_run_app : forall p l1 l2 st,
  ob_run p st (l1 ++ l2) =
  let '(st1, t1) := ob_run p st l1 in
  let '(st2, t2) := ob_run p st1 l2 in (st2, t1 ++ t2).
Proof.
  intros p. induction l1 as [|op l1 IH]; intros l2 st; cbn [app ob_run].
  - destruct (ob_run p st l2). reflexivity.
  - destruct (ob_step p st op) as [st1 outs]. rewrite IH.
    destruct (ob_run p st1 l1) as [sta ta]. destruct (ob_run p sta l2) as [stb tb]. reflexivity.
Qed.

Lemma ob_run_ops : forall p l st, map fst (snd (ob_run p st l)) = l.
Proof.
  intros p. induction l as [|op l IH]; intro st; cbn [ob_run]; [reflexivity|].
  destruct (ob_step p st op) as [st1 outs]. specialize (IH st1).
  destruct (ob_run p st1 l) as [st2 tr]. cbn [snd map fst] in *. f_equal. assumption.
Qed.

Definition ob_is_register (r s : Z) (t : ob_tok) (op : ob_op) : Prop :=
  exists o, op = ObOpRegister r s t o.

(* the de-registering op, then anything but a registration of (r, s, t): nothing for (r, s, t) *)
Lemma ob_silent_after : forall p modes pre dereg mid r s t,
  0 <= obpr_max_non p -> obpr_max_fail p <= 1 ->
  (forall c st outs st', ac_wf (acas_res st) -> ac_step c st (dereg, outs) = AcOk st' ->
                         ac_reg st' r s t = false) ->
  (forall op, In op mid -> ~ ob_is_register r s t op) ->
  forall e out,
    In e (snd (ob_run p (fst (ob_run p (ob_init modes) (pre ++ [dereg]))) mid)) -> In out (snd e) ->
    ac_out_key out <> Some (r, s, t).
Proof.
  intros p modes pre dereg mid r s t Hmn Hmf Hd Hmid e out He Hout.
  set (c := ac_mk_cf (map fst modes) (obpr_nstart p) (obpr_max_non p) false).
  pose proof (ob_model_accepted p modes (pre ++ dereg :: mid) Hmn Hmf) as Hacc. fold c in Hacc.
  (* the history: that of pre, the de-registering op with its outputs, that of mid *)
  rewrite ob_run_app in Hacc, He. destruct (ob_run p (ob_init modes) pre) as [st0 t0].
  cbn [ob_run] in Hacc, He. destruct (ob_step p st0 dereg) as [st1 douts]. cbn [fst] in He.
  pose proof (ob_run_ops p mid st1) as Hops.
  destruct (ob_run p st1 mid) as [st2 tb]. cbn [snd] in Hacc, He, Hops.
  destruct (ac_accepts_go c t0 ((dereg, douts) :: tb) Hacc) as [_ [a0 [a2 [_ [W0 R]]]]].
  cbn [ac_go] in R. destruct (ac_step c a0 (dereg, douts)) as [a1|] eqn:S1; [|discriminate].
  pose proof (ac_step_wf _ _ _ _ W0 S1) as W1.
  destruct (ac_none_while_unregistered c r s t tb a1 a2 W1 R (Hd c a0 douts a1 W0 S1)) as [Hsil _];
    [|exact (Hsil e out He Hout)].
  intros e0 He0 [o [v Heq]]. apply (Hmid (fst e0)).
  - rewrite <- Hops. apply in_map. assumption.
  - subst e0. exists o. reflexivity.
Qed.
