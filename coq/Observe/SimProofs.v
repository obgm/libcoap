(* C11 - every history of the Observe model is accepted by the acceptor of Accept.v
   (the for-all part: for all op sequences, all con_active inputs, all initial counters).
   Proof: lock-step simulation; the relation ties each model subscription to the acceptor's
   observer entry: (acao_val + acao_chg) mod 2^24 is the resource's counter, acao_chg > 0 implies that
   the resource or the subscription is flagged dirty, acao_run is non_cnt, acao_lastk is the last
   notification's ordinal. *)
From LibcoapV Require Import Base.Tactics Observe.Observe Observe.Accept Observe.ObserveProofs
  Observe.AcceptProofs.
Local Open Scope Z_scope.

Section F2.
  Context {A B : Type} (R : A -> B -> Prop).

  Lemma f2_find : forall (f : A -> bool) (g : B -> bool) l1 l2,
    Forall2 R l1 l2 -> (forall x y, R x y -> f x = g y) ->
    match ob_find f l1, ob_find g l2 with
    | Some x, Some y => R x y
    | None, None => True
    | _, _ => False
    end.
  Proof.
    intros f g l1 l2 H Hfg. induction H as [|x y l1 l2 Hxy H IH]; cbn [ob_find]; [exact I|].
    rewrite (Hfg x y Hxy). destruct (g y); [exact Hxy | exact IH].
  Qed.

  Lemma f2_remove1 : forall (f : A -> bool) (g : B -> bool) l1 l2,
    Forall2 R l1 l2 -> (forall x y, R x y -> f x = g y) ->
    Forall2 R (fst (ob_remove1 f l1)) (fst (ob_remove1 g l2)) /\
    snd (ob_remove1 f l1) = snd (ob_remove1 g l2).
  Proof.
    intros f g l1 l2 H Hfg. induction H as [|x y l1 l2 Hxy H IH]; cbn [ob_remove1].
    - split; [constructor | reflexivity].
    - rewrite (Hfg x y Hxy). destruct (g y); [split; [exact H | reflexivity]|].
      destruct IH as [I1 I2]. destruct (ob_remove1 f l1) as [a1 b1], (ob_remove1 g l2) as [a2 b2].
      cbn [fst snd] in *. split; [constructor; assumption | assumption].
  Qed.

  Lemma f2_filter : forall (f : A -> bool) (g : B -> bool) l1 l2,
    Forall2 R l1 l2 -> (forall x y, R x y -> f x = g y) ->
    Forall2 R (filter f l1) (filter g l2).
  Proof.
    intros f g l1 l2 H Hfg. induction H as [|x y l1 l2 Hxy H IH]; cbn [filter]; [constructor|].
    rewrite (Hfg x y Hxy). destruct (g y); [constructor; assumption | assumption].
  Qed.
End F2.

Lemma f2_map : forall {A B A' B'} (R : A -> B -> Prop) (R' : A' -> B' -> Prop) (h1 : A -> A')
                      (h2 : B -> B') l1 l2,
  Forall2 R l1 l2 -> (forall x y, R x y -> R' (h1 x) (h2 y)) -> Forall2 R' (map h1 l1) (map h2 l2).
Proof.
  intros A B A' B' R R' h1 h2 l1 l2 H Hh. induction H; cbn [map]; constructor; auto.
Qed.

Lemma f2_in_right : forall {A B} (R : A -> B -> Prop) l1 l2 o,
  Forall2 R l1 l2 -> In o l2 -> exists x, In x l1 /\ R x o.
Proof.
  intros A B R l1 l2 o H. induction H as [|x y l1 l2 Hxy H IH]; intro Ho; [destruct Ho|].
  destruct Ho as [<-|Ho]; [exists x; split; [left; reflexivity | assumption]|].
  destruct (IH Ho) as [z [Hz Hr]]. exists z. split; [right; assumption | assumption].
Qed.

Lemma f2_in_left : forall {A B} (R : A -> B -> Prop) l1 l2 x,
  Forall2 R l1 l2 -> In x l1 -> exists o, In o l2 /\ R x o.
Proof.
  intros A B R l1 l2 x0 H. induction H as [|x y l1 l2 Hxy H IH]; intro Hx; [destruct Hx|].
  destruct Hx as [<-|Hx]; [exists y; split; [left; reflexivity | assumption]|].
  destruct (IH Hx) as [z [Hz Hr]]. exists z. split; [right; assumption | assumption].
Qed.

Lemma f2_impl : forall {A B} (R R' : A -> B -> Prop) l1 l2,
  Forall2 R l1 l2 -> (forall x y, R x y -> R' x y) -> Forall2 R' l1 l2.
Proof. intros A B R R' l1 l2 H Hh. induction H; constructor; auto. Qed.

Lemma ac_get_at : forall r a x b,
  acar_id x = r -> (forall y, In y a -> acar_id y <> r) -> ac_get r (a ++ x :: b) = Some x.
Proof.
  intros r a x b Hx Ha. rewrite ac_get_find. apply ob_find_at; [|apply Z.eqb_eq; assumption].
  intros y Hy. apply Z.eqb_neq. apply Ha. assumption.
Qed.

Lemma ac_upd_at : forall r f a x b,
  acar_id x = r -> (forall y, In y a -> acar_id y <> r) ->
  ac_upd r f (a ++ x :: b) = a ++ ac_mk_ar (acar_id x) (f (acar_obs x)) :: b.
Proof.
  induction a as [|y a IH]; cbn [ac_upd app]; intros x b Hx Ha.
  - rewrite Hx, Z.eqb_refl. reflexivity.
  - assert (acar_id y =? r = false) as -> by (apply Z.eqb_neq; apply Ha; left; reflexivity).
    f_equal. apply IH; [assumption|]. intros z Hz. apply Ha. right. assumption.
Qed.

Lemma ac_get_none_upd : forall r f rs, ac_get r rs = None -> ac_upd r f rs = rs.
Proof.
  induction rs as [|y rs IH]; cbn [ac_get ac_upd]; intro H; [reflexivity|].
  destruct (acar_id y =? r); [discriminate|]. f_equal. apply IH. assumption.
Qed.

Lemma ac_upd_id : forall r ars, ac_upd r (fun l => l) ars = ars.
Proof.
  induction ars as [|[yid yobs] ars IH]; cbn [ac_upd acar_id acar_obs]; [reflexivity|].
  destruct (yid =? r); [reflexivity | f_equal; assumption].
Qed.

Lemma ac_upd_upd : forall r f g ars,
  ac_upd r g (ac_upd r f ars) = ac_upd r (fun l => g (f l)) ars.
Proof.
  induction ars as [|y ars IH]; cbn [ac_upd]; [reflexivity|].
  destruct (acar_id y =? r) eqn:E; cbn [ac_upd acar_id acar_obs]; rewrite E; [reflexivity|].
  f_equal. assumption.
Qed.

Lemma ac_outs_app : forall c w o1 o2,
  ac_outs c w (o1 ++ o2) =
  match ac_outs c w o1 with inl w1 => ac_outs c w1 o2 | inr e => inr e end.
Proof.
  intros c w o1. revert w. induction o1 as [|o o1 IH]; intros w o2; cbn [app ac_outs]; [reflexivity|].
  destruct (ac_out_step c w o); [apply IH | reflexivity].
Qed.

Lemma ob_fl_remove_none : forall s k fl, ob_fl_find s k fl = None -> ob_fl_remove s k fl = fl.
Proof.
  unfold ob_fl_remove. induction fl as [|f fl IH]; cbn [ob_fl_find filter]; intro H; [reflexivity|].
  destruct (ob_fl_is s k f); [discriminate|]. cbn [negb]. f_equal. apply IH. assumption.
Qed.

Definition ob_ca_le (c1 c2 : list (Z * Z)) : Prop := forall s, ob_ca_get c1 s <= ob_ca_get c2 s.

Lemma ob_ca_le_refl : forall ca, ob_ca_le ca ca.
Proof. intros ca s. lia. Qed.

Lemma ob_ca_le_trans : forall c1 c2 c3, ob_ca_le c1 c2 -> ob_ca_le c2 c3 -> ob_ca_le c1 c3.
Proof. intros c1 c2 c3 H1 H2 s. specialize (H1 s). specialize (H2 s). lia. Qed.

Lemma ob_lp_sent_ca : forall l x con ok, ob_ca_le (oblp_ca l) (oblp_ca (ob_lp_sent l x con ok)).
Proof.
  intros l x con ok s. cbn [ob_lp_sent oblp_ca]. destruct con; [|lia].
  unfold ob_ca_inc. cbn [ob_ca_get]. destruct (obsb_sess x =? s) eqn:E; [apply Z.eqb_eq in E; subst|]; lia.
Qed.

Lemma ob_notify_one_ca : forall p r x l xs pd l1 o1,
  ob_notify_one p r x l = (xs, pd, l1, o1) -> ob_ca_le (oblp_ca l) (oblp_ca l1).
Proof.
  intros p r x l xs pd l1 o1 H. unfold ob_notify_one in H.
  destruct (negb (obrs_dirty r) && negb (obsb_dirty x)); [|destruct (_ || _); [|destruct (obrs_err r)]];
    inversion H; subst;
    [apply ob_ca_le_refl | apply ob_ca_le_refl | apply ob_lp_sent_ca | apply ob_lp_sent_ca].
Qed.

Lemma ob_notify_subs_ca : forall p r subs l subs' pd l' outs,
  ob_notify_subs p r subs l = (subs', pd, l', outs) -> ob_ca_le (oblp_ca l) (oblp_ca l').
Proof.
  intros p r. induction subs as [|x tl IH]; intros l subs' pd l' outs H.
  - inversion H; subst. apply ob_ca_le_refl.
  - rewrite ob_notify_subs_cons in H.
    destruct (ob_notify_one p r x l) as [[[xs pd1] l1] o1] eqn:E1.
    destruct (ob_notify_subs p r tl l1) as [[[tl' pd2] l2] o2] eqn:E2. inversion H; subst.
    exact (ob_ca_le_trans _ _ _ (ob_notify_one_ca _ _ _ _ _ _ _ _ E1) (IH _ _ _ _ _ E2)).
Qed.

Lemma ob_notify_res_ca : forall p r l r' l' outs,
  ob_notify_res p r l = (r', l', outs) -> ob_ca_le (oblp_ca l) (oblp_ca l').
Proof.
  intros p r l r' l' outs H. unfold ob_notify_res in H. destruct (obrs_dirty r || obrs_pdirty r).
  - destruct (ob_notify_subs p r (obrs_subs r) l) as [[[subs' pd] l0] outs0] eqn:E.
    inversion H; subst. exact (ob_notify_subs_ca _ _ _ _ _ _ _ _ E).
  - inversion H; subst. apply ob_ca_le_refl.
Qed.

Lemma ob_notify_all_ca : forall p rs l rs' l' outs,
  ob_notify_all p rs l = (rs', l', outs) -> ob_ca_le (oblp_ca l) (oblp_ca l').
Proof.
  intros p. induction rs as [|r tl IH]; intros l rs' l' outs H; cbn [ob_notify_all] in H.
  - inversion H; subst. apply ob_ca_le_refl.
  - destruct (ob_notify_res p r l) as [[r1 l1] o1] eqn:E1.
    destruct (ob_notify_all p tl l1) as [[tl' l2] o2] eqn:E2. inversion H; subst.
    exact (ob_ca_le_trans _ _ _ (ob_notify_res_ca _ _ _ _ _ _ E1) (IH _ _ _ _ E2)).
Qed.

Lemma ac_settled_mono : forall c c1 c2 o,
  ob_ca_le c1 c2 -> ac_settled c c1 o = true -> ac_settled c c2 o = true.
Proof.
  intros c c1 c2 o H. unfold ac_settled, ob_in_transfer.
  pose proof (H (acao_s o)). pose proof (H (acao_s o + ob_lg_off)). lia.
Qed.

Section Sim.
  Variable p : ob_params.
  Variable c : ac_cfg.
  Hypothesis Hns : accf_nstart c = obpr_nstart p.
  Hypothesis Hmn : accf_max_non c = obpr_max_non p.
  Hypothesis Hmn0 : 0 <= obpr_max_non p.
  Hypothesis Hmf : obpr_max_fail p <= 1.
  Hypothesis Hlen : accf_strict c = false.

  Set Implicit Arguments.
  Record sim_sub (mode obs : Z) (d : bool) (x : ob_sub) (o : ac_obs) : Prop := {
    ss_sess : obsb_sess x = acao_s o;
    ss_tok : obsb_tok x = acao_t o;
    ss_key : obsb_key x = acao_key o;
    ss_last : obsb_last x = acao_lastk o;
    ss_fail : obsb_fail x = 0;
    ss_run : mode <> 2 -> obsb_non x = acao_run o;
    ss_chg : 0 <= acao_chg o;
    ss_val : (acao_val o + acao_chg o) mod ob_M = obs;
    ss_behind : 0 < acao_chg o -> d = true \/ obsb_dirty x = true;
    ss_due : acao_weak o = false -> d = true \/ obsb_dirty x = true -> 1 <= acao_chg o
  }.

  Definition sim_res (r : ob_res) (a : ac_res) : Prop :=
    obrs_id r = acar_id a /\ obrs_mode r = ac_mode c (obrs_id r) /\
    Forall2 (sim_sub (obrs_mode r) (obrs_obs r) (obrs_dirty r)) (obrs_subs r) (acar_obs a).

  Definition sim_data (st : ob_state) (a : ac_state) : Prop :=
    Forall2 sim_res (obst_res st) (acas_res a) /\ obst_fl st = acas_fl a /\ obst_nk st = acas_nk a.

  Definition sim (st : ob_state) (a : ac_state) : Prop := ob_ok st /\ sim_data st a.

  Lemma sim_sub_is : forall mode obs d x o s t,
    sim_sub mode obs d x o -> ob_sub_is s t x = ac_obs_is s t o.
  Proof.
    intros mode obs d x o s t H. unfold ob_sub_is, ac_obs_is. rewrite (ss_sess H), (ss_tok H). reflexivity.
  Qed.

  Lemma sim_sub_self : forall mode obs d x o,
    sim_sub mode obs d x o -> ac_obs_is (obsb_sess x) (obsb_tok x) o = true.
  Proof.
    intros mode obs d x o H. rewrite <- (sim_sub_is (obsb_sess x) (obsb_tok x) H).
    apply ob_sub_is_kt. reflexivity.
  Qed.

  Lemma sim_sub_keyis : forall mode obs d x o s k,
    sim_sub mode obs d x o -> ob_sub_keyis s k x = ac_obs_keyis s k o.
  Proof.
    intros mode obs d x o s k H. unfold ob_sub_keyis, ac_obs_keyis. rewrite (ss_sess H), (ss_key H).
    reflexivity.
  Qed.

  (* neither the resource nor the subscription is flagged: the observer has seen the current value *)
  Lemma sim_sub_clean : forall mode obs x o,
    sim_sub mode obs false x o -> obsb_dirty x = false -> acao_chg o = 0.
  Proof.
    intros mode obs x o H Hd. pose proof (ss_chg H) as H0. pose proof (ss_behind H) as H1.
    destruct (Z.eq_dec (acao_chg o) 0) as [|Hne]; [assumption|].
    destruct H1 as [H1|H1]; [lia | |]; congruence.
  Qed.

  Unset Implicit Arguments.

  Lemma sim_get : forall r rs ars,
    Forall2 sim_res rs ars ->
    match ob_get_res r rs, ac_get r ars with
    | Some x, Some y => sim_res x y
    | None, None => True
    | _, _ => False
    end.
  Proof.
    intros r rs ars H. rewrite ob_get_res_find, ac_get_find. apply f2_find; [assumption|].
    intros x y [E _]. rewrite E. reflexivity.
  Qed.

  Lemma sim_upd : forall r f g rs ars,
    Forall2 sim_res rs ars ->
    (forall x y, ob_get_res r rs = Some x -> ac_get r ars = Some y -> sim_res x y ->
                 sim_res (f x) (ac_mk_ar (acar_id y) (g (acar_obs y)))) ->
    Forall2 sim_res (ob_upd_res r f rs) (ac_upd r g ars).
  Proof.
    intros r f g rs ars H. induction H as [|x y rs ars Hxy H IH];
      cbn [ob_upd_res ac_upd ob_get_res ac_get]; [constructor|].
    rewrite <- (proj1 Hxy). destruct (obrs_id x =? r); intro Hfg.
    - constructor; [|assumption]. rewrite (proj1 Hxy). apply Hfg; auto.
    - constructor; [assumption | exact (IH Hfg)].
  Qed.

  Lemma sim_upd_found : forall r f g rs ars res ares,
    Forall2 sim_res rs ars -> ob_get_res r rs = Some res -> ac_get r ars = Some ares ->
    sim_res (f res) (ac_mk_ar (acar_id ares) (g (acar_obs ares))) ->
    Forall2 sim_res (ob_upd_res r f rs) (ac_upd r g ars).
  Proof.
    intros r f g rs ars res ares H G1 G2 Hfg. apply sim_upd; [assumption|]. intros x y Gx Gy _.
    rewrite G1 in Gx. rewrite G2 in Gy. injection Gx as <-. injection Gy as <-. exact Hfg.
  Qed.

  (* the model changes a resource in a way the acceptor does not see *)
  Lemma sim_upd_left : forall r f rs ars,
    Forall2 sim_res rs ars -> (forall x y, sim_res x y -> sim_res (f x) y) ->
    Forall2 sim_res (ob_upd_res r f rs) ars.
  Proof.
    intros r f rs ars H Hf. induction H as [|x y rs ars Hxy H IH]; cbn [ob_upd_res]; [constructor|].
    destruct (obrs_id x =? r); constructor; auto.
  Qed.

  Lemma sim_drop : forall r rs ars,
    Forall2 sim_res rs ars -> Forall2 sim_res (ob_drop_res r rs) (ac_drop r ars).
  Proof.
    intros r rs ars H. induction H as [|x y rs ars Hxy H IH]; cbn [ob_drop_res ac_drop]; [constructor|].
    rewrite <- (proj1 Hxy). destruct (obrs_id x =? r); [assumption | constructor; assumption].
  Qed.

  Lemma sim_res_subs : forall x y l l',
    sim_res x y -> Forall2 (sim_sub (obrs_mode x) (obrs_obs x) (obrs_dirty x)) l l' ->
    sim_res (ob_set_subs x l) (ac_mk_ar (acar_id y) l').
  Proof. intros x y l l' [A [B C]] H. split; [exact A | split; [exact B | exact H]]. Qed.

  Lemma sim_touch : forall s t rs ars, Forall2 sim_res rs ars -> Forall2 sim_res (ob_touch s t rs) ars.
  Proof.
    intros s t rs ars H. unfold ob_touch. induction H as [|x y rs ars Hxy H IH]; cbn [map];
      constructor; [|assumption].
    destruct y as [yid yobs]. apply (sim_res_subs _ _ _ _ Hxy). destruct Hxy as [_ [_ C]].
    cbn [acar_obs] in C. induction C as [|x0 o0 l l' H0 C IHC]; cbn [map]; constructor; [|assumption].
    unfold ob_touch_sub. destruct (ob_sub_is s t x0); [|exact H0].
    destruct H0. split; try assumption. reflexivity.
  Qed.

  Lemma sim_del : forall m ob d s t l l',
    Forall2 (sim_sub m ob d) l l' ->
    Forall2 (sim_sub m ob d) (fst (ob_remove1 (ob_sub_is s t) l)) (ac_del s t l') /\
    snd (ob_remove1 (ob_sub_is s t) l) = snd (ob_remove1 (ac_obs_is s t) l').
  Proof.
    intros m ob d s t l l' H. unfold ac_del. apply f2_remove1; [assumption|].
    intros x y Hxy. exact (sim_sub_is s t Hxy).
  Qed.

  Lemma sim_del_in_res : forall s t x y,
    sim_res x y -> sim_res (fst (ob_del_in_res s t x)) (ac_mk_ar (acar_id y) (ac_del s t (acar_obs y))).
  Proof.
    intros s t x y H. rewrite ob_del_in_res_fst. apply sim_res_subs; [assumption|].
    apply sim_del. apply H.
  Qed.

  Lemma sim_replace_key : forall m ob d s key l l',
    Forall2 (sim_sub m ob d) l l' ->
    Forall2 (sim_sub m ob d) (ob_replace_key s key l) (ac_replace_key s key l').
  Proof.
    intros m ob d s key l l' H. unfold ob_replace_key, ac_replace_key.
    pose proof (f2_find _ (ob_sub_keyis s key) (ac_obs_keyis s key) _ _ H
                  (fun x y Hxy => sim_sub_keyis s key Hxy)) as F.
    destruct (ob_find (ob_sub_keyis s key) l) as [old|], (ob_find (ac_obs_keyis s key) l') as [old'|];
      try contradiction; [|assumption].
    rewrite (ss_tok F). apply sim_del. assumption.
  Qed.

  Lemma sim_refresh : forall m ob d s t l l',
    0 <= ob < ob_M -> Forall2 (sim_sub m ob d) l l' ->
    Forall2 (sim_sub m ob d) l (map (ac_refresh s t ob) l').
  Proof.
    intros m ob d s t l l' Hr H. induction H as [|x o l l' Hxo H IH]; cbn [map]; constructor;
      [|assumption].
    unfold ac_refresh. destruct (ac_obs_is s t o); [|assumption].
    destruct Hxo. split; cbn; try assumption; try discriminate.
    rewrite Z.add_0_r. apply Z.mod_small. assumption.
  Qed.

  Lemma sim_register : forall st a r s t o st' outs,
    sim st a -> ob_register st r s t o = (st', outs) ->
    exists a', ac_register a r s t o outs = AcOk a' /\ sim_data st' a'.
  Proof.
    intros st a r s t o st' outs [Hok [HR [Hfl Hnk]]] H. unfold ob_register in H. unfold ac_register.
    pose proof (sim_get r _ _ HR) as Sres.
    destruct (ob_get_res r (obst_res st)) as [res|] eqn:G1, (ac_get r (acas_res a)) as [ares|] eqn:G2;
      try contradiction.
    2:{ inversion H; subst. exists a. split; [reflexivity | split; auto]. }
    assert (Hrange : 0 <= obrs_obs res < ob_M).
    { destruct Hok as [_ [B _]]. rewrite Forall_forall in B. apply (B res), (ob_get_res_in _ _ _ G1). }
    (* what both sides make of the subscriber list *)
    assert (Hupd : forall l g,
              Forall2 (sim_sub (obrs_mode res) (obrs_obs res) (obrs_dirty res)) l (g (acar_obs ares)) ->
              Forall2 sim_res (ob_touch s t (ob_upd_res r (fun x => ob_set_subs x l) (obst_res st)))
                      (ac_upd r g (acas_res a))).
    { intros l g Hl. apply sim_touch, (sim_upd_found _ _ _ _ _ _ _ HR G1 G2), sim_res_subs; assumption. }
    pose proof Sres as [_ [_ Ssubs]].
    pose proof (f2_find _ (ob_sub_is s t) (ac_obs_is s t) _ _ Ssubs (fun x y Hxy => sim_sub_is s t Hxy)) as F.
    rewrite ob_add_observer_eq in H.
    destruct (ob_find (ob_sub_is s t) (obrs_subs res)) as [e|],
             (ob_find (ac_obs_is s t) (acar_obs ares)) as [e'|]; try contradiction.
    - (* the token is known: the entry stays *)
      cbv beta iota zeta in H. destruct (obrs_err res); inversion H; subst st' outs;
        rewrite !Z.eqb_refl, ob_bytes_eqb_refl; cbn [andb].
      + eexists. split; [reflexivity|]. split; [|auto]. cbn [obst_res acas_res ac_set_res].
        apply sim_upd; [|intros x y _ _ Hxy; apply sim_del_in_res; assumption].
        rewrite <- (ac_upd_id r (acas_res a)). apply Hupd. exact Ssubs.
      + rewrite (ss_val F), Z.eqb_refl. eexists. split; [reflexivity|]. split; [|auto].
        apply Hupd. apply sim_refresh; assumption.
    - (* a new token: an entry with the same cache key is replaced *)
      set (key := ob_key o) in *.
      assert (S1 : Forall2 sim_res
                     (ob_touch s t
                        (ob_upd_res r (fun x => ob_set_subs x (ob_mk_sub s t key 0 0 false (-1)
                                                                :: ob_replace_key s key (obrs_subs res)))
                                    (obst_res st)))
                     (ac_upd r (fun l => ac_mk_ao s t key (obrs_obs res) 0 true 0 (-1) (acas_nk a)
                                           :: ac_replace_key s key l) (acas_res a))).
      { apply Hupd. constructor; [|apply sim_replace_key; exact Ssubs].
        split; cbn; try reflexivity; try discriminate.
        rewrite Z.add_0_r. apply Z.mod_small. assumption. }
      cbv beta iota zeta in H. destruct (obrs_err res); inversion H; subst st' outs;
        rewrite !Z.eqb_refl, ob_bytes_eqb_refl; cbn [andb].
      + eexists. split; [reflexivity|]. split; [|auto]. cbn [obst_res acas_res ac_set_res].
        (* the acceptor never enters the observer; the model enters it and deletes it again *)
        replace (ac_upd r (ac_replace_key s key) (acas_res a))
          with (ac_upd r (ac_del s t)
                  (ac_upd r (fun l => ac_mk_ao s t key (obrs_obs res) 0 true 0 (-1) (acas_nk a)
                                      :: ac_replace_key s key l) (acas_res a))).
        * apply sim_upd; [exact S1 | intros x y _ _ Hxy; apply sim_del_in_res; assumption].
        * rewrite ac_upd_upd. unfold ac_del, ac_obs_is. cbn [ob_remove1 acao_s acao_t].
          rewrite Z.eqb_refl, ob_bytes_eqb_refl. reflexivity.
      + assert ((0 <=? obrs_obs res) && (obrs_obs res <? ob_M) = true) as -> by lia.
        eexists. split; [reflexivity|]. split; [exact S1 | auto].
  Qed.

  Lemma sim_cancel : forall st a r s t o,
    sim st a ->
    sim_data (ob_cancel st r s t o) (ac_set_res a (ac_upd r (ac_cancel_obs s t o) (acas_res a))).
  Proof.
    intros st a r s t o [Hok [HR [Hfl Hnk]]]. unfold ob_cancel.
    pose proof (sim_get r _ _ HR) as Sres.
    destruct (ob_get_res r (obst_res st)) as [res|] eqn:G1, (ac_get r (acas_res a)) as [ares|] eqn:G2;
      try contradiction.
    2:{ rewrite (ac_get_none_upd _ _ _ G2). split; auto. }
    pose proof (ob_cancel_subs_eq s t o (obrs_subs res)) as E.
    destruct (ob_cancel_subs s t o (obrs_subs res)) as [l b]. cbn [fst] in E. subst l.
    split; [|auto]. apply (sim_upd_found _ _ _ _ _ _ _ HR G1 G2). apply sim_res_subs; [assumption|].
    destruct Sres as [_ [_ Ssubs]]. unfold ac_cancel_obs.
    pose proof (f2_find _ (ob_sub_is s t) (ac_obs_is s t) _ _ Ssubs (fun x y Hxy => sim_sub_is s t Hxy)) as F.
    destruct (ob_find (ob_sub_is s t) (obrs_subs res)), (ob_find (ac_obs_is s t) (acar_obs ares));
      try contradiction; [apply sim_del | apply sim_replace_key]; assumption.
  Qed.

  Lemma sim_change : forall st a r,
    sim st a ->
    Forall2 sim_res (obst_res (ob_change st r)) (ac_upd r (map ac_bump) (acas_res a)).
  Proof.
    intros st a r [Hok [HR _]]. apply sim_upd; [assumption|]. intros x y _ _ [A [B C]].
    unfold ob_change_res. destruct (obrs_subs x) eqn:Es.
    - inversion C. split; [exact A | split; [exact B|]]. rewrite Es. constructor.
    - rewrite <- Es in *. split; [exact A | split; [exact B|]].
      cbn [obrs_subs obrs_mode obrs_obs obrs_dirty acar_obs].
      clear Es. revert C. generalize (obrs_subs x), (acar_obs y). intros l1 l2 C.
      induction C as [|x1 o1 l1 l2 H1 _ IH]; cbn [map]; constructor; [|exact IH].
      destruct H1. split; cbn; auto; try lia.
      rewrite <- ss_val0. unfold ob_M. rewrite Z.add_assoc, Z.add_mod_idemp_l by lia. reflexivity.
  Qed.

  Lemma sim_del_all : forall s t rs ars,
    Forall2 sim_res rs ars ->
    Forall2 sim_res (fst (ob_del_all_res s t rs)) (ac_del_everywhere s t ars).
  Proof.
    intros s t rs ars H. rewrite ob_del_all_res_fst. apply (f2_map _ _ _ _ _ _ H).
    intros x y Hxy. apply sim_del_in_res. assumption.
  Qed.

  (* the model counts the resources that lose an observer, the acceptor asks whether there is one *)
  Lemma sim_del_all_has : forall s t rs ars,
    Forall2 sim_res rs ars ->
    (0 <? snd (ob_del_all_res s t rs)) = ac_has s t ars /\ 0 <= snd (ob_del_all_res s t rs).
  Proof.
    intros s t rs ars H. unfold ac_has.
    induction H as [|x y rs ars Hxy H IH]; cbn [ob_del_all_res existsb];
      [cbn [snd]; split; [reflexivity | lia]|].
    destruct (sim_del _ _ _ s t _ _ (proj2 (proj2 Hxy))) as [_ Db].
    rewrite (ob_remove1_flag (ac_obs_is s t)) in Db. unfold ob_del_in_res.
    destruct (ob_remove1 (ob_sub_is s t) (obrs_subs x)) as [l b]. cbn [snd] in Db. subst b.
    destruct (ob_del_all_res s t rs) as [tl' n]. cbn [snd] in *.
    destruct (ob_find (ac_obs_is s t) (acar_obs y)); cbn [orb]; [|exact IH].
    split; [apply Z.ltb_lt|]; lia.
  Qed.

  Lemma sim_rst_by_last : forall s k rs ars,
    Forall2 sim_res rs ars ->
    Forall2 sim_res (fst (ob_rst_by_last s k rs)) (ac_rst_by_last s k ars).
  Proof.
    intros s k rs ars H. induction H as [|x y rs ars Hxy H IH]; cbn [ob_rst_by_last ac_rst_by_last];
      [constructor|].
    pose proof (f2_find _ (fun x => (obsb_last x =? k) && (obsb_sess x =? s))
                  (fun o => (acao_lastk o =? k) && (acao_s o =? s)) _ _ (proj2 (proj2 Hxy))) as F.
    match type of F with ?P -> _ => assert (Hag : P) end.
    { intros x0 o0 H0. rewrite (ss_sess H0), (ss_last H0). reflexivity. }
    specialize (F Hag).
    destruct (ob_find (fun x0 => (obsb_last x0 =? k) && (obsb_sess x0 =? s)) (obrs_subs x)) as [x0|],
             (ob_find (fun o => (acao_lastk o =? k) && (acao_s o =? s)) (acar_obs y)) as [o0|];
      try contradiction.
    - cbn [fst]. constructor; [|assumption]. rewrite (ss_tok F). apply sim_del_in_res. assumption.
    - destruct (ob_rst_by_last s k rs) as [tl' b]. constructor; assumption.
  Qed.

  (* every subscription in the relation has fail_cnt = 0 and COAP_OBS_MAX_FAIL <= 1: the first
     give-up removes the observer *)
  Lemma ob_failed_subs_remove1 : forall s t l,
    (forall x, In x l -> obsb_fail x = 0) ->
    ob_failed_subs p s t l = ob_remove1 (ob_sub_is s t) l.
  Proof.
    intros s t. induction l as [|x tl IH]; intro H; cbn [ob_failed_subs ob_remove1]; [reflexivity|].
    destruct (ob_sub_is s t x).
    - rewrite (H x (or_introl eq_refl)).
      assert (obpr_max_fail p <=? 0 + 1 = true) as -> by (apply Z.leb_le; lia). reflexivity.
    - rewrite IH; [reflexivity|]. intros z Hz. apply H. right. assumption.
  Qed.

  Lemma ob_failed_all_del : forall s t rs ars,
    Forall2 sim_res rs ars -> ob_failed_all p s t rs = ob_del_all_res s t rs.
  Proof.
    intros s t rs ars H. induction H as [|x y rs ars Hxy H IH]; cbn [ob_failed_all ob_del_all_res];
      [reflexivity|].
    rewrite IH. unfold ob_del_in_res. rewrite ob_failed_subs_remove1;
      [destruct (ob_remove1 (ob_sub_is s t) (obrs_subs x)); reflexivity|].
    intros z Hz. destruct (f2_in_left _ _ _ z (proj2 (proj2 Hxy)) Hz) as [o [_ Ho]]. exact (ss_fail Ho).
  Qed.

  Lemma sim_lost : forall s rs ars,
    Forall2 sim_res rs ars ->
    Forall2 sim_res (map (ob_lost_res s) rs)
      (map (fun r => ac_mk_ar (acar_id r) (filter (fun o => negb (acao_s o =? s)) (acar_obs r))) ars).
  Proof.
    intros s rs ars H. apply (f2_map _ _ _ _ _ _ H). intros x y Hxy. unfold ob_lost_res.
    apply sim_res_subs; [assumption|]. apply f2_filter; [apply Hxy|].
    intros x0 o0 H0. rewrite (ss_sess H0). reflexivity.
  Qed.

  Lemma sim_gone_ok : forall res ca obs subs rf,
    (forall x, In x subs -> exists o, In o obs /\ ac_obs_is (obsb_sess x) (obsb_tok x) o = true) ->
    ac_gone_ok (obrs_id res) obs (fst (ob_gone_subs p res ca subs rf)) = true.
  Proof.
    intros res ca obs. induction subs as [|x tl IH]; intros rf H; cbn [ob_gone_subs]; [reflexivity|].
    specialize (IH (ob_ref_add rf (obsb_sess x) (-1)) (fun z Hz => H z (or_intror Hz))).
    destruct (ob_gone_subs p res ca tl (ob_ref_add rf (obsb_sess x) (-1))) as [outs rf'].
    cbn [fst] in *. destruct (ob_blocked p (obrs_mode res) ca x || ob_in_transfer ca (obsb_sess x));
      cbn [fst]; [assumption|].
    cbn [ac_gone_ok]. rewrite Z.eqb_refl, IH. cbn [andb].
    destruct (H x (or_introl eq_refl)) as [o [Ho Hm]].
    destruct (ob_find (ac_obs_is (obsb_sess x) (obsb_tok x)) obs) eqn:F; [reflexivity|].
    rewrite (ob_find_none _ _ F o Ho) in Hm. discriminate.
  Qed.

  (* the acceptor's walk over the outputs, as the state of the model's loop determines it *)
  Definition sim_walk (rs : list ac_res) (sent : list ac_sent) (l : ob_loop) : ac_walk :=
    ac_mk_aw rs (oblp_fl l) (oblp_nk l) sent (oblp_ca l).

  (* what the acceptor does with the next message, for the observer o of resource r that is the
     first entry (the only one, below) for its session and token *)
  Lemma ac_out_step_err : forall RA RB r pre o post sent l x con,
    (forall z, In z RA -> acar_id z <> r) ->
    (forall o', In o' pre -> ac_obs_is (obsb_sess x) (obsb_tok x) o' = false) ->
    ac_obs_is (obsb_sess x) (obsb_tok x) o = true ->
    ac_out_step c (sim_walk (RA ++ ac_mk_ar r (pre ++ o :: post) :: RB) sent l)
                (ObErr (oblp_nk l) r (obsb_sess x) (obsb_tok x) con) =
    inl (sim_walk (RA ++ ac_mk_ar r (pre ++ post) :: RB)
                  (ac_mk_sn (oblp_nk l) r (obsb_sess x) (obsb_tok x) :: sent)
                  (ob_lp_release (ob_lp_sent l x con false) (obsb_sess x))).
  Proof.
    intros RA RB r pre o post sent l x con HRA Hpre Ho. cbn [ac_out_step sim_walk acaw_nk acaw_res].
    rewrite Z.eqb_refl, ac_get_at; [|reflexivity | exact HRA]. cbn [negb acar_obs].
    rewrite (ob_find_at _ _ _ _ Hpre Ho), ac_upd_at; [|reflexivity | exact HRA].
    unfold ac_del. cbn [acar_id acar_obs].
    rewrite (ob_remove1_at _ _ _ _ Hpre Ho). reflexivity.
  Qed.

  Lemma ac_out_step_notify : forall RA RB r pre o post sent l x (con : bool) v,
    (forall z, In z RA -> acar_id z <> r) ->
    (forall o', In o' (pre ++ post) -> ac_obs_is (obsb_sess x) (obsb_tok x) o' = false) ->
    ac_obs_is (obsb_sess x) (obsb_tok x) o = true ->
    v = (acao_val o + acao_chg o) mod ob_M ->
    (1 <=? acao_chg o) || acao_weak o = true ->
    negb (ac_mode c r =? 2) && (accf_max_non c <? (if con then 0 else acao_run o + 1)) = false ->
    ac_out_step c (sim_walk (RA ++ ac_mk_ar r (pre ++ o :: post) :: RB) sent l)
                (ObNotify (oblp_nk l) r (obsb_sess x) (obsb_tok x) v con) =
    inl (sim_walk (RA ++ ac_mk_ar r (pre ++ ac_mk_ao (acao_s o) (acao_t o) (acao_key o) v 0 false
                                               (if con then 0 else acao_run o + 1) (oblp_nk l) (acao_since o)
                                          :: post) :: RB)
                  (ac_mk_sn (oblp_nk l) r (obsb_sess x) (obsb_tok x) :: sent)
                  (ob_lp_sent l x con true)).
  Proof.
    intros RA RB r pre o post sent l x con v HRA Hothers Ho Hv Hnew Hrun.
    assert (Hpre : forall o', In o' pre -> ac_obs_is (obsb_sess x) (obsb_tok x) o' = false).
    { intros o' Ho'. apply Hothers, in_app_iff. left. assumption. }
    cbn [ac_out_step sim_walk acaw_nk acaw_res].
    rewrite Z.eqb_refl, ac_get_at; [|reflexivity | exact HRA]. cbn [negb acar_obs].
    rewrite (ob_find_at _ _ _ _ Hpre Ho), <- Hv, Z.eqb_refl, Hnew, Hrun. cbn [negb].
    rewrite ac_upd_at; [|reflexivity | exact HRA]. cbn [acar_id acar_obs]. unfold ac_notified.
    rewrite (ob_map_at (ac_obs_is (obsb_sess x) (obsb_tok x))
               (fun y => ac_mk_ao (acao_s y) (acao_t y) (acao_key y) v 0 false
                                  (if con then 0 else acao_run o + 1) (oblp_nk l) (acao_since y))
               _ _ _ Hothers Ho).
    reflexivity.
  Qed.

  (* one subscriber of the notify loop: the acceptor takes the message, the entry is again
     related (the resource's flag now counts as cleared) and settled *)
  Lemma sim_notify_one : forall r x o l RA RB pre post sent xs pd l1 o1,
    ob_notify_one p r x l = (xs, pd, l1, o1) ->
    obrs_mode r = ac_mode c (obrs_id r) -> 0 <= obrs_obs r < ob_M ->
    sim_sub (obrs_mode r) (obrs_obs r) (obrs_dirty r) x o ->
    (forall z, In z RA -> acar_id z <> obrs_id r) ->
    (forall o', In o' (pre ++ post) -> ac_obs_is (obsb_sess x) (obsb_tok x) o' = false) ->
    exists os sent',
      ac_outs c (sim_walk (RA ++ ac_mk_ar (obrs_id r) (pre ++ o :: post) :: RB) sent l) o1 =
      inl (sim_walk (RA ++ ac_mk_ar (obrs_id r) (pre ++ os ++ post) :: RB) sent' l1) /\
      Forall2 (sim_sub (obrs_mode r) (obrs_obs r) false) xs os /\
      Forall (fun o' => ac_settled c (oblp_ca l1) o' = true) os /\
      Forall (fun o' => acao_s o' = acao_s o /\ acao_t o' = acao_t o) os.
  Proof.
    intros r x o l RA RB pre post sent xs pd l1 o1 H Hmode Hrange Hxo HRA Hothers.
    pose proof (sim_sub_self Hxo) as Ho. unfold ob_notify_one in H.
    destruct (negb (obrs_dirty r) && negb (obsb_dirty x)) eqn:C1.
    { (* nothing new for this observer *)
      injection H as <- <- <- <-. apply andb_true_iff in C1. destruct C1 as [C1a C1b].
      apply negb_true_iff in C1a, C1b. rewrite C1a in Hxo.
      exists [o], sent. split; [reflexivity|]. split; [constructor; [exact Hxo | constructor]|].
      split; constructor; auto. unfold ac_settled. rewrite (sim_sub_clean Hxo C1b). reflexivity. }
    assert (Hd : obrs_dirty r = true \/ obsb_dirty x = true).
    { apply andb_false_iff in C1. destruct C1 as [C1|C1]; apply negb_false_iff in C1; auto. }
    destruct (ob_blocked p (obrs_mode r) (oblp_ca l) x || ob_in_transfer (oblp_ca l) (obsb_sess x)) eqn:C2.
    { (* held back by NSTART or by an unfinished large transmission: stays flagged *)
      injection H as <- <- <- <-. exists [o], sent. split; [reflexivity|].
      split; [constructor; [|constructor]|split; constructor; auto].
      - destruct Hxo. split; cbn; auto.
      - unfold ac_settled, ob_in_transfer, ob_blocked in *. rewrite Hns, <- (ss_sess Hxo).
        cbn [ob_lp_pend oblp_ca]. clear - C2. lia. }
    (* a message goes out *)
    destruct (obrs_err r).
    { injection H as <- <- <- <-.
      exists [], (ac_mk_sn (oblp_nk l) (obrs_id r) (obsb_sess x) (obsb_tok x) :: sent).
      cbn [ac_outs app]. rewrite ac_out_step_err; [|exact HRA | | exact Ho].
      - split; [reflexivity|]. split; [constructor|]. split; constructor.
      - intros o' Ho'. apply Hothers, in_app_iff. left. assumption. }
    injection H as <- <- <- <-. set (con := ob_is_con p (obrs_mode r) x).
    eexists [_], _. cbn [ac_outs app]. rewrite ac_out_step_notify; try assumption.
    - split; [reflexivity|]. split; [constructor; [|constructor]|split; constructor; cbn; auto].
      destruct Hxo. split; cbn; try assumption; try discriminate; try reflexivity.
      + intro M2. subst con. unfold ob_is_con.
        assert (obrs_mode r =? 2 = false) as -> by (apply Z.eqb_neq; assumption).
        rewrite orb_false_r. cbn [orb].
        destruct (negb (negb (obrs_mode r =? 1) && (obsb_non x <? obpr_max_non p))); [reflexivity|].
        rewrite (ss_run0 M2). reflexivity.
      + rewrite Z.add_0_r. apply Z.mod_small. assumption.
      + intros _ [E|E]; discriminate E.
    - symmetry. exact (ss_val Hxo).
    - destruct (acao_weak o) eqn:W; [apply orb_true_r|]. rewrite orb_false_r. apply Z.leb_le.
      exact (ss_due Hxo W Hd).
    - (* the NON budget: the model switches to CON when it is used up *)
      rewrite <- Hmode, Hmn. subst con. unfold ob_is_con.
      destruct (obrs_mode r =? 2) eqn:M2; [reflexivity|]. apply Z.eqb_neq in M2.
      rewrite <- (ss_run Hxo M2). clear - Hmn0.
      destruct (obrs_mode r =? 1); cbn [negb andb orb]; [lia|].
      destruct (obsb_non x <? obpr_max_non p) eqn:Lt; cbn [negb]; lia.
  Qed.

  Lemma sim_notify_subs : forall (r : ob_res) RA RB subs pre obs l sent subs' pd l' outs,
    ob_notify_subs p r subs l = (subs', pd, l', outs) ->
    obrs_mode r = ac_mode c (obrs_id r) -> 0 <= obrs_obs r < ob_M ->
    Forall2 (sim_sub (obrs_mode r) (obrs_obs r) (obrs_dirty r)) subs obs ->
    NoDup (map ob_kt subs) ->
    (forall o, In o pre -> forall x, In x subs -> ac_obs_is (obsb_sess x) (obsb_tok x) o = false) ->
    (forall z, In z RA -> acar_id z <> obrs_id r) ->
    exists obs' sent',
      ac_outs c (sim_walk (RA ++ ac_mk_ar (obrs_id r) (pre ++ obs) :: RB) sent l) outs =
      inl (sim_walk (RA ++ ac_mk_ar (obrs_id r) (pre ++ obs') :: RB) sent' l') /\
      Forall2 (sim_sub (obrs_mode r) (obrs_obs r) false) subs' obs' /\
      Forall (fun o => ac_settled c (oblp_ca l') o = true) obs'.
  Proof.
    intros r RA RB. induction subs as [|x tl IH];
      intros pre obs l sent subs' pd l' outs H Hmode Hrange HF Hnd Hpre HRA.
    { injection H as <- <- <- <-. inversion HF; subst. exists [], sent. repeat split; constructor. }
    inversion HF as [|x0 o tl0 otl Hxo HFtl]; subst x0 tl0 obs.
    inversion Hnd as [|? ? Hnotin Hnd']; subst.
    rewrite ob_notify_subs_cons in H.
    destruct (ob_notify_one p r x l) as [[[xs pd1] l1] o1] eqn:E1.
    destruct (ob_notify_subs p r tl l1) as [[[tl' pd2] l2] o2] eqn:E2. injection H as <- <- <- <-.
    (* no entry behind x's is for the session and token of x, and none of the others' is x's *)
    assert (Hx : forall x', In x' tl -> ob_sub_is (obsb_sess x') (obsb_tok x') x = false).
    { intros x' Hx'. destruct (ob_sub_is (obsb_sess x') (obsb_tok x') x) eqn:E; [|reflexivity].
      apply ob_sub_is_kt in E. exfalso. apply Hnotin. rewrite E. apply (in_map ob_kt), Hx'. }
    destruct (sim_notify_one r x o l RA RB pre otl sent xs pd1 l1 o1 E1 Hmode Hrange Hxo HRA)
      as [os [sent1 [K1 [K2 [K3 K4]]]]].
    { intros o' Ho'. apply in_app_iff in Ho'.
      destruct Ho' as [Ho'|Ho']; [apply Hpre; [assumption | left; reflexivity]|].
      destruct (f2_in_right _ _ _ o' HFtl Ho') as [x' [Hx' Hxo']].
      destruct (ac_obs_is (obsb_sess x) (obsb_tok x) o') eqn:E; [|reflexivity].
      rewrite <- (sim_sub_is _ _ Hxo') in E. apply ob_sub_is_kt in E. exfalso. apply Hnotin.
      rewrite <- (E : ob_kt x' = ob_kt x). apply in_map, Hx'. }
    destruct (IH (pre ++ os) otl l1 sent1 tl' pd2 l2 o2 E2 Hmode Hrange HFtl Hnd')
      as [obs' [sent2 [J1 [J2 J3]]]]; [|exact HRA|].
    { intros o' Ho' x' Hx'. apply in_app_iff in Ho'.
      destruct Ho' as [Ho'|Ho']; [apply Hpre; [assumption | right; assumption]|].
      rewrite Forall_forall in K4. destruct (K4 o' Ho') as [Es Et]. unfold ac_obs_is. rewrite Es, Et.
      fold (ac_obs_is (obsb_sess x') (obsb_tok x') o). rewrite <- (sim_sub_is _ _ Hxo). exact (Hx x' Hx'). }
    rewrite <- !app_assoc in J1. exists (os ++ obs'), sent2. rewrite ac_outs_app, K1.
    split; [exact J1|]. split; [apply Forall2_app; assumption|]. apply Forall_app. split; [|assumption].
    apply (Forall_impl _ (fun o' => ac_settled_mono c _ _ o' (ob_notify_subs_ca _ _ _ _ _ _ _ _ E2)) K3).
  Qed.

  Lemma sim_notify_res : forall r y RA RB l sent r' l' outs,
    ob_notify_res p r l = (r', l', outs) ->
    sim_res r y -> ob_res_ok r -> (forall z, In z RA -> acar_id z <> acar_id y) ->
    exists y' sent',
      ac_outs c (sim_walk (RA ++ y :: RB) sent l) outs = inl (sim_walk (RA ++ y' :: RB) sent' l') /\
      acar_id y' = acar_id y /\ sim_res r' y' /\
      Forall (fun o => ac_settled c (oblp_ca l') o = true) (acar_obs y').
  Proof.
    intros r [yid yobs] RA RB l sent r' l' outs H [Sid [Smode Ssubs]] [U [R D]] HRA.
    unfold ob_notify_res in H. cbn [acar_id acar_obs] in *. subst yid.
    destruct (obrs_dirty r || obrs_pdirty r) eqn:C.
    - destruct (ob_notify_subs p r (obrs_subs r) l) as [[[subs' pd] l0] outs0] eqn:E.
      injection H as <- <- <-.
      destruct (sim_notify_subs r RA RB (obrs_subs r) [] yobs l sent subs' pd l0 outs0 E Smode R Ssubs
                  (proj1 U)) as [obs' [sent' [K1 [K2 K3]]]]; [intros ? [] | exact HRA|].
      exists (ac_mk_ar (obrs_id r) obs'), sent'. repeat split; assumption.
    - injection H as <- <- <-. apply orb_false_iff in C. destruct C as [C1 C2].
      exists (ac_mk_ar (obrs_id r) yobs), sent. split; [reflexivity|]. split; [reflexivity|].
      rewrite C1 in Ssubs. split; [repeat split; assumption|]. apply Forall_forall. intros o Ho.
      (* nothing is flagged: every observer has seen the current value *)
      destruct (f2_in_right _ _ _ o Ssubs Ho) as [x [Hx Hxo]]. unfold ac_settled.
      rewrite (sim_sub_clean Hxo); [reflexivity|]. destruct (obsb_dirty x) eqn:Hd; [|reflexivity].
      rewrite (D x Hx Hd) in C2. discriminate.
  Qed.

  Lemma sim_ids : forall rs ars, Forall2 sim_res rs ars -> map obrs_id rs = map acar_id ars.
  Proof.
    intros rs ars H. induction H as [|x y rs ars [Hid _] H IH]; cbn [map]; [reflexivity|].
    f_equal; assumption.
  Qed.

  Lemma sim_notify_all : forall rs ars RA l sent rs' l' outs,
    ob_notify_all p rs l = (rs', l', outs) ->
    Forall2 sim_res rs ars -> Forall ob_res_ok rs -> NoDup (map acar_id (RA ++ ars)) ->
    exists ars' sent',
      ac_outs c (sim_walk (RA ++ ars) sent l) outs = inl (sim_walk (RA ++ ars') sent' l') /\
      Forall2 sim_res rs' ars' /\
      Forall (fun y => Forall (fun o => ac_settled c (oblp_ca l') o = true) (acar_obs y)) ars'.
  Proof.
    induction rs as [|r tl IH]; intros ars RA l sent rs' l' outs H HF Hok Hnd; cbn [ob_notify_all] in H.
    - injection H as <- <- <-. inversion HF; subst. exists [], sent. repeat split; constructor.
    - destruct (ob_notify_res p r l) as [[r1 l1] o1] eqn:E1.
      destruct (ob_notify_all p tl l1) as [[tl' l2] o2] eqn:E2. injection H as <- <- <-.
      inversion HF as [|r0 y tl0 atl Hry HFtl]; subst r0 tl0 ars. inversion Hok; subst.
      destruct (sim_notify_res r y RA atl l sent r1 l1 o1 E1 Hry) as [y' [sent1 [K1 [K2 [K3 K4]]]]];
        [assumption| |].
      { intros z Hz Heq. rewrite map_app in Hnd. cbn [map] in Hnd. apply NoDup_remove_2 in Hnd.
        apply Hnd, in_app_iff. left. rewrite <- Heq. apply in_map. assumption. }
      destruct (IH atl (RA ++ [y']) l1 sent1 tl' l2 o2 E2 HFtl) as [atl' [sent2 [J1 [J2 J3]]]];
        [assumption| |].
      { rewrite <- app_assoc. cbn [app]. rewrite map_app in *. cbn [map] in *. rewrite K2. assumption. }
      rewrite <- !app_assoc in J1. exists (y' :: atl'), sent2. rewrite ac_outs_app, K1.
      split; [exact J1|]. split; constructor; try assumption.
      apply (Forall_impl _ (fun o => ac_settled_mono c _ _ o (ob_notify_all_ca _ _ _ _ _ _ E2)) K4).
  Qed.

  Lemma sim_iostep : forall st a ca st' outs,
    sim st a -> ob_iostep p st ca = (st', outs) ->
    exists a', ac_iostep c a ca outs = AcOk a' /\ sim_data st' a'.
  Proof.
    intros st a ca st' outs [Hok [HR [Hfl Hnk]]] H. unfold ob_iostep in H. unfold ac_iostep.
    pose proof Hok as [A [B C]].
    assert (Hsettle : forall ars cnt,
              Forall (fun y => Forall (fun o => ac_settled c cnt o = true) (acar_obs y)) ars ->
              ac_all_settled c cnt ars = true).
    { intros ars cnt Hs. apply forallb_forall. intros y Hy. apply forallb_forall.
      rewrite Forall_forall in Hs. apply Forall_forall, Hs, Hy. }
    destruct (obst_pending st) eqn:P.
    - destruct (ob_notify_all p (obst_res st) (ob_mk_lp ca false (obst_nk st) (obst_fl st) (obst_ref st)))
        as [[rs l] outs0] eqn:E. injection H as <- <-.
      destruct (sim_notify_all _ _ [] _ (acas_sent a) _ _ _ E HR B) as [ars' [sent' [K1 [K2 K3]]]].
      { cbn [app]. rewrite <- (sim_ids _ _ HR). assumption. }
      unfold sim_walk in K1. cbn [app oblp_fl oblp_nk oblp_ca] in K1. rewrite <- Hfl, <- Hnk, K1.
      cbn [acaw_res acaw_cnt]. rewrite (Hsettle _ _ K3).
      eexists. split; [reflexivity|]. split; [exact K2 | auto].
    - injection H as <- <-. cbn [ac_outs acaw_res acaw_cnt]. rewrite Hsettle.
      + eexists. split; [reflexivity | split; auto].
      + (* nothing is pending: no resource and no subscription is flagged *)
        apply Forall_forall. intros y Hy. apply Forall_forall. intros o Ho.
        destruct (f2_in_right _ _ _ y HR Hy) as [r [Hr [_ [_ Cs]]]].
        destruct (f2_in_right _ _ _ o Cs Ho) as [x [Hx Hxo]].
        rewrite Forall_forall in B. destruct (B r Hr) as [_ [_ D]].
        destruct (obrs_dirty r) eqn:Hdr; [discriminate (C r Hr (or_introl Hdr))|].
        unfold ac_settled. rewrite (sim_sub_clean Hxo); [reflexivity|].
        destruct (obsb_dirty x) eqn:Hd; [|reflexivity]. discriminate (C r Hr (or_intror (D x Hx Hd))).
  Qed.

  Lemma sim_step_data : forall st a op st' outs,
    sim st a -> ob_step p st op = (st', outs) ->
    exists a', ac_step c a (op, outs) = AcOk a' /\ sim_data st' a'.
  Proof.
    intros st a op st' outs S H. pose proof S as [Hok [HR [Hfl Hnk]]].
    destruct op; cbn [ob_step] in H; cbn [ac_step];
      try (injection H as <- <-; eexists; split; [reflexivity|]).
    - eapply sim_register; eassumption.
    - apply sim_cancel. assumption.
    - split; [apply sim_change; assumption | auto].
    - eapply sim_iostep; eassumption.
    - unfold ob_ack. rewrite <- Hfl.
      destruct (ob_fl_find s k (obst_fl st)) as [f|] eqn:Ff; (split; [|cbn; auto]).
      + destruct (obfl_ok f); [apply sim_touch|]; assumption.
      + assumption.
      + rewrite (ob_fl_remove_none _ _ _ Ff). auto.
    - unfold ac_rst, ob_rst. rewrite Hlen, <- Hfl. destruct (ob_fl_find s k (obst_fl st)) as [f|].
      + pose proof (sim_del_all s (obfl_tok f) _ _ HR) as D1.
        destruct (ob_del_all_res s (obfl_tok f) (obst_res st)) as [rs n]. split; [exact D1 | cbn; auto].
      + pose proof (sim_rst_by_last s k _ _ HR) as D1.
        destruct (ob_rst_by_last s k (obst_res st)) as [rs b]. split; [exact D1 | cbn; auto].
    - unfold ac_confailed, ob_confailed. rewrite <- Hfl.
      destruct (ob_fl_find s k (obst_fl st)) as [f|]; [|split; auto].
      rewrite (ob_failed_all_del s (obfl_tok f) _ _ HR).
      pose proof (sim_del_all s (obfl_tok f) _ _ HR) as D1.
      destruct (sim_del_all_has s (obfl_tok f) _ _ HR) as [D2 _].
      destruct (ob_del_all_res s (obfl_tok f) (obst_res st)) as [rs n]. cbn [snd] in D2. rewrite D2.
      split; [exact D1 | cbn; auto].
    - split; [|cbn; auto]. apply sim_upd_left; [assumption|]. intros x y Hxy. exact Hxy.
    - split; [apply sim_lost; assumption | cbn; rewrite Hfl; auto].
    - unfold ob_delete_resource in H. unfold ac_delete.
      pose proof (sim_get r _ _ HR) as Sres.
      destruct (ob_get_res r (obst_res st)) as [res|] eqn:G1, (ac_get r (acas_res a)) as [ares|] eqn:G2;
        try contradiction.
      2:{ injection H as <- <-. exists a. split; [reflexivity | split; auto]. }
      destruct Sres as [Sid [Smode Ssubs]]. destruct (ob_get_res_in _ _ _ G1) as [_ Ix].
      assert (GO : ac_gone_ok r (acar_obs ares)
                     (fst (ob_gone_subs p res ca (obrs_subs res) (obst_ref st))) = true).
      { rewrite <- Ix. apply sim_gone_ok. intros x Hx.
        destruct (f2_in_left _ _ _ x Ssubs Hx) as [o [Ho Hxo]].
        exists o. split; [exact Ho | exact (sim_sub_self Hxo)]. }
      destruct (ob_gone_subs p res ca (obrs_subs res) (obst_ref st)) as [gouts rf]. cbn [fst] in GO.
      injection H as <- <-. rewrite GO. eexists. split; [reflexivity|]. split; [|cbn; auto].
      apply Forall2_app; [apply sim_drop; assumption|]. constructor; [|constructor].
      split; [reflexivity | split; [|constructor]]. cbn. rewrite Smode, Ix. reflexivity.
  Qed.

  Lemma sim_step : forall st a op st' outs,
    sim st a -> ob_step p st op = (st', outs) ->
    exists a', ac_step c a (op, outs) = AcOk a' /\ sim st' a'.
  Proof.
    intros st a op st' outs S H. destruct (sim_step_data st a op st' outs S H) as [a' [E1 E2]].
    exists a'. split; [exact E1 | split; [|exact E2]].
    pose proof (ob_step_ok p st op (proj1 S)) as K. rewrite H in K. exact K.
  Qed.

  Lemma sim_run : forall ops st a i,
    sim st a -> exists a', ac_run c a i (snd (ob_run p st ops)) = inl a'.
  Proof.
    induction ops as [|op tl IH]; intros st a i S; cbn [ob_run].
    - exists a. reflexivity.
    - destruct (ob_step p st op) as [st1 outs] eqn:E.
      destruct (sim_step st a op st1 outs S E) as [a1 [E1 S1]].
      specialize (IH st1 a1 (i + 1) S1). destruct (ob_run p st1 tl) as [st2 tr]. cbn [snd] in *.
      cbn [ac_run]. rewrite E1. exact IH.
  Qed.

End Sim.

Lemma sim_init_res : forall c0 modes id0,
  (forall y, In y (ob_init_res id0 modes) -> obrs_mode y = ac_mode c0 (obrs_id y)) ->
  Forall2 (sim_res c0) (ob_init_res id0 modes) (ac_init_res id0 (map fst modes)).
Proof.
  intros c0. induction modes as [|[m v] tl IH]; intros id0 H; cbn [ob_init_res ac_init_res map];
    constructor.
  - unfold sim_res. cbn. split; [reflexivity|]. split; [|constructor].
    apply (H (ob_mk_res id0 m false (v mod 16777216) false false [])). left. reflexivity.
  - apply IH. intros y Hy. apply H. right. assumption.
Qed.

Lemma ac_mode_init : forall modes id0 y,
  In y (ob_init_res id0 modes) -> obrs_mode y = ac_mode_from id0 (map fst modes) (obrs_id y).
Proof.
  induction modes as [|[m v] tl IH]; intros id0 y H; cbn [ob_init_res map ac_mode_from] in *;
    [destruct H|].
  destruct H as [<-|H].
  - cbn. rewrite Z.eqb_refl. reflexivity.
  - pose proof (ob_init_res_ids _ _ _ H) as Hge.
    assert (id0 =? obrs_id y = false) as -> by (apply Z.eqb_neq; lia). apply IH. assumption.
Qed.

(* C11, the for-all part: whatever the clients, the application, the network and the NSTART
   accounting do (any op sequence, any con_active values, any initial Observe counters, any
   NSTART and any COAP_OBS_MAX_NON >= 0), the history the model produces is accepted *)
Theorem ob_model_accepted : forall p modes ops,
  0 <= obpr_max_non p -> obpr_max_fail p <= 1 ->
  ac_accepts (ac_mk_cf (map fst modes) (obpr_nstart p) (obpr_max_non p) false)
             (snd (ob_run p (ob_init modes) ops)) = true.
Proof.
  intros p modes ops H1 H2. unfold ac_accepts.
  set (c0 := ac_mk_cf (map fst modes) (obpr_nstart p) (obpr_max_non p) false).
  assert (S : sim c0 (ob_init modes) (ac_init c0)).
  { split; [apply ob_init_ok|]. split; [|split; reflexivity].
    apply sim_init_res. intros y Hy. apply ac_mode_init. assumption. }
  destruct (sim_run p c0 eq_refl eq_refl H1 H2 eq_refl ops _ _ 0 S) as [a' E].
  rewrite E. reflexivity.
Qed.
