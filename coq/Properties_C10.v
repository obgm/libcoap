(* C10 - Server answers each request datagram once, with the protocol-prescribed code.

   Model: Server/Dispatch.v  - [dp_serve cfg h mc req]: coap_dispatch()/handle_request()/
            no_response()/coap_new_error_response() transcribed in the code's order of checks
            (UDP server session, block_mode 0, no OSCORE context, no notifications: an Observe
            registration is modelled only as far as it changes the response);
          Server/DispatchSpec.v - [dp_allowed cfg h mc req out]: the relation of the property
            statement, independent of the order of checks: each rule is a predicate
            ([sp_applies]), any applicable error may be answered, a rejected NON may be reset or
            ignored, the handler runs iff nothing blocks the request ([sp_blocked]);
          Server/NoResponse.v - the suppression table of no_response() and its declarative form.
   [out] is the list of events: EvH i (request handler invoked with request i) and EvTx m
   (datagram m emitted), in order.  cfg: resource table, unknown/proxy resources, registered
   options, mcast_per_resource, tokens with a pending separate response; h: what the handlers
   set; mc: multicast destination.
   Each statement is followed by its derivation, a few lines, from the lemmas of
   Server/NoResponseProofs.v, DispatchLemmas.v, DispatchProofs.v and DispatchProps.v. *)
From LibcoapV Require Import Base.Tactics Base.Bytes Wire.Pdu Server.NoResponse
  Server.NoResponseProofs Server.Dispatch Server.DispatchSpec Server.DispatchLemmas
  Server.DispatchProofs Server.DispatchProps Wire.PduProofs Wire.ParseSound.
Local Open Scope Z_scope.

(* the code's function is within the relation, for every datagram the parser accepts,
   every configuration, handler behaviour and destination *)
Theorem C10_serve_allowed : forall cfg h mc bs req,
  wfb bs -> parse UDP bs = Some req -> dp_in_scope cfg h req ->
  dp_allowed cfg h mc req (dp_serve cfg h mc req).
Proof.
  intros cfg h mc bs req Hb Hp Hs.
  destruct (parse_sound_udp bs req Hb Hp) as [Hwf _].
  apply serve_allowed; [|apply (wf_type _ Hwf)|exact Hs].
  unfold dp_req_wf. destruct (wf_opts _ Hwf) as [Ho _].
  eapply Forall_impl; [|exact Ho]. intros o [H _]. lia.
Qed.
Print Assumptions C10_serve_allowed.

Theorem C10_serve_allowed_msg : forall cfg h mc req,
  dp_req_wf req -> 0 <= m_type req <= 3 -> dp_in_scope cfg h req ->
  In (dp_serve cfg h mc req) (dp_allowed_outs cfg h mc req).
Proof. exact serve_allowed. Qed.
Print Assumptions C10_serve_allowed_msg.

(* at most one direct reply (a reply of type ACK, RST or NON); at most one more datagram,
   the separate CON response after an Empty ACK; at most one handler invocation *)
Theorem C10_one_reply : forall cfg h mc req out,
  0 <= m_type req <= 3 -> dp_allowed cfg h mc req out ->
  (length (filter is_direct (dp_txs out)) <= 1)%nat /\ (length (dp_txs out) <= 2)%nat /\
  (length (dp_calls out) <= 1)%nat.
Proof. intros cfg h mc req out _. exact (one_direct_reply cfg h mc req out). Qed.
Print Assumptions C10_one_reply.

(* every emitted datagram carries the request's message id; it is an Empty ACK/RST or
   echoes the token; ACK only for CON; a CON gets ACK or RST (or the separate CON response);
   a NON gets NON or RST *)
Theorem C10_token_mid : forall cfg h mc req out m,
  dp_allowed cfg h mc req out -> In m (dp_txs out) ->
  m_mid m = m_mid req /\
  ((dp_is_empty m /\ (m_type m = NR_ACK \/ m_type m = NR_RST)) \/ m_token m = m_token req) /\
  (m_type m = NR_ACK -> m_type req = NR_CON) /\
  (m_type req = NR_CON -> m_type m = NR_ACK \/ m_type m = NR_RST \/ m_type m = NR_CON) /\
  (m_type req = NR_NON -> m_type m = NR_NON \/ m_type m = NR_RST).
Proof.
  intros cfg h mc req out m Ha Hin.
  destruct (replies_well_formed cfg h mc req out m Ha Hin) as [H1 H2 H3 H4 H5 _]. auto.
Qed.
Print Assumptions C10_token_mid.

Theorem C10_no_reset_on_multicast : forall cfg h req out m,
  0 <= m_type req <= 3 ->
  dp_allowed cfg h true req out -> In m (dp_txs out) -> m_type m <> NR_RST.
Proof.
  intros cfg h req out m _ Ha Hin Hrst.
  discriminate (ro_rst _ _ _ (replies_well_formed cfg h true req out m Ha Hin) Hrst).
Qed.
Print Assumptions C10_no_reset_on_multicast.

(* the rules.  sp_applies cfg mc req e (DispatchSpec.v) is the condition of rule e:
   E402 unknown critical / illegally repeated option (or Proxy-Scheme without Uri-Host)
   E505 proxy option, no proxy support      E508 / E400 Hop-Limit 1 / 0
   E404 / E202 nothing found (DELETE)       E401 OSCORE-only resource
   E412 If-None-Match on an existing resource
   E405 no handler for the method (or no multicast support)
   E415 FETCH without Content-Format *)

(* the scan of coap_option_check_critical() decides exactly "no unknown critical option and no
   illegal repeat" *)
Theorem C10_critical_scan : forall cfg req,
  dp_req_wf req ->
  cs_ok (dp_check_critical cfg req) = negb (sp_unknown_critical cfg req || sp_repeat (m_opts req)).
Proof. intros cfg req H. exact (scan_ok cfg req H). Qed.
Print Assumptions C10_critical_scan.

(* when exactly one rule applies, the reply is the one of that rule (or its suppressed form) *)
Theorem C10_single_error : forall cfg h mc req,
  0 <= m_type req <= 3 -> conn req ->
  dp_bad_class (m_code req) = false -> dp_is_request (m_code req) = true ->
  forall e, e <> E402 -> sp_applies cfg mc req e = true ->
  (forall e', e' <> e -> sp_applies cfg mc req e' = false) ->
  sp_oscore_drop cfg req = false -> sp_long_token req = false ->
  mc && (m_type req =? NR_CON) = false -> sp_async cfg req = false ->
  forall out, dp_allowed cfg h mc req out ->
  out = dp_fail cfg mc req (sp_rflags cfg req e) (dp_err_code e).
Proof.
  intros cfg h mc req _ Hc Hb Hq e Hne He Ho Hos Hlt Hmc Has out Ha.
  destruct (single_error_decides cfg h mc req Hc Hb Hq e He Ho Hos Hlt Hmc Has out Ha) as [H | [H _]];
    [|contradiction].
  destruct e; try contradiction; destruct H as [<- | []]; reflexivity.
Qed.
Print Assumptions C10_single_error.

Theorem C10_unknown_critical_or_repeat : forall cfg h mc req,
  0 <= m_type req <= 3 -> conn req ->
  dp_bad_class (m_code req) = false -> dp_is_request (m_code req) = true ->
  sp_applies cfg mc req E402 = true ->
  (forall e', e' <> E402 -> sp_applies cfg mc req e' = false) ->
  sp_oscore_drop cfg req = false -> sp_long_token req = false ->
  mc && (m_type req =? NR_CON) = false -> sp_async cfg req = false ->
  forall out, dp_allowed cfg h mc req out ->
  (m_type req = NR_CON /\ out = [sp_err402_direct cfg req]) \/
  (exists rf, out = dp_fail cfg mc req rf 130) \/
  (m_type req = NR_NON /\ sp_bad_options cfg req = true /\ In out (sp_reject mc req)).
Proof.
  intros cfg h mc req _ Hc Hb Hq He Ho Hos Hlt Hmc Has out Ha.
  destruct (single_error_decides cfg h mc req Hc Hb Hq E402 He Ho Hos Hlt Hmc Has out Ha)
    as [H | [_ H]]; [|auto].
  apply emit_cases in H as [H | H]; auto.
Qed.
Print Assumptions C10_unknown_critical_or_repeat.

(* with several rules applicable: still no handler, and (previous theorems) one well-formed reply *)
Theorem C10_error_blocks_handler : forall cfg h mc req,
  conn req -> dp_bad_class (m_code req) = false -> dp_is_request (m_code req) = true ->
  sp_blocked cfg mc req = true ->
  forall out, dp_allowed cfg h mc req out -> dp_calls out = [].
Proof. intros cfg h mc req _ _ _. exact (blocked_no_handler cfg h mc req). Qed.
Print Assumptions C10_error_blocks_handler.

(* the form of an error reply: request's type class, id and token, the code of the rule, no
   options (Hop-Limit 255 on a 5.08), or its No-Response / multicast suppressed form *)
Theorem C10_error_reply_form : forall cfg mc req rf c,
  nr_std_code c ->
  dp_fail cfg mc req rf c =
  match nr_fate_spec (dp_noresp_of req) mc (c_mpr cfg) rf (dp_resp_type req) c false with
  | NrDropped => []
  | NrEmptyAck => [EvTx false (dp_empty NR_ACK (m_mid req))]
  | NrSendAsIs =>
      [EvTx true (mkMsg (dp_resp_type req) c (m_mid req) (m_token req)
                        (if (c =? 168) && nr_immediate mc (c_mpr cfg) rf then [(DP_HOP_LIMIT, [255])] else [])
                        [])]
  end.
Proof. exact error_reply_is. Qed.
Print Assumptions C10_error_reply_form.

(* invalid code classes: Reset or ignored; ACK/RST typed messages: ignored *)
Theorem C10_bad_class : forall cfg h mc req out,
  conn req -> dp_bad_class (m_code req) = true -> dp_allowed cfg h mc req out ->
  out = [] \/ (mc = false /\ out = [EvTx false (dp_empty NR_RST (m_mid req))]).
Proof.
  intros cfg h mc req out Hc Hb Ha. apply reject_cases.
  unfold dp_allowed in Ha. rewrite outs_bad in Ha; [exact Ha|apply conn_b; exact Hc|exact Hb].
Qed.
Print Assumptions C10_bad_class.

Theorem C10_ack_rst_ignored : forall cfg h mc req out,
  m_type req = NR_ACK \/ m_type req = NR_RST -> dp_allowed cfg h mc req out -> out = [].
Proof.
  intros cfg h mc req out Ht Ha. unfold dp_allowed in Ha. rewrite outs_not_conn in Ha.
  - destruct Ha as [<- | []]. reflexivity.
  - unfold NR_CON, NR_NON, NR_ACK, NR_RST in *. lia.
Qed.
Print Assumptions C10_ack_rst_ignored.

(* otherwise exactly the handler registered for that path and method runs once.
   sp_handler_outs = dp_invoke on the selected resource for each admitted view of the options
   (sp_views: as libcoap edits them = sp_handler_out, unedited, or one edit only) *)
Theorem C10_handler_iff_unblocked : forall cfg h mc req,
  0 <= m_type req <= 3 -> conn req -> dp_bad_class (m_code req) = false -> dp_is_request (m_code req) = true ->
  sp_blocked cfg mc req = false ->
  forall out, dp_allowed cfg h mc req out <-> In out (sp_handler_outs cfg h mc req).
Proof. intros cfg h mc req _. exact (unblocked_runs_handler cfg h mc req). Qed.
Print Assumptions C10_handler_iff_unblocked.

Theorem C10_handler_once : forall cfg h mc req,
  sp_target cfg req <> TWellKnown ->
  dp_observe (sp_target cfg req) (sp_req' cfg req) <> ObsBlocked ->
  dp_calls (sp_handler_out cfg h mc req) =
  [mkHreq (dp_target_rid (sp_target cfg req)) (m_code req) (sp_req' cfg req) (dp_query cfg (m_opts req))].
Proof. exact handler_call. Qed.
Print Assumptions C10_handler_once.

(* ... with the request's path, query, options and payload (two documented edits: Block2 M bit,
   Hop-Limit decrement) *)
Theorem C10_handler_sees_request : forall cfg req,
  map fst (sp_adjusted cfg req) = map fst (m_opts req) /\
  (forall n, n <> DP_BLOCK2 -> n <> DP_HOP_LIMIT ->
             dp_values n (sp_adjusted cfg req) = dp_values n (m_opts req)) /\
  dp_uri_path cfg (sp_adjusted cfg req) = dp_uri_path cfg (m_opts req) /\
  dp_query cfg (sp_adjusted cfg req) = dp_query cfg (m_opts req) /\
  m_payload (sp_req' cfg req) = m_payload req /\ m_token (sp_req' cfg req) = m_token req /\
  m_code (sp_req' cfg req) = m_code req /\ m_type (sp_req' cfg req) = m_type req /\
  m_mid (sp_req' cfg req) = m_mid req.
Proof.
  intros cfg req.
  destruct (handler_views cfg req (sp_adjusted cfg req)) as [H1 [H2 [H3 H4]]]; [left; reflexivity|].
  repeat split; assumption.
Qed.
Print Assumptions C10_handler_sees_request.

(* the relation also admits the unedited options and each edit alone *)
Theorem C10_handler_views : forall cfg req o, In o (sp_views cfg req) ->
  map fst o = map fst (m_opts req) /\
  (forall n, n <> DP_BLOCK2 -> n <> DP_HOP_LIMIT -> dp_values n o = dp_values n (m_opts req)) /\
  dp_uri_path cfg o = dp_uri_path cfg (m_opts req) /\ dp_query cfg o = dp_query cfg (m_opts req).
Proof. exact handler_views. Qed.
Print Assumptions C10_handler_views.

(* with tables that keep the separators escaped (the check forces exactly these four bits on
   the tables it takes from the library), one Uri-Path / Uri-Query option never contributes a
   separator to the look-up key / query string *)
Theorem C10_one_option_no_separator : forall cfg seg,
  dp_tables_ok cfg -> wfb seg ->
  ~ In 47 (dp_uri_path cfg [(DP_URI_PATH, seg)]) /\ ~ In 38 (dp_query cfg [(DP_URI_QUERY, seg)]).
Proof.
  intros cfg seg [H1 [_ [H3 _]]] Hw. unfold dp_uri_path, dp_query, dp_values.
  cbn [filter fst snd map dp_join]. change (DP_URI_PATH =? DP_URI_PATH) with true.
  change (DP_URI_QUERY =? DP_URI_QUERY) with true. cbn [filter fst snd map dp_join].
  split; apply escape_no_separator; auto.
Qed.
Print Assumptions C10_one_option_no_separator.

(* the resource: registered path first; nothing iff no such path, not /.well-known/core and no
   unknown-resource handler for the method *)
Theorem C10_lookup_registered : forall cfg code p r,
  dp_find_res (c_res cfg) p = Some r -> dp_lookup cfg false code p = TRes r.
Proof. intros cfg code p r H. unfold dp_lookup. rewrite H. reflexivity. Qed.
Print Assumptions C10_lookup_registered.

Theorem C10_lookup_none : forall cfg code p,
  dp_lookup cfg false code p = TNone <->
  (forall r, In r (c_res cfg) -> r_path r <> p) /\ p <> dp_wellknown /\
  dp_unknown_takes cfg code false = None.
Proof. exact lookup_none. Qed.
Print Assumptions C10_lookup_none.

Theorem C10_lookup_wellknown : forall cfg code,
  dp_find_res (c_res cfg) dp_wellknown = None -> dp_unknown_takes cfg code true = None ->
  dp_lookup cfg false code dp_wellknown = TWellKnown.
Proof.
  intros cfg code H1 H2. unfold dp_lookup. rewrite H1, H2.
  rewrite (proj2 (dp_bytes_eqb_eq dp_wellknown dp_wellknown) eq_refl). reflexivity.
Qed.
Print Assumptions C10_lookup_wellknown.

(* what the handler sets is what is sent, subject to No-Response and multicast rules.
   dp_resp_opts: the handler's coap_add_option() calls in order (after the Observe option of a
   new registration on an observable resource); dp_sent_opts: Block1 off an error response *)
Theorem C10_what_is_set_is_sent : forall cfg h mc req,
  (m_type req = NR_CON \/ m_type req = NR_NON) ->
  (match sp_target cfg req with TRes _ | TUnknown _ _ => True | _ => False end) ->
  let obs := dp_observe (sp_target cfg req) (sp_req' cfg req) in
  obs <> ObsBlocked ->
  let i := mkHreq (dp_target_rid (sp_target cfg req)) (m_code req) (sp_req' cfg req)
                  (dp_query cfg (m_opts req)) in
  let r := h i in
  nr_std_code (hr_code r) -> hr_code r <> 168 ->
  sp_handler_out cfg h mc req =
  EvH i ::
  match nr_fate_spec (dp_noresp_of req) mc (c_mpr cfg) (Some (dp_target_flags (sp_target cfg req)))
                     (dp_resp_type req) (hr_code r)
                     (match hr_payload r with [] => false | _ => true end) with
  | NrDropped => []
  | NrEmptyAck => [EvTx false (dp_empty NR_ACK (m_mid req))]
  | NrSendAsIs =>
      [EvTx false (mkMsg (dp_resp_type req) (hr_code r) (m_mid req) (m_token req)
                         (dp_sent_opts false (hr_code r) true (dp_resp_opts obs (hr_code r) (hr_opts r)))
                         (hr_payload r))]
  end.
Proof. exact handler_out_is. Qed.
Print Assumptions C10_what_is_set_is_sent.

Theorem C10_wellknown : forall cfg h mc req,
  sp_target cfg req = TWellKnown -> dp_has DP_BLOCK2 (m_opts req) = false ->
  sp_handler_out cfg h mc req =
  dp_finish cfg mc (sp_req' cfg req) (Some NR_F_HAS_MCAST) false false
    (mkMsg (dp_resp_type req) 69 (m_mid req) (m_token req) [(DP_CONTENT_FORMAT, [40])]
           (c_wk cfg (dp_query cfg (m_opts req)))).
Proof.
  intros cfg h mc req Et Hb. unfold sp_handler_out, dp_invoke. rewrite Et.
  change (m_opts (sp_req' cfg req)) with (sp_adjusted cfg req).
  rewrite adj_has, Hb, adj_query. reflexivity.
Qed.
Print Assumptions C10_wellknown.

(* the bitmap test of no_response() is the table of RFC 7967; the code's decision procedure is
   the declarative table (No-Response first, else multicast per-resource flags / RFC 7252 8.1) *)
Theorem C10_noresponse_table : forall v cls,
  cls = 2 \/ cls = 4 \/ cls = 5 -> Z.testbit v (cls - 1) = nr_rfc7967_uninterested v cls.
Proof. exact nr_bitmap_is_rfc7967. Qed.
Print Assumptions C10_noresponse_table.

Theorem C10_suppression_table : forall noresp mc mpr rflags req_ty rtype code has_data,
  nr_std_code code -> rtype = NR_ACK \/ rtype = NR_NON \/ rtype = NR_CON ->
  nr_fate_code noresp mc mpr rflags req_ty rtype code has_data =
  nr_fate_spec noresp mc mpr rflags rtype code has_data.
Proof. exact nr_fate_code_is_spec. Qed.
Print Assumptions C10_suppression_table.

Theorem C10_confirmable_always_acknowledged_unicast : forall noresp mpr rflags req_ty code has_data,
  nr_fate_code noresp false mpr rflags req_ty NR_ACK code has_data <> NrDropped.
Proof. exact nr_ack_never_dropped_unicast. Qed.
Print Assumptions C10_confirmable_always_acknowledged_unicast.

(* non-vacuity: a concrete server on concrete requests *)
Theorem C10_nonvacuous :
  dp_serve ex_cfg ex_handler false (ex_get 0 [97] []) =
  [EvH (mkHreq (RRes [97]) 1 (ex_get 0 [97] []) []);
   EvTx false (mkMsg 2 69 4660 [170; 187] [(12, [0])] [104; 105])] /\
  sp_blocked ex_cfg false (ex_get 0 [97] []) = false /\
  dp_in_scope ex_cfg ex_handler (ex_get 0 [97] []) /\
  (forall out, dp_allowed ex_cfg ex_handler false (ex_get 0 [97] []) out ->
               out = dp_serve ex_cfg ex_handler false (ex_get 0 [97] [])).
Proof. exact ex_handler_runs. Qed.
Print Assumptions C10_nonvacuous.
