(* C10 - auxiliary lemmas about the pieces of Dispatch.v: option list helpers, the in-place
   edits of the request's options, the option filter, the critical option scan. *)
From LibcoapV Require Import Base.Tactics Base.Bytes Wire.OptCodec Wire.Pdu Server.Dispatch
  Server.DispatchSpec.
Local Open Scope Z_scope.

Lemma dp_find_map_fst : forall n l,
  dp_has n l = existsb (fun k => k =? n) (map fst l).
Proof.
  intros n l. unfold dp_has. induction l as [|[k v] t IH]; [reflexivity|].
  cbn [dp_find map fst existsb]. destruct (k =? n); [reflexivity|]. exact IH.
Qed.

Lemma existsb_fst_has : forall n l, existsb (fun o : opt => fst o =? n) l = dp_has n l.
Proof.
  intros n l. rewrite dp_find_map_fst. induction l as [|o t IH]; [reflexivity|].
  cbn [existsb map]. now rewrite IH.
Qed.

Lemma dp_find_values : forall n l, dp_find n l = hd_error (dp_values n l).
Proof.
  intros n l. unfold dp_values. induction l as [|[k v] t IH]; [reflexivity|].
  cbn [dp_find filter fst]. destruct (k =? n); [reflexivity|]. exact IH.
Qed.

Lemma dp_has_false_find : forall n l, dp_has n l = false -> dp_find n l = None.
Proof. unfold dp_has. intros n l. destruct (dp_find n l); [discriminate|reflexivity]. Qed.

Lemma dp_has_true_find : forall n l, dp_has n l = true -> exists v, dp_find n l = Some v.
Proof. unfold dp_has. intros n l. destruct (dp_find n l) as [v|]; [eauto|discriminate]. Qed.

Lemma dp_update_fst : forall n v l, map fst (dp_update n v l) = map fst l.
Proof.
  intros n v l. induction l as [|[k w] t IH]; [reflexivity|].
  cbn [dp_update]. destruct (k =? n); cbn [map fst]; [reflexivity|]. now rewrite IH.
Qed.

Lemma dp_values_update_other : forall n k v l, n <> k ->
  dp_values n (dp_update k v l) = dp_values n l.
Proof.
  intros n k v l Hne. unfold dp_values. induction l as [|[j w] t IH]; [reflexivity|].
  cbn [dp_update]. destruct (j =? k) eqn:E.
  - cbn [filter fst]. assert (E2 : (j =? n) = false) by lia. rewrite E2. reflexivity.
  - cbn [filter fst]. destruct (j =? n); cbn [map]; [f_equal|]; exact IH.
Qed.

Lemma dp_has_update : forall n k v l, dp_has n (dp_update k v l) = dp_has n l.
Proof. intros. rewrite !dp_find_map_fst, dp_update_fst. reflexivity. Qed.

Lemma dp_find_update_other : forall n k v l, n <> k ->
  dp_find n (dp_update k v l) = dp_find n l.
Proof. intros. rewrite !dp_find_values, dp_values_update_other by assumption. reflexivity. Qed.

Lemma dp_find_update_same : forall k v l w, dp_find k l = Some w ->
  dp_find k (dp_update k v l) = Some v.
Proof.
  intros k v l w. induction l as [|[j u] t IH]; [discriminate|].
  cbn [dp_find dp_update]. destruct (j =? k) eqn:E.
  - intros _. cbn [dp_find]. rewrite E. reflexivity.
  - intros H. cbn [dp_find]. rewrite E. auto.
Qed.

Lemma dp_uri_path_update : forall cfg k v l, k <> DP_URI_PATH ->
  dp_uri_path cfg (dp_update k v l) = dp_uri_path cfg l.
Proof. intros. unfold dp_uri_path. rewrite dp_values_update_other by auto. reflexivity. Qed.

(* [l'] is [l] with new values for some options numbered in [ks]: what the in-place edits of the
   request (Block2 M bit, Hop-Limit decrement) do.  Every test of the dispatcher looks at option
   numbers, or at the values of options the edits leave alone. *)
Definition dp_same_but (ks : list Z) (l l' : list opt) : Prop :=
  map fst l' = map fst l /\ forall n, ~ In n ks -> dp_values n l' = dp_values n l.

Lemma same_but_refl : forall ks l, dp_same_but ks l l.
Proof. split; reflexivity. Qed.

Lemma same_but_update : forall ks k v l l', In k ks ->
  dp_same_but ks l l' -> dp_same_but ks l (dp_update k v l').
Proof.
  intros ks k v l l' Hk [H1 H2]. split.
  - rewrite dp_update_fst. exact H1.
  - intros n Hn. rewrite dp_values_update_other; [apply H2; exact Hn|].
    intros ->. contradiction.
Qed.

Section SameBut.
  Variables (ks : list Z) (l l' : list opt).
  Hypothesis H : dp_same_but ks l l'.

  Lemma same_but_has : forall n, dp_has n l' = dp_has n l.
  Proof. intros n. rewrite !dp_find_map_fst. destruct H as [-> _]. reflexivity. Qed.

  Lemma same_but_find : forall n, ~ In n ks -> dp_find n l' = dp_find n l.
  Proof. intros n Hn. rewrite !dp_find_values. destruct H as [_ ->]; auto. Qed.

  Lemma same_but_path : forall cfg, ~ In DP_URI_PATH ks -> dp_uri_path cfg l' = dp_uri_path cfg l.
  Proof. intros cfg Hn. unfold dp_uri_path. destruct H as [_ ->]; auto. Qed.

  Lemma same_but_query : forall cfg, ~ In DP_URI_QUERY ks -> dp_query cfg l' = dp_query cfg l.
  Proof. intros cfg Hn. unfold dp_query. destruct H as [_ ->]; auto. Qed.
End SameBut.

Lemma fix_same : forall ks req, In DP_BLOCK2 ks ->
  dp_same_but ks (m_opts req) (sp_fix_block2 req).
Proof.
  intros ks req Hk. unfold sp_fix_block2.
  destruct (dp_is_request (m_code req)); [|apply same_but_refl].
  destruct (dp_find DP_BLOCK2 (m_opts req)) as [v|]; [|apply same_but_refl].
  destruct (dp_block2_fix v); [|apply same_but_refl].
  apply same_but_update; [exact Hk|apply same_but_refl].
Qed.

Lemma hop_same : forall ks l l', In DP_HOP_LIMIT ks ->
  dp_same_but ks l l' -> dp_same_but ks l (sp_hop_dec l').
Proof.
  intros ks l l' Hk H. unfold sp_hop_dec. destruct (dp_find DP_HOP_LIMIT l'); [|exact H].
  apply same_but_update; assumption.
Qed.

Lemma views_same : forall cfg req o, In o (sp_views cfg req) ->
  dp_same_but [DP_BLOCK2; DP_HOP_LIMIT] (m_opts req) o.
Proof.
  intros cfg req o Hin.
  assert (Hb : In DP_BLOCK2 [DP_BLOCK2; DP_HOP_LIMIT]) by (left; reflexivity).
  assert (Hh : In DP_HOP_LIMIT [DP_BLOCK2; DP_HOP_LIMIT]) by (right; left; reflexivity).
  pose proof (fix_same _ req Hb) as Hfix.
  destruct Hin as [<- | [<- | [<- | [<- | [<- | []]]]]].
  - unfold sp_adjusted. destruct (sp_mine cfg req); [exact Hfix|]. exact (hop_same _ _ _ Hh Hfix).
  - apply same_but_refl.
  - exact Hfix.
  - apply hop_same; [exact Hh|apply same_but_refl].
  - apply hop_same; assumption.
Qed.

Lemma adjusted_same : forall cfg req,
  dp_same_but [DP_BLOCK2; DP_HOP_LIMIT] (m_opts req) (sp_adjusted cfg req).
Proof. intros. apply (views_same cfg). left. reflexivity. Qed.

Lemma fix_has : forall req n, dp_has n (sp_fix_block2 req) = dp_has n (m_opts req).
Proof. intros. apply (same_but_has [DP_BLOCK2]), fix_same. left. reflexivity. Qed.

Lemma fix_find : forall req n, n <> DP_BLOCK2 ->
  dp_find n (sp_fix_block2 req) = dp_find n (m_opts req).
Proof.
  intros req n Hn. apply (same_but_find [DP_BLOCK2]); [apply fix_same; left; reflexivity|].
  intros [E | []]. congruence.
Qed.

Lemma adj_has : forall cfg req n, dp_has n (sp_adjusted cfg req) = dp_has n (m_opts req).
Proof. intros. apply (same_but_has _ _ _ (adjusted_same cfg req)). Qed.

Lemma adj_find : forall cfg req n, n <> DP_BLOCK2 -> n <> DP_HOP_LIMIT ->
  dp_find n (sp_adjusted cfg req) = dp_find n (m_opts req).
Proof.
  intros cfg req n H1 H2. apply (same_but_find _ _ _ (adjusted_same cfg req)).
  intros [E | [E | []]]; congruence.
Qed.

Lemma adj_path : forall cfg req,
  dp_uri_path cfg (sp_adjusted cfg req) = dp_uri_path cfg (m_opts req).
Proof.
  intros. apply (same_but_path _ _ _ (adjusted_same cfg req)). intros [E | [E | []]]; discriminate.
Qed.

Lemma adj_query : forall cfg req,
  dp_query cfg (sp_adjusted cfg req) = dp_query cfg (m_opts req).
Proof.
  intros. apply (same_but_query _ _ _ (adjusted_same cfg req)). intros [E | [E | []]]; discriminate.
Qed.

Lemma dp_fget_empty : forall n, dp_fget dp_fempty n = false.
Proof. intros. unfold dp_fget, dp_fempty. cbn [f_long f_short dp_mem existsb]. now destruct (255 <? n). Qed.

Lemma dp_mem_filter : forall n k l,
  dp_mem n (filter (fun j => negb (j =? k)) l) = dp_mem n l && negb (n =? k).
Proof.
  intros n k l. unfold dp_mem. induction l as [|j t IH]; [reflexivity|].
  cbn [filter existsb]. destruct (j =? k) eqn:E; cbn [negb existsb]; rewrite IH.
  - destruct (n =? j) eqn:E2; [|reflexivity]. assert (E3 : (n =? k) = true) by lia.
    rewrite E3. now rewrite andb_false_r.
  - destruct (n =? j) eqn:E2; [|reflexivity]. assert (E3 : (n =? k) = false) by lia.
    rewrite E3. reflexivity.
Qed.

Lemma dp_fget_funset : forall f k n,
  dp_fget (dp_funset f k) n = dp_fget f n && negb (n =? k).
Proof.
  intros f k n. unfold dp_fget, dp_funset. cbn [f_long f_short].
  destruct (255 <? n); apply dp_mem_filter.
Qed.

Lemma dp_mem_app_one : forall n k l, dp_mem n (l ++ [k]) = dp_mem n l || (n =? k).
Proof. intros. unfold dp_mem. rewrite existsb_app. cbn [existsb]. now rewrite orb_false_r. Qed.

Lemma dp_fget_fset : forall f k n,
  dp_fget (snd (dp_fset f k)) n = true -> dp_fget f n = true \/ n = k.
Proof.
  intros f k n. unfold dp_fset.
  destruct (dp_fget f k); [cbn [snd]; auto|].
  assert (Hm : forall l, dp_mem n (l ++ [k]) = true -> dp_mem n l = true \/ n = k).
  { intros l. rewrite dp_mem_app_one. intros Hm. apply orb_true_iff in Hm as [Hm | Hm]; [auto|lia]. }
  destruct (255 <? k) eqn:Ek.
  - destruct (len (f_long f) <? 2); cbn [snd]; [|auto].
    unfold dp_fget. cbn [f_long f_short]. destruct (255 <? n); [apply Hm|auto].
  - destruct (len (f_short f) <? 6); cbn [snd]; [|auto].
    unfold dp_fget. cbn [f_long f_short]. destruct (255 <? n); [auto|apply Hm].
Qed.

Lemma dp_add_all_subset : forall l m o, In o (dp_add_all m l) -> In o l.
Proof.
  induction l as [|[n v] t IH]; intros m o; cbn [dp_add_all]; [tauto|].
  destruct ((n =? m) && negb (dp_repeatable n)).
  - intros H. right. eapply IH. exact H.
  - intros [<- | H]; [left; reflexivity|right; eapply IH; exact H].
Qed.

Lemma dp_error_opts_empty : forall l, dp_error_opts dp_fempty l = [].
Proof.
  intros l. unfold dp_error_opts.
  induction l as [|o t IH]; [reflexivity|]. cbn [filter].
  rewrite !dp_fget_funset, dp_fget_empty. exact IH.
Qed.

(* handle_request() builds its error replies with an empty filter: no option of the request is
   echoed, only No-Response is consulted *)
Lemma dp_fail_indep : forall cfg mc r1 r2 rf code,
  m_type r1 = m_type r2 -> m_mid r1 = m_mid r2 -> m_token r1 = m_token r2 ->
  dp_find DP_NORESPONSE (m_opts r1) = dp_find DP_NORESPONSE (m_opts r2) ->
  dp_fail cfg mc r1 rf code = dp_fail cfg mc r2 rf code.
Proof.
  intros cfg mc r1 r2 rf code Ht Hm Hk Hn.
  unfold dp_fail, dp_finish, dp_error, dp_resp_type.
  rewrite !dp_error_opts_empty. cbn [m_type m_code m_mid m_token m_opts m_payload].
  rewrite Ht, Hm, Hk, Hn. reflexivity.
Qed.

(* [sp_repeat] on a list with one more option in front: the scan of the rest of a list, the
   previous option number being [a], meets an illegal repeat iff this holds *)
Lemma sp_repeat_cons : forall a v n w t,
  sp_repeat ((a, v) :: (n, w) :: t) = ((a =? n) && negb (dp_repeatable n)) || sp_repeat ((n, w) :: t).
Proof.
  intros.
  change (sp_repeat ((a, v) :: (n, w) :: t))
    with (((a =? n) && negb (dp_repeatable a)) || sp_repeat ((n, w) :: t)).
  destruct (a =? n) eqn:E; [|reflexivity]. assert (a = n) by lia. now subst.
Qed.

(* parsed option numbers are not negative: the scan's initial "previous number" -1 repeats nothing *)
Lemma sp_repeat_start : forall v l, Forall (fun o : opt => 0 <= fst o) l ->
  sp_repeat ((-1, v) :: l) = sp_repeat l.
Proof.
  intros v l H. destruct l as [|[n w] t]; [reflexivity|]. rewrite sp_repeat_cons.
  inversion H; subst. cbn [fst] in *. assert (E : (-1 =? n) = false) by lia. rewrite E. reflexivity.
Qed.

Section Crit.
  Variable known : dp_filter.
  Variable pctx : bool.
  Let K := dp_crit_kind_of known pctx.
  Definition lm_unk (n : Z) : bool := match K n with CritUnknown => true | _ => false end.
  Definition lm_fwd (n : Z) : bool := match K n with CritProxyFwd => true | _ => false end.

  (* the state after the first half of the loop body *)
  Definition lm_step1 (s : dp_cstate) (n : Z) : dp_cstate :=
    match K n with
    | CritKnown => s
    | CritProxyFwd => mkCs (cs_ok s) (cs_flt s) true
    | CritUnknown => mkCs false (snd (dp_fset (cs_flt s) n)) (cs_crit s)
    end.

  Lemma lm_step1_spec : forall s n,
    cs_ok (lm_step1 s n) = cs_ok s && negb (lm_unk n) /\
    cs_crit (lm_step1 s n) = cs_crit s || lm_fwd n /\
    forall k, dp_fget (cs_flt (lm_step1 s n)) k = true -> dp_fget (cs_flt s) k = true \/ lm_unk k = true.
  Proof.
    intros s n. unfold lm_step1, lm_unk, lm_fwd. destruct (K n) eqn:EK; cbn [cs_ok cs_crit cs_flt negb].
    - rewrite andb_true_r, orb_false_r. auto.
    - rewrite andb_false_r, orb_false_r. repeat split.
      intros k Hk. apply dp_fget_fset in Hk as [Hk | ->]; [auto|]. right. now rewrite EK.
    - rewrite andb_true_r, orb_true_r. auto.
  Qed.

  (* [w]: any value for the previous option put back in front *)
  Lemma crit_loop_spec : forall l last w s,
    let r := dp_crit_loop known pctx l last s in
    let rep := sp_repeat ((last, w) :: l) in
    cs_ok r = cs_ok s && negb (existsb (fun o => lm_unk (fst o)) l) && negb rep /\
    (rep = false -> cs_crit r = cs_crit s || existsb (fun o => lm_fwd (fst o)) l).
  Proof.
    induction l as [|[n v] t IH]; intros last w s.
    - cbn. rewrite !andb_true_r, orb_false_r. auto.
    - cbv zeta. rewrite sp_repeat_cons. cbn [dp_crit_loop existsb fst].
      change (match dp_crit_kind_of known pctx n with
              | CritKnown => s
              | CritUnknown => mkCs false (snd (dp_fset (cs_flt s) n)) (cs_crit s)
              | CritProxyFwd => mkCs (cs_ok s) (cs_flt s) true
              end) with (lm_step1 s n).
      destruct (lm_step1_spec s n) as [Hok [Hcr _]].
      destruct ((last =? n) && negb (dp_repeatable n)); cbn [orb negb].
      + (* illegal repeat here: not acceptable, whether or not the loop goes on *)
        rewrite andb_false_r. split; [|discriminate].
        destruct (dp_fset (cs_flt (lm_step1 s n)) n) as [[] f2]; [|reflexivity].
        destruct (IH n v (mkCs false f2 (cs_crit (lm_step1 s n)))) as [-> _]. reflexivity.
      + destruct (IH n v (lm_step1 s n)) as [-> H2]. rewrite Hok, negb_orb, !andb_assoc.
        split; [reflexivity|]. intros Hr. rewrite (H2 Hr), Hcr. symmetry. apply orb_assoc.
  Qed.

  Lemma crit_loop_flt : forall l last s n,
    dp_fget (cs_flt (dp_crit_loop known pctx l last s)) n = true ->
    dp_fget (cs_flt s) n = true \/ lm_unk n = true \/ dp_repeatable n = false.
  Proof.
    induction l as [|[k v] t IH]; intros last s n; cbn [dp_crit_loop]; [auto|].
    change (match dp_crit_kind_of known pctx k with
            | CritKnown => s
            | CritUnknown => mkCs false (snd (dp_fset (cs_flt s) k)) (cs_crit s)
            | CritProxyFwd => mkCs (cs_ok s) (cs_flt s) true
            end) with (lm_step1 s k).
    destruct (lm_step1_spec s k) as [_ [_ Hs1]].
    destruct ((last =? k) && negb (dp_repeatable k)) eqn:Er.
    - assert (Hk : dp_repeatable k = false).
      { apply andb_true_iff in Er as [_ Er]. now destruct (dp_repeatable k). }
      pose proof (dp_fget_fset (cs_flt (lm_step1 s k)) k n) as Hf2.
      destruct (dp_fset (cs_flt (lm_step1 s k)) k) as [stored f2]. cbn [snd] in Hf2.
      assert (Hs2 : dp_fget f2 n = true ->
                    dp_fget (cs_flt s) n = true \/ lm_unk n = true \/ dp_repeatable n = false).
      { intros H. apply Hf2 in H as [H | ->]; [|auto]. apply Hs1 in H. tauto. }
      destruct stored; [|exact Hs2].
      intros H. apply IH in H as [H | H]; [exact (Hs2 H)|auto].
    - intros H. apply IH in H as [H | H]; [|auto]. apply Hs1 in H. tauto.
  Qed.

  (* without an illegal repeat the scan is never left early: it reaches every option *)
  Lemma reaches_spec : forall l last w f target,
    sp_repeat ((last, w) :: l) = false ->
    dp_reaches known pctx l last f target = existsb (fun o => fst o =? target) l.
  Proof.
    induction l as [|[n v] t IH]; intros last w f target Hr; [reflexivity|].
    rewrite sp_repeat_cons in Hr. apply orb_false_iff in Hr as [Hr1 Hr2].
    cbn [dp_reaches existsb fst]. rewrite Hr1.
    destruct (n =? target); [reflexivity|]. cbn [orb]. apply (IH n v). exact Hr2.
  Qed.
End Crit.
