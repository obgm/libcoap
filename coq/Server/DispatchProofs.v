(* C10 - the transcribed dispatch function is within the relation of the property statement:
   for every configuration, handler behaviour, destination and request,
   dp_serve cfg h mc req  is one of  dp_allowed_outs cfg h mc req. *)
From LibcoapV Require Import Base.Tactics Base.Bytes Wire.OptCodec Wire.Pdu Server.NoResponse
  Server.Dispatch Server.DispatchSpec Server.DispatchLemmas.
Local Open Scope Z_scope.

Definition dp_req_wf (req : msg) : Prop := Forall (fun o : opt => 0 <= fst o) (m_opts req).

Lemma in_if_nil : forall (A : Type) (c : bool) (l : list A) x,
  In x (if c then l else []) <-> c = true /\ In x l.
Proof. intros A [] l x; cbn; intuition congruence. Qed.

Lemma all_errs_complete : forall e, In e dp_all_errs.
Proof. destruct e; cbn; tauto. Qed.

Lemma rst_in_reject : forall mc req, In (dp_rst mc req) (sp_reject mc req).
Proof. intros [] req; left; reflexivity. Qed.

Lemma nil_in_reject : forall mc req, In [] (sp_reject mc req).
Proof. intros [] req; [left|right; left]; reflexivity. Qed.

Section Outs.
  Variable cfg : dp_cfg.
  Variable h : dp_hreq -> dp_hresp.
  Variable mc : bool.
  Variable req : msg.

  Let ty := m_type req.
  Let code := m_code req.
  Let outs := dp_allowed_outs cfg h mc req.

  Definition is_conn : Prop := (ty =? NR_CON) || (ty =? NR_NON) = true.

  Lemma not_response : dp_is_request code = true -> dp_is_response code = false.
  Proof. unfold dp_is_request, dp_is_response. lia. Qed.

  Lemma outs_not_conn : (ty =? NR_CON) || (ty =? NR_NON) = false -> outs = [[]].
  Proof. intros H. unfold outs, dp_allowed_outs. fold ty. rewrite H. reflexivity. Qed.

  Lemma outs_bad : is_conn -> dp_bad_class code = true -> outs = sp_reject mc req.
  Proof. intros Hc Hb. unfold outs, dp_allowed_outs. fold ty code. rewrite Hc, Hb. reflexivity. Qed.

  Lemma outs_resp : is_conn -> dp_bad_class code = false -> dp_is_response code = true ->
    outs = sp_reject mc req ++ (if ty =? NR_CON then [[dp_eack req]] else []).
  Proof.
    intros Hc Hb Hr. unfold outs, dp_allowed_outs. fold ty code. rewrite Hc, Hb, Hr. reflexivity.
  Qed.

  Lemma outs_other : is_conn -> dp_bad_class code = false -> dp_is_response code = false ->
    dp_is_request code = false -> outs = sp_reject mc req.
  Proof.
    intros Hc Hb Hr Hq. unfold outs, dp_allowed_outs. fold ty code. rewrite Hc, Hb, Hr, Hq. reflexivity.
  Qed.

  Lemma reject_in_outs : forall x, is_conn -> dp_is_request code = false ->
    In x (sp_reject mc req) -> In x outs.
  Proof.
    intros x Hc Hq Hx.
    destruct (dp_bad_class code) eqn:Eb; [rewrite outs_bad; auto|].
    destruct (dp_is_response code) eqn:Er.
    - rewrite outs_resp by auto. apply in_or_app. left. exact Hx.
    - rewrite outs_other by auto. exact Hx.
  Qed.

  (* the allowed reactions to a CON / NON request, each with the reason that allows it *)
  Inductive dp_request_out : list dp_ev -> Prop :=
  | RoOscore x : sp_oscore_drop cfg req = true -> In x [[]] -> dp_request_out x
  | RoLongToken x : sp_long_token req = true -> In x (sp_reject mc req) -> dp_request_out x
  | RoMcastCon x : mc && (ty =? NR_CON) = true -> In x [[]] -> dp_request_out x
  | RoAsync x : sp_async cfg req = true ->
      In x ([] :: (if ty =? NR_CON then [[dp_eack req]] else [])) -> dp_request_out x
  | RoNonBad x : (ty =? NR_NON) && sp_bad_options cfg req = true ->
      In x (sp_reject mc req) -> dp_request_out x
  | RoErr e x : sp_applies cfg mc req e = true -> In x (sp_emit cfg mc req e) -> dp_request_out x
  | RoHandler x : sp_blocked cfg mc req = false -> In x (sp_handler_outs cfg h mc req) ->
      dp_request_out x.

  Lemma request_out_iff : is_conn -> dp_bad_class code = false -> dp_is_request code = true ->
    forall x, In x outs <-> dp_request_out x.
  Proof.
    intros Hc Hb Hq x. unfold outs, dp_allowed_outs. fold ty code.
    rewrite Hc, Hb, (not_response Hq), Hq. cbn [negb].
    rewrite !in_app_iff, !in_if_nil, in_flat_map. split.
    - intros [[H1 H2] | [[H1 H2] | [[H1 H2] | [[H1 H2] | [[H1 H2] | [[e [_ He]] | H]]]]]].
      + exact (RoOscore x H1 H2).
      + exact (RoLongToken x H1 H2).
      + exact (RoMcastCon x H1 H2).
      + exact (RoAsync x H1 H2).
      + exact (RoNonBad x H1 H2).
      + apply in_if_nil in He as [H1 H2]. exact (RoErr e x H1 H2).
      + destruct (sp_blocked cfg mc req) eqn:Eb; [contradiction|]. exact (RoHandler x Eb H).
    - intros [x' H1 H2 | x' H1 H2 | x' H1 H2 | x' H1 H2 | x' H1 H2 | e x' H1 H2 | x' H1 H2]; auto 8.
      + do 5 right. left. exists e. split; [apply all_errs_complete|]. apply in_if_nil. auto.
      + do 6 right. rewrite H1. exact H2.
  Qed.

  Lemma blocked_false_iff :
    sp_blocked cfg mc req = false <->
    sp_oscore_drop cfg req = false /\ sp_long_token req = false /\
    mc && (ty =? NR_CON) = false /\ sp_async cfg req = false /\
    forall e, sp_applies cfg mc req e = false.
  Proof.
    unfold sp_blocked. fold ty. rewrite !orb_false_iff. split.
    - intros [[[[H1 H2] H3] H4] He]. repeat split; try assumption.
      intros e. destruct (sp_applies cfg mc req e) eqn:E; [|reflexivity].
      rewrite <- He. symmetry. apply existsb_exists. exists e. split; [apply all_errs_complete|exact E].
    - intros [H1 [H2 [H3 [H4 He]]]]. repeat split; try assumption.
      unfold dp_all_errs. cbn [existsb]. rewrite !He. reflexivity.
  Qed.
End Outs.

Section Main.
  Variable cfg : dp_cfg.
  Variable h : dp_hreq -> dp_hresp.
  Variable mc : bool.
  Variable req : msg.
  Hypothesis Hwf : dp_req_wf req.
  Hypothesis Hty : 0 <= m_type req <= 3.
  Hypothesis Hscope : dp_in_scope cfg h req.

  Let ty := m_type req.
  Let code := m_code req.
  Let opts := m_opts req.
  Let outs := dp_allowed_outs cfg h mc req.
  Let s := dp_check_critical cfg req.

  Lemma scan_ok : cs_ok s = negb (sp_bad_options cfg req).
  Proof.
    unfold s, dp_check_critical.
    match goal with |- cs_ok (dp_crit_loop ?k ?p ?l ?la ?s0) = _ =>
      destruct (crit_loop_spec k p l la [] s0) as [-> _] end.
    rewrite (sp_repeat_start _ _ Hwf). cbn [cs_ok andb]. symmetry. apply negb_orb.
  Qed.

  (* an acceptable option list is scanned to its end: the Block2 edit takes place, and the
     "critical option to forward" flag is the declarative one *)
  Lemma scan_clean : cs_ok s = true ->
    cs_crit s = sp_fwd_critical cfg req /\ dp_fix_block2 cfg req = sp_fix_block2 req.
  Proof.
    intros Hok. pose proof scan_ok as Hs. rewrite Hok in Hs.
    symmetry in Hs. apply negb_true_iff, orb_false_iff in Hs as [_ Hr].
    rewrite <- (sp_repeat_start [] _ Hwf) in Hr. split.
    - unfold s, dp_check_critical.
      match goal with |- cs_crit (dp_crit_loop ?k ?p ?l ?la ?s0) = _ =>
        destruct (crit_loop_spec k p l la [] s0) as [_ H] end.
      rewrite (H Hr). reflexivity.
    - unfold dp_fix_block2, sp_fix_block2.
      destruct (dp_is_request (m_code req)); [|reflexivity]. cbn [andb].
      rewrite (reaches_spec _ _ _ _ [] _ _ Hr), existsb_fst_has. unfold dp_has.
      destruct (dp_find DP_BLOCK2 (m_opts req)); reflexivity.
  Qed.

  Lemma fix_oscore : dp_oscore_drop cfg code (sp_fix_block2 req) = sp_oscore_drop cfg req.
  Proof.
    unfold sp_oscore_drop, dp_oscore_drop. rewrite !fix_has.
    rewrite (fix_find req DP_URI_HOST) by discriminate. reflexivity.
  Qed.

  Lemma fail_adj : forall rf c,
    dp_fail cfg mc (sp_req' cfg req) rf c = dp_fail cfg mc req rf c.
  Proof. intros. apply dp_fail_indep; try reflexivity. apply adj_find; discriminate. Qed.

  Lemma fail_fix : forall rf c,
    dp_fail cfg mc (mkMsg ty code (m_mid req) (m_token req) (sp_fix_block2 req) (m_payload req)) rf c
    = dp_fail cfg mc req rf c.
  Proof. intros. apply dp_fail_indep; try reflexivity. apply fix_find; discriminate. Qed.

  Section Request.
    Hypothesis Hconn : is_conn req.
    Hypothesis Hcls : dp_bad_class code = false.
    Hypothesis Hreq : dp_is_request code = true.

    Lemma in_request : forall x, dp_request_out cfg h mc req x -> In x outs.
    Proof. apply request_out_iff; assumption. Qed.

    Lemma in_err_plain : forall e, e <> E402 -> sp_applies cfg mc req e = true ->
      In (dp_fail cfg mc req (sp_rflags cfg req e) (dp_err_code e)) outs.
    Proof.
      intros e Hne H. apply in_request, (RoErr _ _ _ _ e); [exact H|].
      destruct e; try congruence; left; reflexivity.
    Qed.

    (* the four errors attributed to the resource found *)
    Lemma in_err_found : forall e, In e [E401; E412; E405; E415] ->
      sp_found cfg req = true -> sp_applies cfg mc req e = true ->
      In (dp_fail cfg mc req (Some (dp_target_flags (sp_target cfg req))) (dp_err_code e)) outs.
    Proof.
      intros e He Hf H.
      replace (Some (dp_target_flags (sp_target cfg req))) with (sp_rflags cfg req e).
      - apply in_err_plain; [|exact H]. intros ->. cbn in He. intuition discriminate.
      - cbn in He. destruct He as [<- | [<- | [<- | [<- | []]]]]; cbn [sp_rflags]; rewrite Hf;
          reflexivity.
    Qed.

    (* what the checks of handle_request() already passed when it reaches the Hop-Limit test *)
    Section Passed.
      Hypothesis Hos : sp_oscore_drop cfg req = false.
      Hypothesis Hlt : sp_long_token req = false.
      Hypothesis Hmc : mc && (ty =? NR_CON) = false.
      Hypothesis Has : sp_async cfg req = false.
      Hypothesis H402 : sp_applies cfg mc req E402 = false.
      Hypothesis H505 : sp_applies cfg mc req E505 = false.
      Hypothesis Hfp : sp_forward cfg req = true -> sp_has_proxy cfg = true.

      Lemma run_allowed :
        sp_applies cfg mc req E508 = false -> sp_applies cfg mc req E400 = false ->
        sp_found cfg req = true ->
        In (dp_run cfg h mc (sp_req' cfg req) (sp_target cfg req)) outs.
      Proof.
        intros H508 H400 Hf. unfold dp_run.
        change (m_code (sp_req' cfg req)) with code.
        change (m_opts (sp_req' cfg req)) with (sp_adjusted cfg req).
        rewrite !adj_has, !fail_adj. fold opts.
        pose proof (fun e He => in_err_found e He Hf) as Herr.
        set (t := sp_target cfg req) in *.
        destruct (nr_flag (dp_target_flags t) DP_F_OSCORE_ONLY) eqn:E1.
        { apply (Herr E401); [cbn; auto|]. cbn [sp_applies]. fold t. now rewrite Hf, E1. }
        destruct (dp_target_plain t && dp_has DP_IF_NONE_MATCH opts) eqn:E2.
        { apply (Herr E412); [cbn; auto|]. exact E2. }
        destruct (dp_has_method (dp_target_mask t) code) eqn:E3; cbn [negb].
        2: { apply (Herr E405); [cbn; auto|]. cbn [sp_applies]. fold t code. now rewrite Hf, E3. }
        destruct ((code =? 5) && negb (dp_has DP_CONTENT_FORMAT opts)) eqn:E4.
        { apply (Herr E415); [cbn; auto|]. exact E4. }
        assert (E5 : c_mpr cfg && negb (nr_flag (dp_target_flags t) NR_F_HAS_MCAST) && mc =
                     c_mpr cfg && mc && negb (nr_flag (dp_target_flags t) NR_F_HAS_MCAST))
          by (rewrite <- !andb_assoc; f_equal; apply andb_comm).
        rewrite E5.
        destruct (c_mpr cfg && mc && negb (nr_flag (dp_target_flags t) NR_F_HAS_MCAST)) eqn:E6.
        { apply (Herr E405); [cbn; auto|]. cbn [sp_applies]. fold t code.
          rewrite Hf, E6. now rewrite orb_true_r. }
        (* the handler runs *)
        apply in_request, RoHandler; [|left; reflexivity].
        apply blocked_false_iff. repeat split; try assumption.
        intros e. destruct e; try assumption; cbn [sp_applies]; fold t code opts;
          rewrite ?Hf, ?E1, ?E2, ?E3, ?E4, ?E6; cbn [negb]; rewrite ?andb_false_r; reflexivity.
      Qed.

      Lemma lookup_allowed :
        sp_applies cfg mc req E508 = false -> sp_applies cfg mc req E400 = false ->
        In (dp_hr_lookup cfg h mc (sp_req' cfg req) (sp_forward cfg req)) outs.
      Proof.
        intros H508 H400. unfold dp_hr_lookup.
        change (m_code (sp_req' cfg req)) with code.
        change (m_opts (sp_req' cfg req)) with (sp_adjusted cfg req).
        rewrite adj_path.
        change (dp_lookup cfg (sp_forward cfg req) code (dp_uri_path cfg (m_opts req)))
          with (sp_target cfg req).
        destruct (sp_found cfg req) eqn:Hf.
        { pose proof (run_allowed H508 H400 Hf) as Hrun. unfold sp_found in Hf.
          destruct (sp_target cfg req); [exact Hrun..|discriminate]. }
        unfold sp_found in Hf. destruct (sp_target cfg req) eqn:Et; try discriminate.
        (* nothing found: not the proxy resource *)
        rewrite fail_adj.
        assert (Hnf : sp_forward cfg req = false).
        { destruct (sp_forward cfg req) eqn:Ef; [|reflexivity].
          specialize (Hfp eq_refl). unfold sp_target, dp_lookup in Et. rewrite Ef in Et.
          unfold sp_has_proxy in Hfp. destruct (c_prx cfg) as [[[? ?] ?]|]; discriminate. }
        destruct (code =? 4) eqn:E4.
        - apply (in_err_plain E202); [discriminate|]. cbn [sp_applies]. unfold sp_found.
          fold code. now rewrite Hnf, Et, E4.
        - apply (in_err_plain E404); [discriminate|]. cbn [sp_applies]. unfold sp_found.
          fold code. now rewrite Hnf, Et, E4.
      Qed.

      Lemma cont_allowed :
        In (dp_hr_cont cfg h mc
              (mkMsg ty code (m_mid req) (m_token req) (sp_fix_block2 req) (m_payload req))
              (sp_forward cfg req) (sp_mine cfg req)) outs.
      Proof.
        unfold dp_hr_cont. cbn [m_opts m_code m_type m_mid m_token m_payload].
        (* the request handed on is sp_req', whichever branch is taken *)
        assert (Hlook : forall o, o = sp_adjusted cfg req ->
                  sp_applies cfg mc req E508 = false -> sp_applies cfg mc req E400 = false ->
                  In (dp_hr_lookup cfg h mc
                        (mkMsg ty code (m_mid req) (m_token req) o (m_payload req))
                        (sp_forward cfg req)) outs).
        { intros o ->. exact lookup_allowed. }
        pose proof (fix_find req DP_HOP_LIMIT ltac:(discriminate)) as Hh.
        unfold sp_adjusted in Hlook. cbn [sp_applies] in Hlook. unfold sp_hop in Hlook.
        rewrite <- Hh in Hlook.
        destruct (sp_mine cfg req) eqn:Em; [apply Hlook; reflexivity|].
        destruct (dp_find DP_HOP_LIMIT (sp_fix_block2 req)) as [v|] eqn:Ev;
          [|apply Hlook; reflexivity].
        cbn zeta. destruct (dp_decode v =? 1) eqn:E1.
        { rewrite fail_fix. apply (in_err_plain E508); [discriminate|].
          cbn [sp_applies]. unfold sp_hop. now rewrite <- Hh, Em, E1. }
        destruct ((dp_decode v <? 1) || (255 <? dp_decode v)) eqn:E2.
        { rewrite fail_fix. apply (in_err_plain E400); [discriminate|].
          cbn [sp_applies]. unfold sp_hop. now rewrite <- Hh, Em, E2. }
        apply Hlook; reflexivity.
      Qed.
    End Passed.

    Lemma handle_allowed :
      sp_bad_options cfg req = false -> sp_oscore_drop cfg req = false ->
      sp_long_token req = false ->
      In (dp_handle_request cfg h mc (sp_fwd_critical cfg req)
            (mkMsg ty code (m_mid req) (m_token req) (sp_fix_block2 req) (m_payload req))) outs.
    Proof.
      intros Hbad Hos Hlt.
      unfold dp_handle_request.
      cbn [m_opts m_code m_type m_mid m_token m_payload].
      rewrite !fix_has, (fix_find req DP_URI_HOST), !fail_fix by discriminate. fold opts.
      change (dp_async_pending cfg _) with (sp_async cfg req).
      change (dp_eack (mkMsg _ _ _ _ _ _)) with (dp_eack req).
      destruct (mc && negb (ty =? NR_NON)) eqn:Emc.
      { apply in_request, RoMcastCon; [|left; reflexivity].
        destruct mc; [|discriminate]. unfold is_conn, NR_CON, NR_NON, ty in *. cbn [andb] in *. lia. }
      assert (Hmc : mc && (ty =? NR_CON) = false).
      { destruct mc; [|reflexivity]. unfold NR_CON, NR_NON, ty in *. cbn [andb] in *. lia. }
      destruct (sp_async cfg req) eqn:Has.
      { apply in_request, RoAsync; [exact Has|]. fold ty.
        destruct (ty =? NR_CON); [right; left; reflexivity|left; reflexivity]. }
      pose proof (cont_allowed Hos Hlt Hmc Has) as HC.
      destruct (dp_has DP_PROXY_SCHEME opts && negb (dp_has DP_URI_HOST opts)) eqn:Eps.
      { apply in_request, (RoErr _ _ _ _ E402).
        - cbn [sp_applies]. fold opts. rewrite Eps. now rewrite orb_true_r.
        - unfold sp_emit. apply in_or_app. right. left. reflexivity. }
      assert (H402 : sp_applies cfg mc req E402 = sp_mine cfg req && sp_fwd_critical cfg req).
      { cbn [sp_applies]. fold opts. now rewrite Hbad, Eps. }
      destruct (dp_has DP_PROXY_SCHEME opts || dp_has DP_PROXY_URI opts) eqn:Epx.
      2: { (* no proxy option *)
        apply orb_false_iff in Epx as [E39 E35].
        assert (Hm : sp_mine cfg req = false) by (unfold sp_mine; fold opts; now rewrite E39).
        assert (Hf : sp_forward cfg req = false)
          by (unfold sp_forward, sp_proxy_req; fold opts; now rewrite E39, E35).
        rewrite Hm, Hf in HC. apply HC.
        - now rewrite H402, Hm.
        - cbn [sp_applies]. unfold sp_proxy_req. fold opts. now rewrite E39, E35.
        - discriminate. }
      assert (Hpr : sp_proxy_req req = true)
        by (unfold sp_proxy_req; fold opts; rewrite orb_comm; exact Epx).
      destruct (c_prx cfg) as [[[pmask pflags] names]|] eqn:Eprx.
      2: { apply (in_err_plain E505); [discriminate|]. cbn [sp_applies]. now rewrite Hpr, Eprx. }
      rewrite !fail_fix.
      assert (H505 : sp_applies cfg mc req E505 = (code <=? 7) && negb (dp_has_method pmask code)).
      { cbn [sp_applies]. now rewrite Hpr, Eprx. }
      destruct ((code <=? 7) && negb (dp_has_method pmask code)) eqn:Em.
      { apply (in_err_plain E505); [discriminate|exact H505]. }
      assert (H35 : dp_has DP_PROXY_URI opts = false).
      { destruct Hscope as [Hs _]. apply Hs. unfold sp_has_proxy. now rewrite Eprx. }
      rewrite H35 in *. rewrite orb_false_r in Epx.
      assert (Hhp : sp_forward cfg req = true -> sp_has_proxy cfg = true).
      { intros _. unfold sp_has_proxy. now rewrite Eprx. }
      (* is this server the endpoint named by Uri-Host? *)
      match goal with |- In (if ?c then _ else _) _ =>
        assert (Hmine : sp_mine cfg req = c)
          by (unfold sp_mine; fold opts; rewrite Epx, H35, Eprx; cbn [negb andb];
              destruct (dp_find DP_URI_HOST opts); reflexivity);
        rewrite <- Hmine; clear Hmine end.
      unfold sp_forward in HC, Hhp. rewrite Hpr in HC, Hhp. cbn [andb] in HC, Hhp.
      destruct (sp_mine cfg req) eqn:Emi; cbn [negb] in HC.
      - destruct (sp_fwd_critical cfg req) eqn:Efc.
        + apply in_request, (RoErr _ _ _ _ E402); [now rewrite H402|].
          unfold sp_emit. rewrite Eprx. apply in_or_app. right. right. left. reflexivity.
        + apply HC; [now rewrite H402|exact H505|discriminate].
      - apply HC; [now rewrite H402|exact H505|exact Hhp].
    Qed.
  End Request.

  Theorem serve_allowed : In (dp_serve cfg h mc req) outs.
  Proof.
    unfold dp_serve. fold ty code.
    destruct ((ty =? NR_CON) || (ty =? NR_NON)) eqn:Econn.
    2: { (* ACK / RST: every branch yields nothing *)
      unfold outs. rewrite outs_not_conn by exact Econn.
      assert (Et : (ty =? NR_ACK) || (ty =? NR_RST) = true).
      { unfold NR_CON, NR_NON, NR_ACK, NR_RST, ty in *. lia. }
      apply orb_false_iff in Econn as [E0 E1]. rewrite E0, E1, Et.
      destruct (dp_bad_class code); [left; reflexivity|]. cbn zeta.
      destruct (negb (cs_ok (dp_check_critical cfg req))); [left; reflexivity|].
      destruct (dp_oscore_drop cfg code (dp_fix_block2 cfg req)); left; reflexivity. }
    assert (Hconn : is_conn req) by exact Econn.
    assert (Ear : (ty =? NR_ACK) || (ty =? NR_RST) = false).
    { unfold NR_CON, NR_NON, NR_ACK, NR_RST in *. lia. }
    destruct (dp_bad_class code) eqn:Ecls.
    { unfold outs. rewrite outs_bad by auto.
      destruct (ty =? NR_CON); [apply rst_in_reject|apply nil_in_reject]. }
    pose proof scan_ok as Hs1. pose proof scan_clean as Hs2.
    cbn zeta. fold s. rewrite Ear.
    destruct (cs_ok s) eqn:Eok; cbn [negb].
    - (* all options acceptable *)
      destruct (Hs2 eq_refl) as [-> ->]. rewrite fix_oscore.
      symmetry in Hs1. apply negb_true_iff in Hs1.
      destruct (sp_oscore_drop cfg req) eqn:Eos.
      { destruct (dp_is_request code) eqn:Eq.
        - apply in_request, RoOscore; auto. left. reflexivity.
        - apply reject_in_outs; auto. apply nil_in_reject. }
      destruct (dp_is_request code) eqn:Eq.
      + destruct (8 <? len (m_token req)) eqn:Elt.
        * apply in_request, RoLongToken; auto. apply rst_in_reject.
        * apply handle_allowed; auto.
      + destruct (dp_is_response code) eqn:Er.
        * unfold outs. rewrite outs_resp by auto. fold ty. apply in_or_app.
          destruct (ty =? NR_CON); [right; left; reflexivity|left; apply nil_in_reject].
        * apply reject_in_outs; auto.
          destruct (code =? 0); [apply rst_in_reject|].
          destruct (ty =? NR_CON); [apply rst_in_reject|apply nil_in_reject].
    - (* an unknown critical or illegally repeated option *)
      symmetry in Hs1. apply negb_false_iff in Hs1.
      destruct (dp_is_request code) eqn:Eq.
      2: { apply reject_in_outs; auto.
           destruct (ty =? NR_NON); [|rewrite orb_false_r in Econn; rewrite Econn];
             apply rst_in_reject. }
      destruct (ty =? NR_NON) eqn:E1.
      { apply in_request, RoNonBad; auto; [fold ty; now rewrite E1, Hs1|apply rst_in_reject]. }
      rewrite orb_false_r in Econn. rewrite Econn.
      apply in_request, (RoErr _ _ _ _ E402); auto.
      + cbn [sp_applies]. now rewrite Hs1.
      + unfold sp_emit. fold ty. rewrite Econn. left. reflexivity.
  Qed.
End Main.
