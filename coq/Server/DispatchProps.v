(* C10 - consequences of the relation dp_allowed: the clauses of the property statement. *)
From LibcoapV Require Import Base.Tactics Base.Bytes Wire.OptCodec Wire.Pdu Server.NoResponse
  Server.NoResponseProofs Server.Dispatch Server.DispatchSpec Server.DispatchLemmas
  Server.DispatchProofs.
Local Open Scope Z_scope.

Lemma finish_cases : forall cfg mc req rf early diag resp,
  let rtype := if early && (m_type resp =? NR_ACK) then NR_CON else m_type resp in
  let out := dp_finish cfg mc req rf early diag resp in
  out = [] \/
  (out = [EvTx false (dp_empty NR_ACK (m_mid resp))] /\ rtype = NR_ACK) \/
  (exists o, out = [EvTx diag (mkMsg rtype (m_code resp) (m_mid resp) (m_token resp) o
                                    (m_payload resp))]).
Proof.
  intros. unfold out, dp_finish. fold rtype.
  destruct (early && (m_type resp =? NR_ACK) && (m_code resp =? 0)); [left; reflexivity|].
  match goal with |- context [nr_fate_code ?a ?b ?c ?d ?e ?f ?g ?i] =>
    destruct (nr_fate_code a b c d e f g i) eqn:Ef end.
  - right. right. eexists. reflexivity.
  - right. left. split; [reflexivity|]. eapply nr_empty_ack_is_ack. exact Ef.
  - left. reflexivity.
Qed.

Lemma finish_calls : forall cfg mc rq rf early diag resp,
  dp_calls (dp_finish cfg mc rq rf early diag resp) = [].
Proof.
  intros. destruct (finish_cases cfg mc rq rf early diag resp) as [H | [[H _] | [o H]]];
    cbn zeta in H; rewrite H; reflexivity.
Qed.

Lemma fail_calls : forall cfg mc req rf c, dp_calls (dp_fail cfg mc req rf c) = [].
Proof. intros. apply finish_calls. Qed.

Lemma reject_cases : forall mc req x, In x (sp_reject mc req) ->
  x = [] \/ (mc = false /\ x = [EvTx false (dp_empty NR_RST (m_mid req))]).
Proof. intros [] req x; cbn; intuition. Qed.

Lemma emit_cases : forall cfg mc req e x, In x (sp_emit cfg mc req e) ->
  (m_type req = NR_CON /\ x = [sp_err402_direct cfg req]) \/
  (exists rf, x = dp_fail cfg mc req rf (dp_err_code e)).
Proof.
  intros cfg mc req e x. destruct e; cbn [sp_emit]; try (intros [<- | []]; eauto).
  rewrite !in_app_iff, in_if_nil. intros [[Hc [<- | []]] | [[<- | []] | H]]; eauto.
  - left. split; [unfold NR_CON in *; lia|reflexivity].
  - destruct (c_prx cfg) as [[[? f] ?]|]; [|contradiction]. destruct H as [<- | []]. eauto.
Qed.

(* dp_invoke when an application handler runs: an Empty ACK first when the proxy resource gets a
   Confirmable request, the handler, then what becomes of its response *)
Definition dp_early (t : dp_target) (rq : msg) : bool :=
  match t with TProxy _ _ => m_type rq =? NR_CON | _ => false end.

Definition dp_handler_run (cfg : dp_cfg) (h : dp_hreq -> dp_hresp) (mc : bool) (rq : msg)
           (t : dp_target) : list dp_ev :=
  let i := mkHreq (dp_target_rid t) (m_code rq) rq (dp_query cfg (m_opts rq)) in
  let r := h i in
  (if dp_early t rq then [dp_eack rq] else []) ++ EvH i ::
  (if dp_bad_class (hr_code r) then []
   else if hr_code r =? 168 then [EvSkip]
   else dp_finish cfg mc rq (Some (dp_target_flags t)) (dp_early t rq) false
          (mkMsg (dp_resp_type rq) (hr_code r) (m_mid rq) (m_token rq)
                 (dp_resp_opts (dp_observe t rq) (hr_code r) (hr_opts r)) (hr_payload r))).

Lemma invoke_handler : forall cfg h mc rq t,
  t <> TWellKnown -> dp_observe t rq <> ObsBlocked ->
  dp_invoke cfg h mc rq t = dp_handler_run cfg h mc rq t.
Proof.
  intros cfg h mc rq t Hwk Hob. unfold dp_invoke, dp_handler_run.
  destruct t; try congruence; destruct (dp_observe _ rq); try congruence; reflexivity.
Qed.

Lemma handler_run_calls : forall cfg h mc rq t,
  dp_calls (dp_handler_run cfg h mc rq t) =
  [mkHreq (dp_target_rid t) (m_code rq) rq (dp_query cfg (m_opts rq))].
Proof.
  intros. unfold dp_handler_run. cbv zeta.
  destruct (dp_early t rq); cbn [app];
    [change (dp_calls (dp_eack rq :: EvH ?i :: ?x)) with (i :: dp_calls x)
    |change (dp_calls (EvH ?i :: ?x)) with (i :: dp_calls x)];
    f_equal; (destruct (dp_bad_class _); [reflexivity|]); (destruct (_ =? 168); [reflexivity|]);
    apply finish_calls.
Qed.

Definition dp_is_empty (m : msg) : Prop :=
  m_code m = 0 /\ m_token m = [] /\ m_opts m = [] /\ m_payload m = [].

Record dp_reply_ok (mc : bool) (req m : msg) : Prop := {
  ro_mid : m_mid m = m_mid req;
  ro_token : (dp_is_empty m /\ (m_type m = NR_ACK \/ m_type m = NR_RST)) \/ m_token m = m_token req;
  ro_ack : m_type m = NR_ACK -> m_type req = NR_CON;
  ro_con : m_type req = NR_CON -> m_type m = NR_ACK \/ m_type m = NR_RST \/ m_type m = NR_CON;
  ro_non : m_type req = NR_NON -> m_type m = NR_NON \/ m_type m = NR_RST;
  ro_rst : m_type m = NR_RST -> mc = false }.

Lemma empty_ok : forall mc req ty,
  (ty = NR_ACK /\ m_type req = NR_CON) \/
  (ty = NR_RST /\ mc = false /\ (m_type req = NR_CON \/ m_type req = NR_NON)) ->
  dp_reply_ok mc req (dp_empty ty (m_mid req)).
Proof.
  intros mc req ty H.
  constructor; cbn [dp_empty m_mid m_type m_code m_token m_opts m_payload];
    unfold NR_CON, NR_NON, NR_ACK, NR_RST in *; try lia.
  - left. split; [repeat split|lia].
  - intros ->. destruct H as [[H _] | [_ [H _]]]; [discriminate|exact H].
Qed.

Lemma dp_err_eq_dec : forall a b : dp_err, {a = b} + {a <> b}.
Proof. decide equality. Qed.

Section Props.
  Variable cfg : dp_cfg.
  Variable h : dp_hreq -> dp_hresp.
  Variable mc : bool.
  Variable req : msg.

  Let ty := m_type req.
  Let code := m_code req.

  Definition conn : Prop := ty = NR_CON \/ ty = NR_NON.

  Lemma conn_b : conn <-> is_conn req.
  Proof. unfold conn, is_conn, ty, NR_CON, NR_NON. lia. Qed.

  Lemma resp_type_cases : conn ->
    (ty = NR_CON /\ dp_resp_type req = NR_ACK) \/ (ty = NR_NON /\ dp_resp_type req = NR_NON).
  Proof.
    unfold conn, dp_resp_type. fold ty. unfold NR_CON, NR_NON, NR_ACK in *.
    intros [-> | ->]; cbn; auto.
  Qed.

  Lemma sent_ok : forall rtype c o p, conn ->
    (rtype = dp_resp_type req \/ (rtype = NR_CON /\ ty = NR_CON)) ->
    dp_reply_ok mc req (mkMsg rtype c (m_mid req) (m_token req) o p).
  Proof.
    intros rtype c o p Hc Hr.
    destruct (resp_type_cases Hc) as [[H1 H2] | [H1 H2]]; rewrite H2 in Hr;
      constructor; cbn [m_type m_mid m_token]; auto; fold ty; rewrite ?H1;
      unfold NR_CON, NR_NON, NR_ACK, NR_RST in *; intros; try lia.
  Qed.

  (* what follows an Empty ACK sent early (the proxy resource acknowledges a Confirmable request
     before the handler runs), or stands alone: nothing, or one well-formed reply - a separate
     CON response in the first case, a direct reply (any other type) in the second *)
  Definition reply_seq (early : bool) (l : list msg) : Prop :=
    l = [] \/ exists a, l = [a] /\ dp_reply_ok mc req a /\ (m_type a = NR_CON <-> early = true).

  Definition out_ok (out : list dp_ev) : Prop :=
    (length (dp_calls out) <= 1)%nat /\
    exists early : bool, (early = true -> ty = NR_CON) /\
    exists l, dp_txs out = (if early then [dp_empty NR_ACK (m_mid req)] else []) ++ l /\
              reply_seq early l.

  Lemma direct_ok : forall out, (length (dp_calls out) <= 1)%nat -> reply_seq false (dp_txs out) ->
    out_ok out.
  Proof.
    intros out H1 H2. split; [exact H1|]. exists false. split; [discriminate|].
    exists (dp_txs out). split; [reflexivity|exact H2].
  Qed.

  Lemma seq_one : forall a, dp_reply_ok mc req a -> m_type a <> NR_CON -> reply_seq false [a].
  Proof.
    intros a H1 H2. right. exists a. split; [reflexivity|]. split; [exact H1|].
    split; [contradiction|discriminate].
  Qed.

  Lemma eack_reply_ok : ty = NR_CON -> dp_reply_ok mc req (dp_empty NR_ACK (m_mid req)).
  Proof. intros Ht. apply empty_ok. auto. Qed.

  (* dp_finish on a response prepared for this request: nothing, an Empty ACK in its place, or
     the response itself - as a separate CON when an Empty ACK went out before *)
  Lemma finish_seq : forall rq rf (early : bool) diag c o p, conn ->
    (early = true -> ty = NR_CON) ->
    reply_seq early (dp_txs (dp_finish cfg mc rq rf early diag
                               (mkMsg (dp_resp_type req) c (m_mid req) (m_token req) o p))).
  Proof.
    intros rq rf early diag c o p Hc He.
    destruct (finish_cases cfg mc rq rf early diag
                (mkMsg (dp_resp_type req) c (m_mid req) (m_token req) o p)) as [H | [[H Ht] | [o' H]]];
      cbn [m_type m_code m_mid m_token m_payload] in *; rewrite H.
    - left. reflexivity.
    - (* an Empty ACK in place of the response: none went out before, the request is CON *)
      assert (early = false /\ ty = NR_CON) as [-> Hcon].
      { destruct (resp_type_cases Hc) as [[H1 H2] | [H1 H2]]; rewrite H2 in Ht;
          destruct early; cbn in Ht; try discriminate; auto. }
      right. eexists. split; [reflexivity|]. split; [exact (eack_reply_ok Hcon)|]. split; discriminate.
    - right. eexists. split; [reflexivity|]. cbn [m_type]. destruct early; cbn [andb].
      + (* after the Empty ACK: the prepared ACK goes out as a separate CON *)
        specialize (He eq_refl).
        destruct (resp_type_cases Hc) as [[_ ->] | [H1 _]]; [|rewrite He in H1; discriminate].
        change (NR_ACK =? NR_ACK) with true. cbv iota. split; [apply sent_ok; auto|tauto].
      + split; [apply sent_ok; auto|]. split; [|discriminate].
        destruct (resp_type_cases Hc) as [[_ ->] | [_ ->]]; discriminate.
  Qed.

  Lemma finish_ok : forall rq rf diag c o p, conn ->
    out_ok (dp_finish cfg mc rq rf false diag (mkMsg (dp_resp_type req) c (m_mid req) (m_token req) o p)).
  Proof.
    intros. apply direct_ok; [rewrite finish_calls; cbn; lia|]. apply finish_seq; [assumption|discriminate].
  Qed.

  Lemma fail_ok : forall rf c, conn -> out_ok (dp_fail cfg mc req rf c).
  Proof. intros. apply finish_ok. assumption. Qed.

  Lemma reject_ok : forall x, conn -> In x (sp_reject mc req) -> out_ok x.
  Proof.
    intros x Hc Hx. apply reject_cases in Hx as [-> | [Hm ->]]; (apply direct_ok; [cbn; lia|]).
    - left. reflexivity.
    - apply seq_one; [|discriminate]. apply empty_ok. right. auto.
  Qed.

  Lemma direct402_ok : conn -> out_ok [sp_err402_direct cfg req].
  Proof.
    intros Hc. apply direct_ok; [cbn; lia|]. apply seq_one; [apply sent_ok; auto|].
    cbn [dp_error m_type].
    change (dp_resp_type (mkMsg _ _ _ _ _ _)) with (dp_resp_type req).
    destruct (resp_type_cases Hc) as [[_ ->] | [_ ->]]; discriminate.
  Qed.

  Lemma handler_run_ok : forall o t, conn -> out_ok (dp_handler_run cfg h mc (sp_req_with req o) t).
  Proof.
    intros o t Hc. split; [rewrite handler_run_calls; cbn; lia|].
    assert (He : dp_early t (sp_req_with req o) = true -> ty = NR_CON).
    { destruct t; try discriminate. cbn [dp_early sp_req_with m_type]. unfold NR_CON, ty. lia. }
    exists (dp_early t (sp_req_with req o)). split; [exact He|]. unfold dp_handler_run.
    match goal with |- context [EvH _ :: ?x] => exists (dp_txs x) end.
    split; [unfold dp_txs; rewrite flat_map_app; destruct (dp_early t _); reflexivity|].
    destruct (dp_bad_class _); [left; reflexivity|]. destruct (_ =? 168); [left; reflexivity|].
    apply finish_seq; assumption.
  Qed.

  Lemma invoke_ok : forall o t, conn -> out_ok (dp_invoke cfg h mc (sp_req_with req o) t).
  Proof.
    intros o t Hc.
    assert (Hskip : out_ok [EvSkip]) by (apply direct_ok; [cbn; lia|left; reflexivity]).
    assert (Hwk : t = TWellKnown \/ t <> TWellKnown) by (destruct t; auto; right; discriminate).
    destruct Hwk as [-> | Hwk].
    { unfold dp_invoke. destruct (dp_has DP_BLOCK2 _); [exact Hskip|apply finish_ok; exact Hc]. }
    destruct (dp_observe t (sp_req_with req o)) eqn:Eo;
      try (rewrite invoke_handler by congruence; apply handler_run_ok; exact Hc).
    unfold dp_invoke. rewrite Eo. destruct t; try congruence; exact Hskip.
  Qed.

  Lemma allowed_shapes : forall out, dp_allowed cfg h mc req out ->
    out = [] \/ (conn /\ In out (sp_reject mc req)) \/
    (ty = NR_CON /\ (out = [dp_eack req] \/ out = [sp_err402_direct cfg req])) \/
    (conn /\ exists rf c, out = dp_fail cfg mc req rf c) \/
    (conn /\ dp_bad_class code = false /\ dp_is_request code = true /\
     sp_blocked cfg mc req = false /\ In out (sp_handler_outs cfg h mc req)).
  Proof.
    intros out. unfold dp_allowed.
    destruct ((ty =? NR_CON) || (ty =? NR_NON)) eqn:Ec.
    2: { rewrite outs_not_conn by exact Ec. intros [<- | []]. auto. }
    assert (Hc : conn) by (apply conn_b; exact Ec).
    assert (Hack : forall x, In x (if ty =? NR_CON then [[dp_eack req]] else []) ->
                             ty = NR_CON /\ x = [dp_eack req]).
    { intros x Hx. apply in_if_nil in Hx as [Ht [<- | []]]. unfold NR_CON in *. split; [lia|reflexivity]. }
    destruct (dp_bad_class code) eqn:Eb; [rewrite outs_bad by assumption; auto 8|].
    destruct (dp_is_request code) eqn:Eq.
    - intros H. apply request_out_iff in H; try assumption.
      destruct H as [x _ H | x _ H | x _ H | x _ H | x _ H | e x _ H | x Hb H].
      + destruct H as [<- | []]. auto.
      + auto.
      + destruct H as [<- | []]. auto.
      + destruct H as [<- | H]; [auto|]. apply Hack in H as [Ht ->]. auto 8.
      + auto.
      + apply emit_cases in H as [[Ht ->] | [rf ->]]; eauto 8.
      + do 4 right. auto.
    - destruct (dp_is_response code) eqn:Er.
      + rewrite outs_resp by assumption. fold ty. intros H. apply in_app_or in H as [H | H]; [auto 8|].
        apply Hack in H as [Ht ->]. auto 8.
      + rewrite outs_other by assumption. auto 8.
  Qed.

  Theorem allowed_ok : forall out, dp_allowed cfg h mc req out -> out_ok out.
  Proof.
    intros out H.
    destruct (allowed_shapes out H)
      as [-> | [[Hc Hx] | [[Ht [-> | ->]] | [[Hc [rf [c ->]]] | [Hc [_ [_ [_ Hx]]]]]]]].
    - apply direct_ok; [cbn; lia|left; reflexivity].
    - exact (reject_ok out Hc Hx).
    - apply direct_ok; [cbn; lia|]. apply seq_one; [exact (eack_reply_ok Ht)|discriminate].
    - apply direct402_ok. left. exact Ht.
    - apply fail_ok. exact Hc.
    - unfold sp_handler_outs in Hx. apply in_map_iff in Hx as [o [<- _]]. apply invoke_ok. exact Hc.
  Qed.

  (* clause 1 of the statement: at most one direct reply; clause 2: token / message id / type *)
  Definition is_direct (m : msg) : bool := negb (m_type m =? NR_CON).

  Theorem one_direct_reply : forall out, dp_allowed cfg h mc req out ->
    (length (filter is_direct (dp_txs out)) <= 1)%nat /\ (length (dp_txs out) <= 2)%nat /\
    (length (dp_calls out) <= 1)%nat.
  Proof.
    intros out H. destruct (allowed_ok out H) as [Hc [early [_ [l [-> Hl]]]]].
    destruct Hl as [-> | [a [-> [_ Ha]]]]; destruct early; cbn [app filter is_direct]; try (cbn; lia).
    - (* Empty ACK, then the separate response: not a direct reply *)
      unfold is_direct. rewrite (proj2 Ha eq_refl). cbn. lia.
    - destruct (is_direct a); cbn; lia.
  Qed.

  (* with [ro_rst]: never a Reset in reply to a multicast message, whatever it contains *)
  Theorem replies_well_formed : forall out m, dp_allowed cfg h mc req out ->
    In m (dp_txs out) -> dp_reply_ok mc req m.
  Proof.
    intros out m H Hin. destruct (allowed_ok out H) as [_ [early [He [l [E Hl]]]]].
    rewrite E in Hin. apply in_app_or in Hin as [Hin | Hin].
    - destruct early; [|contradiction]. destruct Hin as [<- | []]. exact (eack_reply_ok (He eq_refl)).
    - destruct Hl as [-> | [a [-> [Ha _]]]]; [contradiction|]. destruct Hin as [<- | []]. exact Ha.
  Qed.

  Theorem blocked_no_handler : sp_blocked cfg mc req = true ->
    forall out, dp_allowed cfg h mc req out -> dp_calls out = [].
  Proof.
    intros Hb out H.
    destruct (allowed_shapes out H)
      as [-> | [[_ Hx] | [[_ [-> | ->]] | [[_ [rf [c ->]]] | [_ [_ [_ [Hx _]]]]]]]];
      try reflexivity.
    - apply reject_cases in Hx as [-> | [_ ->]]; reflexivity.
    - apply fail_calls.
    - congruence.
  Qed.

  Hypothesis Hconn : conn.
  Hypothesis Hcls : dp_bad_class code = false.
  Hypothesis Hreq : dp_is_request code = true.

  Let request_out := request_out_iff cfg h mc req (proj1 conn_b Hconn) Hcls Hreq.

  Theorem unblocked_runs_handler : sp_blocked cfg mc req = false ->
    forall out, dp_allowed cfg h mc req out <-> In out (sp_handler_outs cfg h mc req).
  Proof.
    intros Hb out. unfold dp_allowed. rewrite request_out. split.
    - apply blocked_false_iff in Hb as [Hos [Hlt [Hmc [Has He]]]].
      intros [x H _ | x H _ | x H _ | x H _ | x H _ | e x H _ | x _ H]; try congruence.
      apply andb_true_iff in H as [_ H]. specialize (He E402). cbn [sp_applies] in He.
      rewrite H in He. discriminate.
    - exact (RoHandler _ _ _ _ out Hb).
  Qed.

  Theorem single_error_decides : forall e,
    sp_applies cfg mc req e = true ->
    (forall e', e' <> e -> sp_applies cfg mc req e' = false) ->
    sp_oscore_drop cfg req = false -> sp_long_token req = false -> mc && (ty =? NR_CON) = false ->
    sp_async cfg req = false ->
    forall out, dp_allowed cfg h mc req out ->
      In out (sp_emit cfg mc req e) \/
      (e = E402 /\ ty = NR_NON /\ sp_bad_options cfg req = true /\ In out (sp_reject mc req)).
  Proof.
    intros e He Hothers Hos Hlt Hmc Has out Ha. apply request_out in Ha. unfold ty in Hmc.
    destruct Ha as [x H _ | x H _ | x H _ | x H _ | x H Hx | e' x H Hx | x H _]; try congruence.
    - right. apply andb_true_iff in H as [H1 H2].
      assert (e = E402).
      { destruct (dp_err_eq_dec E402 e) as [E | Hne]; [auto|]. specialize (Hothers E402 Hne).
        cbn [sp_applies] in Hothers. rewrite H2 in Hothers. discriminate. }
      repeat split; auto. unfold NR_NON, ty in *. lia.
    - left. destruct (dp_err_eq_dec e' e) as [-> | Hne]; [exact Hx|].
      rewrite (Hothers e' Hne) in H. discriminate.
    - apply blocked_false_iff in H as [_ [_ [_ [_ H]]]]. rewrite H in He. discriminate.
  Qed.
End Props.

Definition dp_noresp_of (rq : msg) : option Z :=
  match dp_find DP_NORESPONSE (m_opts rq) with Some v => Some (dp_decode v) | None => None end.

(* the only edits between the prepared response and the wire: Block1 is dropped from an error
   response other than 4.13; a 5.08 built by the library and sent at once gets Hop-Limit 255 *)
Definition dp_sent_opts (diag : bool) (code : Z) (imm : bool) (o : list opt) : list opt :=
  let o1 := if (2 <? nr_class code) && negb (code =? 141) then dp_remove1 DP_BLOCK1 o else o in
  if diag && (code =? 168) && imm then o1 ++ [(DP_HOP_LIMIT, [255])] else o1.

Definition dp_has_data (m : msg) : bool := match m_payload m with [] => false | _ => true end.

Theorem finish_is_spec : forall cfg mc rq rf diag resp,
  nr_std_code (m_code resp) ->
  m_type resp = NR_ACK \/ m_type resp = NR_NON \/ m_type resp = NR_CON ->
  dp_finish cfg mc rq rf false diag resp =
  match nr_fate_spec (dp_noresp_of rq) mc (c_mpr cfg) rf (m_type resp) (m_code resp) (dp_has_data resp) with
  | NrDropped => []
  | NrEmptyAck => [EvTx false (dp_empty NR_ACK (m_mid resp))]
  | NrSendAsIs =>
      [EvTx diag (mkMsg (m_type resp) (m_code resp) (m_mid resp) (m_token resp)
                        (dp_sent_opts diag (m_code resp) (nr_immediate mc (c_mpr cfg) rf) (m_opts resp))
                        (m_payload resp))]
  end.
Proof.
  intros cfg mc rq rf diag resp Hc Ht. unfold dp_finish. cbn [andb].
  fold (dp_noresp_of rq). fold (dp_has_data resp).
  rewrite nr_fate_code_is_spec by assumption. reflexivity.
Qed.

Lemma resp_type_std : forall req,
  dp_resp_type req = NR_ACK \/ dp_resp_type req = NR_NON \/ dp_resp_type req = NR_CON.
Proof. intros. unfold dp_resp_type. destruct (m_type req =? NR_CON); auto. Qed.

Theorem handler_call : forall cfg h mc req,
  sp_target cfg req <> TWellKnown ->
  dp_observe (sp_target cfg req) (sp_req' cfg req) <> ObsBlocked ->
  dp_calls (sp_handler_out cfg h mc req) =
  [mkHreq (dp_target_rid (sp_target cfg req)) (m_code req) (sp_req' cfg req)
          (dp_query cfg (m_opts req))].
Proof.
  intros cfg h mc req Hwk Hob. unfold sp_handler_out.
  rewrite invoke_handler, handler_run_calls by assumption.
  change (m_opts (sp_req' cfg req)) with (sp_adjusted cfg req). rewrite adj_query. reflexivity.
Qed.

Theorem handler_out_is : forall cfg h mc req,
  (m_type req = NR_CON \/ m_type req = NR_NON) ->
  (match sp_target cfg req with TRes _ | TUnknown _ _ => True | _ => False end) ->
  let obs := dp_observe (sp_target cfg req) (sp_req' cfg req) in
  obs <> ObsBlocked ->
  let i := mkHreq (dp_target_rid (sp_target cfg req)) (m_code req) (sp_req' cfg req)
                  (dp_query cfg (m_opts req)) in
  let r := h i in
  nr_std_code (hr_code r) -> hr_code r <> 168 ->
  sp_handler_out cfg h mc req =
  EvH i ::
  match nr_fate_spec (dp_noresp_of req) mc (c_mpr cfg) (Some (dp_target_flags (sp_target cfg req)))
                     (dp_resp_type req) (hr_code r)
                     (match hr_payload r with [] => false | _ => true end) with
  | NrDropped => []
  | NrEmptyAck => [EvTx false (dp_empty NR_ACK (m_mid req))]
  | NrSendAsIs =>
      [EvTx false (mkMsg (dp_resp_type req) (hr_code r) (m_mid req) (m_token req)
                         (dp_sent_opts false (hr_code r) true (dp_resp_opts obs (hr_code r) (hr_opts r)))
                         (hr_payload r))]
  end.
Proof.
  intros cfg h mc req _ Ht obs Hob. unfold sp_handler_out.
  assert (Hwk : sp_target cfg req <> TWellKnown) by (intros E; rewrite E in Ht; exact Ht).
  assert (He : dp_early (sp_target cfg req) (sp_req' cfg req) = false)
    by (destruct (sp_target cfg req); try contradiction; reflexivity).
  rewrite invoke_handler by assumption. unfold dp_handler_run. rewrite He. fold obs.
  change (m_opts (sp_req' cfg req)) with (sp_adjusted cfg req). rewrite adj_query.
  cbv zeta. cbn [app]. intros Hstd H168.
  assert (Hbc : dp_bad_class (hr_code (h (mkHreq (dp_target_rid (sp_target cfg req)) (m_code req)
                                   (sp_req' cfg req) (dp_query cfg (m_opts req))))) = false)
    by (unfold dp_bad_class, nr_class; unfold nr_std_code in Hstd; lia).
  change (m_code (sp_req' cfg req)) with (m_code req). rewrite Hbc.
  apply Z.eqb_neq in H168. rewrite H168.
  rewrite finish_is_spec by (cbn [m_code m_type]; auto using resp_type_std).
  unfold dp_noresp_of at 1. change (m_opts (sp_req' cfg req)) with (sp_adjusted cfg req).
  rewrite adj_find by discriminate. reflexivity.
Qed.

Theorem handler_views : forall cfg req o, In o (sp_views cfg req) ->
  map fst o = map fst (m_opts req) /\
  (forall n, n <> DP_BLOCK2 -> n <> DP_HOP_LIMIT -> dp_values n o = dp_values n (m_opts req)) /\
  dp_uri_path cfg o = dp_uri_path cfg (m_opts req) /\ dp_query cfg o = dp_query cfg (m_opts req).
Proof.
  intros cfg req o Hin. pose proof (views_same cfg req o Hin) as H.
  split; [apply H|]. split; [intros n Hb Hh; apply H; intros [E | [E | []]]; congruence|].
  split; [apply (same_but_path _ _ _ H)|apply (same_but_query _ _ _ H)];
    intros [E | [E | []]]; discriminate.
Qed.

Lemma dp_bytes_eqb_eq : forall a b, dp_bytes_eqb a b = true <-> a = b.
Proof.
  induction a as [|x a IH]; destruct b as [|y b]; cbn; split; intros H; try discriminate; auto.
  - apply andb_true_iff in H as [H1 H2]. apply Z.eqb_eq in H1. apply IH in H2. congruence.
  - inversion H; subst. rewrite Z.eqb_refl. cbn. apply IH. reflexivity.
Qed.

Lemma find_res_sound : forall l p r, dp_find_res l p = Some r -> In r l /\ r_path r = p.
Proof.
  induction l as [|x l IH]; intros p r; cbn; [discriminate|].
  destruct (dp_bytes_eqb (r_path x) p) eqn:E.
  - intros [= <-]. split; [left; reflexivity|]. apply dp_bytes_eqb_eq. exact E.
  - intros H. destruct (IH _ _ H). auto.
Qed.

Lemma find_res_none : forall l p, dp_find_res l p = None <-> (forall r, In r l -> r_path r <> p).
Proof.
  induction l as [|x l IH]; intros p; cbn.
  - split; [intros _ r []|reflexivity].
  - destruct (dp_bytes_eqb (r_path x) p) eqn:E.
    + split; [discriminate|]. intros H. exfalso. apply (H x); [left; reflexivity|].
      apply dp_bytes_eqb_eq. exact E.
    + rewrite IH. split.
      * intros H r [<- | Hr]; [|auto]. intros Hp. apply dp_bytes_eqb_eq in Hp. congruence.
      * intros H r Hr. apply H. right. exact Hr.
Qed.

Theorem lookup_none : forall cfg code p,
  dp_lookup cfg false code p = TNone <->
  (forall r, In r (c_res cfg) -> r_path r <> p) /\ p <> dp_wellknown /\
  dp_unknown_takes cfg code false = None.
Proof.
  intros cfg code p. unfold dp_lookup. rewrite <- find_res_none.
  destruct (dp_find_res (c_res cfg) p) eqn:Ef.
  - split; [discriminate|]. intros [H _]. discriminate.
  - assert (Hu : dp_unknown_takes cfg code false = None -> dp_unknown_takes cfg code true = None).
    { unfold dp_unknown_takes. destruct (c_unk cfg) as [[m f]|]; [|reflexivity].
      cbn [negb orb andb]. destruct (dp_has_method m code).
      - intros H. discriminate H.
      - intros _. now rewrite andb_false_r. }
    destruct (dp_unknown_takes cfg code true) as [[m f]|] eqn:E1.
    + split; [discriminate|]. intros [_ [_ H]]. discriminate (Hu H).
    + destruct (dp_bytes_eqb p dp_wellknown) eqn:Ew.
      * split; [discriminate|]. intros [_ [H _]]. apply dp_bytes_eqb_eq in Ew. contradiction.
      * destruct (dp_unknown_takes cfg code false) as [[m f]|] eqn:E2.
        -- split; [discriminate|]. intros [_ [_ H]]. discriminate.
        -- split; [|reflexivity]. intros _. repeat split; auto.
           intros Hp. apply dp_bytes_eqb_eq in Hp. congruence.
Qed.

Theorem error_reply_is : forall cfg mc req rf c,
  nr_std_code c ->
  dp_fail cfg mc req rf c =
  match nr_fate_spec (dp_noresp_of req) mc (c_mpr cfg) rf (dp_resp_type req) c false with
  | NrDropped => []
  | NrEmptyAck => [EvTx false (dp_empty NR_ACK (m_mid req))]
  | NrSendAsIs =>
      [EvTx true (mkMsg (dp_resp_type req) c (m_mid req) (m_token req)
                        (if (c =? 168) && nr_immediate mc (c_mpr cfg) rf then [(DP_HOP_LIMIT, [255])] else [])
                        [])]
  end.
Proof.
  intros cfg mc req rf c Hc. unfold dp_fail, dp_error. rewrite dp_error_opts_empty.
  rewrite finish_is_spec by (cbn [m_code m_type]; auto using resp_type_std).
  cbn [m_type m_code m_mid m_token m_opts m_payload].
  unfold dp_has_data. cbn [m_payload]. unfold dp_sent_opts. cbn [dp_remove1 andb app].
  destruct (nr_fate_spec _ _ _ _ _ _ _); try reflexivity.
  destruct ((2 <? nr_class c) && negb (c =? 141)); destruct ((c =? 168) && _); reflexivity.
Qed.

(* non-vacuity: concrete servers and requests *)
Definition ex_handler (_ : dp_hreq) : dp_hresp := mkHresp 69 [(12, [0])] [104; 105].
Definition ex_cfg : dp_cfg :=
  mkCfg true [] [mkRes [97] 1 8 true; mkRes [98] 3 0 false] (Some (4, 0)) None (fun _ => [60; 47; 97; 62])
        dp_unescaped_path dp_unescaped_query [].
Definition ex_get (ty : Z) (path : bytes) (extra : list opt) : msg :=
  mkMsg ty 1 4660 [170; 187] ((11, path) :: extra) [].

(* CON GET /a : the GET handler of /a runs once, piggybacked 2.05 with what it set *)
Example ex_handler_runs :
  dp_serve ex_cfg ex_handler false (ex_get 0 [97] []) =
  [EvH (mkHreq (RRes [97]) 1 (ex_get 0 [97] []) []);
   EvTx false (mkMsg 2 69 4660 [170; 187] [(12, [0])] [104; 105])] /\
  sp_blocked ex_cfg false (ex_get 0 [97] []) = false /\
  dp_in_scope ex_cfg ex_handler (ex_get 0 [97] []) /\
  (forall out, dp_allowed ex_cfg ex_handler false (ex_get 0 [97] []) out ->
               out = dp_serve ex_cfg ex_handler false (ex_get 0 [97] [])).
Proof.
  split; [|split; [|split]].
  - vm_compute. reflexivity.
  - vm_compute. reflexivity.
  - split; [|split; [|split]].
    + discriminate.
    + intros i. vm_compute. discriminate.
    + intros H. vm_compute in H. discriminate.
    + vm_compute. discriminate.
  - intros out H. unfold dp_allowed in H. vm_compute in H. vm_compute.
    repeat (destruct H as [<- | H]; [reflexivity|]). contradiction.
Qed.

(* the rules of the statement on concrete requests *)
Example ex_rules :
  (* unknown critical option 13: 4.02 echoing it (CON), Reset (NON), nothing (NON, multicast) *)
  dp_serve ex_cfg ex_handler false (ex_get 0 [97] [(13, [1])]) =
    [EvTx true (mkMsg 2 130 4660 [170; 187] [(13, [1])] [])] /\
  dp_serve ex_cfg ex_handler false (ex_get 1 [97] [(13, [1])]) = [EvTx false (dp_empty 3 4660)] /\
  dp_serve ex_cfg ex_handler true (ex_get 1 [97] [(13, [1])]) = [] /\
  (* illegal repeat of Accept *)
  dp_serve ex_cfg ex_handler false (ex_get 0 [97] [(17, []); (17, [])]) =
    [EvTx true (mkMsg 2 130 4660 [170; 187] [(17, [])] [])] /\
  (* not found: 4.04; the unknown-resource handler takes PUT (mask 4 = method 3) *)
  dp_serve ex_cfg ex_handler false (ex_get 0 [122] []) =
    [EvTx true (mkMsg 2 132 4660 [170; 187] [] [])] /\
  dp_calls (dp_serve ex_cfg ex_handler false (mkMsg 0 3 1 [] [(11, [122])] [1])) =
    [mkHreq RUnknown 3 (mkMsg 0 3 1 [] [(11, [122])] [1]) []] /\
  (* DELETE on nothing: 2.02 *)
  dp_serve ex_cfg ex_handler false (mkMsg 0 4 1 [] [(11, [122])] []) =
    [EvTx true (mkMsg 2 66 1 [] [] [])] /\
  (* method not allowed *)
  dp_serve ex_cfg ex_handler false (mkMsg 0 2 1 [] [(11, [97])] []) =
    [EvTx true (mkMsg 2 133 1 [] [] [])] /\
  (* If-None-Match on an existing resource *)
  dp_serve ex_cfg ex_handler false (mkMsg 0 2 1 [] [(5, []); (11, [98])] []) =
    [EvTx true (mkMsg 2 140 1 [] [] [])] /\
  (* FETCH without Content-Format (a FETCH handler exists on /f) *)
  dp_serve (mkCfg false [] [mkRes [102] 16 0 false] None None (fun _ => []) dp_unescaped_path dp_unescaped_query []) ex_handler false
           (mkMsg 0 5 1 [] [(11, [102])] []) = [EvTx true (mkMsg 2 143 1 [] [] [])] /\
  (* proxy option without proxy support *)
  dp_serve ex_cfg ex_handler false (mkMsg 0 1 1 [] [(3, [104]); (11, [97]); (39, [99])] []) =
    [EvTx true (mkMsg 2 165 1 [] [] [])] /\
  (* Hop-Limit 1 / 0 *)
  dp_serve ex_cfg ex_handler false (mkMsg 0 1 1 [] [(11, [97]); (16, [1])] []) =
    [EvTx true (mkMsg 2 168 1 [] [(16, [255])] [])] /\
  dp_serve ex_cfg ex_handler false (mkMsg 0 1 1 [] [(11, [97]); (16, [0])] []) =
    [EvTx true (mkMsg 2 128 1 [] [] [])] /\
  (* invalid code class: Reset (CON), nothing (NON) *)
  dp_serve ex_cfg ex_handler false (mkMsg 0 33 7 [] [] []) = [EvTx false (dp_empty 3 7)] /\
  dp_serve ex_cfg ex_handler false (mkMsg 1 200 7 [] [] []) = [] /\
  (* No-Response 2 suppresses the 2.05: Empty ACK for CON, nothing for NON *)
  dp_txs (dp_serve ex_cfg ex_handler false (ex_get 0 [97] [(258, [2])])) = [dp_empty 2 4660] /\
  dp_txs (dp_serve ex_cfg ex_handler false (ex_get 1 [97] [(258, [2])])) = [] /\
  (* multicast: /a has multicast support, /b has not (4.05, suppressed) *)
  dp_txs (dp_serve ex_cfg ex_handler true (ex_get 1 [97] [])) =
    [mkMsg 1 69 4660 [170; 187] [(12, [0])] [104; 105]] /\
  dp_serve ex_cfg ex_handler true (ex_get 1 [98] []) = [].
Proof. vm_compute. repeat split. Qed.

(* the options echoed in the 4.02 of coap_dispatch(): only options of the request, only
   offending ones (unknown critical, or a non-repeatable number), never Content-Format,
   Hop-Limit or OSCORE *)
Theorem echo_sound : forall cfg req o,
  In o (m_opts (match sp_err402_direct cfg req with EvTx _ m => m | _ => dp_empty 0 0 end)) ->
  In o (dp_fix_block2 cfg req) /\
  (sp_is_unknown cfg req (fst o) = true \/ dp_repeatable (fst o) = false) /\
  fst o <> DP_CONTENT_FORMAT /\ fst o <> DP_HOP_LIMIT /\ fst o <> DP_OSCORE.
Proof.
  intros cfg req o. unfold sp_err402_direct, dp_error. cbn [m_opts]. unfold dp_error_opts.
  intros H. apply dp_add_all_subset in H. apply filter_In in H as [Hin Hf].
  rewrite !dp_fget_funset, !andb_true_iff, !negb_true_iff, !Z.eqb_neq in Hf.
  destruct Hf as [[[Hf H12] H16] H9].
  split; [exact Hin|]. split; [|auto].
  unfold dp_check_critical in Hf. apply crit_loop_flt in Hf. cbn [cs_flt] in Hf.
  rewrite dp_fget_empty in Hf. destruct Hf as [Hf | [Hf | Hf]]; [discriminate|left|right; exact Hf].
  exact Hf.
Qed.

(* the behaviour repaired by /repo 592fce7 is outside the relation: a Reset in reply to the
   multicast NON of corpus/C10/mcast_rst.case (unknown critical option 13) *)
Example mcast_reset_refused :
  let req := mkMsg 1 1 4660 [] [(11, [97]); (13, [])] [] in
  dp_req_wf req /\ dp_in_scope ex_cfg ex_handler req /\
  ~ dp_allowed ex_cfg ex_handler true req [EvTx false (dp_empty NR_RST 4660)] /\
  dp_allowed ex_cfg ex_handler true req [] /\
  dp_allowed ex_cfg ex_handler false req [EvTx false (dp_empty NR_RST 4660)].
Proof.
  cbv zeta. split; [|split; [|split; [|split]]].
  - repeat constructor; cbn; lia.
  - split; [|split; [|split]].
    + discriminate.
    + intros i. vm_compute. discriminate.
    + intros H. vm_compute in H. discriminate.
    + vm_compute. discriminate.
  - unfold dp_allowed. vm_compute. intros H.
    repeat (destruct H as [H | H]; [discriminate H|]). exact H.
  - unfold dp_allowed. vm_compute. auto.
  - unfold dp_allowed. vm_compute. auto.
Qed.

(* the look-up key keeps the segment structure: when the tables never copy the separator
   unescaped (what the check demands of the library's tables), an escaped Uri-Path option
   contains no '/' and an escaped Uri-Query option no '&' - a '/' inside ONE option can not make
   the request hit a multi-segment resource *)
Definition dp_tables_ok (cfg : dp_cfg) : Prop :=
  c_unesc_path cfg 47 = false /\ c_unesc_path cfg 37 = false /\
  c_unesc_query cfg 38 = false /\ c_unesc_query cfg 37 = false.

Lemma escape_no_separator : forall unesc sep seg,
  wfb seg -> unesc sep = false -> sep = 47 \/ sep = 38 -> ~ In sep (dp_escape unesc seg).
Proof.
  intros unesc sep seg Hw Hu Hs. unfold dp_escape. intros Hin.
  apply in_flat_map in Hin as [c [Hc Hin]].
  assert (Hb : 0 <= c < 256). { unfold wfb in Hw. rewrite Forall_forall in Hw. apply Hw. exact Hc. }
  destruct (unesc c) eqn:E.
  - destruct Hin as [<- | []]. congruence.
  - unfold dp_hexdigit in Hin. cbn [In] in Hin.
    destruct (c / 16 <? 10) eqn:E1; destruct (c mod 16 <? 10) eqn:E2; lia.
Qed.

(* a pending separate response: the repetition of the request is absorbed *)
Example ex_async_absorbed :
  let cfg := mkCfg false [] [mkRes [97] 1 0 false] None None (fun _ => [])
                   dp_unescaped_path dp_unescaped_query [[49]] in
  dp_tables_ok cfg /\
  dp_serve cfg ex_handler false (mkMsg 1 1 7 [49] [(11, [97])] []) = [] /\
  dp_serve cfg ex_handler false (mkMsg 0 1 7 [49] [(11, [97])] []) = [EvTx false (dp_empty 2 7)] /\
  dp_allowed_outs cfg ex_handler false (mkMsg 1 1 7 [49] [(11, [97])] []) = [[]] /\
  dp_calls (dp_serve cfg ex_handler false (mkMsg 1 1 7 [50] [(11, [97])] [])) <> [].
Proof. cbv zeta. vm_compute. repeat split; discriminate. Qed.
