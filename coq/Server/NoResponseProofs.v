(* C10 - proofs about the suppression rules of NoResponse.v *)
From LibcoapV Require Import Base.Tactics Server.NoResponse.
Local Open Scope Z_scope.

Lemma nr_testbit_land : forall v k, 0 <= k ->
  Z.testbit v k = negb (Z.land v (2 ^ k) =? 0).
Proof.
  intros v k Hk.
  destruct (Z.testbit v k) eqn:E.
  - symmetry. apply negb_true_iff. apply Z.eqb_neq. intro H0.
    assert (Z.testbit (Z.land v (2 ^ k)) k = true).
    { rewrite Z.land_spec, E, Z.pow2_bits_true; auto. }
    rewrite H0 in H. rewrite Z.bits_0 in H. discriminate.
  - symmetry. apply negb_false_iff. apply Z.eqb_eq.
    apply Z.bits_inj'. intros n Hn. rewrite Z.land_spec, Z.bits_0.
    destruct (Z.eq_dec n k) as [->|Hne].
    + rewrite E. reflexivity.
    + rewrite Z.pow2_bits_false by lia. apply andb_false_r.
Qed.

(* the bitmap test of no_response() is the table of RFC 7967 section 2 *)
Theorem nr_bitmap_is_rfc7967 : forall v cls,
  cls = 2 \/ cls = 4 \/ cls = 5 ->
  Z.testbit v (cls - 1) = nr_rfc7967_uninterested v cls.
Proof.
  (* the masks 2, 8, 16 of the table are 2 ^ (cls - 1) *)
  intros v cls [-> | [-> | ->]]; apply nr_testbit_land; lia.
Qed.

(* response codes whose class RFC 7252 defines (or "nothing set") *)
Definition nr_std_code (code : Z) : Prop :=
  code = 0 \/ 64 <= code < 96 \/ 128 <= code < 192.

Lemma nr_class_cases : forall code, nr_std_code code ->
  (code = 0 /\ nr_class code = 0) \/ (nr_class code = 2 /\ code <> 0) \/
  (nr_class code = 4 /\ code <> 0 /\ code <> 69) \/ (nr_class code = 5 /\ code <> 0 /\ code <> 69).
Proof.
  unfold nr_std_code, nr_class. intros code H. lia.
Qed.

(* the code's decision = the declarative table, for every No-Response value, destination,
   per-resource flag set, response type (ACK / NON / CON) and standard response code *)
Theorem nr_fate_code_is_spec : forall noresp mc mpr rflags req_ty rtype code has_data,
  nr_std_code code ->
  rtype = NR_ACK \/ rtype = NR_NON \/ rtype = NR_CON ->
  nr_fate_code noresp mc mpr rflags req_ty rtype code has_data =
  nr_fate_spec noresp mc mpr rflags rtype code has_data.
Proof.
  intros noresp mc mpr rflags req_ty rtype code has_data Hc Ht.
  assert (Hrst : (rtype =? NR_RST) = false) by (unfold NR_ACK, NR_NON, NR_CON, NR_RST in *; lia).
  unfold nr_fate_code, nr_fate_spec, nr_no_response, nr_mcast_suppressed.
  rewrite Hrst, andb_false_r.
  destruct (nr_class_cases code Hc) as [[-> Hk] | Hk].
  - (* nothing set: only the response type matters *)
    change (nr_class 0) with 0. change (0 <? 0) with false. change (0 =? 0) with true.
    change (2 <? 0) with false. rewrite andb_false_r. cbn [andb].
    assert (Hx : (rtype =? NR_ACK) = true /\ (rtype =? NR_NON) = false \/ (rtype =? NR_ACK) = false)
      by (unfold NR_ACK, NR_NON in *; lia).
    destruct (rtype =? NR_NON), (rtype =? NR_ACK), mc; try reflexivity;
      destruct Hx as [[? ?] | ?]; discriminate.
  - assert (E0 : (code =? 0) = false) by lia. rewrite E0, andb_false_r.
    assert (Hpos : (0 <? nr_class code) = true) by lia. rewrite Hpos.
    destruct noresp as [v|].
    + (* No-Response present: the bitmap decides, whatever the class and the destination *)
      rewrite <- nr_bitmap_is_rfc7967 by tauto.
      destruct (Z.testbit v (nr_class code - 1)), (rtype =? NR_ACK); reflexivity.
    + destruct mc; [|destruct rflags; rewrite ?andb_false_r; reflexivity].
      destruct rflags as [fl|], mpr; cbn [andb negb];
        try (destruct (2 <? nr_class code); reflexivity).
      (* multicast with per-resource flags: class by class *)
      assert (E69 : nr_class code <> 2 -> (code =? 69) = false) by (unfold nr_class in *; lia).
      destruct Hk as [[Hk _] | [[Hk _] | [Hk _]]]; rewrite Hk in *; try rewrite E69 by discriminate;
        cbn [Z.eqb Z.ltb Z.compare Pos.compare Pos.compare_cont Pos.eqb andb]; rewrite ?andb_false_r.
      * destruct (nr_flag fl NR_F_SUP_2XX), (nr_flag fl NR_F_SUP_205), (code =? 69), has_data;
          reflexivity.
      * destruct (nr_flag fl NR_F_DIS_4XX); reflexivity.
      * destruct (nr_flag fl NR_F_DIS_5XX); reflexivity.
Qed.

(* a Confirmable request always gets its acknowledgement on unicast: the prepared ACK is sent
   or replaced by an Empty ACK, never dropped *)
Theorem nr_ack_never_dropped_unicast : forall noresp mpr rflags req_ty code has_data,
  nr_fate_code noresp false mpr rflags req_ty NR_ACK code has_data <> NrDropped.
Proof.
  intros. unfold nr_fate_code, nr_no_response.
  change (NR_ACK =? NR_ACK) with true. change (NR_ACK =? NR_NON) with false.
  rewrite ?andb_false_r. destruct noresp, rflags; repeat case_if; discriminate.
Qed.

Lemma nr_empty_ack_is_ack : forall noresp mc mpr rf rq rtype code hd,
  nr_fate_code noresp mc mpr rf rq rtype code hd = NrEmptyAck -> rtype = NR_ACK.
Proof.
  intros noresp mc mpr rf rq rtype code hd. unfold nr_fate_code, nr_no_response.
  destruct (rtype =? NR_ACK) eqn:E; [intros _; lia|].
  rewrite ?andb_false_l. destruct noresp, rf; repeat case_if; cbn; discriminate.
Qed.

(* No-Response wins over the multicast rules: a class the client did not exclude is sent *)
Theorem nr_interest_overrides_mcast : forall v mc mpr rflags req_ty rtype code has_data,
  0 < nr_class code -> Z.testbit v (nr_class code - 1) = false ->
  nr_fate_code (Some v) mc mpr rflags req_ty rtype code has_data = NrSendAsIs.
Proof.
  intros. unfold nr_fate_code, nr_no_response.
  assert (E : (0 <? nr_class code) = true) by lia. rewrite E, H0.
  assert (E2 : (code =? 0) = false). { unfold nr_class in H. lia. }
  rewrite E2, andb_false_r. reflexivity.
Qed.

(* non-vacuity: the table distinguishes its inputs *)
Example nr_example_suppressed_ack :
  nr_fate_code (Some 2) false false None NR_CON NR_ACK 69 true = NrEmptyAck /\
  nr_fate_code (Some 2) false false None NR_NON NR_NON 69 true = NrDropped /\
  nr_fate_code (Some 8) false false None NR_NON NR_NON 69 true = NrSendAsIs /\
  nr_fate_code None true false None NR_NON NR_NON 132 true = NrDropped /\
  nr_fate_code (Some 2) true false None NR_NON NR_NON 132 true = NrSendAsIs /\
  nr_fate_code None true true (Some 128) NR_NON NR_NON 132 true = NrSendAsIs.
Proof. vm_compute. repeat split. Qed.
