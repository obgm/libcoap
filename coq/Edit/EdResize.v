(* C04 - coap_pdu_check_resize / coap_pdu_resize (src/coap_pdu.c:282-339) on the numbers
   alloc_size, max_size, requested size.  The byte-level model of the edits (Edit/EdBytes.v) uses
   only the verdict [ed_fits max size]; this file transcribes the doubling loop and shows that,
   as long as alloc_size <= max_size (or max_size = 0 = unlimited) - which coap_pdu_init
   establishes and both functions keep -, coap_pdu_check_resize(size) succeeds exactly when
   [ed_fits max size], makes at least [size] bytes available and keeps the invariant. *)
From LibcoapV Require Import Base.Tactics Edit.EdBytes.
Local Open Scope Z_scope.

(* while (size > new_size) new_size *= 2; *)
Fixpoint ed_double (fuel : nat) (size ns : Z) : option Z :=
  match fuel with
  | O => None
  | S f => if ns <? size then ed_double f size (ns * 2) else Some ns
  end.

(* coap_pdu_resize(pdu, new_size): result and the new alloc_size *)
Definition ed_pdu_resize (alloc max new_size : Z) : bool * Z :=
  if alloc <? new_size then
    if negb (max =? 0) && (max <? new_size) then (false, alloc) else (true, new_size)
  else (true, new_size).

(* coap_pdu_check_resize(pdu, size) *)
Definition ed_check_resize (alloc max size : Z) : option (bool * Z) :=
  if alloc <? size then
    match ed_double 64 size (Z.max 256 (alloc * 2)) with
    | None => None
    | Some ns =>
        if negb (max =? 0) && (max <? ns) then
          if max <? size then Some (false, alloc) else Some (ed_pdu_resize alloc max max)
        else Some (ed_pdu_resize alloc max ns)
    end
  else Some (true, alloc).

Lemma ed_double_ok f : forall size ns,
  0 < ns -> size <= ns * 2 ^ Z.of_nat f ->
  exists r, ed_double (S f) size ns = Some r /\ size <= r /\ ns <= r.
Proof.
  induction f as [|f IH]; intros size ns Hns Hs.
  - cbn [ed_double]. change (2 ^ Z.of_nat 0) with 1 in Hs.
    replace (ns <? size) with false by lia. exists ns. split; [reflexivity|lia].
  - cbn [ed_double]. destruct (ns <? size) eqn:E.
    + destruct (IH size (ns * 2) ltac:(lia)) as (r & Hr & H1 & H2).
      { rewrite Nat2Z.inj_succ, Z.pow_succ_r in Hs by lia.
        replace (ns * 2 * 2 ^ Z.of_nat f) with (ns * (2 * 2 ^ Z.of_nat f)) by ring. exact Hs. }
      exists r. cbn [ed_double] in Hr. split; [exact Hr|lia].
    + exists ns. split; [reflexivity|lia].
Qed.

Theorem ed_check_resize_spec alloc max size :
  0 <= alloc -> 0 <= max -> (max = 0 \/ alloc <= max) -> 0 <= size < 2 ^ 64 ->
  exists a',
    ed_check_resize alloc max size = Some (ed_fits max size, a') /\
    (ed_fits max size = true -> size <= a' /\ alloc <= a' /\ (max = 0 \/ a' <= max)) /\
    (ed_fits max size = false -> a' = alloc).
Proof.
  intros Ha Hm Hinv Hs. unfold ed_check_resize, ed_fits.
  destruct (alloc <? size) eqn:E1.
  2:{ exists alloc. replace ((max =? 0) || (size <=? max)) with true by lia.
      split; [reflexivity|]. split; [lia|discriminate]. }
  destruct (ed_double_ok 63 size (Z.max 256 (alloc * 2)) ltac:(lia)) as (ns & Hd & H1 & H2).
  { change (2 ^ Z.of_nat 63) with 9223372036854775808.
    change (2 ^ 64) with 18446744073709551616 in Hs. lia. }
  change (S 63) with 64%nat in Hd. rewrite Hd. unfold ed_pdu_resize.
  destruct (max =? 0) eqn:E2; cbn [negb andb orb].
  - replace (alloc <? ns) with true by lia. exists ns. split; [reflexivity|].
    split; [lia|discriminate].
  - destruct (max <? ns) eqn:E3.
    + destruct (max <? size) eqn:E4.
      * exists alloc. replace (size <=? max) with false by lia. split; [reflexivity|].
        split; [discriminate|reflexivity].
      * replace (alloc <? max) with true by lia. rewrite Z.ltb_irrefl. exists max.
        replace (size <=? max) with true by lia.
        split; [reflexivity|]. split; [lia|discriminate].
    + replace (alloc <? ns) with true by lia.
      exists ns. replace (size <=? max) with true by lia. split; [reflexivity|].
      split; [lia|discriminate].
Qed.
