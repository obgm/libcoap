(* C04 - size accounting of the edits: max_size is respected (a message that fits still fits after
   any edit), removal never grows the message, and a refusal for lack of space is conservative by
   at most the two bytes the neighbour's header may shrink by. *)
From LibcoapV Require Import Base.Tactics Base.Bytes Base.BytesProofs Wire.OptCodec
  Wire.OptCodecProofs Wire.Pdu Wire.PduProofs Wire.Build Edit.EdSpec Edit.EdLemmas
  Edit.EdSpecProofs.
Local Open Scope Z_scope.

Definition ed_size_inv (q : pdu) : Prop := p_max q = 0 \/ used (p_msg q) <= p_max q.

Lemma ed_used_set_opts q os :
  used (p_msg (set_opts q os)) =
  used (p_msg q) - len (opts_enc 0 (m_opts (p_msg q))) + len (opts_enc 0 os).
Proof.
  unfold used, set_opts, content_area. cbn [p_msg m_token m_opts m_payload]. rewrite !len_app. lia.
Qed.

Lemma ed_len_replace l1 p n (v w : bytes) l2 :
  len (opts_enc p (l1 ++ (n, v) :: l2)) =
  len (opts_enc p (l1 ++ (n, w) :: l2)) +
  opt_encode_size (n - last_from p l1) (len v) - opt_encode_size (n - last_from p l1) (len w).
Proof.
  rewrite !ed_opts_enc_app. cbn [opts_enc]. rewrite !len_app, !opt_enc_len. lia.
Qed.

Lemma ed_ext_size_add a b : 0 <= a -> 0 <= b -> ext_size (a + b) <= ext_size a + ext_size b + 1.
Proof.
  intros Ha Hb.
  destruct (ed_ext_cases (a + b)); destruct (ed_ext_cases a); destruct (ed_ext_cases b); lia.
Qed.

Lemma ed_len_remove l1 p n (w : bytes) l2 :
  ascending p (l1 ++ (n, w) :: l2) ->
  len (opts_enc p (l1 ++ l2)) <= len (opts_enc p (l1 ++ (n, w) :: l2)).
Proof.
  intros Ha. apply ed_ascending_app in Ha. destruct Ha as [_ Ha]. cbn [ascending fst] in Ha.
  destruct Ha as [Hpn Ha].
  rewrite !ed_opts_enc_app. cbn [opts_enc]. rewrite !len_app, opt_enc_len.
  pose proof (len_nonneg w) as Hw. unfold opt_encode_size.
  destruct l2 as [|[k2 w2] l3].
  - cbn [opts_enc]. change (len (@nil Z)) with 0.
    destruct (ed_ext_cases (len w)); destruct (ed_ext_cases (n - last_from p l1)); lia.
  - cbn [ascending fst] in Ha. destruct Ha as [Hnk _]. cbn [opts_enc].
    rewrite !len_app, !opt_enc_len.
    unfold opt_encode_size.
    pose proof (ed_ext_size_add (n - last_from p l1) (k2 - n) ltac:(lia) ltac:(lia)) as Hx.
    replace (n - last_from p l1 + (k2 - n)) with (k2 - last_from p l1) in Hx by lia.
    destruct (ed_ext_cases (len w)); lia.
Qed.

(* coap_insert_option asks for the size of the new option; the message with the option inserted
   is smaller than that by what the neighbour's header shrinks by *)
Lemma ed_add_opt_raw_size q n v :
  ed_mwf (p_msg q) -> 0 <= n ->
  exists sz shrink,
    0 <= shrink <= 2 /\
    used (p_msg (set_opts q (insert_opt n v (m_opts (p_msg q))))) + shrink = used (p_msg q) + sz /\
    add_opt_raw q n v =
      if (n =? last_num (m_opts (p_msg q))) && negb (repeatable n) then (false, q)
      else if fits q (used (p_msg q) + sz)
           then (true, set_opts q (insert_opt n v (m_opts (p_msg q)))) else (false, q).
Proof.
  intros [_ _ Hasc] Hn.
  destruct (ed_add_opt_raw_split q n v Hasc) as (l1 & l2 & Ho & H1 & H2 & _ & Hi & Hr).
  pose proof (ed_lastn_le_all l1 0 n Hn H1) as Hpn. rewrite Ho in Hasc.
  apply ed_ascending_app in Hasc. destruct Hasc as [Ha1 _].
  pose proof (ascending_last_from l1 0 Ha1) as Hp0. set (p1 := last_from 0 l1) in *.
  assert (Hlen : len (opts_enc 0 (m_opts (p_msg q))) = len (opts_enc 0 l1) + len (opts_enc p1 l2))
    by (rewrite Ho, ed_opts_enc_app, len_app; reflexivity).
  exists (opt_encode_size (n - p1) (len v)). rewrite Hi, Hr, ed_used_set_opts, Hlen.
  rewrite ed_opts_enc_app. fold p1. cbn [opts_enc]. rewrite !len_app, !opt_enc_len.
  destruct l2 as [|[k w] l2'].
  - exists 0. split; [lia|]. split; [cbn [opts_enc]; lia|reflexivity].
  - inversion H2 as [|? ? Hnk _]; subst. cbn [fst] in Hnk.
    exists (ext_size (k - p1) - ext_size (k - n)). split; [|split; [|reflexivity]].
    + destruct (ed_ext_cases (k - p1)); destruct (ed_ext_cases (k - n)); lia.
    + cbn [opts_enc]. rewrite !len_app, !opt_enc_len. unfold opt_encode_size. lia.
Qed.

Theorem ed_size_inv_apply q e :
  ed_mwf (p_msg q) /\ ed_size_inv q -> ed_op_ok e ->
  ed_mwf (p_msg (snd (ed_apply q e))) /\ ed_size_inv (snd (ed_apply q e)).
Proof.
  intros Hq He.
  apply (ed_apply_inv (fun q => ed_mwf (p_msg q) /\ ed_size_inv q) ed_nv_ok (fun _ => True));
    try assumption.
  - intros q0 n v [W0 I0] [Hn Hv]. split; [apply ed_mwf_add_opt_raw; assumption|].
    destruct (ed_add_opt_raw_size q0 n v W0 ltac:(lia)) as (sz & sh & Hs & Hu & ->).
    repeat case_if; cbn [snd]; try assumption.
    unfold ed_size_inv, fits in *. cbn [set_opts p_max] in *. lia.
  - intros. exact ed_hop_nv_ok.
  - intros q0 l1 n w v l2 [W0 I0] Hnv Ho Hc. split; [eapply ed_mwf_replace; eassumption|].
    unfold ed_size_inv in *. cbn [set_opts p_max]. rewrite ed_used_set_opts.
    rewrite Ho, (ed_len_replace l1 0 n v w l2).
    unfold fits, ed_vsize, opt_encode_size in *. lia.
  - intros q0 l1 n w l2 [W0 I0] Ho. split; [eapply ed_mwf_remove_at; eassumption|].
    destruct W0 as [_ _ Hasc]. rewrite Ho in Hasc. pose proof (ed_len_remove l1 0 n w l2 Hasc).
    unfold ed_size_inv in *. cbn [set_opts p_max]. rewrite ed_used_set_opts, Ho. lia.
  - intros q0 t [W0 I0] _ Ht Hc. split; [apply ed_mwf_with_token; assumption|].
    unfold ed_size_inv, used, ed_with_token, content_area, fits in *.
    cbn [p_msg p_max m_token m_opts m_payload]. lia.
  - destruct e; cbn [ed_op_ok ed_op_meets] in *; try exact I; exact He.
Qed.

(* removal never makes the message longer (the bytes the neighbour's header grows by are taken
   from the removed option) *)
Theorem ed_remove_not_longer q n :
  ed_mwf (p_msg q) -> used (p_msg (snd (ed_remove q n))) <= used (p_msg q).
Proof.
  intros [_ _ Hasc]. unfold ed_remove.
  destruct (ed_find_cases n (m_opts (p_msg q)))
    as [[-> _]|(l1 & w & l2 & Ho & _ & -> & _ & ->)]; cbn [snd]; [lia|].
  rewrite Ho in Hasc. pose proof (ed_len_remove l1 0 n w l2 Hasc) as Hr.
  rewrite ed_used_set_opts, Ho. lia.
Qed.

Theorem ed_add_opt_raw_refusal_conservative q n v :
  ed_mwf (p_msg q) -> 0 <= n ->
  fst (add_opt_raw q n v) = false ->
  (n =? last_num (m_opts (p_msg q))) && negb (repeatable n) = false ->
  p_max q <> 0 /\
  p_max q - 2 < used (p_msg (set_opts q (insert_opt n v (m_opts (p_msg q))))).
Proof.
  intros W Hn Hr Hrep. destruct (ed_add_opt_raw_size q n v W Hn) as (sz & sh & Hs & Hu & E).
  rewrite E, Hrep in Hr. destruct (fits q (used (p_msg q) + sz)) eqn:Ef; [discriminate|].
  unfold fits in Ef. lia.
Qed.
