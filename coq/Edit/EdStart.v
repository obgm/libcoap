(* C04 - where well-formed PDUs come from (the builder of C01, the parser of C03) and what the
   edits preserve beyond structure (value bytes, per-option length limits), so that the result
   of an edit list can be put on the wire and parsed back (C01's round trip). *)
From LibcoapV Require Import Base.Tactics Base.Bytes Base.BytesProofs Wire.OptCodec
  Wire.Pdu Wire.PduProofs Wire.ParseSound Wire.Build Wire.BuildProofs Edit.EdSpec Edit.EdBytes
  Edit.EdLemmas Edit.EdSpecProofs Edit.EdBytesProofs.
Local Open Scope Z_scope.

Lemma ed_opt_wf_ok o : opt_wf o -> ed_opt_ok o.
Proof. intros (H1 & H2 & _). split; assumption. Qed.

Theorem ed_start_wire_rep pr bs max :
  wfb bs -> 0 <= max ->
  match ed_b_start_wire pr bs max with
  | Some p => exists q, ed_start_wire pr bs max = Some q /\ p = ed_of_pdu q /\ ed_pwf q /\
                        parse pr bs = Some (p_msg q)
  | None => ed_start_wire pr bs max = None
  end.
Proof.
  intros Hb Hm. unfold ed_b_start_wire, ed_start_wire.
  destruct bs as [|b0 r] eqn:Ebs; [reflexivity|]. rewrite <- Ebs in *.
  destruct (parse pr bs) as [m|] eqn:EP; [|reflexivity].
  destruct (parse_sound_body pr bs m Hb EP) as
    (b0' & r' & Hbs & Hdrop & _ & Htl & _ & Hwf & Hasc & _ & _ & _).
  assert (b0' = b0) by (rewrite Ebs in Hbs; inversion Hbs; reflexivity). subst b0'.
  exists (mkPdu m max). split; [reflexivity|]. split.
  - unfold ed_of_pdu, ed_of_msg. cbn [p_msg p_max]. rewrite Hdrop. reflexivity.
  - split; [|reflexivity]. split; [|assumption]. cbn [p_msg]. constructor; try assumption.
    eapply Forall_impl; [|exact Hwf]. apply ed_opt_wf_ok.
Qed.

Definition ed_bop_ok (o : bop) : Prop :=
  match o with
  | OpOpt n v => 0 <= n <= 65535 /\ len v <= 65804
  | _ => True
  end.

Lemma ed_apply_op_opt q n v :
  m_payload (p_msg q) = [] -> apply_op q (OpOpt n v) = ed_add_internal q n v.
Proof. intros Ep. cbn [apply_op]. rewrite Ep. reflexivity. Qed.

(* coap_add_token on an empty PDU is coap_update_token's used_size = 0 path *)
Lemma ed_apply_op_token q t :
  0 <= p_max q -> used (p_msg q) = 0 -> apply_op q (OpToken t) = ed_token q t.
Proof.
  intros Hm Hu. cbn [apply_op]. unfold ed_token. rewrite Hu. cbn [Z.eqb negb].
  destruct (65804 <? len t); [reflexivity|]. unfold used in Hu.
  pose proof (len_nonneg (token_area (m_token (p_msg q)))).
  pose proof (len_nonneg (content_area (p_msg q))). pose proof (len_nonneg (token_area t)).
  replace ((len (token_area t) - len (token_area (m_token (p_msg q))) <=? 0) ||
           fits q (0 + (len (token_area t) - len (token_area (m_token (p_msg q))))))
    with (fits q (len (token_area t))) by (unfold fits; lia).
  reflexivity.
Qed.

Lemma ed_pwf_apply_op q o : ed_pwf q -> ed_bop_ok o -> ed_pwf (snd (apply_op q o)).
Proof.
  intros W Ho. destruct o as [t|n v|d].
  - destruct (used (p_msg q) =? 0) eqn:Eu; [|cbn [apply_op]; rewrite Eu; exact W].
    rewrite ed_apply_op_token by (apply W || lia). exact (ed_pwf_apply q (EdToken t) W I).
  - destruct (m_payload (p_msg q)) eqn:Ep; [|cbn [apply_op]; rewrite Ep; assumption].
    rewrite ed_apply_op_opt by assumption. cbn [ed_bop_ok] in Ho.
    apply ed_pwf_add_internal; tauto.
  - cbn [apply_op]. destruct d; cbn [snd]; [assumption|].
    destruct (m_payload (p_msg q)); [|assumption]. case_if; cbn [snd]; [|assumption].
    destruct W as [[H1 H2 H3] Hm]. split; [|assumption]. constructor; cbn; assumption.
Qed.

Lemma ed_b_build_token_refines q t :
  0 <= p_max q ->
  ed_b_add_token (ed_of_pdu q) t =
  Some (fst (apply_op q (OpToken t)), ed_of_pdu (snd (apply_op q (OpToken t)))).
Proof.
  intros Hm. destruct (used (p_msg q) =? 0) eqn:Eu.
  - rewrite ed_apply_op_token, <- ed_b_token_refines by (assumption || lia).
    unfold ed_b_token, ed_b_token_gen. rewrite ed_used_of_pdu, Eu. reflexivity.
  - cbn [apply_op]. unfold ed_b_add_token. rewrite ed_used_of_pdu, Eu. reflexivity.
Qed.

Lemma ed_b_build_data_refines q d :
  ed_b_add_data (ed_of_pdu q) d =
  Some (fst (apply_op q (OpData d)), ed_of_pdu (snd (apply_op q (OpData d)))).
Proof.
  unfold ed_b_add_data. cbn [apply_op]. destruct d as [|x xs]; [reflexivity|].
  rewrite ed_data_zero. destruct (m_payload (p_msg q)) eqn:E0; cbn [negb]; [|reflexivity].
  rewrite ed_used_of_pdu, ed_fits_of_pdu.
  destruct (fits q (used (p_msg q) + len (x :: xs) + 1)); cbn [negb fst snd]; [|reflexivity].
  unfold ed_grow. rewrite <- ed_used_of_pdu. unfold ed_used. pose proof (len_nonneg (x :: xs)).
  rewrite <- (app_nil_r (repeat _ _)), ed_bwrite_at, app_nil_r
    by (rewrite ed_len_junk, len_cons; lia).
  f_equal. f_equal.
  unfold ed_set_buf, ed_of_pdu, ed_of_msg. cbn [p_msg p_max m_type m_code m_mid m_token m_opts
    m_payload eb_type eb_code eb_mid eb_buf eb_etl eb_tlen eb_maxopt eb_max].
  unfold content_area. cbn [m_opts m_payload]. rewrite E0. cbn [payload_area].
  rewrite app_nil_r. f_equal.
  - rewrite <- !app_assoc. reflexivity.
  - rewrite !len_app, !len_cons. lia.
Qed.

Theorem ed_b_build_op_refines q o :
  ed_pwf q -> ed_bop_ok o ->
  ed_b_build_op (ed_of_pdu q) o = Some (fst (apply_op q o), ed_of_pdu (snd (apply_op q o))).
Proof.
  intros [W Hm] Ho. destruct o as [t|n v|d]; cbn [ed_b_build_op].
  - apply ed_b_build_token_refines. assumption.
  - rewrite ed_data_zero. destruct (m_payload (p_msg q)) eqn:E0; cbn [negb].
    + rewrite ed_apply_op_opt by assumption.
      cbn [ed_bop_ok] in Ho. apply ed_b_add_internal_refines; tauto.
    + cbn [apply_op]. rewrite E0. reflexivity.
  - apply ed_b_build_data_refines.
Qed.

(* coap_add_token, coap_add_option, coap_add_data transcribed on the buffer refine the abstract
   builder (Wire/Build.v): from coap_pdu_init on ([ed_pwf_init]), a message built through the API
   is, byte for byte, a well-formed PDU in the sense of the edit theorems *)
Theorem ed_b_build_refines ops : forall q,
  ed_pwf q -> Forall ed_bop_ok ops ->
  ed_b_build (ed_of_pdu q) ops = Some (fst (run_ops q ops), ed_of_pdu (snd (run_ops q ops))) /\
  ed_pwf (snd (run_ops q ops)).
Proof.
  induction ops as [|o tl IH]; intros q W Hops; [split; [reflexivity|assumption]|].
  inversion Hops as [|? ? Ho Htl]; subst. cbn [ed_b_build run_ops].
  rewrite (ed_b_build_op_refines q o W Ho). cbn [fst snd].
  pose proof (ed_pwf_apply_op q o W Ho) as W1.
  destruct (apply_op q o) as [r q1]. cbn [fst snd] in *.
  destruct (IH q1 W1 Htl) as [-> W2]. destruct (run_ops q1 tl) as [rs q2].
  split; [reflexivity|exact W2].
Qed.

Definition ed_op_fine (code : Z) (e : ed_op) : Prop :=
  match e with
  | EdInsert n v | EdUpdate n v =>
      0 <= n <= 65535 /\ len v <= 65804 /\ wfb v /\ limit_ok code n (len v) = true
  | EdRemove n => 0 <= n <= 65535
  | EdToken t => wfb t
  end.

Lemma ed_op_fine_ok code e : ed_op_fine code e -> ed_op_ok e.
Proof. destruct e; cbn; tauto. Qed.

(* what msg_wf says about each option *)
Definition ed_opt_fine (code : Z) (o : opt) : Prop :=
  opt_wf o /\ limit_ok code (fst o) (len (snd o)) = true.

Lemma ed_opts_fine_iff code l :
  Forall opt_wf l /\ limits_ok code l = true <-> Forall (ed_opt_fine code) l.
Proof.
  unfold limits_ok, ed_opt_fine. rewrite forallb_forall, !Forall_forall. split.
  - intros [H1 H2] o Ho. split; [apply H1|apply H2]; assumption.
  - intros H. split; intros o Ho; apply (H o Ho).
Qed.

Lemma ed_msg_wf_set_opts q os :
  msg_wf (p_msg q) -> m_code (p_msg q) <> 0 -> Forall (ed_opt_fine (m_code (p_msg q))) os ->
  ascending 0 os -> msg_wf (p_msg (set_opts q os)).
Proof.
  intros [A B C D E F G H] Hc Ho Ha. apply ed_opts_fine_iff in Ho. destruct Ho as [O1 O2].
  constructor; cbn [set_opts p_msg m_type m_code m_mid m_token m_opts m_payload]; try assumption.
  - split; assumption.
  - intros; contradiction.
Qed.

Lemma ed_msg_wf_fine q :
  msg_wf (p_msg q) ->
  Forall (ed_opt_fine (m_code (p_msg q))) (m_opts (p_msg q)) /\ ascending 0 (m_opts (p_msg q)).
Proof. intros [A B C D [E1 E2] F G H]. split; [apply ed_opts_fine_iff; split|]; assumption. Qed.

Theorem ed_msg_wf_apply c : c <> 0 -> forall q e,
  msg_wf (p_msg q) /\ m_code (p_msg q) = c -> ed_op_fine c e ->
  msg_wf (p_msg (snd (ed_apply q e))) /\ m_code (p_msg (snd (ed_apply q e))) = c.
Proof.
  intros Hc q e Hq He.
  apply (ed_apply_inv (fun q => msg_wf (p_msg q) /\ m_code (p_msg q) = c)
           (fun n v => 0 <= n <= 65535 /\ len v <= 65804 /\ wfb v /\ limit_ok c n (len v) = true)
           wfb); try assumption.
  - intros q0 n v [W <-] (Hn & Hv & Hb & Hl). unfold add_opt_raw.
    repeat case_if; cbn [snd]; try (split; [assumption|reflexivity]). split; [|reflexivity].
    destruct (ed_msg_wf_fine q0 W) as [F A]. apply ed_msg_wf_set_opts; try assumption.
    + apply insert_opt_forall; [|assumption]. unfold ed_opt_fine, opt_wf. cbn [fst snd]. tauto.
    + apply insert_opt_ascending; [lia|assumption].
  - intros q0 n [W <-] Ht. unfold ed_hop_trigger, is_request in Ht. destruct ed_hop_nv_ok.
    split; [assumption|]. split; [assumption|]. split; [repeat constructor; unfold is_byte; lia|].
    unfold limit_ok. replace (224 <=? m_code (p_msg q0)) with false by lia. reflexivity.
  - intros q0 l1 n w v l2 [W <-] (Hn & Hv & Hb & Hl) Ho _. split; [|reflexivity].
    destruct (ed_msg_wf_fine q0 W) as [F A]. rewrite Ho in F, A.
    apply ed_forall_app_inv in F. destruct F as (F1 & _ & F2).
    apply ed_msg_wf_set_opts; [assumption|assumption| |eapply ed_asc_replace; exact A].
    apply Forall_app. split; [assumption|]. constructor; [|assumption].
    unfold ed_opt_fine, opt_wf. cbn [fst snd]. tauto.
  - intros q0 l1 n w l2 [W <-] Ho. split; [|reflexivity].
    destruct (ed_msg_wf_fine q0 W) as [F A]. rewrite Ho in F, A.
    apply ed_forall_app_inv in F. destruct F as (F1 & _ & F2).
    apply ed_msg_wf_set_opts; [assumption|assumption| |eapply ed_asc_remove; exact A].
    apply Forall_app. split; assumption.
  - intros q0 t [[A B C D E' F G H] <-] Ht Hl _. split; [|reflexivity].
    constructor; cbn [ed_with_token p_msg m_type m_code m_mid m_token m_opts m_payload];
      try assumption.
    + split; assumption.
    + intros; contradiction.
  - destruct e; cbn [ed_op_fine ed_op_meets] in *; try exact I; exact He.
Qed.

Theorem ed_edits_then_wire pr q es p' rs :
  ed_pwf q -> Forall ed_op_ok es ->
  ed_b_run (ed_of_pdu q) es = Some (rs, p') ->
  msg_wf (p_msg (snd (ed_run q es))) ->
  rs = fst (ed_run q es) /\
  ed_abs p' = Some (p_msg (snd (ed_run q es))) /\
  parse pr (header pr (p_msg (snd (ed_run q es))) ++ eb_buf p') =
    Some (norm_fields pr (p_msg (snd (ed_run q es)))).
Proof.
  intros W Hes Hrun Hwf. rewrite (ed_b_run_refines es q W Hes) in Hrun.
  inversion Hrun; subst. split; [reflexivity|]. split.
  - apply ed_abs_of_pdu. apply ed_pwf_run; assumption.
  - apply (parse_serialize pr _ Hwf).
Qed.
