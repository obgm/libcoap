(* C04 - non-vacuity: a concrete message (extended token, options whose deltas sit in all three
   classes, payload) meets every hypothesis of the theorems, and a concrete edit list makes the
   neighbour's header go large->small, small->large, changes a value across the 12/13 length
   boundary and replaces the token by one of 300 bytes. *)
From LibcoapV Require Import Base.Tactics Base.Bytes Base.BytesProofs Wire.Pdu Wire.PduProofs
  Wire.Build Edit.EdSpec Edit.EdBytes Edit.EdBytesProofs Edit.EdStart.
Local Open Scope Z_scope.

Definition ed_ex_pdu : pdu :=
  mkPdu (mkMsg 0 1 7 (repeat 5 13) [(11, [97]); (300, []); (2000, [1; 2])] [1]) 0.

Definition ed_ex_edits : list ed_op :=
  [EdInsert 290 [9]; EdRemove 11; EdUpdate 2000 (repeat 0 13); EdToken (repeat 7 300);
   EdRemove 290; EdRemove 5].

Example ed_ex_pwf : ed_pwf ed_ex_pdu.
Proof.
  split; [|cbn; lia]. constructor; cbn [ed_ex_pdu p_msg m_token m_opts].
  - vm_compute. discriminate.
  - repeat constructor; cbn [fst snd]; try lia; vm_compute; discriminate.
  - cbn [ascending fst]. lia.
Qed.

Example ed_ex_msg_wf : msg_wf (p_msg ed_ex_pdu).
Proof.
  constructor; cbn [ed_ex_pdu p_msg m_type m_code m_mid m_token m_opts m_payload].
  - lia.
  - lia.
  - lia.
  - split; [vm_compute; discriminate|apply wfbb_spec; reflexivity].
  - split; [|cbn [ascending fst]; lia].
    repeat constructor; cbn [fst snd]; try lia; try (vm_compute; discriminate);
      unfold is_byte; lia.
  - reflexivity.
  - repeat constructor; unfold is_byte; lia.
  - discriminate.
Qed.

Example ed_ex_fine : Forall (ed_op_fine (m_code (p_msg ed_ex_pdu))) ed_ex_edits.
Proof.
  constructor.
  { split; [lia|]. split; [vm_compute; discriminate|]. split; [apply wfbb_spec|]; reflexivity. }
  constructor; [cbn [ed_op_fine]; lia|]. constructor.
  { split; [lia|]. split; [vm_compute; discriminate|]. split; [apply wfbb_spec|]; reflexivity. }
  constructor; [apply wfbb_spec; reflexivity|].
  constructor; [cbn [ed_op_fine]; lia|]. constructor; [cbn [ed_op_fine]; lia|]. constructor.
Qed.

(* what the edits return and leave, on the specification *)
Example ed_ex_run :
  ed_run ed_ex_pdu ed_ex_edits =
  ([true; true; true; true; true; false],
   mkPdu (mkMsg 0 1 7 (repeat 7 300) [(300, []); (2000, repeat 0 13)] [1]) 0).
Proof. vm_compute. reflexivity. Qed.

(* and on the bytes (by computation; the general statement is ed_b_run_refines) *)
Example ed_ex_b_run :
  ed_b_run (ed_of_pdu ed_ex_pdu) ed_ex_edits =
  Some (fst (ed_run ed_ex_pdu ed_ex_edits), ed_of_pdu (snd (ed_run ed_ex_pdu ed_ex_edits))).
Proof. vm_compute. reflexivity. Qed.

Theorem ed_ex_nonvacuous :
  ed_pwf ed_ex_pdu /\ msg_wf (p_msg ed_ex_pdu) /\ m_code (p_msg ed_ex_pdu) <> 0 /\
  Forall (ed_op_fine (m_code (p_msg ed_ex_pdu))) ed_ex_edits /\
  fst (ed_run ed_ex_pdu ed_ex_edits) = [true; true; true; true; true; false] /\
  m_opts (p_msg (snd (ed_run ed_ex_pdu ed_ex_edits))) = [(300, []); (2000, repeat 0 13)] /\
  len (m_token (p_msg (snd (ed_run ed_ex_pdu ed_ex_edits)))) = 300.
Proof.
  split; [exact ed_ex_pwf|]. split; [exact ed_ex_msg_wf|]. split; [discriminate|].
  split; [exact ed_ex_fine|]. rewrite ed_ex_run. repeat split.
Qed.
