(* C04 - the transcription of coap_update_token as pinned (e_token_length stored through an 8-bit
   cast, [ed_b_token_cast8]) does not refine the specification: witness by computation. *)
From LibcoapV Require Import Base.Tactics Base.Bytes Wire.Pdu Wire.Build
  Edit.EdSpec Edit.EdBytes.
Local Open Scope Z_scope.

Definition ed_wit_pdu : pdu :=
  mkPdu (mkMsg 0 1 7 [1; 2] [(11, [97; 98]); (60, [1])] [255; 0]) 0.
Definition ed_wit_token : bytes := repeat 7 255.

(* [f] returns what [ed_token] returns and the accessors then show [ed_token]'s message *)
Definition ed_refines_step (f : ed_bpdu -> bytes -> option (bool * ed_bpdu)) (q : pdu) (t : bytes)
  : Prop :=
  match f (ed_of_pdu q) t with
  | Some (r, p') => r = fst (ed_token q t) /\ ed_abs p' = Some (p_msg (snd (ed_token q t)))
  | None => False
  end.

Theorem ed_token_cast8_refuted :
  exists q t, len t <= 65804 /\ ed_abs (ed_of_pdu q) = Some (p_msg q) /\
              ~ ed_refines_step ed_b_token_cast8 q t.
Proof.
  exists ed_wit_pdu, ed_wit_token. split; [vm_compute; discriminate|].
  split; [vm_compute; reflexivity|].
  unfold ed_refines_step. vm_compute. intros [_ H]. discriminate H.
Qed.

(* the same step with e_token_length stored unchanged is fine on this witness (the general
   statement is ed_b_token_refines in EdBytesProofs.v) *)
Example ed_token_fixed_on_witness : ed_refines_step ed_b_token ed_wit_pdu ed_wit_token.
Proof. unfold ed_refines_step. vm_compute. split; reflexivity. Qed.
