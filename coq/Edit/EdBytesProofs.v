(* C04 - the byte-level edits (Edit/EdBytes.v) refine the edits on the abstract message
   (Edit/EdSpec.v): on the buffer of a well-formed PDU every C function, transcribed, returns
   what the specification returns and leaves exactly the buffer / bookkeeping of the
   specification's result.  In particular the model never gets stuck there (no store or move
   outside the bytes it is entitled to, no NULL option, no fuel exhaustion). *)
From LibcoapV Require Import Base.Tactics Base.Bytes Base.BytesProofs Wire.OptCodec
  Wire.OptCodecProofs Wire.Pdu Wire.PduProofs Wire.Build Edit.EdSpec Edit.EdBytes Edit.EdLemmas
  Edit.EdSpecProofs.
Local Open Scope Z_scope.

Lemma ed_it_next_opt pos num d w rest :
  0 <= d <= 65535 -> len w <= 65804 -> 0 <= num -> num + d <= 65535 ->
  ed_it_next (pos, opt_enc d w ++ rest, num) =
  Some (mkHit pos (opt_enc d w ++ rest) d w (num + d)
              (pos + len (opt_enc d w), rest, num + d)).
Proof.
  intros Hd Hw Hn Hs. unfold ed_it_next.
  destruct (opt_enc_first d w rest ltac:(lia)) as (b & tl & Heq & Hb).
  rewrite Heq. replace (b =? PAYLOAD_START) with false by lia. rewrite <- Heq.
  rewrite opt_parse_enc by lia.
  replace ((num + d) mod 65536) with (num + d) by lia.
  rewrite len_app. replace (len (opt_enc d w) + len rest - len rest) with (len (opt_enc d w)) by lia.
  reflexivity.
Qed.

Lemma ed_it_next_tail pos num tail : tail_ok tail -> ed_it_next (pos, tail, num) = None.
Proof. intros [->|[p ->]]; reflexivity. Qed.

Lemma ed_walk_prefix stop l1 : forall pos prev fuel rest,
  0 <= prev -> ascending prev l1 -> Forall ed_opt_ok l1 ->
  Forall (fun o => stop (fst o) = false) l1 ->
  ed_walk (length l1 + fuel) stop (pos, opts_enc prev l1 ++ rest, prev) prev =
  ed_walk fuel stop (pos + len (opts_enc prev l1), rest, last_from prev l1) (last_from prev l1).
Proof.
  induction l1 as [|[n v] tl IH]; intros pos prev fuel rest Hp Hasc Hok Hsf.
  - cbn [length Nat.add opts_enc app]. rewrite ed_lastn_nil. change (len (@nil Z)) with 0.
    rewrite Z.add_0_r. reflexivity.
  - cbn [ascending fst] in Hasc. destruct Hasc as [Hpn Hasc].
    inversion Hok as [|? ? [Hn Hv] Hok']; subst. inversion Hsf as [|? ? Hs1 Hsf']; subst.
    cbn [fst snd] in *. cbn [length Nat.add opts_enc ed_walk].
    rewrite <- app_assoc, ed_it_next_opt by lia. cbn [eh_num eh_st].
    replace (prev + (n - prev)) with n by lia. rewrite Hs1, IH by (assumption || lia).
    rewrite ed_lastn_cons, len_app, Z.add_assoc. reflexivity.
Qed.

Lemma ed_collect_all l : forall pos prev fuel tail,
  0 <= prev -> ascending prev l -> Forall ed_opt_ok l -> tail_ok tail ->
  ed_collect (length l + S fuel) (pos, opts_enc prev l ++ tail, prev) = Some l.
Proof.
  induction l as [|[n v] tl IH]; intros pos prev fuel tail Hp Hasc Hok Htl;
    cbn [length Nat.add opts_enc app ed_collect].
  - rewrite ed_it_next_tail by assumption. reflexivity.
  - cbn [ascending fst] in Hasc. destruct Hasc as [Hpn Hasc].
    inversion Hok as [|? ? [Hn Hv] Hok']; subst. cbn [fst snd] in *.
    rewrite <- app_assoc, ed_it_next_opt by lia. cbn [eh_num eh_st eh_val].
    replace (prev + (n - prev)) with n by lia. rewrite IH by (assumption || lia). reflexivity.
Qed.

Lemma ed_buf_of_pdu q :
  eb_buf (ed_of_pdu q) = token_area (m_token (p_msg q)) ++ opts_enc 0 (m_opts (p_msg q)) ++
                         payload_area (m_payload (p_msg q)).
Proof. reflexivity. Qed.

Lemma ed_used_of_pdu q : ed_used (ed_of_pdu q) = used (p_msg q).
Proof. unfold ed_used, used. rewrite ed_buf_of_pdu, len_app. reflexivity. Qed.

Lemma ed_fits_of_pdu q size : ed_fits (eb_max (ed_of_pdu q)) size = fits q size.
Proof. reflexivity. Qed.

Lemma ed_maxopt_of_pdu q : eb_maxopt (ed_of_pdu q) = last_num (m_opts (p_msg q)).
Proof. reflexivity. Qed.

Lemma ed_opt_enc_pos d v : 1 <= len (opt_enc d v).
Proof.
  unfold opt_enc, opt_hdr. rewrite len_app, len_cons.
  pose proof (len_nonneg (ext_bytes d ++ ext_bytes (len v))). pose proof (len_nonneg v). lia.
Qed.

Lemma ed_content_empty m :
  content_area m = [] -> m_opts m = [] /\ m_payload m = [].
Proof.
  unfold content_area. intros H. apply app_eq_nil in H. destruct H as [H1 H2]. split.
  - destruct (m_opts m) as [|[n v] tl]; [reflexivity|]. cbn [opts_enc] in H1.
    apply app_eq_nil in H1. destruct H1 as [H1 _]. pose proof (ed_opt_enc_pos (n - 0) v) as H.
    rewrite H1 in H. change (1 <= 0) in H. lia.
  - destruct (m_payload m); [reflexivity|discriminate H2].
Qed.

(* where there is nothing after the token the iterator is not even started; the loops then do
   what they would do on an empty rest *)
Lemma ed_it_init_of_pdu q :
  ed_it_init (ed_of_pdu q) =
  match content_area (p_msg q) with
  | [] => None
  | c => Some (len (token_area (m_token (p_msg q))), c, 0)
  end.
Proof.
  unfold ed_it_init, ed_used. cbn [ed_of_pdu ed_of_msg eb_buf eb_etl].
  rewrite len_app, drop_app_exact. pose proof (len_nonneg (content_area (p_msg q))) as H.
  destruct (content_area (p_msg q)) as [|b c].
  - change (len (@nil Z)) with 0. rewrite Z.add_0_r, Z.leb_refl. reflexivity.
  - rewrite len_cons in *. pose proof (len_nonneg c).
    replace (_ <=? _) with false by lia. reflexivity.
Qed.

Lemma ed_search_of_pdu q stop :
  ed_search (ed_of_pdu q) stop =
  ed_walk (ed_fuel (ed_of_pdu q)) stop
          (len (token_area (m_token (p_msg q))), content_area (p_msg q), 0) 0.
Proof.
  unfold ed_search. rewrite ed_it_init_of_pdu.
  destruct (content_area (p_msg q)); reflexivity.
Qed.

Lemma ed_fuel_split q l1 l2 :
  m_opts (p_msg q) = l1 ++ l2 -> exists f, ed_fuel (ed_of_pdu q) = (length l1 + S f)%nat.
Proof.
  intros H. pose proof (opts_enc_length (m_opts (p_msg q)) 0) as Hl. rewrite H in Hl at 1.
  rewrite app_length in Hl. exists (length (eb_buf (ed_of_pdu q)) - length l1)%nat.
  unfold ed_fuel. rewrite ed_buf_of_pdu, !app_length. lia.
Qed.

Lemma ed_search_none q stop :
  ed_mwf (p_msg q) -> Forall (fun o => stop (fst o) = false) (m_opts (p_msg q)) ->
  exists pr, ed_search (ed_of_pdu q) stop = EfEnd pr.
Proof.
  intros [_ Hok Hasc] Hsf. rewrite ed_search_of_pdu.
  destruct (ed_fuel_split q (m_opts (p_msg q)) []) as [f ->]; [symmetry; apply app_nil_r|].
  unfold content_area. rewrite ed_walk_prefix by (assumption || lia).
  cbn [ed_walk]. rewrite ed_it_next_tail by apply payload_area_tail_ok. eexists. reflexivity.
Qed.

Lemma ed_locate q stop l1 k w l2 :
  ed_mwf (p_msg q) -> m_opts (p_msg q) = l1 ++ (k, w) :: l2 ->
  Forall (fun o => stop (fst o) = false) l1 -> stop k = true ->
  let p1 := last_from 0 l1 in
  let P := token_area (m_token (p_msg q)) ++ opts_enc 0 l1 in
  let R := opts_enc k l2 ++ payload_area (m_payload (p_msg q)) in
  0 <= p1 <= k /\ k <= 65535 /\ len w <= 65804 /\
  eb_buf (ed_of_pdu q) = P ++ opt_enc (k - p1) w ++ R /\
  used (p_msg q) = len P + len (opt_enc (k - p1) w ++ R) /\
  ed_search (ed_of_pdu q) stop =
    EfAt (mkHit (len P) (opt_enc (k - p1) w ++ R) (k - p1) w k
                (len P + len (opt_enc (k - p1) w), R, k)) p1.
Proof.
  intros [_ Hok Hasc] Ho Hsf Hst p1 P R. rewrite Ho in Hok, Hasc.
  apply ed_ascending_app in Hasc. destruct Hasc as [Ha1 Ha2]. fold p1 in Ha2.
  cbn [ascending fst] in Ha2. destruct Ha2 as [Hpk _].
  apply ed_forall_app_inv in Hok. destruct Hok as (Hok1 & [Hk Hw] & _). cbn [fst snd] in Hk, Hw.
  pose proof (ascending_last_from l1 0 Ha1) as Hp0. fold p1 in Hp0.
  assert (Hc : content_area (p_msg q) = opts_enc 0 l1 ++ opt_enc (k - p1) w ++ R).
  { unfold content_area. rewrite Ho, ed_opts_enc_app. cbn [opts_enc]. fold p1.
    rewrite <- !app_assoc. reflexivity. }
  assert (Hb : eb_buf (ed_of_pdu q) = P ++ opt_enc (k - p1) w ++ R).
  { rewrite ed_buf_of_pdu. fold (content_area (p_msg q)). rewrite Hc. subst P.
    rewrite <- app_assoc. reflexivity. }
  split; [lia|]. split; [lia|]. split; [assumption|]. split; [assumption|]. split.
  { rewrite <- ed_used_of_pdu. unfold ed_used. rewrite Hb. apply len_app. }
  rewrite ed_search_of_pdu, Hc. destruct (ed_fuel_split q l1 _ Ho) as [f ->].
  rewrite ed_walk_prefix by (assumption || lia). fold p1. cbn [ed_walk].
  rewrite ed_it_next_opt by lia. cbn [eh_num]. replace (p1 + (k - p1)) with k by lia.
  rewrite Hst. subst P. rewrite len_app. reflexivity.
Qed.

Lemma ed_b_opts_of_pdu q : ed_mwf (p_msg q) -> ed_b_opts (ed_of_pdu q) = Some (m_opts (p_msg q)).
Proof.
  intros [_ Hok Hasc]. unfold ed_b_opts. rewrite ed_it_init_of_pdu.
  destruct (content_area (p_msg q)) as [|b c] eqn:Ec.
  - apply ed_content_empty in Ec. destruct Ec as [-> _]. reflexivity.
  - rewrite <- Ec. unfold content_area.
    destruct (ed_fuel_split q (m_opts (p_msg q)) []) as [f ->]; [symmetry; apply app_nil_r|].
    apply ed_collect_all; try assumption; [lia|apply payload_area_tail_ok].
Qed.

Lemma ed_data_of_pdu q :
  eb_data (ed_of_pdu q) =
  match m_payload (p_msg q) with
  | [] => 0
  | _ => len (token_area (m_token (p_msg q))) + len (opts_enc 0 (m_opts (p_msg q))) + 1
  end.
Proof.
  cbn [ed_of_pdu ed_of_msg eb_data]. unfold content_area.
  destruct (m_payload (p_msg q)); [reflexivity|]. cbn [payload_area].
  rewrite !len_app, !len_cons. lia.
Qed.

Lemma ed_data_zero q :
  (eb_data (ed_of_pdu q) =? 0) = match m_payload (p_msg q) with [] => true | _ => false end.
Proof.
  rewrite ed_data_of_pdu. destruct (m_payload (p_msg q)); [reflexivity|].
  pose proof (len_nonneg (token_area (m_token (p_msg q)))).
  pose proof (len_nonneg (opts_enc 0 (m_opts (p_msg q)))). lia.
Qed.

Lemma ed_shift_data_of_pdu q by_ :
  ed_shift_data (ed_of_pdu q) by_ =
  match m_payload (p_msg q) with
  | [] => 0
  | _ => len (eb_buf (ed_of_pdu q)) + by_ - len (m_payload (p_msg q))
  end.
Proof.
  unfold ed_shift_data. rewrite ed_data_zero, ed_data_of_pdu, ed_buf_of_pdu.
  destruct (m_payload (p_msg q)) as [|x xs]; [reflexivity|]. cbn [payload_area].
  rewrite !len_app, len_cons. lia.
Qed.

(* what an option edit leaves is the canonical record of the new option list [os], given three
   facts: the buffer, its length (the data offset moves by the same amount), max_opt *)
Lemma ed_of_pdu_edit q os buf by_ mo :
  buf = token_area (m_token (p_msg q)) ++ opts_enc 0 os ++ payload_area (m_payload (p_msg q)) ->
  len buf = used (p_msg q) + by_ -> mo = last_num os ->
  ed_set_maxopt (ed_set_buf (ed_of_pdu q) buf (ed_shift_data (ed_of_pdu q) by_)) mo =
  ed_of_pdu (set_opts q os).
Proof.
  intros Hb Hl ->. rewrite <- ed_used_of_pdu in Hl. unfold ed_used in Hl.
  rewrite ed_shift_data_of_pdu, <- Hl. subst buf. reflexivity.
Qed.

Lemma ed_of_pdu_edit_same q os buf by_ :
  buf = token_area (m_token (p_msg q)) ++ opts_enc 0 os ++ payload_area (m_payload (p_msg q)) ->
  len buf = used (p_msg q) + by_ -> last_num (m_opts (p_msg q)) = last_num os ->
  ed_set_buf (ed_of_pdu q) buf (ed_shift_data (ed_of_pdu q) by_) = ed_of_pdu (set_opts q os).
Proof. exact (ed_of_pdu_edit q os buf by_ (last_num (m_opts (p_msg q)))). Qed.

Lemma ed_set_maxopt_same p : ed_set_maxopt p (eb_maxopt p) = p.
Proof. destruct p; reflexivity. Qed.

Lemma ed_opt_hdr_len d l : len (opt_hdr d l) = 1 + ext_size d + ext_size l.
Proof. unfold opt_hdr. rewrite len_cons, len_app, !ext_bytes_len. lia. Qed.

(* coap_insert_option, in-place path, on the bytes from the following option on: header patch,
   move, encode *)
Lemma ed_inplace_bytes dold dnew (w R E : bytes) shift :
  0 < dnew <= dold -> dold <= 65535 -> len w <= 65804 -> len E = shift ->
  exists s1 s2 s3,
    ed_patch_insert dold dnew (ed_grow (opt_enc dold w ++ R) shift) =
      Some (s1, ext_size dold - ext_size dnew) /\
    ed_memmove s1 shift (ext_size dold - ext_size dnew)
               (len (opt_enc dold w ++ R) - (ext_size dold - ext_size dnew)) = Some s2 /\
    ed_bwrite s2 0 E = Some s3 /\
    take (len (opt_enc dold w ++ R) + shift - (ext_size dold - ext_size dnew)) s3 =
      E ++ opt_enc dnew w ++ R.
Proof.
  intros Hd Hdo Hw HE. pose proof (len_nonneg w). pose proof (len_nonneg E).
  unfold ed_grow, opt_enc. rewrite <- !app_assoc. pose proof (ed_len_junk shift ltac:(lia)) as HJ.
  set (J := repeat ed_junk (Z.to_nat shift)) in *.
  destruct (ed_patch_insert_ok dold dnew (len w) (w ++ R ++ J) Hd Hdo ltac:(lia))
    as (X & -> & HX).
  set (Y := opt_hdr dnew (len w) ++ w ++ R). pose proof (len_nonneg X).
  destruct (ed_gap0 X Y J E shift _ HX HE ltac:(lia)) as (M & Wr & HM & HW & HT).
  assert (HY : len (opt_hdr dold (len w) ++ w ++ R) - (ext_size dold - ext_size dnew) = len Y).
  { subst Y. rewrite !len_app, !ed_opt_hdr_len. lia. }
  exists (X ++ opt_hdr dnew (len w) ++ w ++ R ++ J), M, Wr.
  split; [reflexivity|]. split.
  { rewrite HY. subst Y. rewrite <- !app_assoc in HM. exact HM. }
  split; [exact HW|].
  replace (len (opt_hdr dold (len w) ++ w ++ R) + shift - (ext_size dold - ext_size dnew))
    with (shift + len Y) by lia.
  rewrite HT. subst Y. reflexivity.
Qed.

Lemma ed_b_inplace_refines q n v :
  ed_mwf (p_msg q) -> 0 <= n -> n < last_num (m_opts (p_msg q)) -> len v <= 65804 ->
  ed_b_inplace (ed_of_pdu q) n v =
  Some (fst (add_opt_raw q n v), ed_of_pdu (snd (add_opt_raw q n v))).
Proof.
  intros W Hn Hlt Hv. pose proof W as [_ _ Hasc].
  destruct (ed_add_opt_raw_split q n v Hasc) as (l1 & l2 & Ho & H1 & H2 & Hl & _ & ->).
  specialize (Hl Hn). destruct l2 as [|[k w] l2]; [lia|]. clear Hl.
  inversion H2 as [|? ? Hnk _]; subst. cbn [fst] in Hnk.
  replace (n =? last_num (m_opts (p_msg q))) with false by lia. cbn [andb].
  destruct (ed_locate q (fun k => n <? k) l1 k w l2 W Ho) as (Hp & Hk & Hw & Hbuf & Hu & Hs).
  { eapply Forall_impl; [|exact H1]. cbn. intros; lia. }
  { lia. }
  pose proof (ed_lastn_le_all l1 0 n Hn H1) as Hpn.
  set (p1 := last_from 0 l1) in *.
  set (P := token_area (m_token (p_msg q)) ++ opts_enc 0 l1) in *.
  set (R := opts_enc k l2 ++ payload_area (m_payload (p_msg q))) in *.
  unfold ed_b_inplace. rewrite Hs. cbn [eh_suf eh_num eh_pos].
  rewrite opt_parse_enc by lia. replace (k - n =? 0) with false by lia. cbn [andb].
  rewrite ed_used_of_pdu, ed_fits_of_pdu.
  set (E := opt_enc (n - p1) v). set (shift := opt_encode_size (n - p1) (len v)).
  assert (HE : len E = shift) by apply opt_enc_len.
  destruct (fits q (used (p_msg q) + shift)); cbn [negb fst snd]; [|reflexivity].
  destruct (ed_inplace_bytes (k - p1) (k - n) w R E shift ltac:(lia) ltac:(lia) Hw HE)
    as (s1 & s2 & s3 & -> & E2 & E3 & E4).
  cbv beta iota zeta. rewrite E2, E3, Hbuf, take_app_exact.
  replace (used (p_msg q) + shift - (ext_size (k - p1) - ext_size (k - n)) - len P)
    with (len (opt_enc (k - p1) w ++ R) + shift - (ext_size (k - p1) - ext_size (k - n))) by lia.
  rewrite E4. f_equal. f_equal. apply ed_of_pdu_edit_same.
  - rewrite ed_opts_enc_app. cbn [opts_enc]. subst P E R. rewrite <- !app_assoc. reflexivity.
  - rewrite Hu, !len_app, HE, !opt_enc_len. unfold opt_encode_size. lia.
  - rewrite Ho. change last_num with (last_from 0). rewrite !ed_lastn_app, !ed_lastn_cons.
    reflexivity.
Qed.

Lemma ed_b_append_refines q n v :
  ed_mwf (p_msg q) -> last_num (m_opts (p_msg q)) <= n <= 65535 -> len v <= 65804 ->
  ((n =? last_num (m_opts (p_msg q))) && negb (repeatable n) = false) ->
  ed_b_append (ed_of_pdu q) n v =
  Some (fst (add_opt_raw q n v), ed_of_pdu (snd (add_opt_raw q n v))).
Proof.
  intros W Hn Hv Hrep. pose proof W as [_ _ Hasc].
  pose proof (ascending_last_from _ 0 Hasc) as Hmx0.
  change (0 <= last_num (m_opts (p_msg q))) in Hmx0.
  destruct (ed_add_opt_raw_split q n v Hasc) as (l1 & l2 & Ho & _ & _ & Hl & _ & ->).
  rewrite Hrep. specialize (Hl ltac:(lia)). destruct l2 as [|o l2]; [clear Hl|lia].
  rewrite app_nil_r in Ho. subst l1. change (last_from 0) with last_num in *.
  set (mx := last_num (m_opts (p_msg q))) in *.
  unfold ed_b_append. rewrite ed_used_of_pdu, ed_fits_of_pdu, ed_maxopt_of_pdu. fold mx.
  set (sz := opt_encode_size (n - mx) (len v)). set (E := opt_enc (n - mx) v).
  assert (HE : len E = sz) by apply opt_enc_len.
  destruct (fits q (used (p_msg q) + sz)); cbn [negb fst snd]; [|reflexivity].
  set (P := token_area (m_token (p_msg q)) ++ opts_enc 0 (m_opts (p_msg q))).
  set (PA := payload_area (m_payload (p_msg q))).
  assert (Hb : eb_buf (ed_of_pdu q) = P ++ PA) by (rewrite ed_buf_of_pdu; apply app_assoc).
  assert (Hu : used (p_msg q) = len P + len PA)
    by (rewrite <- ed_used_of_pdu; unfold ed_used; rewrite Hb; apply len_app).
  assert (Hres : forall buf', buf' = P ++ E ++ PA ->
    ed_set_maxopt (ed_set_buf (ed_of_pdu q) buf' (ed_shift_data (ed_of_pdu q) sz)) n =
    ed_of_pdu (set_opts q (m_opts (p_msg q) ++ [(n, v)]))).
  { intros buf' ->. apply ed_of_pdu_edit.
    - rewrite ed_opts_enc_app. cbn [opts_enc]. subst P E PA mx. rewrite <- !app_assoc.
      reflexivity.
    - rewrite Hu, !len_app. lia.
    - change last_num with (last_from 0). rewrite ed_lastn_app, ed_lastn_cons. reflexivity. }
  pose proof (len_nonneg E). pose proof (len_nonneg P).
  unfold ed_grow. rewrite ed_data_zero, ed_data_of_pdu, Hb.
  pose proof (ed_len_junk sz ltac:(lia)) as HJ.
  set (J := repeat ed_junk (Z.to_nat sz)) in *.
  subst PA. destruct (m_payload (p_msg q)) as [|x xs]; cbn [payload_area] in *.
  - (* no payload: encode at used_size *)
    cbv beta iota zeta. rewrite app_nil_r, Hu.
    change (len (@nil Z)) with 0. rewrite Z.add_0_r, <- (app_nil_r J).
    rewrite ed_bwrite_at by lia. rewrite take_all by (rewrite app_nil_r, len_app; lia).
    f_equal. f_equal. apply Hres. reflexivity.
  - (* payload: move marker + payload up, encode where the marker was *)
    set (PA := PAYLOAD_START :: x :: xs) in *. fold P.
    replace (len (token_area (m_token (p_msg q))) + len (opts_enc 0 (m_opts (p_msg q))) + 1)
      with (len P + 1) by (subst P; rewrite len_app; lia).
    destruct (ed_gap P [] PA J E sz 0 eq_refl HE ltac:(lia)) as (M & Wr & HM & HW & HT).
    cbn [app] in HM.
    replace (len P + 1 + sz - 1) with (len P + sz) by lia.
    replace (len P + 1 - 1) with (len P + 0) by lia.
    replace (used (p_msg q) - (len P + 1) + 1) with (len PA) by lia.
    rewrite <- app_assoc, HM. replace (len P + 0) with (len P) by lia. rewrite HW.
    replace (used (p_msg q) + sz) with (len P + sz + len PA) by lia.
    rewrite HT. f_equal. f_equal. apply Hres. reflexivity.
Qed.

Lemma ed_b_add_plain_refines q n v :
  ed_mwf (p_msg q) -> 0 <= n <= 65535 -> len v <= 65804 ->
  ed_b_add_plain (ed_of_pdu q) n v =
  Some (fst (add_opt_raw q n v), ed_of_pdu (snd (add_opt_raw q n v))).
Proof.
  intros W Hn Hv. unfold ed_b_add_plain. rewrite ed_maxopt_of_pdu.
  destruct ((n =? last_num (m_opts (p_msg q))) && negb (repeatable n)) eqn:Er.
  - unfold add_opt_raw. rewrite Er. reflexivity.
  - destruct (n <? last_num (m_opts (p_msg q))) eqn:El.
    + apply ed_b_inplace_refines; try assumption; lia.
    + apply ed_b_append_refines; try assumption; lia.
Qed.

Lemma ed_b_has_of_pdu q n :
  ed_mwf (p_msg q) -> ed_b_has (ed_of_pdu q) n = Some (has_opt n (m_opts (p_msg q))).
Proof.
  intros W. unfold ed_b_has. rewrite ed_has_opt_find.
  destruct (ed_find_cases n (m_opts (p_msg q))) as [[-> Hall]|(l1 & w & l2 & Ho & Hf & -> & _)].
  - destruct (ed_search_none q (fun k => k =? n) W Hall) as [pr ->]. reflexivity.
  - destruct (ed_locate q (fun k => k =? n) l1 n w l2 W Ho Hf (Z.eqb_refl n))
      as (_ & _ & _ & _ & _ & ->). reflexivity.
Qed.

Lemma ed_add_opt_raw_last q n v :
  ed_mwf (p_msg q) -> 0 <= n ->
  last_num (m_opts (p_msg (snd (add_opt_raw q n v)))) = last_num (m_opts (p_msg q)) \/
  last_num (m_opts (p_msg (snd (add_opt_raw q n v)))) = n /\ last_num (m_opts (p_msg q)) <= n.
Proof.
  intros [_ _ Ha] Hn.
  destruct (ed_add_opt_raw_split q n v Ha) as (l1 & l2 & Ho & H1 & _ & _ & _ & ->).
  repeat case_if; cbn [snd]; try (left; reflexivity). cbn [set_opts p_msg m_opts]. rewrite Ho.
  change last_num with (last_from 0). rewrite !ed_lastn_app, ed_lastn_cons.
  destruct l2 as [|[a b] l2]; [right|left; rewrite !ed_lastn_cons; reflexivity].
  rewrite !ed_lastn_nil. split; [reflexivity|]. apply ed_lastn_le_all; assumption.
Qed.

Lemma ed_b_add_internal_refines q n v :
  ed_mwf (p_msg q) -> 0 <= n <= 65535 -> len v <= 65804 ->
  ed_b_add_internal (ed_of_pdu q) n v =
  Some (fst (ed_add_internal q n v), ed_of_pdu (snd (ed_add_internal q n v))).
Proof.
  intros W Hn Hv. unfold ed_b_add_internal, ed_add_internal. rewrite ed_maxopt_of_pdu.
  set (mx := last_num (m_opts (p_msg q))).
  destruct ((n =? mx) && negb (repeatable n)) eqn:Er; [reflexivity|].
  (* the RFC 8768 step *)
  assert (Hhop :
    (if is_request (eb_code (ed_of_pdu q)) && ((n =? 35) || (n =? 39))
     then has <- ed_b_has (ed_of_pdu q) 16 ;;
          (if has then Some (ed_of_pdu q)
           else r <- (if mx <=? 16 then ed_b_add_plain (ed_of_pdu q) 16 [16]
                      else ed_b_inplace (ed_of_pdu q) 16 [16]) ;; Some (snd r))
     else Some (ed_of_pdu q)) = Some (ed_of_pdu (ed_hop_step q n))).
  { unfold ed_hop_step, ed_hop_trigger. change (eb_code (ed_of_pdu q)) with (m_code (p_msg q)).
    destruct (is_request (m_code (p_msg q)) && ((n =? 35) || (n =? 39))) eqn:Et;
      cbn [andb]; [|reflexivity].
    rewrite ed_b_has_of_pdu by assumption.
    destruct (has_opt 16 (m_opts (p_msg q))); cbn [negb]; [reflexivity|].
    destruct ed_hop_nv_ok as [_ H16].
    destruct (mx <=? 16) eqn:E16; subst mx.
    - rewrite ed_b_add_plain_refines by (try assumption; lia). reflexivity.
    - rewrite ed_b_inplace_refines by (try assumption; lia). reflexivity. }
  rewrite Hhop. clear Hhop.
  (* the repeat check is not hit again after the step *)
  assert (Hr1 : (n =? last_num (m_opts (p_msg (ed_hop_step q n)))) && negb (repeatable n) = false).
  { unfold ed_hop_step, ed_hop_trigger.
    destruct (is_request (m_code (p_msg q)) && ((n =? 35) || (n =? 39)) &&
              negb (has_opt 16 (m_opts (p_msg q)))) eqn:Et; [|exact Er].
    destruct (ed_add_opt_raw_last q 16 [16] W ltac:(lia)) as [->|[-> _]]; [exact Er|].
    assert (n = 35 \/ n = 39) by lia. replace (n =? 16) with false by lia. reflexivity. }
  assert (W1 : ed_mwf (p_msg (ed_hop_step q n))).
  { unfold ed_hop_step. case_if; [|assumption].
    destruct ed_hop_nv_ok. apply ed_mwf_add_opt_raw; assumption. }
  set (q1 := ed_hop_step q n) in *. rewrite ed_maxopt_of_pdu.
  destruct (n <? last_num (m_opts (p_msg q1))) eqn:El.
  - apply ed_b_inplace_refines; try assumption; lia.
  - apply ed_b_append_refines; try assumption; lia.
Qed.

Lemma ed_b_insert_refines q n v :
  ed_mwf (p_msg q) -> 0 <= n <= 65535 -> len v <= 65804 ->
  ed_b_insert (ed_of_pdu q) n v =
  Some (fst (ed_insert q n v), ed_of_pdu (snd (ed_insert q n v))).
Proof.
  intros W Hn Hv. unfold ed_b_insert, ed_insert. rewrite ed_maxopt_of_pdu.
  destruct (n <? last_num (m_opts (p_msg q))) eqn:El.
  - replace (last_num (m_opts (p_msg q)) <=? n) with false by lia.
    apply ed_b_inplace_refines; try assumption; lia.
  - replace (last_num (m_opts (p_msg q)) <=? n) with true by lia.
    apply ed_b_add_internal_refines; assumption.
Qed.

Lemma ed_b_update_refines q n v :
  ed_mwf (p_msg q) -> 0 <= n <= 65535 -> len v <= 65804 ->
  ed_b_update (ed_of_pdu q) n v =
  Some (fst (ed_update q n v), ed_of_pdu (snd (ed_update q n v))).
Proof.
  intros W Hn Hv. unfold ed_b_update, ed_update.
  destruct (ed_find_cases n (m_opts (p_msg q)))
    as [[-> Hall]|(l1 & w & l2 & Ho & Hf & -> & Hr & _)].
  { destruct (ed_search_none q (fun k => k =? n) W Hall) as [pr ->].
    apply ed_b_insert_refines; assumption. }
  destruct (ed_locate q (fun k => k =? n) l1 n w l2 W Ho Hf (Z.eqb_refl n))
    as (Hp & _ & Hw & Hbuf & Hu & ->).
  set (d := n - last_from 0 l1) in *.
  set (P := token_area (m_token (p_msg q)) ++ opts_enc 0 l1) in *.
  set (R := opts_enc n l2 ++ payload_area (m_payload (p_msg q))) in *.
  cbn [eh_suf eh_pos]. rewrite opt_parse_enc by lia.
  set (X := opt_enc d w) in *. set (E := opt_enc d v).
  set (old := opt_encode_size d (len w)). set (new := opt_encode_size d (len v)).
  assert (HX : len X = old) by apply opt_enc_len. assert (HE : len E = new) by apply opt_enc_len.
  rewrite len_app, HX. replace (old + len R - len R) with old by lia.
  replace (ed_vsize v - ed_vsize w) with (new - old)
    by (unfold ed_vsize, new, old, opt_encode_size; lia).
  rewrite len_app, HX in Hu.
  rewrite ed_used_of_pdu, ed_fits_of_pdu.
  replace (used (p_msg q) + new - old) with (used (p_msg q) + (new - old)) by lia.
  replace ((old <? new) && negb (fits q (used (p_msg q) + (new - old))))
    with (negb ((new - old <=? 0) || fits q (used (p_msg q) + (new - old))))
    by (destruct (fits q (used (p_msg q) + (new - old))); lia).
  destruct ((new - old <=? 0) || fits q (used (p_msg q) + (new - old))) eqn:Ec;
    cbn [negb]; [|reflexivity].
  cbn [fst snd]. rewrite Hbuf, take_app_exact, Hr.
  assert (Hres : ed_set_buf (ed_of_pdu q) (P ++ E ++ R) (ed_shift_data (ed_of_pdu q) (new - old)) =
                 ed_of_pdu (set_opts q (l1 ++ (n, v) :: l2))).
  { apply ed_of_pdu_edit_same.
    - rewrite ed_opts_enc_app. cbn [opts_enc]. subst P E R d. rewrite <- !app_assoc.
      reflexivity.
    - rewrite Hu, !len_app. lia.
    - rewrite Ho. change last_num with (last_from 0). rewrite !ed_lastn_app, !ed_lastn_cons.
      reflexivity. }
  pose proof (len_nonneg R).
  replace (used (p_msg q) + (new - old) - len P) with (new + len R) by lia.
  destruct (new =? old) eqn:Eno.
  - rewrite ed_grow_neg, ed_bwrite_front by lia.
    rewrite take_all by (rewrite len_app; lia). rewrite Hres. reflexivity.
  - unfold ed_grow. rewrite <- app_assoc.
    destruct (ed_gap0 X R (repeat ed_junk (Z.to_nat (new - old))) E new old HX HE
                ltac:(rewrite ed_len_repeat; lia)) as (M & Wr & HM & HW & HT).
    replace (old + len R - old) with (len R) by lia. rewrite HM, HW, HT, Hres. reflexivity.
Qed.

Lemma ed_opt_enc_len2 d v : 13 <= d -> 2 <= len (opt_enc d v).
Proof.
  intros H. rewrite opt_enc_len. unfold opt_encode_size.
  pose proof (len_nonneg v). destruct (ed_ext_cases d); destruct (ed_ext_cases (len v)); lia.
Qed.

(* coap_remove_option on the bytes from the removed option X on, when an option follows: the
   1-byte shuffle is never needed (a removed option whose delta is >= 257 has a >= 2 byte header),
   the header patch succeeds, and the move leaves the following option re-headed, then the rest *)
Lemma ed_remove_bytes d dn (w w2 R : bytes) :
  0 <= d -> 0 <= dn -> d + dn <= 65535 -> len w2 <= 65804 ->
  let X := opt_enc d w in
  let s := X ++ opt_enc dn w2 ++ R in
  negb (d + dn <? 269) && (dn <? 13) && (len X <? 2) = false /\
  exists X' s1 s2 : bytes,
    ed_patch_remove d dn (Z.to_nat (len X)) s = Some (s1, len X') /\
    ed_memmove s1 0 (len X') (len s + 0 - len X') = Some s2 /\
    take (len s + 0 - len X') s2 = opt_enc (d + dn) w2 ++ R /\
    len X' = len X - (ext_size (d + dn) - ext_size dn).
Proof.
  intros Hd Hdn Hs Hw2 X s. pose proof (ed_opt_enc_pos d w) as HX1.
  pose proof (ed_opt_enc_len2 d w) as HX2. fold X in HX1, HX2. split; [lia|].
  subst s. unfold len at 1. rewrite Nat2Z.id.
  assert (Hh : forall x, opt_enc x w2 ++ R = opt_hdr x (len w2) ++ w2 ++ R)
    by (intros x; unfold opt_enc; rewrite <- app_assoc; reflexivity).
  rewrite !Hh.
  destruct (ed_patch_remove_ok d dn (len w2) X (w2 ++ R) Hd Hdn Hs
              ltac:(pose proof (len_nonneg w2); lia) HX1 HX2) as (X' & -> & HX').
  set (Y := opt_hdr (d + dn) (len w2) ++ w2 ++ R).
  destruct (ed_move_down X' Y) as (M & HM & HT). exists X', (X' ++ Y), M.
  replace (len (X ++ opt_hdr dn (len w2) ++ w2 ++ R) + 0 - len X') with (len Y)
    by (subst Y; rewrite !len_app, !ed_opt_hdr_len; lia).
  split; [reflexivity|]. split; [exact HM|]. split; [exact HT|exact HX'].
Qed.

Lemma ed_b_remove_refines q n :
  ed_mwf (p_msg q) -> 0 <= n ->
  ed_b_remove (ed_of_pdu q) n =
  Some (fst (ed_remove q n), ed_of_pdu (snd (ed_remove q n))).
Proof.
  intros W Hn. unfold ed_remove.
  destruct (ed_find_cases n (m_opts (p_msg q)))
    as [[-> Hall]|(l1 & w & l2 & Ho & Hf & -> & _ & ->)]; cbn [fst snd]; unfold ed_b_remove.
  { destruct (ed_search_none q (fun k => k =? n) W Hall) as [pr ->]. reflexivity. }
  destruct (ed_locate q (fun k => k =? n) l1 n w l2 W Ho Hf (Z.eqb_refl n))
    as (Hp & Hk & Hw & Hbuf & Hu & ->).
  destruct W as [_ Hok Hasc]. rewrite Ho in Hok, Hasc.
  apply ed_forall_app_inv in Hok. destruct Hok as (_ & _ & Hok2).
  apply ed_ascending_app in Hasc. destruct Hasc as [_ [_ Ha2]]. cbn [fst] in Ha2.
  set (p1 := last_from 0 l1) in *. set (d := n - p1) in *.
  set (P := token_area (m_token (p_msg q)) ++ opts_enc 0 l1) in *.
  set (PA := payload_area (m_payload (p_msg q))) in *.
  cbn [eh_suf eh_pos eh_st]. rewrite opt_parse_enc by lia.
  set (X := opt_enc d w) in *.
  assert (HX : len X = opt_encode_size d (len w)) by apply opt_enc_len.
  destruct l2 as [|[k2 w2] l3].
  - (* the last option *)
    cbn [opts_enc app] in *. rewrite ed_it_next_tail by apply payload_area_tail_ok.
    rewrite Hbuf, take_app_exact, <- HX, len_app.
    replace (len X + len PA - len X) with (len PA) by lia.
    assert (Hres : ed_set_maxopt
              (ed_set_buf (ed_of_pdu q) (P ++ PA) (ed_shift_data (ed_of_pdu q) (- len X)))
              (eb_maxopt (ed_of_pdu q) - d) = ed_of_pdu (set_opts q (l1 ++ []))).
    { apply ed_of_pdu_edit.
      - rewrite app_nil_r. subst P. rewrite <- app_assoc. reflexivity.
      - rewrite Hu, !len_app. lia.
      - rewrite ed_maxopt_of_pdu, Ho, app_nil_r. change last_num with (last_from 0).
        rewrite ed_lastn_app, ed_lastn_cons, ed_lastn_nil. subst d p1. lia. }
    destruct (len PA =? 0) eqn:Ep.
    + assert (HPA : PA = []).
      { destruct PA; [reflexivity|]. rewrite len_cons in Ep. pose proof (len_nonneg PA). lia. }
      rewrite HPA in *. rewrite <- Hres. reflexivity.
    + destruct (ed_move_down X PA) as (M & -> & ->). rewrite Hres. reflexivity.
  - (* an option follows: its header takes the combined delta *)
    cbn [ascending fst] in Ha2. destruct Ha2 as [Hnk _].
    inversion Hok2 as [|? ? [Hk2 Hw2] _]; subst. cbn [fst snd] in Hk2, Hw2.
    cbn [opts_enc] in *. rewrite <- app_assoc in *.
    rewrite ed_it_next_opt by lia. cbn [eh_suf eh_pos]. rewrite opt_parse_enc by lia.
    set (dn := k2 - n) in *. set (R := opts_enc k2 l3 ++ PA) in *.
    replace (len P + len X - len P) with (len X) by lia.
    destruct (ed_remove_bytes d dn w w2 R ltac:(lia) ltac:(lia) ltac:(lia) Hw2)
      as (Hsh & X' & s1 & s2 & E1 & E2 & E3 & HX'). fold X in Hsh, E1, E2, E3, HX'.
    rewrite Hsh. cbv beta iota zeta. rewrite E1. cbv beta iota zeta.
    rewrite E2, E3, Hbuf, take_app_exact. f_equal. f_equal. apply ed_of_pdu_edit_same.
    + rewrite ed_opts_enc_app. cbn [opts_enc]. fold p1. subst P R.
      replace (k2 - p1) with (d + dn) by (subst d dn; lia). rewrite <- !app_assoc. reflexivity.
    + rewrite Hu, !len_app, !opt_enc_len. unfold opt_encode_size. lia.
    + rewrite Ho. change last_num with (last_from 0). rewrite !ed_lastn_app, !ed_lastn_cons.
      reflexivity.
Qed.

Lemma ed_token_area_len t : len (token_area t) = len t + ed_bias (len t).
Proof.
  unfold token_area, ed_bias. repeat case_if; rewrite ?len_cons, ?len_app; try lia.
  unfold be16. change (len [((len t - 269) / 256) mod 256; (len t - 269) mod 256]) with 2. lia.
Qed.

Lemma ed_of_pdu_with_token q t by_ :
  by_ = len (token_area t) - len (token_area (m_token (p_msg q))) ->
  mkEb (m_type (p_msg q)) (m_code (p_msg q)) (m_mid (p_msg q))
       (token_area t ++ content_area (p_msg q)) (len (token_area t)) (len t)
       (last_num (m_opts (p_msg q))) (ed_shift_data (ed_of_pdu q) by_) (p_max q) =
  ed_of_pdu (ed_with_token q t).
Proof.
  intros ->. rewrite ed_shift_data_of_pdu. unfold ed_of_pdu, ed_of_msg, ed_with_token.
  cbn [p_msg p_max m_type m_code m_mid m_token m_opts m_payload eb_buf].
  unfold content_area. cbn [m_opts m_payload]. f_equal.
  destruct (m_payload (p_msg q)); [reflexivity|]. rewrite !len_app. lia.
Qed.

Lemma ed_b_token_refines q t :
  0 <= p_max q ->
  ed_b_token (ed_of_pdu q) t =
  Some (fst (ed_token q t), ed_of_pdu (snd (ed_token q t))).
Proof.
  intros Hmax. unfold ed_b_token, ed_b_token_gen, ed_b_add_token, ed_token.
  rewrite <- ed_token_area_len, ed_used_of_pdu, !ed_fits_of_pdu. unfold used.
  change (eb_etl (ed_of_pdu q)) with (len (token_area (m_token (p_msg q)))).
  change (eb_buf (ed_of_pdu q)) with (token_area (m_token (p_msg q)) ++ content_area (p_msg q)).
  set (T := token_area (m_token (p_msg q))). set (C := content_area (p_msg q)).
  set (E := token_area t).
  pose proof (len_nonneg T). pose proof (len_nonneg C). pose proof (len_nonneg E).
  pose proof (ed_of_pdu_with_token q t) as Hres. fold T E C in Hres.
  destruct (65804 <? len t); [destruct (len T + len C =? 0); reflexivity|].
  destruct (len T + len C =? 0) eqn:Eu.
  - (* coap_add_token on an empty PDU *)
    assert (HC : C = [])
      by (destruct C as [|c C']; [reflexivity|];
          pose proof (len_nonneg C'); rewrite len_cons in *; lia).
    destruct (ed_content_empty (p_msg q) HC) as [Hno Hnp].
    replace ((len E - len T <=? 0) || fits q (len T + len C + (len E - len T)))
      with (fits q (len E)) by (unfold fits; lia).
    destruct (fits q (len E)); cbn [negb fst snd]; [|reflexivity].
    unfold ed_grow. cbn [app]. rewrite <- (app_nil_r (repeat _ _)).
    rewrite ed_bwrite_front by (rewrite ed_len_repeat; lia).
    rewrite <- (Hres (len E - len T) eq_refl), HC, Hno. unfold ed_shift_data.
    rewrite ed_data_of_pdu, Hnp. reflexivity.
  - destruct (len E =? len T) eqn:E1; [|destruct (len T <? len E) eqn:E2].
    + (* same size: only the token bytes change *)
      replace (len E - len T <=? 0) with true by lia. cbn [orb fst snd].
      rewrite ed_bwrite_front by lia. rewrite Hres by lia. reflexivity.
    + (* the token area grows: everything moves up *)
      replace (len E - len T <=? 0) with false by lia. cbn [orb].
      replace (len T + len C + len E - len T) with (len T + len C + (len E - len T)) by lia.
      destruct (fits q (len T + len C + (len E - len T))); cbn [negb fst snd]; [|reflexivity].
      destruct (ed_token_up T C E (len E - len T) ltac:(lia) ltac:(lia)) as (M & HM & HW).
      rewrite <- len_app, HM, HW, Hres by reflexivity. reflexivity.
    + (* the token area shrinks: everything moves down *)
      replace (len E - len T <=? 0) with true by lia. cbn [orb fst snd].
      replace (len T + len C - (len T - len E)) with (len E + len C) by lia.
      destruct (ed_token_down T C E ltac:(lia)) as (M & -> & ->).
      rewrite Hres by lia. reflexivity.
Qed.

Definition ed_pwf (q : pdu) : Prop := ed_mwf (p_msg q) /\ 0 <= p_max q.

Lemma ed_pwf_init ty code mid max : 0 <= max -> ed_pwf (pdu_init ty code mid max).
Proof.
  intros H. split; [|assumption]. constructor; cbn; [unfold len; cbn; lia|constructor|exact I].
Qed.

Theorem ed_b_apply_refines q e :
  ed_pwf q -> ed_op_ok e ->
  ed_b_apply (ed_of_pdu q) e = Some (fst (ed_apply q e), ed_of_pdu (snd (ed_apply q e))).
Proof.
  intros [W Hm] He. destruct e as [n v|n v|n|t]; cbn [ed_b_apply ed_apply ed_op_ok] in *.
  - apply ed_b_insert_refines; tauto.
  - apply ed_b_update_refines; tauto.
  - apply ed_b_remove_refines; [assumption|lia].
  - apply ed_b_token_refines; assumption.
Qed.

Theorem ed_pwf_apply q e : ed_pwf q -> ed_op_ok e -> ed_pwf (snd (ed_apply q e)).
Proof.
  intros [W Hm] He. split; [apply ed_mwf_apply; assumption|].
  pose proof (ed_apply_keeps q e) as K. cbv zeta in K. destruct K as (_ & _ & _ & _ & K & _).
  rewrite K. assumption.
Qed.

Lemma ed_pwf_add_internal q n v :
  ed_pwf q -> 0 <= n <= 65535 -> len v <= 65804 -> ed_pwf (snd (ed_add_internal q n v)).
Proof.
  intros W Hn Hv. apply (ed_insert_inv ed_pwf ed_nv_ok); try assumption;
    [|intros; exact ed_hop_nv_ok|split; assumption].
  intros q0 n0 v0 [W0 M0] [Hn0 Hv0]. split; [apply ed_mwf_add_opt_raw; assumption|].
  unfold add_opt_raw. repeat case_if; exact M0.
Qed.

Theorem ed_pwf_run es q : ed_pwf q -> Forall ed_op_ok es -> ed_pwf (snd (ed_run q es)).
Proof. apply (ed_run_inv ed_pwf ed_op_ok ed_pwf_apply). Qed.

Theorem ed_b_run_refines es : forall q,
  ed_pwf q -> Forall ed_op_ok es ->
  ed_b_run (ed_of_pdu q) es = Some (fst (ed_run q es), ed_of_pdu (snd (ed_run q es))).
Proof.
  induction es as [|e tl IH]; intros q W Hes; [reflexivity|].
  inversion Hes as [|? ? He Htl]; subst. cbn [ed_b_run ed_run].
  rewrite (ed_b_apply_refines q e W He). cbn [fst snd].
  pose proof (ed_pwf_apply q e W He) as W1.
  destruct (ed_apply q e) as [r q1]. cbn [fst snd] in *.
  rewrite (IH q1 W1 Htl). destruct (ed_run q1 tl) as [rs q2]. reflexivity.
Qed.

Lemma ed_b_tok_of_pdu q :
  len (m_token (p_msg q)) <= 65804 -> ed_b_tok (ed_of_pdu q) = m_token (p_msg q).
Proof.
  intros H. unfold ed_b_tok. cbn [ed_of_pdu ed_of_msg eb_tlen eb_buf].
  set (t := m_token (p_msg q)) in *. unfold token_area, ed_bias, be16.
  destruct (len t <? 13); [|destruct (len t <? 269)]; apply take_app_exact.
Qed.

Lemma ed_b_payload_of_pdu q : ed_b_payload (ed_of_pdu q) = m_payload (p_msg q).
Proof.
  unfold ed_b_payload. rewrite ed_data_zero, ed_data_of_pdu, ed_buf_of_pdu.
  destruct (m_payload (p_msg q)) as [|x xs]; [reflexivity|]. cbn [payload_area].
  set (A := token_area (m_token (p_msg q)) ++ opts_enc 0 (m_opts (p_msg q)) ++ [PAYLOAD_START]).
  replace (_ ++ _ ++ PAYLOAD_START :: x :: xs) with (A ++ x :: xs)
    by (subst A; rewrite <- !app_assoc; reflexivity).
  replace (_ + _ + 1) with (len A)
    by (subst A; rewrite !len_app; change (len [PAYLOAD_START]) with 1; lia).
  apply drop_app_exact.
Qed.

Theorem ed_abs_of_pdu q : ed_mwf (p_msg q) -> ed_abs (ed_of_pdu q) = Some (p_msg q).
Proof.
  intros W. unfold ed_abs. rewrite ed_b_opts_of_pdu by assumption.
  rewrite ed_b_tok_of_pdu by (destruct W; assumption). rewrite ed_b_payload_of_pdu.
  destruct q as [[ty co mi tk os pl] mx]. reflexivity.
Qed.

Theorem ed_b_apply_abs q e :
  ed_pwf q -> ed_op_ok e ->
  exists r p',
    ed_b_apply (ed_of_pdu q) e = Some (r, p') /\
    ed_abs (ed_of_pdu q) = Some (p_msg q) /\
    r = fst (ed_apply q e) /\
    ed_abs p' = Some (p_msg (snd (ed_apply q e))) /\
    (r = false ->
     p' = ed_of_pdu q \/
     exists n v, (e = EdInsert n v \/ e = EdUpdate n v) /\ ed_hop_trigger (p_msg q) n = true /\
                 p' = ed_of_pdu (snd (add_opt_raw q 16 [16]))).
Proof.
  intros W He. exists (fst (ed_apply q e)), (ed_of_pdu (snd (ed_apply q e))).
  split; [apply ed_b_apply_refines; assumption|].
  split; [apply ed_abs_of_pdu; destruct W; assumption|].
  split; [reflexivity|].
  split; [apply ed_abs_of_pdu; apply (ed_pwf_apply q e W He)|].
  intros Hr. destruct (ed_apply_refused q e Hr) as [->|(n & v & H1 & H2 & ->)].
  - left. reflexivity.
  - right. exists n, v. tauto.
Qed.

Lemma ed_b_readd_refines l : forall q,
  ed_pwf q -> Forall ed_opt_ok l ->
  ed_b_readd (ed_of_pdu q) l = Some (option_map ed_of_pdu (ed_readd q l)).
Proof.
  induction l as [|[n v] tl IH]; intros q W Hl; [reflexivity|].
  inversion Hl as [|? ? [Hn Hv] Htl]; subst. cbn [fst snd] in Hn, Hv.
  cbn [ed_b_readd ed_readd].
  rewrite ed_b_add_internal_refines by (assumption || apply W). cbn [fst snd].
  pose proof (ed_pwf_add_internal q n v W Hn Hv) as W1.
  destruct (ed_add_internal q n v) as [r q1]. cbn [fst snd] in *.
  destruct r; [|reflexivity]. apply IH; assumption.
Qed.

(* coap_pdu_duplicate_lkd: the byte-level transcription builds the PDU the specification
   describes (fresh PDU, new token, no payload, options copied as a block or re-added one by one
   past the drop filter) *)
Theorem ed_b_dup_refines q mid' smax t drop_ :
  ed_pwf q -> 0 <= smax ->
  ed_b_dup (ed_of_pdu q) mid' smax t drop_ =
  Some (option_map ed_of_pdu (ed_dup q mid' smax t drop_)).
Proof.
  intros [W Hm] Hs. unfold ed_b_dup, ed_dup.
  set (m := p_msg q). set (mx := Z.max (p_max q) smax).
  change (eb_max (ed_of_pdu q)) with (p_max q). fold mx.
  set (q0 := mkPdu (mkMsg (m_type m) (m_code m) mid' [] [] []) mx).
  change (mkEb (eb_type (ed_of_pdu q)) (eb_code (ed_of_pdu q)) mid' [] 0 0 0 0 mx)
    with (ed_of_pdu q0).
  assert (W0 : ed_pwf q0) by (apply (ed_pwf_init (m_type m) (m_code m) mid' mx); lia).
  change (ed_b_add_token (ed_of_pdu q0) t) with (ed_b_token (ed_of_pdu q0) t).
  rewrite ed_b_token_refines by apply W0. cbn [snd].
  pose proof (ed_apply_keeps q0 (EdToken t)) as K. cbv zeta in K. cbn [ed_apply] in K.
  destruct K as (_ & _ & _ & Kp & Kmax & Ko).
  pose proof (ed_pwf_apply q0 (EdToken t) W0 I) as W1. cbn [ed_apply] in W1.
  set (q1 := snd (ed_token q0 t)) in *.
  cbn [q0 p_msg m_opts m_payload p_max] in Ko, Kp, Kmax.
  destruct drop_ as [dl|].
  - (* options re-added one by one *)
    rewrite ed_b_opts_of_pdu by assumption. fold m.
    apply ed_b_readd_refines; [assumption|].
    destruct W as [_ Hok _]. fold m in Hok. clear - Hok.
    induction Hok as [|o l Ho Hl IH]; cbn [filter]; [constructor|].
    destruct (negb (existsb (Z.eqb (fst o)) dl)); [constructor; assumption|assumption].
  - (* options copied as a block *)
    set (TA := token_area (m_token m)). set (OE := opts_enc 0 (m_opts m)).
    set (T1 := token_area (m_token (p_msg q1))).
    assert (Hb1 : eb_buf (ed_of_pdu q1) = T1).
    { rewrite ed_buf_of_pdu, Ko, Kp. cbn [opts_enc payload_area app]. apply app_nil_r. }
    assert (Hlen : ed_used (ed_of_pdu q) - eb_etl (ed_of_pdu q) -
                   (if eb_data (ed_of_pdu q) =? 0 then 0
                    else ed_used (ed_of_pdu q) - eb_data (ed_of_pdu q) + 1) = len OE).
    { unfold ed_used. rewrite ed_data_zero, ed_data_of_pdu, ed_buf_of_pdu, !len_app. fold m TA OE.
      change (eb_etl (ed_of_pdu q)) with (len TA).
      destruct (m_payload m); cbn [payload_area]; [change (len (@nil Z)) with 0|rewrite len_cons];
        lia. }
    rewrite Hlen. change (eb_etl (ed_of_pdu q1)) with (len T1).
    change (ed_fits mx (len OE + len T1)) with ((mx =? 0) || (len OE + len T1 <=? mx)).
    unfold fits. rewrite Kmax. fold T1 OE.
    replace (len T1 + len OE <=? mx) with (len OE + len T1 <=? mx) by lia.
    destruct ((mx =? 0) || (len OE + len T1 <=? mx)); cbn [negb option_map]; [|reflexivity].
    rewrite Hb1, ed_buf_of_pdu. change (eb_etl (ed_of_pdu q)) with (len TA). fold m TA OE.
    rewrite drop_app_exact, take_app_exact. unfold ed_grow.
    rewrite <- (app_nil_r (repeat _ _)), ed_bwrite_at, app_nil_r
      by (rewrite ed_len_repeat; pose proof (len_nonneg OE); lia).
    f_equal. f_equal. change (eb_maxopt (ed_of_pdu q)) with (last_num (m_opts m)).
    replace (ed_set_buf (ed_of_pdu q1) (T1 ++ OE) 0)
      with (ed_set_buf (ed_of_pdu q1) (T1 ++ OE) (ed_shift_data (ed_of_pdu q1) (len OE)))
      by (rewrite ed_shift_data_of_pdu, Kp; reflexivity).
    apply ed_of_pdu_edit; [rewrite Kp; cbn [payload_area]; rewrite app_nil_r; reflexivity|
                           |reflexivity].
    unfold used, content_area. rewrite Ko, Kp. cbn [opts_enc payload_area app].
    rewrite len_app. fold T1. change (len (@nil Z)) with 0. lia.
Qed.

Lemma ed_header_udp_token m1 m2 :
  m_type m1 = m_type m2 -> m_code m1 = m_code m2 -> m_mid m1 = m_mid m2 ->
  len (m_token m1) = len (m_token m2) -> header UDP m1 = header UDP m2.
Proof.
  intros H1 H2 H3 H4. unfold header, tkl_nib. rewrite H1, H2, H3, H4. reflexivity.
Qed.

Lemma ed_token_area_len_inj t1 t2 :
  len (token_area t1) = len (token_area t2) -> len t1 = len t2.
Proof.
  rewrite !ed_token_area_len. unfold ed_bias.
  pose proof (len_nonneg t1). pose proof (len_nonneg t2). repeat case_if; lia.
Qed.

(* coap_update_token keeps an already encoded UDP header in step with the token: after the call
   the header in memory is the header of the new message.  (Option edits do not touch the header,
   and the UDP header does not depend on options or payload.) *)
Theorem ed_b_token_hdr_in_step q t :
  ed_pwf q ->
  ed_b_token_hdr UDP (header UDP (p_msg q)) (ed_of_pdu q) t =
  Some (fst (ed_token q t), ed_of_pdu (snd (ed_token q t)),
        header UDP (p_msg (snd (ed_token q t)))).
Proof.
  intros W. unfold ed_b_token_hdr, ed_b_token_hdr_gen.
  rewrite ed_b_token_refines by apply W. cbn [fst snd].
  pose proof (ed_pwf_apply q (EdToken t) W I) as [W' _]. cbn [ed_apply] in W'.
  destruct (ed_token_frame q t _ _ (surjective_pairing _)) as [[Hr Hq]|(Hr & Hq & Hl)];
    rewrite Hr; cbn [negb]; rewrite Hq in *; [reflexivity|].
  assert (Hhdr : len (token_area t) = len (token_area (m_token (p_msg q))) ->
                 header UDP (p_msg q) = header UDP (p_msg (ed_with_token q t))).
  { intros E. apply ed_header_udp_token; try reflexivity.
    cbn [ed_with_token p_msg m_token]. symmetry. apply ed_token_area_len_inj. exact E. }
  change (eb_etl (ed_of_pdu (ed_with_token q t))) with (len (token_area t)).
  change (eb_etl (ed_of_pdu q)) with (len (token_area (m_token (p_msg q)))).
  rewrite ed_abs_of_pdu, ed_used_of_pdu by assumption. unfold used.
  pose proof (len_nonneg (token_area (m_token (p_msg q)))) as H0.
  pose proof (len_nonneg (content_area (p_msg q))) as H1.
  destruct (len (token_area (m_token (p_msg q))) + len (content_area (p_msg q)) =? 0) eqn:Eu.
  - cbn [andb]. destruct (len (token_area t) =? 0) eqn:E0; cbn [negb]; [|reflexivity].
    rewrite Hhdr by lia. reflexivity.
  - destruct (len (token_area (m_token (p_msg q))) =? len (token_area t)) eqn:E1; cbn [negb];
      [|reflexivity].
    rewrite Hhdr by lia. reflexivity.
Qed.

Theorem ed_b_token_hdr_prefix_refuted :
  exists q t, ed_pwf q /\
    match ed_b_token_hdr_gen false UDP (header UDP (p_msg q)) (ed_of_pdu q) t with
    | Some (r, p', h') => r = true /\ ed_abs p' = Some (p_msg (snd (ed_token q t))) /\
                          h' <> header UDP (p_msg (snd (ed_token q t)))
    | None => False
    end.
Proof.
  exists (pdu_init 0 1 7 0), [1; 2]. split.
  - apply ed_pwf_init. lia.
  - vm_compute. split; [reflexivity|]. split; [reflexivity|]. discriminate.
Qed.
