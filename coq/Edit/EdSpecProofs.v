(* C04 - theorems about the specification level (Edit/EdSpec.v): an edit changes only what it
   names.  For each edit the option list before and after is split explicitly, so that "every
   option not named keeps its number, value and position" is the shape of the statement; token
   and payload are untouched by the option edits, options and payload by the token edit. *)
From LibcoapV Require Import Base.Tactics Base.Bytes Wire.OptCodec Wire.Pdu Wire.PduProofs
  Wire.Build Wire.BuildProofs Edit.EdSpec.
Local Open Scope Z_scope.

(* what the encoding can carry: numbers (and so deltas) of 16 bits, lengths up to 269 + 65535 *)
Definition ed_opt_ok (o : opt) : Prop := 0 <= fst o <= 65535 /\ len (snd o) <= 65804.

Record ed_mwf (m : msg) : Prop := {
  emw_token : len (m_token m) <= 65804;
  emw_opts : Forall ed_opt_ok (m_opts m);
  emw_asc : ascending 0 (m_opts m) }.

Lemma ed_lastn_nil p : last_from p [] = p.
Proof. reflexivity. Qed.

Lemma ed_lastn_cons p n v tl : last_from p ((n, v) :: tl) = last_from n tl.
Proof. apply (last_from_cons p (n, v)). Qed.

Lemma ed_lastn_app p l1 l2 : last_from p (l1 ++ l2) = last_from (last_from p l1) l2.
Proof.
  revert p. induction l1 as [|[n v] tl IH]; intros p; [reflexivity|].
  cbn [app]. rewrite !ed_lastn_cons. apply IH.
Qed.

Lemma ed_opts_enc_app l1 : forall p l2,
  opts_enc p (l1 ++ l2) = opts_enc p l1 ++ opts_enc (last_from p l1) l2.
Proof.
  induction l1 as [|[n v] tl IH]; intros p l2; [reflexivity|].
  cbn [app opts_enc]. rewrite IH, ed_lastn_cons, <- app_assoc. reflexivity.
Qed.

Lemma ed_ascending_app l1 : forall p l2,
  ascending p (l1 ++ l2) <-> ascending p l1 /\ ascending (last_from p l1) l2.
Proof.
  induction l1 as [|[n v] tl IH]; intros p l2.
  - cbn [app ascending]. rewrite ed_lastn_nil. tauto.
  - cbn [app ascending fst]. rewrite IH, ed_lastn_cons. tauto.
Qed.

Lemma ed_ascending_bounds l : forall p, ascending p l ->
  p <= last_from p l /\ Forall (fun o => p <= fst o <= last_from p l) l.
Proof.
  induction l as [|[n v] tl IH]; intros p H; [rewrite ed_lastn_nil; split; [lia|constructor]|].
  cbn [ascending fst] in H. destruct H as [H1 H2]. rewrite ed_lastn_cons.
  destruct (IH n H2) as [Hl B]. split; [lia|].
  constructor; [cbn [fst]; lia|]. eapply Forall_impl; [|exact B]. cbn. intros o Ho. lia.
Qed.

Lemma ed_lastn_le_all l : forall p n,
  p <= n -> Forall (fun o => fst o <= n) l -> last_from p l <= n.
Proof.
  induction l as [|[a b] tl IH]; intros p n Hp H; [rewrite ed_lastn_nil; lia|].
  inversion H; subst. cbn [fst] in *. rewrite ed_lastn_cons. apply IH; assumption.
Qed.

Lemma ed_asc_remove l1 : forall p (x : opt) l2,
  ascending p (l1 ++ x :: l2) -> ascending p (l1 ++ l2).
Proof.
  intros p x l2 H. apply ed_ascending_app in H. destruct H as [H1 H2].
  apply ed_ascending_app. split; [assumption|].
  cbn [ascending] in H2. destruct H2 as [H2 H3].
  eapply ascending_weaken; [|exact H3]. assumption.
Qed.

Lemma ed_asc_replace l1 : forall p n (w v : bytes) l2,
  ascending p (l1 ++ (n, w) :: l2) -> ascending p (l1 ++ (n, v) :: l2).
Proof.
  intros p n w v l2 H. apply ed_ascending_app in H. destruct H as [H1 H2].
  apply ed_ascending_app. split; assumption.
Qed.

Lemma ed_forall_app_inv {A} (P : A -> Prop) l1 x l2 :
  Forall P (l1 ++ x :: l2) -> Forall P l1 /\ P x /\ Forall P l2.
Proof.
  intros H. apply Forall_app in H. destruct H as [H1 H2]. inversion H2; subst. tauto.
Qed.

Lemma ed_insert_split n v l :
  exists l1 l2, l = l1 ++ l2 /\ Forall (fun o => fst o <= n) l1 /\
                match l2 with [] => True | o :: _ => n < fst o end /\
                insert_opt n v l = l1 ++ (n, v) :: l2 /\
                forall p, prev_num n p l = last_from p l1.
Proof.
  induction l as [|[k w] tl IH].
  - exists [], []. repeat split. constructor.
  - cbn [insert_opt prev_num]. destruct (k <=? n) eqn:E.
    + destruct IH as (l1 & l2 & -> & H1 & H2 & H3 & H4). exists ((k, w) :: l1), l2.
      split; [reflexivity|]. split; [constructor; [cbn [fst]; lia|assumption]|].
      split; [assumption|]. rewrite H3. split; [reflexivity|].
      intros p. rewrite H4, ed_lastn_cons. reflexivity.
    + exists [], ((k, w) :: tl). repeat split; [constructor|cbn [fst]; lia].
Qed.

(* coap_add_option_internal without the Hop-Limit step, on the list split at that place; an
   option follows the new one exactly on the in-place path *)
Lemma ed_add_opt_raw_split q n v :
  ascending 0 (m_opts (p_msg q)) ->
  exists l1 l2,
    m_opts (p_msg q) = l1 ++ l2 /\
    Forall (fun o => fst o <= n) l1 /\ Forall (fun o => n < fst o) l2 /\
    (0 <= n ->
     (n <? last_num (m_opts (p_msg q))) = match l2 with [] => false | _ => true end) /\
    insert_opt n v (m_opts (p_msg q)) = l1 ++ (n, v) :: l2 /\
    add_opt_raw q n v =
      if (n =? last_num (m_opts (p_msg q))) && negb (repeatable n) then (false, q)
      else if fits q (used (p_msg q) + opt_encode_size (n - last_from 0 l1) (len v))
           then (true, set_opts q (l1 ++ (n, v) :: l2)) else (false, q).
Proof.
  intros Ha.
  destruct (ed_insert_split n v (m_opts (p_msg q))) as (l1 & l2 & Ho & H1 & H2 & Hi & Hp).
  exists l1, l2. rewrite Ho in Ha. apply ed_ascending_app in Ha. destruct Ha as [_ Ha].
  assert (Hmx : last_num (m_opts (p_msg q)) = last_from (last_from 0 l1) l2)
    by (rewrite Ho; apply ed_lastn_app).
  unfold add_opt_raw. cbv zeta. rewrite Hi, Hp, Hmx.
  split; [assumption|]. split; [assumption|]. destruct l2 as [|[k w] l2'].
  - rewrite ed_lastn_nil. split; [constructor|]. split.
    { intros Hn. pose proof (ed_lastn_le_all l1 0 n Hn H1). lia. }
    split; [reflexivity|]. destruct (n <? last_from 0 l1); reflexivity.
  - cbn [ascending fst] in Ha, H2. destruct Ha as [_ Ha]. rewrite ed_lastn_cons.
    destruct (ed_ascending_bounds l2' k Ha) as [Hl B].
    replace (n <? last_from k l2') with true by lia. split.
    { constructor; [cbn [fst]; lia|]. eapply Forall_impl; [|exact B]. cbn. intros o Ho'. lia. }
    split; [intros _; reflexivity|]. split; reflexivity.
Qed.

Lemma ed_find_cases n l :
  (ed_find n l = None /\ Forall (fun o => (fst o =? n) = false) l) \/
  exists l1 w l2,
    l = l1 ++ (n, w) :: l2 /\ Forall (fun o => (fst o =? n) = false) l1 /\
    ed_find n l = Some w /\
    (forall v, ed_replace_first n v l = l1 ++ (n, v) :: l2) /\
    ed_remove_first n l = l1 ++ l2.
Proof.
  induction l as [|[k w] tl IH]; [left; split; [reflexivity|constructor]|].
  cbn [ed_find ed_replace_first ed_remove_first]. destruct (k =? n) eqn:E.
  - right. assert (k = n) by lia. subst k. exists [], w, tl.
    split; [reflexivity|]. split; [constructor|]. repeat split.
  - destruct IH as [[Hf Ha]|(l1 & w' & l2 & -> & Ha & Hf & Hr & Hm)].
    + left. split; [assumption|]. constructor; assumption.
    + right. exists ((k, w) :: l1), w', l2. split; [reflexivity|].
      split; [constructor; assumption|]. split; [assumption|].
      split; [intros v; rewrite Hr; reflexivity|rewrite Hm; reflexivity].
Qed.

Lemma ed_has_opt_find n l :
  has_opt n l = match ed_find n l with Some _ => true | None => false end.
Proof.
  unfold has_opt. induction l as [|[k w] tl IH]; [reflexivity|].
  cbn [existsb fst ed_find]. destruct (k =? n); [reflexivity|exact IH].
Qed.

(* every insertion is coap_add_option_internal's tail [add_opt_raw], possibly after the implicit
   Hop-Limit (RFC 8768) *)

Definition ed_hop_done (q : pdu) (n : Z) (q1 : pdu) : Prop :=
  q1 = q \/ ed_hop_trigger (p_msg q) n = true /\ q1 = snd (add_opt_raw q 16 [16]).

Lemma ed_add_internal_raw q n v :
  exists q1, ed_hop_done q n q1 /\ ed_add_internal q n v = add_opt_raw q1 n v.
Proof.
  unfold ed_add_internal, ed_hop_step, ed_hop_done.
  destruct ((n =? last_num (m_opts (p_msg q))) && negb (repeatable n)) eqn:Er.
  - exists q. split; [left; reflexivity|]. unfold add_opt_raw. rewrite Er. reflexivity.
  - destruct (ed_hop_trigger (p_msg q) n); eexists; (split; [|reflexivity]);
      [right; split; reflexivity|left; reflexivity].
Qed.

Lemma ed_insert_raw q n v :
  exists q1, ed_hop_done q n q1 /\ ed_insert q n v = add_opt_raw q1 n v.
Proof.
  unfold ed_insert. case_if; [|apply ed_add_internal_raw].
  exists q. split; [left|]; reflexivity.
Qed.

(* an invariant of the edits has five things to show: it survives [add_opt_raw], the Hop-Limit
   option is acceptable when the step triggers, and it survives value replacement, removal (both
   on the split list) and token replacement *)

Section EditInvariant.
  Variable I : pdu -> Prop.
  Variable ok : Z -> bytes -> Prop.
  Variable okt : bytes -> Prop.

  Hypothesis Hadd : forall q n v, I q -> ok n v -> I (snd (add_opt_raw q n v)).
  Hypothesis Hhop : forall q n, I q -> ed_hop_trigger (p_msg q) n = true -> ok 16 [16].

  Lemma ed_insert_inv q n v :
    I q -> ok n v -> I (snd (ed_insert q n v)) /\ I (snd (ed_add_internal q n v)).
  Proof.
    intros Hq Ho.
    assert (H : forall q1, ed_hop_done q n q1 -> I (snd (add_opt_raw q1 n v))).
    { intros q1 [->|[Ht ->]]; apply Hadd; try assumption.
      apply Hadd; [assumption|]. eapply Hhop; eassumption. }
    destruct (ed_insert_raw q n v) as (q1 & Hq1 & ->).
    destruct (ed_add_internal_raw q n v) as (q2 & Hq2 & ->). split; apply H; assumption.
  Qed.

  Hypothesis Hreplace : forall q l1 n w v l2,
    I q -> ok n v -> m_opts (p_msg q) = l1 ++ (n, w) :: l2 ->
    (ed_vsize v - ed_vsize w <=? 0) || fits q (used (p_msg q) + (ed_vsize v - ed_vsize w)) = true ->
    I (set_opts q (l1 ++ (n, v) :: l2)).
  Hypothesis Hremove : forall q l1 n w l2,
    I q -> m_opts (p_msg q) = l1 ++ (n, w) :: l2 -> I (set_opts q (l1 ++ l2)).
  Hypothesis Htoken : forall q t,
    I q -> okt t -> len t <= 65804 ->
    (len (token_area t) - len (token_area (m_token (p_msg q))) <=? 0) ||
    fits q (used (p_msg q) + (len (token_area t) - len (token_area (m_token (p_msg q))))) = true ->
    I (ed_with_token q t).

  Definition ed_op_meets (e : ed_op) : Prop :=
    match e with
    | EdInsert n v | EdUpdate n v => ok n v
    | EdRemove _ => True
    | EdToken t => okt t
    end.

  Theorem ed_apply_inv q e : I q -> ed_op_meets e -> I (snd (ed_apply q e)).
  Proof.
    intros Hq He. destruct e as [n v|n v|n|t]; cbn [ed_apply ed_op_meets] in *.
    - apply ed_insert_inv; assumption.
    - unfold ed_update.
      destruct (ed_find_cases n (m_opts (p_msg q)))
        as [[-> _]|(l1 & w & l2 & Ho & _ & -> & Hr & _)]; [apply ed_insert_inv; assumption|].
      case_if; cbn [snd]; [|assumption]. rewrite Hr. eapply Hreplace; eassumption.
    - unfold ed_remove.
      destruct (ed_find_cases n (m_opts (p_msg q)))
        as [[-> _]|(l1 & w & l2 & Ho & _ & -> & _ & Hr)]; cbn [snd]; [assumption|].
      rewrite Hr. eapply Hremove; eassumption.
    - unfold ed_token. destruct (65804 <? len t) eqn:El; cbn [snd]; [assumption|].
      case_if; cbn [snd]; [|assumption]. apply Htoken; try assumption. lia.
  Qed.

End EditInvariant.

Lemma ed_run_inv (I : pdu -> Prop) (ok : ed_op -> Prop) :
  (forall q e, I q -> ok e -> I (snd (ed_apply q e))) ->
  forall es q, I q -> Forall ok es -> I (snd (ed_run q es)).
Proof.
  intros Hstep. induction es as [|e tl IH]; intros q Hq Hes; [assumption|].
  inversion Hes as [|? ? He Htl]; subst. cbn [ed_run].
  pose proof (Hstep q e Hq He) as H1. destruct (ed_apply q e) as [r q1]. cbn [snd] in H1.
  specialize (IH q1 H1 Htl). destruct (ed_run q1 tl) as [rs q2]. exact IH.
Qed.

Definition ed_op_ok (e : ed_op) : Prop :=
  match e with
  | EdInsert n v | EdUpdate n v => 0 <= n <= 65535 /\ len v <= 65804
  | EdRemove n => 0 <= n <= 65535
  | EdToken _ => True
  end.

Lemma ed_mwf_set_opts q os :
  ed_mwf (p_msg q) -> Forall ed_opt_ok os -> ascending 0 os -> ed_mwf (p_msg (set_opts q os)).
Proof. intros [H1 _ _] H2 H3. constructor; assumption. Qed.

Lemma ed_mwf_add_opt_raw q n v :
  ed_mwf (p_msg q) -> 0 <= n <= 65535 -> len v <= 65804 ->
  ed_mwf (p_msg (snd (add_opt_raw q n v))).
Proof.
  intros W Hn Hv. unfold add_opt_raw. repeat case_if; cbn [snd]; try assumption.
  destruct W as [H1 H2 H3]. apply ed_mwf_set_opts; [constructor; assumption| |].
  - apply insert_opt_forall; [split; assumption|assumption].
  - apply insert_opt_ascending; [lia|assumption].
Qed.

Definition ed_nv_ok (n : Z) (v : bytes) : Prop := 0 <= n <= 65535 /\ len v <= 65804.

Lemma ed_hop_nv_ok : ed_nv_ok 16 [16].
Proof. split; [lia|]. unfold len. cbn [length]. lia. Qed.

Lemma ed_mwf_replace q l1 n w v l2 :
  ed_mwf (p_msg q) -> ed_nv_ok n v -> m_opts (p_msg q) = l1 ++ (n, w) :: l2 ->
  ed_mwf (p_msg (set_opts q (l1 ++ (n, v) :: l2))).
Proof.
  intros W Hnv Ho. pose proof W as [_ H2 H3]. rewrite Ho in H2, H3.
  apply ed_forall_app_inv in H2. destruct H2 as (A & _ & B).
  apply ed_mwf_set_opts; [assumption| |eapply ed_asc_replace; exact H3].
  apply Forall_app. split; [assumption|]. constructor; assumption.
Qed.

Lemma ed_mwf_remove_at q l1 (x : opt) l2 :
  ed_mwf (p_msg q) -> m_opts (p_msg q) = l1 ++ x :: l2 -> ed_mwf (p_msg (set_opts q (l1 ++ l2))).
Proof.
  intros W Ho. pose proof W as [_ H2 H3]. rewrite Ho in H2, H3.
  apply ed_forall_app_inv in H2. destruct H2 as (A & _ & B).
  apply ed_mwf_set_opts; [assumption| |eapply ed_asc_remove; exact H3].
  apply Forall_app. split; assumption.
Qed.

Lemma ed_mwf_with_token q t :
  ed_mwf (p_msg q) -> len t <= 65804 -> ed_mwf (p_msg (ed_with_token q t)).
Proof. intros [H1 H2 H3] Ht. constructor; assumption. Qed.

Theorem ed_mwf_apply q e :
  ed_mwf (p_msg q) -> ed_op_ok e -> ed_mwf (p_msg (snd (ed_apply q e))).
Proof.
  intros W He.
  apply (ed_apply_inv (fun q => ed_mwf (p_msg q)) ed_nv_ok (fun _ => True)); try assumption.
  - intros q0 n v W0 [Hn Hv]. apply ed_mwf_add_opt_raw; assumption.
  - intros. exact ed_hop_nv_ok.
  - intros q0 l1 n w v l2 W0 Hnv Ho _. eapply ed_mwf_replace; eassumption.
  - intros q0 l1 n w l2 W0 Ho. eapply ed_mwf_remove_at; eassumption.
  - intros q0 t W0 _ Ht _. apply ed_mwf_with_token; assumption.
  - destruct e; cbn [ed_op_ok ed_op_meets] in *; try exact I; exact He.
Qed.

(* coap_insert_option / add: all old options keep number, value and relative position; the new
   one sits after the last option whose number is <= n; token, payload, header untouched.
   The implicit Hop-Limit step is the one exception the code makes (RFC 8768): it can put
   (16, [16]) in as well - [ed_hop_step]. *)
Theorem ed_add_opt_raw_frame q n v r q' :
  ascending 0 (m_opts (p_msg q)) -> add_opt_raw q n v = (r, q') ->
  (r = false /\ q' = q) \/
  (r = true /\ exists l1 l2,
      m_opts (p_msg q) = l1 ++ l2 /\ q' = set_opts q (l1 ++ (n, v) :: l2) /\
      Forall (fun o => fst o <= n) l1 /\ Forall (fun o => n < fst o) l2).
Proof.
  intros Ha. destruct (ed_add_opt_raw_split q n v Ha) as (l1 & l2 & Ho & H1 & H2 & _ & _ & ->).
  repeat case_if; intros H; inversion H; subst; try (left; tauto).
  right. split; [reflexivity|]. exists l1, l2. tauto.
Qed.

(* coap_update_option of a present option: exactly the first option numbered n gets the value *)
Theorem ed_update_frame q n v r q' :
  ed_update q n v = (r, q') -> ed_find n (m_opts (p_msg q)) <> None ->
  (r = false /\ q' = q) \/
  (r = true /\ exists l1 w l2,
      m_opts (p_msg q) = l1 ++ (n, w) :: l2 /\ q' = set_opts q (l1 ++ (n, v) :: l2) /\
      Forall (fun o => fst o <> n) l1).
Proof.
  unfold ed_update.
  destruct (ed_find_cases n (m_opts (p_msg q)))
    as [[-> _]|(l1 & w & l2 & Ho & Hf & -> & Hr & _)]; [congruence|]. intros H _.
  case_if_in H; inversion H; subst; [|left; tauto]. right. split; [reflexivity|].
  exists l1, w, l2. split; [assumption|]. split; [rewrite Hr; reflexivity|].
  eapply Forall_impl; [|exact Hf]. cbn. intros; lia.
Qed.

Theorem ed_remove_frame q n r q' :
  ed_remove q n = (r, q') ->
  (r = false /\ q' = q /\ Forall (fun o => fst o <> n) (m_opts (p_msg q))) \/
  (r = true /\ exists l1 w l2,
      m_opts (p_msg q) = l1 ++ (n, w) :: l2 /\ q' = set_opts q (l1 ++ l2) /\
      Forall (fun o => fst o <> n) l1).
Proof.
  unfold ed_remove.
  destruct (ed_find_cases n (m_opts (p_msg q)))
    as [[-> Hn]|(l1 & w & l2 & Ho & Hf & -> & _ & Hr)]; intros H; inversion H; subst.
  - left. split; [reflexivity|]. split; [reflexivity|].
    eapply Forall_impl; [|exact Hn]. cbn. intros; lia.
  - right. split; [reflexivity|]. exists l1, w, l2. split; [assumption|].
    split; [rewrite Hr; reflexivity|]. eapply Forall_impl; [|exact Hf]. cbn. intros; lia.
Qed.

Theorem ed_token_frame q t r q' :
  ed_token q t = (r, q') ->
  (r = false /\ q' = q) \/ (r = true /\ q' = ed_with_token q t /\ len t <= 65804).
Proof.
  unfold ed_token. destruct (65804 <? len t) eqn:E; [intros H; inversion H; left; tauto|].
  case_if; intros H; inversion H; subst; [right|left; tauto].
  split; [reflexivity|]. split; [reflexivity|lia].
Qed.

Theorem ed_apply_keeps q e :
  let q' := snd (ed_apply q e) in
  m_type (p_msg q') = m_type (p_msg q) /\ m_code (p_msg q') = m_code (p_msg q) /\
  m_mid (p_msg q') = m_mid (p_msg q) /\ m_payload (p_msg q') = m_payload (p_msg q) /\
  p_max q' = p_max q /\
  match e with
  | EdToken _ => m_opts (p_msg q') = m_opts (p_msg q)
  | _ => m_token (p_msg q') = m_token (p_msg q)
  end.
Proof.
  (* for the option edits: an invariant that says nothing of token edits *)
  set (K := fun q' =>
    m_type (p_msg q') = m_type (p_msg q) /\ m_code (p_msg q') = m_code (p_msg q) /\
    m_mid (p_msg q') = m_mid (p_msg q) /\ m_payload (p_msg q') = m_payload (p_msg q) /\
    p_max q' = p_max q /\ m_token (p_msg q') = m_token (p_msg q)).
  assert (Hopt : forall e', ed_op_meets (fun _ _ => True) (fun _ => False) e' ->
                            K (snd (ed_apply q e'))).
  { intros e' He'. apply (ed_apply_inv K (fun _ _ => True) (fun _ => False)); try assumption.
    - intros q0 n v H _. unfold add_opt_raw. repeat case_if; exact H.
    - intros. exact I.
    - intros q0 l1 n w v l2 H _ _ _. exact H.
    - intros q0 l1 n w l2 H _. exact H.
    - intros. contradiction.
    - subst K. cbv beta. tauto. }
  destruct e as [n v|n v|n|t]; try (apply Hopt; exact I).
  cbn [ed_apply]. unfold ed_token. repeat case_if; cbn; tauto.
Qed.

Lemma ed_add_opt_raw_refused q n v : fst (add_opt_raw q n v) = false -> snd (add_opt_raw q n v) = q.
Proof. unfold add_opt_raw. repeat case_if; cbn [fst snd]; congruence. Qed.

Theorem ed_apply_refused q e :
  fst (ed_apply q e) = false ->
  snd (ed_apply q e) = q \/
  exists n v, (e = EdInsert n v \/ e = EdUpdate n v) /\ ed_hop_trigger (p_msg q) n = true /\
              snd (ed_apply q e) = snd (add_opt_raw q 16 [16]).
Proof.
  assert (Hins : forall n v, fst (ed_insert q n v) = false ->
    snd (ed_insert q n v) = q \/
    (ed_hop_trigger (p_msg q) n = true /\ snd (ed_insert q n v) = snd (add_opt_raw q 16 [16]))).
  { intros n v. destruct (ed_insert_raw q n v) as (q1 & Hq1 & ->). intros H.
    rewrite (ed_add_opt_raw_refused _ _ _ H). destruct Hq1 as [->|[Ht ->]]; tauto. }
  destruct e as [n v|n v|n|t]; cbn [ed_apply].
  - intros H. destruct (Hins n v H) as [->|[H1 H2]]; [left; reflexivity|].
    right. exists n, v. tauto.
  - unfold ed_update. destruct (ed_find n (m_opts (p_msg q))).
    + case_if; cbn [fst snd]; [discriminate|left; reflexivity].
    + intros H. destruct (Hins n v H) as [->|[H1 H2]]; [left; reflexivity|].
      right. exists n, v. tauto.
  - unfold ed_remove. destruct (ed_find n (m_opts (p_msg q))); cbn [fst snd];
      [discriminate|left; reflexivity].
  - unfold ed_token. repeat case_if; cbn [fst snd]; try discriminate; left; reflexivity.
Qed.

Theorem ed_remove_succeeds_iff q n :
  fst (ed_remove q n) = true <-> has_opt n (m_opts (p_msg q)) = true.
Proof.
  unfold ed_remove. rewrite ed_has_opt_find.
  destruct (ed_find n (m_opts (p_msg q))); cbn [fst]; tauto.
Qed.

Theorem ed_token_succeeds_iff q t :
  fst (ed_token q t) = true <->
  len t <= 65804 /\
  (len (token_area t) <= len (token_area (m_token (p_msg q))) \/ p_max q = 0 \/
   used (p_msg (ed_with_token q t)) <= p_max q).
Proof.
  unfold ed_token, fits, used, ed_with_token, content_area.
  cbn [p_msg p_max m_token m_opts m_payload].
  destruct (65804 <? len t) eqn:E; cbn [fst]; [split; [discriminate|lia]|].
  case_if; cbn [fst]; split; intros H; try discriminate; try reflexivity; lia.
Qed.
