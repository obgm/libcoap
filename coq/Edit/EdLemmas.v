(* C04 - the byte operations of Edit/EdBytes.v on buffers given as concatenations: the checked
   move and store, the move-and-encode step shared by insert / update / append, the token moves,
   and the header patches of coap_insert_option and coap_remove_option: in each delta-class case
   the bytes of the neighbouring option's header become the header for the new delta (possibly
   one or two bytes shorter / longer). *)
From LibcoapV Require Import Base.Tactics Base.Bytes Base.BytesProofs Wire.OptCodec
  Wire.OptCodecProofs Edit.EdBytes.
Local Open Scope Z_scope.

Lemma ed_take_neg {A} n (l : list A) : n <= 0 -> take n l = [].
Proof. apply take_nonpos. Qed.

Lemma ed_take_app {A} n (a b : list A) :
  0 <= n -> take (len a + n) (a ++ b) = a ++ take n b.
Proof.
  intros H. unfold take, len. rewrite firstn_app.
  replace (Z.to_nat (Z.of_nat (length a) + n) - length a)%nat with (Z.to_nat n) by lia.
  rewrite firstn_all2 by lia. reflexivity.
Qed.

Lemma ed_len_repeat {A} (x : A) n : len (repeat x n) = Z.of_nat n.
Proof. unfold len. rewrite repeat_length. reflexivity. Qed.

Lemma ed_len_junk g : 0 <= g -> len (repeat ed_junk (Z.to_nat g)) = g.
Proof. intros H. rewrite ed_len_repeat. lia. Qed.

Lemma ed_len_grow s extra : 0 <= extra -> len (ed_grow s extra) = len s + extra.
Proof. intros H. unfold ed_grow. rewrite len_app, ed_len_junk by assumption. reflexivity. Qed.

Lemma ed_grow_neg s extra : extra <= 0 -> ed_grow s extra = s.
Proof.
  intros H. unfold ed_grow. replace (Z.to_nat extra) with 0%nat by lia. cbn [repeat].
  apply app_nil_r.
Qed.

Lemma ed_memmove_seg (A Y B : bytes) dst src n :
  len A = src -> len Y = n -> 0 <= dst -> dst + n <= len (A ++ Y ++ B) ->
  ed_memmove (A ++ Y ++ B) dst src n =
  Some (take dst (A ++ Y ++ B) ++ Y ++ drop (dst + n) (A ++ Y ++ B)).
Proof.
  intros <- <- Hd Hb. pose proof (len_nonneg A). pose proof (len_nonneg Y).
  pose proof (len_nonneg B). unfold ed_memmove. rewrite drop_app_exact, take_app_exact.
  rewrite !len_app in *.
  replace ((0 <=? dst) && (0 <=? len A) && (0 <=? len Y) &&
           (dst + len Y <=? len A + (len Y + len B)) &&
           (len A + len Y <=? len A + (len Y + len B))) with true by lia.
  reflexivity.
Qed.

Lemma ed_bwrite_at (P X S E : bytes) :
  len E = len X -> ed_bwrite (P ++ X ++ S) (len P) E = Some (P ++ E ++ S).
Proof.
  intros H. pose proof (len_nonneg P). pose proof (len_nonneg X). pose proof (len_nonneg S).
  unfold ed_bwrite. rewrite !len_app.
  replace ((0 <=? len P) && (len P + len E <=? len P + (len X + len S))) with true by lia.
  rewrite take_app_exact, H, (app_assoc P X S), <- len_app, drop_app_exact. reflexivity.
Qed.

Lemma ed_bwrite_front (X Y E : bytes) :
  len E = len X -> ed_bwrite (X ++ Y) 0 E = Some (E ++ Y).
Proof. exact (ed_bwrite_at [] X Y E). Qed.

(* the move-and-encode step shared by insert / update / append, on the buffer
   P ++ X ++ Y ++ J :  X (b bytes) is overwritten, Y is kept, J (junk) is what
   coap_pdu_check_resize made available; E (a bytes) is encoded at the start of X after Y has
   been moved to start a bytes after P. *)
Lemma ed_gap (P X Y J E : bytes) a b :
  len X = b -> len E = a -> a <= b + len J ->
  exists M W,
    ed_memmove (P ++ X ++ Y ++ J) (len P + a) (len P + b) (len Y) = Some M /\
    ed_bwrite M (len P) E = Some W /\
    take (len P + a + len Y) W = P ++ E ++ Y.
Proof.
  intros HX HE Ha.
  pose proof (len_nonneg P). pose proof (len_nonneg Y). pose proof (len_nonneg J).
  pose proof (len_nonneg E).
  assert (Hl : len (X ++ Y ++ J) = b + len Y + len J) by (rewrite !len_app; lia).
  eexists; eexists. split; [|split].
  - rewrite (app_assoc P X). apply ed_memmove_seg; rewrite ?len_app; lia.
  - rewrite <- (app_assoc P X), ed_take_app, <- app_assoc by lia.
    apply ed_bwrite_at. rewrite len_take; lia.
  - replace (len P + a + len Y) with (len (P ++ E ++ Y)) by (rewrite !len_app; lia).
    rewrite (app_assoc E Y), (app_assoc P (E ++ Y)). apply take_app_exact.
Qed.

Lemma ed_gap0 (X Y J E : bytes) a b :
  len X = b -> len E = a -> a <= b + len J ->
  exists M W,
    ed_memmove (X ++ Y ++ J) a b (len Y) = Some M /\
    ed_bwrite M 0 E = Some W /\
    take (a + len Y) W = E ++ Y.
Proof. exact (ed_gap [] X Y J E a b). Qed.

(* the move of coap_remove_option: everything from index [len X] goes to index 0 *)
Lemma ed_move_down (X Y : bytes) :
  exists M, ed_memmove (X ++ Y) 0 (len X) (len Y) = Some M /\ take (len Y) M = Y.
Proof.
  pose proof (len_nonneg X). pose proof (len_nonneg Y).
  rewrite <- (app_nil_r (X ++ Y)), <- app_assoc.
  rewrite ed_memmove_seg by (rewrite ?len_app; change (len (@nil Z)) with 0; lia).
  eexists. split; [reflexivity|]. rewrite (take_nonpos 0) by lia. cbn [app]. apply take_app_exact.
Qed.

(* coap_update_token, token area growing by g: everything moves up, then the new area E is
   written over the freed bytes and the old area T *)
Lemma ed_token_up (T C E : bytes) g :
  0 < g -> len E = g + len T ->
  exists M, ed_memmove (ed_grow (T ++ C) g) g 0 (len (T ++ C)) = Some M /\
            ed_bwrite M 0 E = Some (E ++ C).
Proof.
  intros Hg HE. pose proof (len_nonneg T). pose proof (len_nonneg C).
  unfold ed_grow. pose proof (ed_len_junk g ltac:(lia)) as HJ.
  set (J := repeat ed_junk (Z.to_nat g)) in *. eexists. split.
  - apply (ed_memmove_seg [] (T ++ C) J); cbn [app]; rewrite ?len_app; try reflexivity; lia.
  - cbn [app]. rewrite (drop_all (g + len (T ++ C))) by (rewrite !len_app; lia).
    rewrite app_nil_r, app_assoc. apply ed_bwrite_front.
    rewrite len_app, len_take; rewrite ?len_app; lia.
Qed.

(* the token area shrinking from T to the size of E: everything moves down *)
Lemma ed_token_down (T C E : bytes) :
  len E <= len T ->
  exists M, ed_memmove (T ++ C) 0 (len T - len E) (len E + len C) = Some M /\
            ed_bwrite (take (len E + len C) M) 0 E = Some (E ++ C).
Proof.
  intros H. pose proof (len_nonneg E). pose proof (len_nonneg C).
  set (d := len T - len E).
  assert (Hd : len (drop d T) = len E) by (rewrite len_drop; lia).
  pose proof (ed_memmove_seg (take d T) (drop d T ++ C) [] 0 d (len E + len C)) as HM.
  rewrite app_nil_r, app_assoc, take_drop in HM.
  rewrite HM by (rewrite ?len_app, ?len_take; lia).
  eexists. split; [reflexivity|]. rewrite (take_nonpos 0) by lia. cbn [app].
  rewrite <- Hd, <- len_app, take_app_exact. apply ed_bwrite_front. symmetry. exact Hd.
Qed.

(* [cbn] computes a store only where both index and bytes are explicit *)
#[local] Arguments ed_poke !i b !s.

Lemma ed_poke_app (A : bytes) j i b B :
  i = (j + length A)%nat ->
  ed_poke i b (A ++ B) = match ed_poke j b B with Some r => Some (A ++ r) | None => None end.
Proof.
  intros ->. rewrite Nat.add_comm. induction A as [|a tl IH]; cbn [length app Nat.add ed_poke].
  - destruct (ed_poke j b B); reflexivity.
  - rewrite IH. destruct (ed_poke j b B); reflexivity.
Qed.

Lemma ed_peek_app (A : bytes) B : ed_peek (length A) (A ++ B) = ed_peek 0 B.
Proof. unfold ed_peek. rewrite nth_error_app2, Nat.sub_diag by lia. reflexivity. Qed.

(* the three classes of a delta (below 13, below 269, above): one case analysis gives both
   comparisons, the nibble, the extension bytes and their number *)

Inductive ed_ext_view (x : Z) : bool -> bool -> Z -> bytes -> Z -> Prop :=
| EdExtS : x < 13 -> ed_ext_view x true true x [] 0
| EdExtM : 13 <= x < 269 -> ed_ext_view x false true 13 [x - 13] 1
| EdExtL : 269 <= x ->
           ed_ext_view x false false 14 [((x - 269) / 256) mod 256; (x - 269) mod 256] 2.

Lemma ed_ext_cases x :
  ed_ext_view x (x <? 13) (x <? 269) (ext_nib x) (ext_bytes x) (ext_size x).
Proof.
  unfold ext_nib, ext_bytes, ext_size. destruct (x <? 13) eqn:E1.
  - replace (x <? 269) with true by lia. constructor. lia.
  - destruct (x <? 269) eqn:E2; constructor; lia.
Qed.

(* the first header byte gets a new delta nibble [c] and keeps its length nibble *)
Lemma ed_nib_set a nl c x :
  0 <= nl < 16 -> 0 <= c < 16 -> x = 16 * c -> ed_u8 (ed_lo (16 * a + nl) + x) = 16 * c + nl.
Proof. intros Hn Hc ->. unfold ed_u8, ed_lo. lia. Qed.

Lemma ed_nib_set_small a nl c :
  0 <= nl < 16 -> 0 <= c < 16 -> ed_u8 (ed_lo (16 * a + nl) + ed_u8 (c * 16)) = 16 * c + nl.
Proof. intros Hn Hc. apply ed_nib_set; try assumption. unfold ed_u8. lia. Qed.

Lemma ed_u8_small x : 0 <= x < 256 -> ed_u8 x = x.
Proof. intros H. unfold ed_u8. lia. Qed.

(* coap_insert_option: the following option's delta drops from dold to dnew *)

Lemma ed_patch_insert_ok dold dnew l R :
  0 < dnew <= dold -> dold <= 65535 -> 0 <= l <= 65804 ->
  exists X,
    ed_patch_insert dold dnew (opt_hdr dold l ++ R) =
      Some (X ++ opt_hdr dnew l ++ R, ext_size dold - ext_size dnew) /\
    len X = ext_size dold - ext_size dnew.
Proof.
  intros Hd Hdo Hl. pose proof (ext_nib_range l ltac:(lia)) as Hn.
  unfold ed_patch_insert, opt_hdr. set (nl := ext_nib l) in *. set (el := ext_bytes l).
  destruct (ed_ext_cases dold) as [Ho|Ho|Ho]; cbn [andb app ed_peek nth_error].
  - destruct (ed_ext_cases dnew) as [Hw|Hw|Hw]; [|exfalso; lia..]. cbn [ed_poke].
    exists []. rewrite ed_nib_set_small by lia. split; reflexivity.
  - destruct (ed_ext_cases dnew) as [Hw|Hw|Hw]; [| |exfalso; lia]; cbn [andb ed_poke].
    + exists [16 * 13 + nl]. rewrite ed_nib_set_small by lia. split; reflexivity.
    + exists []. rewrite ed_u8_small by lia. split; reflexivity.
  - destruct (ed_ext_cases dnew) as [Hw|Hw|Hw]; cbn [andb ed_poke].
    + exists [16 * 14 + nl; ((dold - 269) / 256) mod 256].
      rewrite ed_nib_set_small by lia. split; reflexivity.
    + exists [16 * 14 + nl]. rewrite (ed_nib_set _ _ 13), ed_u8_small by (reflexivity || lia).
      split; reflexivity.
    + exists []. split; reflexivity.
Qed.

Lemma ed_split_last1 (E : bytes) : 1 <= len E -> exists E1 x, E = E1 ++ [x].
Proof.
  intros H. destruct (exists_last (l := E)) as (E1 & x & ->).
  - intros ->. unfold len in H. cbn in H. lia.
  - exists E1, x. reflexivity.
Qed.

Lemma ed_split_last2 (E : bytes) : 2 <= len E -> exists E1 x y, E = E1 ++ [x; y].
Proof.
  intros H. destruct (ed_split_last1 E ltac:(lia)) as (E0 & y & ->).
  rewrite len_app in H. change (len [y]) with 1 in H.
  destruct (ed_split_last1 E0 ltac:(lia)) as (E1 & x & ->).
  exists E1, x, y. rewrite <- app_assoc. reflexivity.
Qed.

(* coap_remove_option: the following option's delta grows from dnext to dthis + dnext.  The
   stores reach 0, 1 or 2 bytes back into the removed option E: with E = E1 ++ t, t those
   bytes, every store is a store into t ++ header behind the untouched E1 *)
Lemma ed_patch_remove_ok dthis dnext l (E R : bytes) :
  0 <= dthis -> 0 <= dnext -> dthis + dnext <= 65535 -> 0 <= l <= 65804 ->
  1 <= len E -> (13 <= dthis -> 2 <= len E) ->
  exists X,
    ed_patch_remove dthis dnext (length E) (E ++ opt_hdr dnext l ++ R) =
      Some (X ++ opt_hdr (dthis + dnext) l ++ R, len X) /\
    len X = len E - (ext_size (dthis + dnext) - ext_size dnext).
Proof.
  intros Ht Hx Hs Hl HE1 HE2. pose proof (ext_nib_range l ltac:(lia)) as Hn.
  unfold ed_patch_remove, opt_hdr. set (od := dthis + dnext) in *.
  set (nl := ext_nib l) in *. set (el := ext_bytes l).
  rewrite ed_peek_app.
  destruct (ed_ext_cases od) as [Ho|Ho|Ho]; cbn [andb app ed_peek nth_error].
  - destruct (ed_ext_cases dnext) as [Hw|Hw|Hw]; [|exfalso; lia..]. cbn [app].
    rewrite (ed_poke_app E 0) by reflexivity. cbn [ed_poke]. exists E.
    rewrite ed_nib_set_small by lia. split; [reflexivity|lia].
  - destruct (ed_ext_cases dnext) as [Hw|Hw|Hw]; [| |exfalso; lia]; cbn [andb app].
    + destruct (ed_split_last1 E HE1) as (E1 & x & ->). rewrite <- app_assoc.
      rewrite app_length, Nat.add_comm. cbn [length Nat.add app].
      rewrite (ed_poke_app E1 0) by reflexivity. cbn [ed_poke].
      rewrite (ed_poke_app E1 1) by reflexivity. cbn [ed_poke].
      exists E1. rewrite (ed_nib_set _ _ 13), ed_u8_small by (reflexivity || lia).
      split; [f_equal; f_equal; unfold len; lia|rewrite len_app; change (len [x]) with 1; lia].
    + rewrite (ed_poke_app E 1) by reflexivity. cbn [ed_poke]. exists E.
      rewrite ed_u8_small by lia. split; [reflexivity|lia].
  - destruct (ed_ext_cases dnext) as [Hw|Hw|Hw]; cbn [andb app].
    + destruct (ed_split_last2 E (HE2 ltac:(lia))) as (E1 & x & y & ->). rewrite <- app_assoc.
      rewrite app_length, Nat.add_comm. cbn [length Nat.add app].
      rewrite (ed_poke_app E1 0) by reflexivity. cbn [ed_poke].
      rewrite (ed_poke_app E1 1) by reflexivity. cbn [ed_poke].
      rewrite (ed_poke_app E1 2) by reflexivity. cbn [ed_poke].
      exists E1. rewrite (ed_nib_set _ _ 14) by (reflexivity || lia).
      split; [f_equal; f_equal; unfold len; lia|rewrite len_app; change (len [x; y]) with 2; lia].
    + destruct (ed_split_last1 E HE1) as (E1 & x & ->). rewrite <- app_assoc.
      rewrite app_length, Nat.add_comm. cbn [length Nat.add app].
      rewrite (ed_poke_app E1 0) by reflexivity. cbn [ed_poke].
      rewrite (ed_poke_app E1 1) by reflexivity. cbn [ed_poke].
      rewrite (ed_poke_app E1 2) by reflexivity. cbn [ed_poke].
      exists E1. rewrite (ed_nib_set _ _ 14) by (reflexivity || lia).
      split; [f_equal; f_equal; unfold len; lia|rewrite len_app; change (len [x]) with 1; lia].
    + rewrite (ed_poke_app E 1) by reflexivity. cbn [ed_poke].
      rewrite (ed_poke_app E 2) by reflexivity. cbn [ed_poke]. exists E. split; [reflexivity|lia].
Qed.
