(* C15 - OSCORE never accepts a replay or reuses a nonce; forgeries leave no trace.
   Statements only; models in Oscore/Replay.v (recipient), Oscore/SenderSeq.v (sender) and
   Oscore/Recipients.v (recipient chain); proofs in Oscore/ReplayProofs.v,
   Oscore/SenderSeqProofs.v, Oscore/RecipientsProofs.v and Oscore/EndToEnd.v, witnesses in
   Oscore/ReplayRefuted.v.

   [rp_fixed] is the recipient code after the eight "fix:" commits in /repo (the variant the
   correspondence check runs against the C on every invocation), [rp_orig] the code as found.
   A history is any list of messages: requests, and responses that carry a Partial IV of their
   own (notifications) for requests of this endpoint; each with any sequence number in its
   Partial IV, genuine, forged, turned away before the replay check, or stopped at any exit
   between the replay check and the decryption verdict ([RpAbort]: every path of
   coap_oscore_decrypt_pdu is a message class of the model), with or without a (valid or
   invalid) Echo option.  [rp_accepted] lists the numbers accepted after a replay check
   (verdict RpAccept: every accepted request, and every accepted response once the context is
   armed); a response delivered while the context is still in its initial state has the
   verdict RpAcceptUnchecked - nothing is claimed for those (see notes/C15.md).  W is
   replay_window_size (every integer; the code keeps 64 bits, so sizes above 64 act like 64),
   b12 is rfc8613_b_1_2. *)
From LibcoapV Require Import Base.Tactics Oscore.Replay Oscore.ReplayProofs Oscore.ReplayRefuted
  Oscore.SenderSeq Oscore.SenderSeqProofs Oscore.EndToEnd Oscore.Recipients
  Oscore.RecipientsProofs.
From Coq Require Import Sorted.
Local Open Scope Z_scope.

(* a sequence number reaches the handler at most once, in every history *)
Theorem C15_at_most_once : forall W b12 h,
  NoDup (rp_accepted rp_fixed W b12 rp_init h).
Proof. exact rp_at_most_once. Qed.
Print Assumptions C15_at_most_once.

(* the verdict of every message in every history is the verdict of the RFC 8613 section 7.4
   sliding window over the set of accepted numbers (specification [rp_abs_recv]) *)
Theorem C15_window_exact : forall W b12 h,
  fst (rp_run rp_fixed W b12 rp_init h) = fst (rp_abs_run W b12 rp_abs_init h).
Proof. exact rp_window_exact. Qed.
Print Assumptions C15_window_exact.

(* a message that fails authentication (or is turned away before that: undecodable option, no
   kid, unknown security context; or whose processing stops anywhere between the replay check
   and the decryption verdict) is never accepted and leaves last_seq, the window and
   initial_state exactly as they were, in every reachable state *)
Theorem C15_forgery_no_trace : forall W b12 s m,
  rp_reachable W b12 s -> rp_m_auth m <> RpGenuine ->
  rp_obs (snd (rp_recv rp_fixed W b12 s m)) = rp_obs s /\
  rp_delivered (fst (rp_recv rp_fixed W b12 s m)) = false.
Proof. exact rp_forgery_no_trace. Qed.
Print Assumptions C15_forgery_no_trace.

(* hence the genuine messages of a history get the verdicts they would get if the forgeries had
   never arrived *)
Theorem C15_genuine_still_accepted : forall W b12 h,
  rp_genuine_verdicts h (fst (rp_run rp_fixed W b12 rp_init h)) =
  fst (rp_run rp_fixed W b12 rp_init (filter rp_is_genuine h)).
Proof. exact rp_genuine_still_accepted. Qed.
Print Assumptions C15_genuine_still_accepted.

(* the other direction (the window is not just "reject everything"): once the context is armed,
   a genuine number newer than everything accepted, or not yet accepted and within the window
   below the newest, is accepted *)
Theorem C15_fresh_accepted : forall W b12 h m,
  let acc := rp_accepted rp_fixed W b12 rp_init h in
  let s := snd (rp_run rp_fixed W b12 rp_init h) in
  rp_initial s = false ->
  rp_m_auth m = RpGenuine -> rp_m_seq m < rp_seq_max ->
  ((forall x, In x acc -> x < rp_m_seq m) \/
   (~ In (rp_m_seq m) acc /\ forall x, In x acc -> x - rp_m_seq m < rp_weff W)) ->
  fst (rp_recv rp_fixed W b12 s m) = RpAccept.
Proof. exact rp_fresh_accepted. Qed.
Print Assumptions C15_fresh_accepted.

(* no shift by 64 or more bits is ever evaluated *)
Theorem C15_no_undef : forall W b12 h,
  rp_undef (snd (rp_run rp_fixed W b12 rp_init h)) = false.
Proof. exact rp_no_undef. Qed.
Print Assumptions C15_no_undef.

(* the model's integers never leave the range of the uint64_t fields (any variant) *)
Theorem C15_state_fits_uint64 : forall v W b12 h,
  Forall (fun m => 0 <= rp_m_seq m < 2 ^ 64) h ->
  rp_in_range (snd (rp_run v W b12 rp_init h)).
Proof. intros v W b12 h H. exact (rp_run_range v W b12 h rp_init H rp_init_range). Qed.
Print Assumptions C15_state_fits_uint64.

(* the recipient's own Sender Key is never used twice with the same AEAD nonce for the replies
   it protects (RFC 8613 5.2), whatever requests arrive in whatever multiplicity: the request's
   nonce is used only for the response to an accepted request, the Appendix B.1.2 Echo
   challenge - which the same request can trigger again - gets a Partial IV of its own *)
Theorem C15_reply_nonces_unique : forall W b12 h c,
  NoDup (rp_reply_nonces true c h (fst (rp_run rp_fixed W b12 rp_init h))).
Proof. exact rp_reply_nonces_unique. Qed.
Print Assumptions C15_reply_nonces_unique.

(* the other choice for the challenge is refuted by the same first request arriving twice *)
Theorem C15_challenge_request_nonce_refuted :
  exists h, ~ NoDup (rp_reply_nonces false 0 h (fst (rp_run rp_fixed 32 true rp_init h))).
Proof. exact rp_challenge_request_nonce_refuted. Qed.
Print Assumptions C15_challenge_request_nonce_refuted.

(* from here on: the recipient chain and its management calls (coap_new_oscore_recipient,
   coap_delete_oscore_recipient, recipient_id lines) interleaved with deliveries *)

(* adding an id that is already in the chain is refused and changes nothing: no second, empty
   replay window can shadow the existing one *)
Theorem C15_duplicate_recipient_refused : forall v W b12 c id,
  In id (rl_ids c) -> rl_step v W b12 c (RlAdd id) = (RlRet false, c).
Proof. exact rl_add_duplicate_refused. Qed.
Print Assumptions C15_duplicate_recipient_refused.

(* per lifetime of a recipient context: any interleaving of adds (also of the same id), deletes
   of other ids and deliveries for any id, starting from an empty chain - no sequence number is
   accepted twice for an id that is not deleted *)
Theorem C15_recipient_at_most_once : forall W b12 id ops,
  existsb (rl_is_del id) ops = false ->
  NoDup (rl_accepted id ops (fst (rl_run rp_fixed W b12 [] ops))).
Proof. exact rl_at_most_once. Qed.
Print Assumptions C15_recipient_at_most_once.

(* the ids of the chain stay pairwise distinct, so the lookup by kid never has a choice *)
Theorem C15_recipient_ids_distinct : forall v W b12 ops,
  NoDup (rl_ids (snd (rl_run v W b12 [] ops))).
Proof. intros v W b12 ops. apply rl_run_nodup. constructor. Qed.
Print Assumptions C15_recipient_ids_distinct.

(* delete followed by add is, by decision of the application, a NEW recipient context in its
   initial state (what is claimed above is per lifetime of an entry; see Oscore/Recipients.v) *)
Theorem C15_delete_add_new_context : forall v W b12 c id s,
  NoDup (rl_ids c) -> rl_find c id = Some s ->
  let c1 := snd (rl_step v W b12 c (RlDel id)) in
  rl_find c1 id = None /\
  rl_find (snd (rl_step v W b12 c1 (RlAdd id))) id = Some rp_init.
Proof. exact rl_del_add_is_new_context. Qed.
Print Assumptions C15_delete_add_new_context.

(* the Partial IVs put on the wire over any sequence of protect and crash/restart steps (restart
   = new context with start_seq_num = the value last handed to save_seq_num_func, or the
   configured start value if it was never called; any ssn_freq at each restart) are pairwise
   distinct.  start_seq_num is a sequence number (<= 2^40), ssn_freq a uint32_t; fewer than
   2^63 steps (the 64-bit counter does not wrap). *)
Theorem C15_piv_unique : forall freq start ops,
  0 <= start <= 2 ^ 40 -> ss_freq_ok freq -> Forall ss_op_ok ops ->
  Z.of_nat (length ops) < 2 ^ 63 ->
  NoDup (ss_pivs (ss_boot freq start) ops).
Proof. exact ss_piv_unique. Qed.
Print Assumptions C15_piv_unique.

(* stronger: they are strictly increasing, also across restarts, and each is a number a
   recipient accepts (below OSCORE_SEQ_MAX) *)
Theorem C15_pivs_increasing : forall freq start ops,
  0 <= start <= 2 ^ 40 -> ss_freq_ok freq -> Forall ss_op_ok ops ->
  Z.of_nat (length ops) < 2 ^ 63 ->
  StronglySorted Z.lt (ss_pivs (ss_boot freq start) ops) /\
  Forall (fun p => 0 <= p < ss_seq_max) (ss_pivs (ss_boot freq start) ops).
Proof. exact ss_pivs_increasing. Qed.
Print Assumptions C15_pivs_increasing.

(* the property in its own terms: a protected request (a position in what the sender put on
   the wire), delivered in any order, any number of times, among forgeries with any claimed
   Partial IV, reaches the handler at most once *)
Theorem C15_message_at_most_once : forall pivs W b12 sched,
  Forall (e2e_valid (length pivs)) sched ->
  NoDup (e2e_accepted_idx sched
           (fst (rp_run rp_fixed W b12 rp_init (map (e2e_msg pivs) sched)))).
Proof. exact e2e_message_at_most_once. Qed.
Print Assumptions C15_message_at_most_once.

(* and the halves fit: everything a sender produced over any protect / crash-restart sequence,
   delivered once each in the order of sending, is accepted *)
Theorem C15_in_order_all_accepted : forall freq start ops W b12,
  0 <= start <= 2 ^ 40 -> ss_freq_ok freq -> Forall ss_op_ok ops ->
  Z.of_nat (length ops) < 2 ^ 63 ->
  let pivs := ss_pivs (ss_boot freq start) ops in
  fst (rp_run rp_fixed W b12 rp_init (e2e_in_order pivs)) = map (fun _ => RpAccept) pivs.
Proof. exact e2e_in_order_all_accepted. Qed.
Print Assumptions C15_in_order_all_accepted.

(* from here on: the code as found (/repo 74963ff), refuted by minimal histories *)

Theorem C15_orig_replay_accepted_refuted :
  exists h, ~ NoDup (rp_accepted rp_orig 32 true rp_init h).
Proof. exact rp_orig_replay_accepted_refuted. Qed.
Print Assumptions C15_orig_replay_accepted_refuted.

Theorem C15_orig_never_armed_refuted :
  exists h, ~ NoDup (rp_accepted rp_orig 32 false rp_init h).
Proof. exact rp_orig_never_armed_refuted. Qed.
Print Assumptions C15_orig_never_armed_refuted.

Theorem C15_orig_last_seq_lowered_refuted :
  exists h, ~ NoDup (rp_accepted rp_orig 32 true rp_init h).
Proof. exact rp_orig_last_seq_lowered_refuted. Qed.
Print Assumptions C15_orig_last_seq_lowered_refuted.

Theorem C15_orig_forgery_leaves_trace_refuted :
  exists h m g,
    let s := snd (rp_run rp_orig 32 true rp_init h) in
    rp_m_auth m = RpForged /\ rp_m_auth g = RpGenuine /\
    fst (rp_recv rp_orig 32 true s g) = RpAccept /\
    rp_obs (snd (rp_recv rp_orig 32 true s m)) <> rp_obs s /\
    fst (rp_recv rp_orig 32 true (snd (rp_recv rp_orig 32 true s m)) g) = RpRejReplay.
Proof. exact rp_orig_forgery_leaves_trace_refuted. Qed.
Print Assumptions C15_orig_forgery_leaves_trace_refuted.

Theorem C15_orig_shift_by_width_refuted :
  exists h, rp_undef (snd (rp_run rp_orig 32 true rp_init h)) = true.
Proof. exact rp_orig_shift_by_width_refuted. Qed.
Print Assumptions C15_orig_shift_by_width_refuted.

(* from here on: each of the eight repairs is necessary (the other seven applied) *)

Theorem C15_no_bitidx_refuted :
  exists h, ~ NoDup (rp_accepted rp_no_bitidx 32 false rp_init h) /\
            fst (rp_run rp_no_bitidx 32 false rp_init (h ++ [rp_g 6])) =
              [RpAccept; RpAccept; RpAccept; RpRejReplay].
Proof. exact rp_no_bitidx_refuted. Qed.
Print Assumptions C15_no_bitidx_refuted.

Theorem C15_no_shguard_refuted :
  exists h, rp_undef (snd (rp_run rp_no_shguard 32 false rp_init h)) = true /\
            fst (rp_run rp_no_shguard 32 false rp_init h) = [RpAccept; RpAccept; RpAccept; RpRejReplay].
Proof. exact rp_no_shguard_refuted. Qed.
Print Assumptions C15_no_shguard_refuted.

Theorem C15_no_nooverwrite_refuted :
  exists h, ~ NoDup (rp_accepted rp_no_nooverwrite 32 false rp_init h).
Proof. exact rp_no_nooverwrite_refuted. Qed.
Print Assumptions C15_no_nooverwrite_refuted.

Theorem C15_no_rbflag_refuted :
  exists h,
    rp_genuine_verdicts h (fst (rp_run rp_no_rbflag 32 false rp_init h)) <>
    fst (rp_run rp_no_rbflag 32 false rp_init (filter rp_is_genuine h)).
Proof. exact rp_no_rbflag_refuted. Qed.
Print Assumptions C15_no_rbflag_refuted.

Theorem C15_no_arm_refuted :
  exists h, ~ NoDup (rp_accepted rp_no_arm 32 false rp_init h).
Proof. exact rp_no_arm_refuted. Qed.
Print Assumptions C15_no_arm_refuted.

(* forged responses (right token, any claimed Partial IV): on an endpoint that also serves the
   peer, and on a plain client *)
Theorem C15_no_resp_rb_refuted :
  exists h,
    rp_genuine_verdicts h (fst (rp_run rp_no_resp_rb 32 false rp_init h)) <>
    fst (rp_run rp_no_resp_rb 32 false rp_init (filter rp_is_genuine h)).
Proof. exact rp_no_resp_rb_refuted. Qed.
Print Assumptions C15_no_resp_rb_refuted.

Theorem C15_no_resp_nowrite_refuted :
  exists h,
    rp_genuine_verdicts h (fst (rp_run rp_no_resp_nowrite 32 true rp_init h)) <>
    fst (rp_run rp_no_resp_nowrite 32 true rp_init (filter rp_is_genuine h)).
Proof. exact rp_no_resp_nowrite_refuted. Qed.
Print Assumptions C15_no_resp_nowrite_refuted.

Theorem C15_no_abort_rb_refuted :
  exists h,
    rp_genuine_verdicts h (fst (rp_run rp_no_abort_rb 32 false rp_init h)) <>
    fst (rp_run rp_no_abort_rb 32 false rp_init (filter rp_is_genuine h)).
Proof. exact rp_no_abort_rb_refuted. Qed.
Print Assumptions C15_no_abort_rb_refuted.

Theorem C15_orig_forged_response_refuted :
  exists h1 h2,
    rp_genuine_verdicts h1 (fst (rp_run rp_orig 32 true rp_init h1)) <>
      fst (rp_run rp_orig 32 true rp_init (filter rp_is_genuine h1)) /\
    rp_genuine_verdicts h2 (fst (rp_run rp_orig 32 true rp_init h2)) <>
      fst (rp_run rp_orig 32 true rp_init (filter rp_is_genuine h2)).
Proof. exact rp_orig_forged_response_refuted. Qed.
Print Assumptions C15_orig_forged_response_refuted.

(* non-vacuity: concrete histories through the repaired model *)

Example C15_example_history :
  fst (rp_run rp_fixed 32 false rp_init
         [rp_g 5; rp_g 7; rp_g 5; rp_g 6; rp_g 6; rp_f 9; rp_g 8; rp_g 100; rp_g 37; rp_g 36]) =
  [RpAccept; RpAccept; RpRejReplay; RpAccept; RpRejReplay; RpRejDecrypt; RpAccept; RpAccept; RpRejReplay; RpRejReplay].
Proof. exact rp_fixed_example. Qed.

Example C15_example_sender :
  ss_trace (ss_boot 4 6) [SsProtect; SsProtect; SsProtect; SsCrash 3; SsProtect; SsProtect; SsProtect] =
  [(6, 8); (7, -1); (8, 12); (-1, -1); (12, 15); (13, -1); (14, -1)].
Proof. vm_compute. reflexivity. Qed.
