(* C02 - arbitrary network input: the parser part that a theorem can carry.  The index-level
   transcription of coap_pdu_parse / coap_pdu_parse_header / coap_pdu_parse_opt /
   next_option_safe / coap_opt_parse (Wire/ParseIdx.v) reads the received bytes only through
   checked reads and loops on fuel.  The statements follow in a line or two from
   Wire/ParseIdxProofs.v and Wire/ParseIdxRefine.v, those about the other readers from their
   owners' families. *)
From LibcoapV Require Import Base.Tactics Base.Bytes Wire.Pdu Wire.ParseIdx
  Wire.ParseIdxProofs Wire.ParseIdxRefine Wire.PduProofs Wire.ParseSound.
Local Open Scope Z_scope.

(* for every byte string and every framing: no read outside the received bytes, termination *)
Theorem C02_parse_safe : forall p buf,
  wfb buf -> ix_parse true p buf <> IxOob /\ ix_parse true p buf <> IxFuel.
Proof.
  intros p buf W. rewrite ix_parse_eq by assumption. destruct (parse p buf); split; discriminate.
Qed.
Print Assumptions C02_parse_safe.

(* coap_opt_parse on any window inside the received bytes stays inside the window *)
Theorem C02_opt_parse_safe : forall buf o e,
  wfb buf -> 0 <= o -> o + e <= len buf ->
  ix_good (ix_opt_parse buf o e)
    (fun r => let '(d, l, h) := r in 0 <= d /\ 0 <= l /\ 1 <= h <= 5 /\ h + l <= e).
Proof. exact ix_opt_parse_spec. Qed.
Print Assumptions C02_opt_parse_safe.

(* the option walk: in bounds, terminates within one unit of fuel per remaining byte *)
Theorem C02_option_walk_safe : forall buf code fuel o e maxopt good,
  wfb buf -> 0 <= o -> 0 <= e -> o + e <= len buf -> e <= Z.of_nat fuel ->
  ix_good (ix_opts fuel buf code o e maxopt good)
    (fun r => let '(os, o', e', g) := r in o <= o' /\ o' + e' = o + e /\ 0 <= e' /\
                                          (0 < e -> e' <= e)).
Proof. exact ix_opts_spec. Qed.
Print Assumptions C02_option_walk_safe.

(* the code as found (before /repo commit 3b3f0fc) read the extended-token length byte of a
   datagram that ends after its header ([guard] = false in Wire/ParseIdx.v) *)
Theorem C02_as_found_refuted : exists buf, wfb buf /\ ix_parse false UDP buf = IxOob.
Proof. exact ix_parse_as_found_reads_unreceived_byte. Qed.
Print Assumptions C02_as_found_refuted.

(* what is rejected yields no message (nothing to hand to dispatch) *)
Theorem C02_reject_no_message : forall p buf,
  ix_parse true p buf = IxRej -> forall m, ix_parse true p buf <> IxOk m.
Proof. exact ix_parse_reject_no_message. Qed.
Print Assumptions C02_reject_no_message.

(* the bounds-safe index-level parser is the same function as the list-level parser that C03
   proves sound and complete: same accept/reject, same message, for every byte string *)
Theorem C02_safe_parser_is_the_reference_parser : forall p buf,
  wfb buf -> ix_opt (ix_parse true p buf) = parse p buf.
Proof. exact ix_parse_refines. Qed.
Print Assumptions C02_safe_parser_is_the_reference_parser.

Theorem C02_safe_parser_sound_udp : forall bs m,
  wfb bs -> ix_parse true UDP bs = IxOk m -> msg_wf m /\ serialize UDP m = bs.
Proof. intros bs m W H. apply parse_sound_udp; [assumption|]. apply ix_parse_iff; assumption. Qed.
Print Assumptions C02_safe_parser_sound_udp.

Theorem C02_safe_parser_complete : forall p m,
  msg_wf m -> wfb (serialize p m) -> ix_parse true p (serialize p m) = IxOk (norm_fields p m).
Proof. intros p m Wm Wb. apply ix_parse_iff; [assumption|]. apply parse_serialize. assumption. Qed.
Print Assumptions C02_safe_parser_complete.

(* the other byte-level readers of peer-controlled data: the same safety statements, proved in
   their owners' families, collected here because C02 quantifies over all of them *)
From LibcoapV Require Import Stream.TcpReader Stream.TcpReaderProofs Oscore.Replay Oscore.ReplayProofs
  Uri.Uri Uri.Spec Uri.PathProofs Block.RecBlocks Block.RecBlocksProofs.

(* TCP/TLS stream reader (coap_read_session): read_header[8] is never indexed out of bounds and
   the fuel never runs out, whatever the bytes and however they are cut (C05's model) *)
Theorem C02_tcp_reader_safe : forall c s p s' evs,
  tcp_wf c s -> wfb p -> tcp_feed c s p = (s', evs) ->
  Forall tcp_ev_clean evs.
Proof. exact tcp_feed_clean. Qed.
Print Assumptions C02_tcp_reader_safe.

(* OSCORE replay window (oscore_validate_sender_seq, driven by the peer's Partial IV): no shift
   by 64 or more bits is ever evaluated (C15's model) *)
Theorem C02_replay_window_shift_safe : forall W b12 h,
  rp_undef (snd (rp_run rp_fixed W b12 rp_init h)) = false.
Proof. exact rp_no_undef. Qed.
Print Assumptions C02_replay_window_shift_safe.

(* URI path / query splitting of a received Proxy-Uri or of application strings: no read
   outside the length-delimited input, at most buflen bytes written (C16's model) *)
Theorem C02_uri_split_path_safe : forall s buflen,
  0 <= buflen ->
  uri_buf_safe true (uri_raw_path_segs s) buflen (uri_split_path s buflen).
Proof. exact uri_split_path_safe. Qed.
Print Assumptions C02_uri_split_path_safe.

Theorem C02_uri_split_query_safe : forall s buflen,
  0 <= buflen ->
  uri_buf_safe false (uri_raw_query_items s) buflen (uri_split_query s buflen).
Proof. exact uri_split_query_safe. Qed.
Print Assumptions C02_uri_split_query_safe.

(* received-block ranges (update_received_blocks, driven by the peer's Block NUM): the
   representation invariant - sorted, disjoint, at most COAP_RBLOCK_CNT ranges, i.e. the range
   array is never indexed outside - is preserved by every update (C09's model) *)
Theorem C02_received_blocks_safe : forall r n,
  blk_inv r -> 0 <= n ->
  forall r', blk_update r n = Some r' -> blk_inv r'.
Proof. exact blk_update_inv. Qed.
Print Assumptions C02_received_blocks_safe.

(* the number of blocks a body of the peer-declared size has (coap_handle_request_put_block ->
   check_all_blocks_in): for every Size1 a peer can send and every block size the count is the
   ceiling of size / block size, so a body is never declared complete - and handed to the
   application with bytes that were never received - before all of it has arrived *)
From LibcoapV Require Import Wire.BlockCount Wire.BlockCountProofs.
Theorem C02_block_count_exact : forall total chunk,
  0 <= total < U32 -> 16 <= chunk <= 1024 ->
  let n := bc_count total chunk in
  total <= n * chunk /\ (0 < total -> (n - 1) * chunk < total) /\ (total = 0 -> n = 0).
Proof. intros total chunk Ht Hc. apply bc_count_ceiling; lia. Qed.
Print Assumptions C02_block_count_exact.

(* the expression of the pinned tree narrowed to 32 bits before dividing: within chunk - 1
   bytes of 2^32 the count collapsed to 0 (repaired: F-C02-6) *)
Theorem C02_block_count_as_found_refuted :
  bc_count_as_found 4294967295 64 = 0 /\ bc_count 4294967295 64 = 67108864 /\
  bc_count_as_found 4294967233 64 = 0 /\ bc_count_as_found 4294967232 64 = 67108863.
Proof. exact bc_count_as_found_refuted. Qed.
Print Assumptions C02_block_count_as_found_refuted.
