(* C17 - persisted observe state survives a crash at any point and is restored on restart.
   Statements, each an instance of a lemma of Persist/*.v.  Model: Persist/Fs.v (stdio + file
   system; every theorem holds for every buffering policy pol), Records.v, Updaters.v, Server.v.
   Trusted facts about the operating system, built into Fs.v: rename(2) replaces the target
   atomically; a killed process loses exactly its open streams (ps_crash), what was handed to
   the kernel stays. *)
From LibcoapV Require Import Base.Tactics Base.Bytes Persist.Fs Persist.FsProofs Persist.Records
  Persist.RecordsProofs Persist.Updaters Persist.UpdatersProofs Persist.Discipline Persist.Server
  Persist.ServerProofs Persist.Counter Persist.Witness Persist.LoadersProofs Persist.Restore
  Persist.History Persist.MemLemmas Persist.EventCalls Persist.Coherence Persist.RestoreCoh
  Persist.Whole Persist.Final.
Local Open Scope Z_scope.

(* observe record, arbitrary binary content; la / lt = sizeof coap_address_t / coap_addr_tuple_t *)
Theorem C17_records_roundtrip_observe : forall la lt r rest,
  0 < la -> 0 < lt -> ps_obs_wf la lt r ->
  ps_obs_dec la lt (ps_obs_enc r ++ rest) = Some (r, rest).
Proof. exact ps_obs_dec_enc. Qed.
Print Assumptions C17_records_roundtrip_observe.

Theorem C17_records_roundtrip_dyn : forall r rest,
  ps_dyn_wf r -> ps_dyn_dec (ps_dyn_enc r ++ rest) = Some (r, rest).
Proof. exact ps_dyn_dec_enc. Qed.
Print Assumptions C17_records_roundtrip_dyn.

(* whole files, as every copy loop and loader reads them *)
Theorem C17_records_roundtrip_observe_file : forall la lt l fuel,
  0 < la -> 0 < lt -> Forall (ps_obs_wf la lt) l -> (length l < fuel)%nat ->
  ps_obs_all la lt fuel (ps_obs_file l) = l.
Proof. exact ps_obs_all_file. Qed.
Print Assumptions C17_records_roundtrip_observe_file.

Theorem C17_records_roundtrip_dyn_file : forall l fuel,
  Forall ps_dyn_wf l -> (length l < fuel)%nat -> ps_dyn_all fuel (ps_dyn_file l) = l.
Proof. exact ps_dyn_all_file. Qed.
Print Assumptions C17_records_roundtrip_dyn_file.

(* the text format: for a name without NUL, blank, newline and of at most 1487 bytes *)
Theorem C17_records_roundtrip_counter_line : forall n v,
  ps_name_ok n -> 0 <= v < 4294967296 -> ps_cnt_parse (ps_cnt_line n v) = Some (n, v).
Proof. exact ps_cnt_parse_line. Qed.
Print Assumptions C17_records_roundtrip_counter_line.

Theorem C17_records_roundtrip_counter_file : forall l fuel,
  Forall ps_cnt_wf l -> (length l < fuel)%nat -> ps_cnt_all fuel (ps_cnt_file l) = l.
Proof. exact ps_cnt_all_file. Qed.
Print Assumptions C17_records_roundtrip_counter_file.

(* outside these domains the formats do not round-trip (the hypotheses are needed) *)
Theorem C17_records_roundtrip_refuted_blank_in_name :
  exists n v, 0 <= v < 4294967296 /\ ps_cnt_parse (ps_cnt_line n v) <> Some (n, v).
Proof. exact ps_cnt_blank_name_refuted. Qed.
Print Assumptions C17_records_roundtrip_refuted_blank_in_name.

Theorem C17_records_roundtrip_refuted_long_name :
  exists n v, Forall (fun b => b <> 0 /\ b <> 32 /\ b <> 10) n /\ 0 <= v < 4294967296 /\
    ps_cnt_all 5 (ps_cnt_file [(n, v); ([98], 1)]) <> [(n, v); ([98], 1)].
Proof. exact ps_cnt_long_name_refuted. Qed.
Print Assumptions C17_records_roundtrip_refuted_long_name.

(* an empty item cannot be read back (fread(p, 0, 1, f) = 0): packets and OSCORE data must not be
   empty; the name of a dynamic resource may be (the root resource) since /repo commit 8471219 *)
Theorem C17_records_roundtrip_refuted_empty_item : forall l, ps_item 0 l = None.
Proof. exact ps_item_zero. Qed.
Print Assumptions C17_records_roundtrip_refuted_empty_item.

(* for every updater u, every buffering policy, every state in which the only write streams
   are on temporary files (true at process start and kept by every updater), every k:
   after the first k stdio calls of u the three persistent files are what they were before u,
   or what they are when u has finished *)
Definition C17_atomic_for (p : ps_prog Z) : Prop :=
  forall pol s k, ps_tmpw s ->
    (forall i, ps_view (ps_runk pol p k s) i = ps_view s i) \/
    (forall i, ps_view (ps_runk pol p k s) i = ps_view (snd (ps_run pol p s)) i).

Theorem C17_atomic : forall la lt fuel rec key name v dyn,
  C17_atomic_for (ps_obs_added la lt fuel rec) /\
  C17_atomic_for (ps_obs_deleted la lt fuel key) /\
  C17_atomic_for (ps_cnt_track fuel name v) /\
  C17_atomic_for (ps_cnt_deleted fuel name) /\
  C17_atomic_for (ps_dyn_added fuel dyn) /\
  C17_atomic_for (ps_dyn_deleted fuel name).
Proof.
  intros. repeat split; intros pol s k Hs; apply ps_atomic1; try exact Hs.
  - apply ps_obs_added_d1.
  - apply ps_obs_deleted_d1.
  - apply ps_cnt_track_d1.
  - apply ps_cnt_deleted_d1.
  - apply ps_dyn_added_d1.
  - apply ps_dyn_deleted_d1.
Qed.
Print Assumptions C17_atomic.

(* a whole server process (coap_persist_startup, then any history of events; direct updater
   calls allowed): at every kill point the persistent files are exactly what the last
   completed rename("<f>.tmp", "<f>") left, or what the process found when it started *)
Theorem C17_atomic_history : forall app req alloc cfg pol m0 evs fs k i,
  Forall ps_ev_ok evs ->
  ps_view (ps_runk pol (ps_process app req alloc cfg m0 evs) k (ps_boot fs)) i =
  last (ps_commit_views pol (ps_process app req alloc cfg m0 evs) k (ps_boot fs))
       (ps_view (ps_boot fs)) i.
Proof. exact ps_process_crash_view. Qed.
Print Assumptions C17_atomic_history.

(* lifted over arbitrary histories by induction: for EVERY sequence of updater calls (whatever
   the server core issues through its call-outs) from files holding a well-formed abstract state
   A, every buffering policy and every kill point k: the three files hold exactly the abstract
   state after the first j calls for some j - whole records only, the state before or after the
   interrupted call, each call having the effect "other entries kept, this entry
   replaced/appended/removed" (ps_abs_call) *)
Theorem C17_atomic_update_histories : forall pol la lt fuel calls A s k,
  0 < la -> 0 < lt ->
  ps_abs_wf la lt A -> Forall (ps_call_wf la lt) calls -> (ps_abs_size A + length calls < fuel)%nat ->
  ps_tmpw s -> ps_holdsA s A ->
  exists j, (j <= length calls)%nat /\
    ps_holdsA (ps_runk pol (ps_calls_prog la lt fuel calls) k s) (ps_abs_calls (firstn j calls) A).
Proof. intros. apply ps_calls_crash; assumption. Qed.
Print Assumptions C17_atomic_update_histories.

(* ... and a rename installs one complete new file and leaves the other two alone *)
Theorem C17_atomic_commit : forall pol i s,
  ps_tmpw s ->
  let s' := snd (ps_step pol (PoRename (PsTmp i) (PsBase i)) s) in
  ps_tmpw s' /\
  match ps_get (PsTmp i) (ps_fs s) with
  | Some c => ps_view s' i = Some c /\ forall j, j <> i -> ps_view s' j = ps_view s j
  | None => forall j, ps_view s' j = ps_view s j
  end.
Proof. exact ps_commit_step. Qed.
Print Assumptions C17_atomic_commit.

(* added: every other entry kept in order, the entry with the same key removed, the new one
   appended; deleted: exactly the entries with that key removed; nothing else touched *)
Theorem C17_update_correct_observe_added : forall pol la lt fuel a l s,
  0 < la -> 0 < lt -> Forall (ps_obs_wf la lt) l -> ps_obs_wf la lt a -> (length l < fuel)%nat ->
  ps_holds ps_obs_file (ps_view s PS_OBS) l ->
  exists s', ps_run pol (ps_obs_added la lt fuel a) s = (1, s') /\
    ps_view s' PS_OBS = Some (ps_obs_file (ps_obs_without (pso_key a) l ++ [a])) /\
    (forall j, j <> PS_OBS -> ps_view s' j = ps_view s j).
Proof. exact ps_obs_added_correct. Qed.
Print Assumptions C17_update_correct_observe_added.

Theorem C17_update_correct_observe_deleted : forall pol la lt fuel key l s,
  0 < la -> 0 < lt -> Forall (ps_obs_wf la lt) l -> (length l < fuel)%nat ->
  ps_view s PS_OBS = Some (ps_obs_file l) ->
  exists s', ps_run pol (ps_obs_deleted la lt fuel key) s = (1, s') /\
    ps_view s' PS_OBS = Some (ps_obs_file (ps_obs_without key l)) /\
    (forall j, j <> PS_OBS -> ps_view s' j = ps_view s j).
Proof. exact ps_obs_deleted_correct. Qed.
Print Assumptions C17_update_correct_observe_deleted.

Theorem C17_update_correct_dyn_added : forall pol fuel a l s,
  Forall ps_dyn_wf l -> ps_dyn_wf a -> (length l < fuel)%nat ->
  ps_holds ps_dyn_file (ps_view s PS_DYN) l ->
  exists s', ps_run pol (ps_dyn_added fuel a) s = (1, s') /\
    ps_view s' PS_DYN = Some (ps_dyn_file (ps_dyn_without (psd_name a) l ++ [a])) /\
    (forall j, j <> PS_DYN -> ps_view s' j = ps_view s j).
Proof. exact ps_dyn_added_correct. Qed.
Print Assumptions C17_update_correct_dyn_added.

(* "all other entries are kept" includes the transport field of each record: a record written by
   a session of one transport is copied with that transport when a session of another transport
   adds a resource (the stored request is parsed at restart in the framing its record names) *)
Theorem C17_update_correct_dyn_added_keeps_transport : forall pol fuel a l s,
  Forall ps_dyn_wf l -> ps_dyn_wf a -> (length l < fuel)%nat ->
  ps_holds ps_dyn_file (ps_view s PS_DYN) l ->
  exists s' l', ps_run pol (ps_dyn_added fuel a) s = (1, s') /\
    ps_view s' PS_DYN = Some (ps_dyn_file l') /\ In a l' /\
    (forall proto name pkt, In (mkDyn proto name pkt) l -> name <> psd_name a ->
                            In (mkDyn proto name pkt) l').
Proof.
  intros pol fuel a l s Hl Ha Hf Hv.
  destruct (ps_dyn_added_correct pol fuel a l s Hl Ha Hf Hv) as (s' & Hr & Hview & _).
  exists s', (ps_dyn_without (psd_name a) l ++ [a]). split; [exact Hr|]. split; [exact Hview|].
  split; [apply in_or_app; right; left; reflexivity|].
  intros proto name pkt Hin Hne. apply in_or_app. left.
  apply ps_dyn_without_in. split; [exact Hin|exact Hne].
Qed.
Print Assumptions C17_update_correct_dyn_added_keeps_transport.

Theorem C17_update_correct_dyn_deleted : forall pol fuel name l s,
  Forall ps_dyn_wf l -> (length l < fuel)%nat ->
  ps_view s PS_DYN = Some (ps_dyn_file l) ->
  exists s', ps_run pol (ps_dyn_deleted fuel name) s = (1, s') /\
    ps_view s' PS_DYN = Some (ps_dyn_file (ps_dyn_without name l)) /\
    (forall j, j <> PS_DYN -> ps_view s' j = ps_view s j).
Proof. exact ps_dyn_deleted_correct. Qed.
Print Assumptions C17_update_correct_dyn_deleted.

Theorem C17_update_correct_counter_track : forall pol fuel name v l s,
  Forall ps_cnt_wf l -> (length l < fuel)%nat ->
  ps_holds ps_cnt_file (ps_view s PS_CNT) l ->
  exists s', ps_run pol (ps_cnt_track fuel name v) s = (1, s') /\
    ps_view s' PS_CNT = Some (ps_cnt_file (ps_cnt_without name l) ++ ps_cnt_line name v) /\
    (forall j, j <> PS_CNT -> ps_view s' j = ps_view s j).
Proof. exact ps_cnt_track_correct. Qed.
Print Assumptions C17_update_correct_counter_track.

Theorem C17_update_correct_counter_deleted : forall pol fuel name l s,
  Forall ps_cnt_wf l -> (length l < fuel)%nat ->
  ps_view s PS_CNT = Some (ps_cnt_file l) ->
  exists s', ps_run pol (ps_cnt_deleted fuel name) s = (1, s') /\
    ps_view s' PS_CNT = Some (ps_cnt_file (ps_cnt_without name l)) /\
    (forall j, j <> PS_CNT -> ps_view s' j = ps_view s j).
Proof. exact ps_cnt_deleted_correct. Qed.
Print Assumptions C17_update_correct_counter_deleted.

(* coap_op_dyn_resource_added as it was before the fix (fopen "a", then fread): two additions
   leave a file that holds only the newest resource *)
Theorem C17_update_correct_refuted_old_dyn_added :
  exists a b : ps_dyn, ps_dyn_wf a /\ ps_dyn_wf b /\ psd_name a <> psd_name b /\
    let s1 := snd (ps_run ps_pol_lazy (ps_dyn_added_old 100%nat a) (ps_boot [])) in
    let s2 := snd (ps_run ps_pol_lazy (ps_dyn_added_old 100%nat b) (ps_crash s1)) in
    ps_view s2 PS_DYN = Some (ps_dyn_file [b]).
Proof.
  exists ps_w_a, ps_w_b.
  split; [vm_compute; intuition congruence|].
  split; [vm_compute; intuition congruence|].
  split; [discriminate|].
  (* stated for any updater: checking that this is ps_w_two unfolded must not run one *)
  enough (E : forall added, ps_w_two added = Some (ps_dyn_file [ps_w_b]) ->
            let s1 := snd (ps_run ps_pol_lazy (added 100%nat ps_w_a) (ps_boot [])) in
            let s2 := snd (ps_run ps_pol_lazy (added 100%nat ps_w_b) (ps_crash s1)) in
            ps_view s2 PS_DYN = Some (ps_dyn_file [ps_w_b]))
    by exact (E _ (proj1 ps_dyn_added_old_loses)).
  intros added H. exact H.
Qed.
Print Assumptions C17_update_correct_refuted_old_dyn_added.

(* What coap_persist_startup computes from well-formed files: exactly ps_restored_mem - the
   application handler run once per dynamic-resource record in file order, counters set to the
   rounded-up saved values, coap_persist_observe_add run once per observe record in file order,
   nested counter updates included - and the observe file rewritten with exactly the accepted
   records under their new keys.  (C17_restart_restores below is the theorem over histories.) *)
Theorem C17_restart_startup : forall pol app req alloc cfg m0 D O C fs,
  0 < psc_la cfg -> 0 < psc_lt cfg -> (forall live, len (alloc live) = PS_KEY) ->
  psc_dyn cfg = true -> psc_obs cfg = true -> psc_cnt cfg = true -> psc_unknown cfg = true ->
  Forall ps_dyn_wf D -> Forall (ps_obs_wf (psc_la cfg) (psc_lt cfg)) O -> Forall ps_cnt_wf C ->
  (length D < psc_fuel cfg)%nat -> (length O < psc_fuel cfg)%nat ->
  (length C + length O < psc_fuel cfg)%nat ->
  ps_holds ps_dyn_file (ps_view (ps_boot fs) PS_DYN) D ->
  ps_view (ps_boot fs) PS_OBS = Some (ps_obs_file O) ->
  ps_holds ps_cnt_file (ps_view (ps_boot fs) PS_CNT) C ->
  ps_mem_ok (ps_set_counts (ps_rounded (psc_freq cfg) C) (ps_dyn_fold (ps_dyn_step app) D m0)) ->
  exists s',
    ps_run pol (ps_startup app req alloc cfg m0) (ps_boot fs) =
      (Some (ps_restored_mem app req alloc cfg m0 D O C), s') /\
    ps_view s' PS_OBS = Some (ps_obs_file (ps_restored_obs app req alloc cfg m0 D O C)) /\
    ps_view s' PS_DYN = ps_view (ps_boot fs) PS_DYN.
Proof. intros. apply ps_startup_restores; assumption. Qed.
Print Assumptions C17_restart_startup.

(* every dynamic resource whose record is in the file exists again (the application re-creates
   the resource that the stored request names: deterministic handler) *)
Theorem C17_restart_restores_resources : forall app req alloc cfg m0 D O C,
  (forall d, In d D -> exists o, app (psd_pkt d) = Some (psd_name d, o)) ->
  forall d, In d D -> ps_has (ps_restored_mem app req alloc cfg m0 D O C) (psd_name d).
Proof. exact ps_restored_has_dyn. Qed.
Print Assumptions C17_restart_restores_resources.

Theorem C17_restart_restores_observation : forall req alloc cfg r m C name token ck rs,
  ps_beq (pso_proto r) (psc_proto cfg) = true -> ps_beq (pso_listen r) (psc_listen cfg) = true ->
  req (pso_pkt r) = Some (name, token, ck) -> ps_find name m = Some rs -> psr_observable rs = true ->
  exists key, snd (fst (ps_obs_step_spec req alloc cfg r m C)) = Some key /\
    exists rs' s, ps_find name (fst (fst (ps_obs_step_spec req alloc cfg r m C))) = Some rs' /\
      In s (psr_subs rs') /\ pss_key s = key /\ pss_tuple s = pso_tuple r /\ pss_token s = token.
Proof. exact ps_obs_step_accepts. Qed.
Print Assumptions C17_restart_restores_observation.

(* every stored observation is re-established - with its session, token, cache key and stored
   request - in a fresh process, whatever the order and number of records, provided the records
   are pairwise different in (resource, session, token) and in (resource, session, cache key)
   (coap_add_observer keeps at most one subscription per such key, so the files it maintains
   satisfy this) and each names an existing observable resource *)
Theorem C17_restart_restores_observations : forall app req alloc cfg m0 D O C,
  let m2 := ps_set_counts (ps_rounded (psc_freq cfg) C) (ps_dyn_fold (ps_dyn_step app) D m0) in
  (forall n rs, ps_find n m2 = Some rs -> psr_subs rs = []) ->
  (forall r, In r O -> ps_acceptable req cfg m2 r) ->
  NoDup (map (ps_ktok req) O) -> NoDup (map (ps_kck req) O) ->
  forall r, In r O -> ps_present req (ps_restored_mem app req alloc cfg m0 D O C) r.
Proof. exact ps_restored_observations. Qed.
Print Assumptions C17_restart_restores_observations.

(* the loaders skip nothing and invent nothing *)
Theorem C17_restart_counter_load : forall pol fuel freq l s,
  Forall ps_cnt_wf l -> (length l < fuel)%nat ->
  ps_holds ps_cnt_file (ps_view s PS_CNT) l ->
  exists s', ps_run pol (ps_cnt_load fuel freq) s = (Some (ps_rounded freq l), s') /\
    ps_fs s' = ps_fs s /\ ps_next s <= ps_next s' /\
    (forall g, g < ps_next s -> ps_hget g (ps_hs s') = ps_hget g (ps_hs s)).
Proof. exact ps_cnt_load_correct. Qed.
Print Assumptions C17_restart_counter_load.

(* C17_restart_restores + C17_observe_monotone derived from Server.v, for EVERY history of server
   events (PUT creating a resource, DELETE, register incl. same-token and cache-key replacement,
   cancel, notify) and EVERY kill point k, with all three files configured:
   start from any memory state m coherent with the files (ps_inv: e.g. a fresh process,
   C17_coherent_fresh_process); kill the process after k stdio calls of the history; start a fresh
   process on the files that are left.  Then, with evs1 = the events completed before the kill,
   j = the number of updater calls of the interrupted event that were completed, and
   mj = ps_mem_last ... = the memory state after the last completed updater (for a DELETE: the
   resource stays in mj, with the observers whose records are still in the file, until its
   dynamic-resource record is removed, and its sent values stay in Gj until the counter line is
   removed, which is the last call-out - C17_restart_restores_interrupted_delete below):
     - the files at the kill are the files coherent with the memory state after evs1, advanced by
       exactly those j calls (whole records only);
     - every observable resource of mj exists in the fresh process;
     - every observation of mj is re-established with its session, token, cache key and request;
     - every Observe value that left on the wire for a resource that still exists (Gj) is
       smaller than the value the next notification of that resource carries.
   Hypotheses about the outside world are the arguments of the events (ps_evt_ok: the handler
   creates what it created, the stored request is the request handled, record fields have their
   sizes, r->observe stays below 2^24 - save_freq - 2) and of the allocator (fresh 8-byte keys). *)
Theorem C17_restart_restores : forall pol app req alloc cfg m0,
  (forall live, ~ In (alloc live) live) -> (forall live, len (alloc live) = PS_KEY) ->
  len (psc_proto cfg) = PS_PROTO -> len (psc_listen cfg) = psc_la cfg ->
  0 < psc_freq cfg -> psc_freq cfg < 1000000 ->
  psc_dyn cfg = true -> psc_obs cfg = true -> psc_cnt cfg = true -> psc_unknown cfg = true ->
  0 < psc_la cfg -> 0 < psc_lt cfg -> Forall ps_fresh_rsrc m0 ->
  forall evs m A G sent s k,
    ps_inv app req cfg m0 m A G -> ps_hist_ok app req alloc cfg evs m ->
    (2 * (ps_abs_size A + ps_hist_ncalls alloc cfg evs m) < psc_fuel cfg)%nat ->
    ps_tmpw s -> ps_holdsA s A ->
    exists evs1 rest j mR,
      evs = evs1 ++ rest /\
      (j <= match rest with
            | e :: _ => length (ps_ev_calls alloc cfg e (fst (ps_hist_state alloc cfg evs1 m A)))
            | [] => 0 end)%nat /\
      ps_holdsA (ps_runk pol (ps_hist alloc cfg evs m sent) k s)
        (ps_abs_calls (firstn j (match rest with
                                 | e :: _ => ps_ev_calls alloc cfg e (fst (ps_hist_state alloc cfg evs1 m A))
                                 | [] => []
                                 end)) (snd (ps_hist_state alloc cfg evs1 m A))) /\
      fst (ps_run pol (ps_startup app req alloc cfg m0)
                  (ps_boot (ps_fs (ps_runk pol (ps_hist alloc cfg evs m sent) k s)))) = Some mR /\
      let mj := ps_mem_last alloc cfg rest (fst (ps_hist_state alloc cfg evs1 m A)) j in
      let Gj := ps_ghost_last alloc cfg rest (fst (ps_hist_state alloc cfg evs1 m A))
                              (ps_ghosts alloc evs1 m G) j in
      (forall n r, ps_find n mj = Some r -> psr_observable r = true -> ps_has mR n) /\
      (forall n su, ps_insub mj n su -> ps_present req mR (ps_obs_of cfg su)) /\
      (forall n tu tok v rR, In (n, tu, tok, v) Gj -> ps_find n mR = Some rR -> v < psr_observe rR + 1).
Proof. intros. eapply ps_history_restart; eassumption. Qed.
Print Assumptions C17_restart_restores.

(* the claim C17_restart_restores makes for the resource of an interrupted DELETE (defect F17d:
   the counter line used to go first, and a kill before the other records were gone brought the
   resource back with its observers and an Observe value that had been used before) *)
Theorem C17_restart_restores_interrupted_delete : forall alloc cfg name rest m G r j,
  ps_find name m = Some r ->
  let p := if ps_del_bump r && (ps_del_value r mod psc_freq cfg =? 0) then 1%nat else 0%nat in
  (j < length (ps_ev_calls alloc cfg (PsEvDel name) m))%nat ->
  ps_ghost_last alloc cfg (PsEvDel name :: rest) m G j = G /\
  ((1 <= j <= p + length (psr_subs r))%nat ->
   ps_mem_last alloc cfg (PsEvDel name :: rest) m j =
   ps_replace (mkRsrc name (psr_observable r) (ps_del_value r) (skipn (j - p) (psr_subs r))) m).
Proof. intros alloc cfg name rest m G r j Hf p Hj. exact (ps_delete_window alloc cfg name rest m G r j Hf Hj). Qed.
Print Assumptions C17_restart_restores_interrupted_delete.

(* the invariant that links memory, files and sent values holds after every event of every
   history ... *)
Theorem C17_coherent_histories : forall app req alloc cfg m0,
  (forall live, ~ In (alloc live) live) -> (forall live, len (alloc live) = PS_KEY) ->
  len (psc_proto cfg) = PS_PROTO -> len (psc_listen cfg) = psc_la cfg ->
  0 < psc_freq cfg -> psc_freq cfg < 1000000 ->
  forall evs m A G,
    ps_inv app req cfg m0 m A G -> ps_hist_ok app req alloc cfg evs m ->
    ps_inv app req cfg m0 (fst (ps_hist_state alloc cfg evs m A)) (snd (ps_hist_state alloc cfg evs m A))
           (ps_ghosts alloc evs m G) /\
    ps_hist_wf alloc cfg evs m.
Proof. intros. eapply ps_inv_history; eassumption. Qed.
Print Assumptions C17_coherent_histories.

(* ... and in a fresh process (what the application registers itself, no files) *)
Theorem C17_coherent_fresh_process : forall app req cfg m0,
  Forall ps_fresh_rsrc m0 -> NoDup (map psr_name m0) ->
  (forall r, In r m0 -> psr_observe r <= ps_bound cfg) ->
  ps_inv app req cfg m0 m0 ps_abs0 [] /\ ps_holdsA (ps_boot []) ps_abs0 /\ ps_tmpw (ps_boot []).
Proof.
  intros. split; [apply ps_inv_init; assumption|]. split; [repeat split|apply ps_tmpw_boot].
Qed.
Print Assumptions C17_coherent_fresh_process.

(* for every save_freq f > 0, every history of registrations, notifications and kills at any
   step (Counter.v): the value a restarted server resumes from covers every Observe value sent
   before, so the first value sent after restart, round(v) + 1, is greater than all of them *)
Theorem C17_observe_monotone : forall f, 0 < f -> forall s t x,
  ps_cinv f s -> ps_creach f s t -> cs_v t = Some x -> cs_m t < ps_rnd f x + 1.
Proof. exact ps_observe_monotone. Qed.
Print Assumptions C17_observe_monotone.

(* within a process the values only grow, so this holds for all later values too *)
Theorem C17_observe_growing : forall f, 0 < f -> forall s t,
  ps_cinv f s -> ps_creach f s t -> cs_ph t = PhIdle -> cs_m t < cs_c t + 1.
Proof. exact ps_observe_growing. Qed.
Print Assumptions C17_observe_growing.

(* the code's arithmetic is the abstract one while nothing wraps *)
Theorem C17_observe_round : forall f x,
  0 < f -> 0 <= x -> x + f < 4294967296 -> ps_round f x = ps_rnd f x.
Proof. exact ps_round_rnd. Qed.
Print Assumptions C17_observe_round.

Example C17_example_two_additions_survive :
  ps_w_two ps_dyn_added = Some (ps_dyn_file [ps_w_a; ps_w_b]).
Proof. exact ps_dyn_added_keeps. Qed.

Example C17_example_counter_start : ps_cinv 5 (mkCst PS_OBSERVE0 None (-1) PhIdle).
Proof. apply ps_cinv_init. Qed.

Example C17_example_boot_state : forall fs, ps_tmpw (ps_boot fs).
Proof. exact ps_tmpw_boot. Qed.
