(* C07 - at most once: with the three hypotheses of System.v on (the server processes a request
   once, the application sends when the network is quiet, the give-up timer fires when nothing
   of the exchange is left), every schedule yields a trace the full acceptor accepts: at most
   one conclusion per request token.

   The invariant [ex_guard]: everything in the system concerns the current exchange, and once
   that has concluded the client's duplicate filters cover whatever is left of it.  Actions of
   network and server that add nothing new ([ex_sub]) and client steps that conclude nothing keep
   it by one weakening lemma; the cases with content are the first processing of a request, the
   three client steps that conclude an exchange, and a fresh send. *)
From LibcoapV Require Import Base.Tactics Exchange.Exchange Exchange.Accept Exchange.Spec
  Exchange.AcceptProofs Exchange.ClientProofs Exchange.System Exchange.SystemProofs.
Local Open Scope Z_scope.

Definition ex_dg_conmid (d : ex_dg) : list Z :=
  match d with ExConR s _ => [s] | _ => [] end.
Definition ex_pend_conmid (p : ex_pend) : list Z :=
  if ex_p_sty p =? 3 then [ex_p_mid p] else [].

(* message ids of the Confirmable responses that exist or are scheduled anywhere *)
Definition ex_conmids_of (s2c : list ex_dg) (con : list ex_conr) (pend : list ex_pend) : list Z :=
  flat_map ex_dg_conmid s2c ++ map ex_r_mid con ++ flat_map ex_pend_conmid pend.
Definition ex_conmids (y : ex_sys) : list Z :=
  ex_conmids_of (ex_y_s2c y) (ex_s_con (ex_y_s y)) (ex_s_pend (ex_y_s y)).

Definition ex_is_req (d : ex_dg) : bool := match d with ExReq _ _ _ => true | _ => false end.
Definition ex_is_ackr (d : ex_dg) : bool := match d with ExAckR _ _ => true | _ => false end.
Definition ex_is_respdg (d : ex_dg) : bool :=
  match d with ExAckR _ _ | ExConR _ _ | ExNonR _ _ => true | _ => false end.

Lemma ex_In_snoc : forall (A : Type) (l : list A) d x, In x (l ++ [d]) -> In x l \/ x = d.
Proof.
  intros A l d x H. apply in_app_iff in H. destruct H as [H | [H | []]]; [left; exact H | right; auto].
Qed.

Lemma ex_nil_sub : forall (A : Type) (l : list A), (forall x, In x l -> False) -> l = [].
Proof. intros A l H. destruct l as [| x l]; [reflexivity |]. exfalso. apply (H x). left. reflexivity. Qed.

Lemma ex_existsb_sub : forall (A : Type) (f : A -> bool) l l',
  (forall x, In x l' -> f x = true -> In x l) -> existsb f l' = true -> existsb f l = true.
Proof.
  intros A f l l' S H. apply existsb_exists in H. destruct H as [x [Hx Hf]].
  apply existsb_exists. exists x. split; [apply S; assumption | exact Hf].
Qed.

Lemma ex_existsb_false_sub : forall (A : Type) (f : A -> bool) l l',
  (forall x, In x l' -> f x = true -> In x l) -> existsb f l = false -> existsb f l' = false.
Proof.
  intros A f l l' S H. destruct (existsb f l') eqn:E; [| reflexivity].
  apply (ex_existsb_sub _ f l l' S) in E. congruence.
Qed.

Lemma ex_seen_dec : forall mc kc (l : list (Z * Z)), In (mc, kc) l \/ ~ In (mc, kc) l.
Proof.
  intros mc kc l. destruct (ex_mem2 mc kc l) eqn:E.
  - left. apply ex_mem2_In. exact E.
  - right. intros H. apply ex_mem2_In in H. congruence.
Qed.

Lemma ex_conmids_In : forall s2c con pend a,
  In a (ex_conmids_of s2c con pend) <->
  (exists k, In (ExConR a k) s2c) \/ (exists r, In r con /\ ex_r_mid r = a) \/
  (exists p, In p pend /\ ex_p_sty p = 3 /\ ex_p_mid p = a).
Proof.
  intros s2c con pend a. unfold ex_conmids_of. rewrite !in_app_iff, !in_flat_map, in_map_iff.
  split.
  - intros [[d [Hd Ha]] | [[r [Hr1 Hr2]] | [p [Hp Ha]]]].
    + left. destruct d; cbn in Ha; try contradiction. destruct Ha as [<- | []]. eauto.
    + right. left. eauto.
    + right. right. unfold ex_pend_conmid in Ha. destruct (ex_p_sty p =? 3) eqn:E; [| contradiction].
      destruct Ha as [<- | []]. apply Z.eqb_eq in E. eauto.
  - intros [[k Hk] | [[r [Hr1 Hr2]] | [p [Hp [Hs Hm]]]]].
    + left. exists (ExConR a k). split; [exact Hk | left; reflexivity].
    + right. left. eauto.
    + right. right. exists p. split; [exact Hp |]. unfold ex_pend_conmid. rewrite Hs. cbn.
      left. exact Hm.
Qed.

Lemma ex_conmids_noresp : forall s2c ds con pend a,
  (forall d, In d s2c -> ex_is_respdg d = false) ->
  In a (ex_conmids_of (s2c ++ ds) con pend) -> In a (ex_conmids_of ds con pend).
Proof.
  intros s2c ds con pend a U Ha. apply ex_conmids_In in Ha. apply ex_conmids_In.
  destruct Ha as [[k Hk] | Ha]; [left | right; exact Ha].
  apply in_app_iff in Hk. destruct Hk as [Hk | Hk]; [| eauto].
  specialize (U _ Hk). discriminate U.
Qed.

(* A separate Confirmable response with message id a and token k comes from an entry of the
   server's retransmission list or from an async entry of style 3. *)
Definition ex_con_src (y : ex_sys) (a k : Z) : Prop :=
  (exists r, In r (ex_s_con (ex_y_s y)) /\ ex_r_mid r = a /\ ex_r_tok r = k) \/
  (exists p, In p (ex_s_pend (ex_y_s y)) /\ ex_p_sty p = 3 /\ ex_p_mid p = a /\ ex_p_tok p = k).

(* what the server sends without processing a request anew: acknowledgements of a request it
   has seen that is still in flight (a repeated piggybacked response when the style is 0), and
   the separate response of a pending entry *)
Definition ex_dg_src (y : ex_sys) (d : ex_dg) : Prop :=
  match d with
  | ExAckE m => exists k sty, In (ExReq m k sty) (ex_y_c2s y) /\
                              In (m, k) (ex_s_seen (ex_y_s y)) /\ sty <> 0
  | ExAckR m k => In (ExReq m k 0) (ex_y_c2s y) /\ In (m, k) (ex_s_seen (ex_y_s y))
  | ExConR a k => ex_con_src y a k
  | ExNonR _ k => exists p, In p (ex_s_pend (ex_y_s y)) /\ ex_p_tok p = k
  | _ => False
  end.

(* the server and the network towards the client hold in y' only what y accounts for *)
Record ex_sub (y y' : ex_sys) : Prop := {
  sub_seen : ex_s_seen (ex_y_s y') = ex_s_seen (ex_y_s y);
  sub_mid : ex_s_mid (ex_y_s y') = ex_s_mid (ex_y_s y);
  sub_pend : forall p, In p (ex_s_pend (ex_y_s y')) -> In p (ex_s_pend (ex_y_s y));
  sub_con : forall r, In r (ex_s_con (ex_y_s y')) -> ex_con_src y (ex_r_mid r) (ex_r_tok r);
  sub_s2c : forall d, In d (ex_y_s2c y') -> In d (ex_y_s2c y) \/ ex_dg_src y d
}.
Arguments sub_seen {y y'}.
Arguments sub_mid {y y'}.
Arguments sub_pend {y y'}.
Arguments sub_con {y y'}.
Arguments sub_s2c {y y'}.

Lemma ex_con_src_old : forall y r, In r (ex_s_con (ex_y_s y)) -> ex_con_src y (ex_r_mid r) (ex_r_tok r).
Proof. intros y r H. left. eauto. Qed.

Lemma ex_con_src_conmids : forall y a k, ex_con_src y a k -> In a (ex_conmids y).
Proof.
  intros y a k [[r [Hr [E _]]] | [p [Hp [E1 [E2 _]]]]]; apply ex_conmids_In; eauto 6.
Qed.

Lemma ex_sub_conmids : forall y y' a, ex_sub y y' -> In a (ex_conmids y') -> In a (ex_conmids y).
Proof.
  intros y y' a S Ha. apply ex_conmids_In in Ha.
  destruct Ha as [[k Hk] | [[r [Hr <-]] | [p [Hp Hps]]]].
  - destruct (sub_s2c S _ Hk) as [H | H].
    + apply ex_conmids_In. eauto.
    + eapply ex_con_src_conmids. exact H.
  - eapply ex_con_src_conmids. apply (sub_con S). exact Hr.
  - apply ex_conmids_In. right. right. exists p. split; [apply (sub_pend S); exact Hp | exact Hps].
Qed.

Lemma ex_sub_same_srv : forall y y',
  ex_y_s y' = ex_y_s y -> (forall d, In d (ex_y_s2c y') -> In d (ex_y_s2c y)) -> ex_sub y y'.
Proof.
  intros y y' E H. constructor; rewrite ?E; auto. apply ex_con_src_old.
Qed.

Lemma ex_sub_srv : forall y s' ds c c2s app,
  ex_s_seen s' = ex_s_seen (ex_y_s y) -> ex_s_mid s' = ex_s_mid (ex_y_s y) ->
  (forall p, In p (ex_s_pend s') -> In p (ex_s_pend (ex_y_s y))) ->
  (forall r, In r (ex_s_con s') -> ex_con_src y (ex_r_mid r) (ex_r_tok r)) ->
  (forall d, In d ds -> ex_dg_src y d) ->
  ex_sub y (Build_ex_sys c s' c2s (ex_y_s2c y ++ ds) app).
Proof.
  intros y s' ds c c2s app H1 H2 H3 H4 H5. constructor; cbn [ex_y_s ex_y_s2c]; auto.
  intros d Hd. apply in_app_iff in Hd. destruct Hd as [Hd | Hd]; auto.
Qed.

Lemma ex_srv_fire_sub : forall y j s' ds c c2s app,
  ex_srv_fire (ex_y_s y) j = (s', ds) -> ex_sub y (Build_ex_sys c s' c2s (ex_y_s2c y ++ ds) app).
Proof.
  intros y j s' ds c c2s app. unfold ex_srv_fire.
  destruct (nth_error (ex_s_pend (ex_y_s y)) j) as [p |] eqn:E.
  - apply nth_error_In in E.
    assert (Hc : ex_p_sty p = 3 -> ex_con_src y (ex_p_mid p) (ex_p_tok p)).
    { intros E3. right. exists p. auto. }
    destruct (ex_p_sty p =? 3) eqn:E3; intros [= <- <-];
      apply ex_sub_srv; cbn [ex_s_seen ex_s_mid ex_s_pend ex_s_con];
      eauto using ex_In_remove_nth, ex_con_src_old.
    + apply Z.eqb_eq in E3. intros r Hr. apply ex_In_snoc in Hr.
      destruct Hr as [Hr | ->]; [apply ex_con_src_old; exact Hr | exact (Hc E3)].
    + apply Z.eqb_eq in E3. intros d [<- | []]. exact (Hc E3).
    + intros d [<- | []]. exists p. auto.
  - intros [= <- <-]. apply ex_sub_srv; auto using ex_con_src_old. intros d [].
Qed.

Lemma ex_srv_timer_sub : forall maxr y j s' ds c c2s app,
  ex_srv_timer maxr (ex_y_s y) j = (s', ds) -> ex_sub y (Build_ex_sys c s' c2s (ex_y_s2c y ++ ds) app).
Proof.
  intros maxr y j s' ds c c2s app. unfold ex_srv_timer.
  destruct (nth_error (ex_s_con (ex_y_s y)) j) as [r |] eqn:E.
  - apply nth_error_In in E. pose proof (ex_con_src_old y r E) as Hc.
    destruct (ex_r_cnt r <? maxr); intros [= <- <-];
      apply ex_sub_srv; cbn [ex_s_seen ex_s_mid ex_s_pend ex_s_con]; auto.
    + intros r1 Hr1. apply ex_In_set_nth in Hr1.
      destruct Hr1 as [-> | Hr1]; [exact Hc | apply ex_con_src_old; exact Hr1].
    + intros d [<- | []]. exact Hc.
    + intros r1 Hr1. apply ex_con_src_old. eapply ex_In_remove_nth. exact Hr1.
    + intros d [].
  - intros [= <- <-]. apply ex_sub_srv; auto using ex_con_src_old. intros d [].
Qed.

Lemma ex_srv_rx_sub : forall cf y d s' ds c c2s app,
  ex_cf_dedup cf = true -> In d (ex_y_c2s y) ->
  (forall m k sty, d = ExReq m k sty -> In (m, k) (ex_s_seen (ex_y_s y))) ->
  ex_srv_rx cf (ex_y_s y) d = (s', ds) -> ex_sub y (Build_ex_sys c s' c2s (ex_y_s2c y ++ ds) app).
Proof.
  intros cf y d s' ds c c2s app Hdd Hin Hseen.
  assert (Filter : forall m, ex_sub y (Build_ex_sys c
            (Build_ex_srv (ex_s_seen (ex_y_s y)) (ex_s_pend (ex_y_s y))
               (filter (fun r => negb (ex_r_mid r =? m)) (ex_s_con (ex_y_s y))) (ex_s_mid (ex_y_s y)))
            c2s (ex_y_s2c y ++ []) app)).
  { intros m. apply ex_sub_srv; cbn [ex_s_seen ex_s_mid ex_s_pend ex_s_con]; auto.
    - intros r Hr. apply filter_In in Hr. apply ex_con_src_old. apply Hr.
    - intros x []. }
  assert (Same : ex_sub y (Build_ex_sys c (ex_y_s y) c2s (ex_y_s2c y ++ []) app)).
  { apply ex_sub_srv; auto using ex_con_src_old. intros x []. }
  destruct d as [m k sty | m | m k | m k | m k | m]; cbn [ex_srv_rx];
    try (intros [= <- <-]; first [exact Same | apply Filter]).
  specialize (Hseen m k sty eq_refl).
  rewrite Hdd, (proj2 (ex_mem2_In m k _) Hseen). cbn [andb]. intros [= <- <-].
  apply ex_sub_srv; auto using ex_con_src_old.
  intros x [<- | []]. destruct (sty =? 0) eqn:E0; cbn [ex_dg_src].
  - apply Z.eqb_eq in E0. subst sty. auto.
  - apply Z.eqb_neq in E0. eauto.
Qed.

Definition ex_is_env (a : ex_act) : bool :=
  match a with ExASend _ | ExATimer | ExADelC _ _ => false | _ => true end.

Lemma ex_env_frame : forall cf y a, ex_is_env a = true ->
  let r := ex_sys_step cf y a in
  snd r = [] /\ ex_y_c (fst r) = ex_y_c y /\ ex_y_app (fst r) = ex_y_app y /\
  (forall d, In d (ex_y_c2s (fst r)) -> In d (ex_y_c2s y)).
Proof.
  intros cf y a Ha. destruct a as [sty | | i ok | i | i | i | i | i | j | j]; try discriminate Ha;
    cbn [ex_sys_step].
  - destruct (nth_error (ex_y_s2c y) i); cbn; auto.
  - cbn. auto.
  - destruct (nth_error (ex_y_c2s y) i); [destruct (ex_srv_rx cf (ex_y_s y) e) |]; cbn; auto.
    repeat split. apply ex_In_remove_nth.
  - destruct (nth_error (ex_y_c2s y) i) as [d |] eqn:E; cbn; auto.
    repeat split. intros x Hx. apply ex_In_snoc in Hx.
    destruct Hx as [Hx | ->]; [exact Hx | eapply nth_error_In; exact E].
  - cbn. repeat split. apply ex_In_remove_nth.
  - destruct (ex_srv_fire (ex_y_s y) j). cbn. auto.
  - destruct (ex_srv_timer (ex_cf_maxr cf) (ex_y_s y) j). cbn. auto.
Qed.

Definition ex_first_rx (y : ex_sys) (i : nat) (m k sty : Z) : Prop :=
  nth_error (ex_y_c2s y) i = Some (ExReq m k sty) /\ ~ In (m, k) (ex_s_seen (ex_y_s y)).

Lemma ex_first_rx_dec : forall y a,
  (exists i m k sty, a = ExADelS i /\ ex_first_rx y i m k sty) \/
  (forall i m k sty, a = ExADelS i -> ~ ex_first_rx y i m k sty).
Proof.
  intros y a. unfold ex_first_rx.
  destruct a as [sty | | i ok | i | i | i | i | i | j | j];
    try (right; intros i0 m k s E; discriminate E).
  destruct (nth_error (ex_y_c2s y) i) as [[m k sty | | | | |] |] eqn:E;
    try (right; intros i0 m0 k0 s0 [= <-] [E0 _]; congruence).
  destruct (ex_seen_dec m k (ex_s_seen (ex_y_s y))) as [H | H].
  - right. intros i0 m0 k0 s0 [= <-] [E0 H0]. rewrite E in E0. injection E0 as <- <- <-. contradiction.
  - left. exists i, m, k, sty. auto.
Qed.

Lemma ex_env_sub : forall cf y a,
  ex_cf_dedup cf = true -> ex_is_env a = true ->
  (forall i m k sty, a = ExADelS i -> ~ ex_first_rx y i m k sty) ->
  ex_sub y (fst (ex_sys_step cf y a)).
Proof.
  intros cf y a Hdd Ha Hold.
  assert (Net : forall c c2s s2c app, (forall d, In d s2c -> In d (ex_y_s2c y)) ->
            ex_sub y (Build_ex_sys c (ex_y_s y) c2s s2c app)).
  { intros c c2s s2c app H. apply ex_sub_same_srv; [reflexivity | exact H]. }
  assert (Same : ex_sub y y) by (apply ex_sub_same_srv; auto).
  destruct a as [sty | | i ok | i | i | i | i | i | j | j]; try discriminate Ha; cbn [ex_sys_step].
  - destruct (nth_error (ex_y_s2c y) i) as [d |] eqn:E; [| exact Same]. apply Net.
    intros x Hx. apply ex_In_snoc in Hx. destruct Hx as [Hx | ->]; [exact Hx | eapply nth_error_In; exact E].
  - apply Net. apply ex_In_remove_nth.
  - destruct (nth_error (ex_y_c2s y) i) as [d |] eqn:E; [| exact Same].
    destruct (ex_srv_rx cf (ex_y_s y) d) as [s1 ds] eqn:Er. cbn [fst].
    eapply ex_srv_rx_sub; [exact Hdd | eapply nth_error_In; exact E | | exact Er].
    intros m k sty ->. destruct (ex_seen_dec m k (ex_s_seen (ex_y_s y))) as [H | H]; [exact H |].
    exfalso. apply (Hold i m k sty eq_refl). split; auto.
  - destruct (nth_error (ex_y_c2s y) i); [apply Net; auto | exact Same].
  - apply Net. auto.
  - destruct (ex_srv_fire (ex_y_s y) j) as [s1 ds] eqn:Er. cbn [fst].
    eapply ex_srv_fire_sub. exact Er.
  - destruct (ex_srv_timer (ex_cf_maxr cf) (ex_y_s y) j) as [s1 ds] eqn:Er. cbn [fst].
    eapply ex_srv_timer_sub. exact Er.
Qed.

Definition ex_g_s2c_ok (mc kc sc : Z) (d : ex_dg) : Prop :=
  match d with
  | ExAckR m k => m = mc /\ k = kc /\ sc = 0
  | ExConR _ k | ExNonR _ k => k = kc /\ sc <> 0
  | _ => True
  end.

Lemma ex_srv_rx_first : forall cf s m k sty s' ds,
  ~ In (m, k) (ex_s_seen s) -> ex_s_pend s = [] -> ex_s_con s = [] ->
  ex_srv_rx cf s (ExReq m k sty) = (s', ds) ->
  let n := ex_next_mid (ex_s_mid s) in
  ex_s_seen s' = (m, k) :: ex_s_seen s /\
  (ex_s_mid s' = ex_s_mid s \/ ex_s_mid s' = n) /\
  (forall a, In a (ex_conmids_of ds (ex_s_con s') (ex_s_pend s')) -> a = n /\ ex_s_mid s' = n) /\
  Forall (ex_g_s2c_ok m k sty) ds /\
  Forall (fun p => ex_p_tok p = k /\ sty <> 0) (ex_s_pend s') /\
  Forall (fun r => ex_r_tok r = k /\ sty <> 0) (ex_s_con s') /\
  (forall a, In (ExAckE a) ds -> sty <> 0) /\
  (sty <> 0 -> ex_s_pend s' <> [] \/ ex_s_con s' <> [] \/ exists a, In (ExNonR a k) ds).
Proof.
  intros cf s m k sty s' ds Hns Hp Hc. cbn [ex_srv_rx].
  replace (ex_mem2 m k (ex_s_seen s)) with false
    by (destruct (ex_mem2 m k (ex_s_seen s)) eqn:E; [apply ex_mem2_In in E; contradiction | reflexivity]).
  rewrite andb_false_r, Hp, Hc. cbn [ex_pend_has existsb app].
  generalize (ex_next_mid (ex_s_mid s)). intros n.
  destruct (sty =? 0) eqn:E0; [| destruct (sty =? 1) eqn:E1; [| destruct (sty =? 2) eqn:E2]];
    intros [= <- <-]; cbn [ex_s_seen ex_s_mid ex_s_pend ex_s_con];
    (apply Z.eqb_eq in E0 || apply Z.eqb_neq in E0).
  (* four outcomes, each a state and a list of datagrams written out *)
  all: split; [reflexivity |]; split; [auto |].
  all: split; [intros a; cbn; unfold ex_pend_conmid; cbn; try destruct (sty =? 3); cbn;
               intuition congruence |].
  all: do 3 (split; [repeat constructor; assumption |]).
  - split; [intros a [Ha | []]; discriminate Ha | intros H; contradiction].
  - split; [intros a _; exact E0 | intros _; right; left; discriminate].
  - split; [intros a _; exact E0 | intros _; right; right; exists n; left; reflexivity].
  - split; [intros a _; exact E0 | intros _; left; discriminate].
Qed.

(* everything in the system concerns the current exchange (request mc, token kc, style sc);
   a response on its way and the server's work for it presuppose that the request was seen *)
Record ex_gcore (y : ex_sys) (mc kc sc : Z) : Prop := {
  g_q : forall q, ex_c_q (ex_y_c y) = Some q ->
        ex_q_mid q = mc /\ ex_q_tok q = kc /\ ex_q_sty q = sc;
  g_c2s : forall m k s, In (ExReq m k s) (ex_y_c2s y) -> m = mc /\ k = kc /\ s = sc;
  g_s2c : forall d, In d (ex_y_s2c y) -> ex_g_s2c_ok mc kc sc d /\
          (ex_is_respdg d = true -> In (mc, kc) (ex_s_seen (ex_y_s y)));
  g_pend : forall p, In p (ex_s_pend (ex_y_s y)) ->
           ex_p_tok p = kc /\ sc <> 0 /\ In (mc, kc) (ex_s_seen (ex_y_s y));
  g_con : forall r, In r (ex_s_con (ex_y_s y)) ->
          ex_r_tok r = kc /\ sc <> 0 /\ In (mc, kc) (ex_s_seen (ex_y_s y));
  g_uni : forall a b, In a (ex_conmids y) -> In b (ex_conmids y) -> a = b
}.
Arguments g_q {y mc kc sc}.
Arguments g_c2s {y mc kc sc}.
Arguments g_s2c {y mc kc sc}.
Arguments g_pend {y mc kc sc}.
Arguments g_con {y mc kc sc}.
Arguments g_uni {y mc kc sc}.

(* once the current exchange has concluded, whatever is left of it is filtered by the client *)
Definition ex_gdone (y : ex_sys) (mc kc sc : Z) : Prop :=
  ex_c_q (ex_y_c y) = None /\
  (sc = 0 -> existsb ex_is_req (ex_y_c2s y) = true \/
             existsb ex_is_ackr (ex_y_s2c y) = true -> ex_c_lack (ex_y_c y) = mc) /\
  (forall a, In a (ex_conmids y) -> a = ex_c_lcon (ex_y_c y)) /\
  (In (mc, kc) (ex_s_seen (ex_y_s y)) \/ existsb ex_is_req (ex_y_c2s y) = false).

Definition ex_guard (y : ex_sys) (dn : list Z) (mc kc sc : Z) : Prop :=
  ex_gcore y mc kc sc /\ (In kc dn -> ex_gdone y mc kc sc).

Definition ex_ginv (y : ex_sys) (m : ex_mon) (sc : Z) : Prop :=
  match ex_m_reqs m with
  | [] => True
  | (mc, kc) :: _ => ex_guard y (ex_m_done m) mc kc sc
  end.

Lemma ex_existsb_req_in : forall d l, In d l -> ex_is_req d = true -> existsb ex_is_req l = true.
Proof. intros d l H E. apply existsb_exists. exists d. auto. Qed.

Lemma ex_g_unseen : forall y mc kc sc,
  ex_gcore y mc kc sc -> ~ In (mc, kc) (ex_s_seen (ex_y_s y)) ->
  (forall d, In d (ex_y_s2c y) -> ex_is_respdg d = false) /\
  ex_s_pend (ex_y_s y) = [] /\ ex_s_con (ex_y_s y) = [].
Proof.
  intros y mc kc sc G Hns. split; [| split].
  - intros d Hd. destruct (ex_is_respdg d) eqn:E; [| reflexivity].
    exfalso. apply Hns. apply (g_s2c G _ Hd). exact E.
  - apply ex_nil_sub. intros p Hp. apply Hns. apply (g_pend G _ Hp).
  - apply ex_nil_sub. intros r Hr. apply Hns. apply (g_con G _ Hr).
Qed.

Lemma ex_g_con_src : forall y mc kc sc a k,
  ex_gcore y mc kc sc -> ex_con_src y a k -> k = kc /\ sc <> 0 /\ In (mc, kc) (ex_s_seen (ex_y_s y)).
Proof.
  intros y mc kc sc a k G [[r [Hr [_ <-]]] | [p [Hp [_ [_ <-]]]]].
  - exact (g_con G _ Hr).
  - exact (g_pend G _ Hp).
Qed.

Lemma ex_g_dg_src : forall y mc kc sc d,
  ex_gcore y mc kc sc -> ex_dg_src y d ->
  ex_g_s2c_ok mc kc sc d /\ (ex_is_respdg d = true -> In (mc, kc) (ex_s_seen (ex_y_s y))).
Proof.
  intros y mc kc sc d G H. destruct d as [m k sty | m | m k | a k | a k | m]; cbn in *.
  - destruct H.
  - split; [exact I | discriminate].
  - destruct H as [Hr Hs]. destruct (g_c2s G _ _ _ Hr) as [-> [-> <-]]. auto.
  - destruct (ex_g_con_src _ _ _ _ _ _ G H) as [H1 [H2 H3]]. auto.
  - destruct H as [p [Hp <-]]. destruct (g_pend G _ Hp) as [H1 [H2 H3]]. auto.
  - destruct H.
Qed.

(* A step that only removes or repeats things, lets the client acknowledge or retransmit, or lets
   the server send what [ex_sub] accounts for, keeps the guard. *)
Section Transfer.
  Variables y y' : ex_sys.
  Variables mc kc sc : Z.
  Hypothesis Hsub : ex_sub y y'.
  Hypothesis Hq : forall q', ex_c_q (ex_y_c y') = Some q' ->
     exists q, ex_c_q (ex_y_c y) = Some q /\ ex_req_of q' = ex_req_of q.
  Hypothesis Hc2s : forall d, In d (ex_y_c2s y') ->
     In d (ex_y_c2s y) \/ ex_is_req d = false \/
     exists q, ex_c_q (ex_y_c y) = Some q /\ d = ex_req_of q.

  Lemma ex_gcore_transfer : ex_gcore y mc kc sc -> ex_gcore y' mc kc sc.
  Proof.
    intros G. constructor.
    - intros q' Q'. destruct (Hq q' Q') as [q [Q E]]. injection E as -> -> ->.
      apply (g_q G). exact Q.
    - intros m k s Hd. destruct (Hc2s _ Hd) as [H | [H | [q [Q E]]]].
      + apply (g_c2s G). exact H.
      + discriminate H.
      + injection E as -> -> ->. apply (g_q G). exact Q.
    - intros d Hd. rewrite (sub_seen Hsub). destruct (sub_s2c Hsub d Hd) as [H | H].
      + apply (g_s2c G). exact H.
      + eapply ex_g_dg_src; eassumption.
    - intros p Hp. rewrite (sub_seen Hsub). apply (g_pend G). apply (sub_pend Hsub). exact Hp.
    - intros r Hr. rewrite (sub_seen Hsub).
      exact (ex_g_con_src _ _ _ _ _ _ G (sub_con Hsub r Hr)).
    - intros a b Ha Hb. apply (g_uni G); eapply ex_sub_conmids; eassumption.
  Qed.

  (* what the client's filters must know of y once the exchange has concluded *)
  Lemma ex_gdone_intro :
    (forall d, In d (ex_y_c2s y') -> In d (ex_y_c2s y) \/ ex_is_req d = false) ->
    ex_c_q (ex_y_c y') = None ->
    (sc = 0 -> existsb ex_is_req (ex_y_c2s y) = true \/ existsb ex_is_ackr (ex_y_s2c y) = true ->
     ex_c_lack (ex_y_c y') = mc) ->
    (forall a, In a (ex_conmids y) -> a = ex_c_lcon (ex_y_c y')) ->
    In (mc, kc) (ex_s_seen (ex_y_s y)) \/ existsb ex_is_req (ex_y_c2s y) = false ->
    ex_gdone y' mc kc sc.
  Proof.
    intros Hc D1 D2 D3 D4.
    assert (Req : existsb ex_is_req (ex_y_c2s y') = true -> existsb ex_is_req (ex_y_c2s y) = true).
    { apply ex_existsb_sub. intros d Hd Hf. destruct (Hc d Hd) as [H | H]; congruence. }
    split; [exact D1 |]. split.
    { intros Hsc Hp. apply D2; [exact Hsc |]. destruct Hp as [Hp | Hp]; [left; auto |].
      apply existsb_exists in Hp. destruct Hp as [d [Hd Ha]].
      destruct (sub_s2c Hsub d Hd) as [H | H].
      - right. apply existsb_exists. eauto.
      - (* a repeated piggybacked response answers a request that is still in flight *)
        left. destruct d; try discriminate Ha. destruct H as [H _].
        eapply ex_existsb_req_in; [exact H | reflexivity]. }
    split.
    { intros a Ha. apply D3. eapply ex_sub_conmids; eassumption. }
    rewrite (sub_seen Hsub). destruct D4 as [D4 | D4]; [left; exact D4 | right].
    apply not_true_is_false. intros E. apply Req in E. congruence.
  Qed.

  Hypothesis Hla : ex_c_lack (ex_y_c y') = ex_c_lack (ex_y_c y).
  Hypothesis Hlc : ex_c_lcon (ex_y_c y') = ex_c_lcon (ex_y_c y).

  Lemma ex_guard_transfer : forall dn, ex_guard y dn mc kc sc -> ex_guard y' dn mc kc sc.
  Proof.
    intros dn [G D]. split; [apply ex_gcore_transfer; exact G |].
    intros Hd. destruct (D Hd) as [D1 [D2 [D3 D4]]].
    apply ex_gdone_intro; rewrite ?Hla, ?Hlc; auto.
    - (* nothing is queued, so no request is retransmitted *)
      intros d Hd'. destruct (Hc2s d Hd') as [H | [H | [q [Q _]]]]; [auto | auto | congruence].
    - destruct (ex_c_q (ex_y_c y')) as [q' |] eqn:Q'; [| reflexivity].
      destruct (Hq q' eq_refl) as [q [Q _]]. congruence.
  Qed.
End Transfer.

Lemma ex_guard_first : forall cf y dn mc kc sc i,
  ex_guard y dn mc kc sc -> ex_first_rx y i mc kc sc ->
  ex_guard (fst (ex_sys_step cf y (ExADelS i))) dn mc kc sc.
Proof.
  intros cf y dn mc kc sc i [GC GD] [E Hns]. cbn [ex_sys_step]. rewrite E.
  pose proof (nth_error_In _ _ E) as Hin.
  destruct (ex_g_unseen _ _ _ _ GC Hns) as [U1 [U2 U3]].
  destruct (ex_srv_rx cf (ex_y_s y) (ExReq mc kc sc)) as [s' ds] eqn:Er. cbn [fst].
  destruct (ex_srv_rx_first _ _ _ _ _ _ _ Hns U2 U3 Er) as [F1 [_ [F3 [F4 [F5 [F6 _]]]]]].
  rewrite Forall_forall in F4, F5, F6.
  assert (Hseen : In (mc, kc) (ex_s_seen s')) by (rewrite F1; left; reflexivity).
  split.
  - constructor; cbn [ex_y_c ex_y_s ex_y_c2s ex_y_s2c].
    + apply GC.
    + intros m k s H. apply (g_c2s GC). eapply ex_In_remove_nth. exact H.
    + intros d Hd. split; [| intros _; exact Hseen]. apply in_app_iff in Hd.
      destruct Hd as [Hd | Hd]; [apply (g_s2c GC) | apply F4]; exact Hd.
    + intros p Hp. destruct (F5 p Hp). auto.
    + intros r Hr. destruct (F6 r Hr). auto.
    + (* all message ids of Confirmable responses are the one just drawn *)
      assert (H : forall a, In a (ex_conmids_of (ex_y_s2c y ++ ds) (ex_s_con s') (ex_s_pend s')) ->
                            a = ex_next_mid (ex_s_mid (ex_y_s y))).
      { intros a Ha. apply F3. eapply ex_conmids_noresp; eassumption. }
      intros a b Ha Hb. rewrite (H a Ha), (H b Hb). reflexivity.
  - (* the exchange has not concluded: its request was still in flight and unseen *)
    intros Hd. exfalso. destruct (GD Hd) as [_ [_ [_ [D4 | D4]]]]; [contradiction |].
    rewrite (ex_existsb_req_in _ _ Hin eq_refl) in D4. discriminate D4.
Qed.

Lemma ex_guard_env : forall cf y a dn mc kc sc,
  ex_cf_dedup cf = true -> ex_is_env a = true -> ex_guard y dn mc kc sc ->
  ex_guard (fst (ex_sys_step cf y a)) dn mc kc sc.
Proof.
  intros cf y a dn mc kc sc Hdd Ha G.
  destruct (ex_first_rx_dec y a) as [[i [m [k [sty [-> F]]]]] | Hold].
  - destruct (g_c2s (proj1 G) _ _ _ (nth_error_In _ _ (proj1 F))) as [-> [-> ->]].
    apply ex_guard_first; assumption.
  - destruct (ex_env_frame cf y a Ha) as [_ [Hc [_ Hs]]].
    apply (ex_guard_transfer y); rewrite ?Hc; eauto. apply ex_env_sub; assumption.
Qed.

Lemma ex_step_strengthen : forall m o m',
  ex_step_ok false m o m' ->
  (forall k, existsb (ex_is_concl k) (snd o) = true -> ex_memz k (ex_m_done m) = false) ->
  ex_step_ok true m o m'.
Proof.
  intros m o m' H.
  destruct H; intros F; try (constructor; assumption).
  - apply SoTimerNack; [assumption |]. intros _. apply F. cbn. rewrite Z.eqb_refl. reflexivity.
  - apply SoAckR; [assumption |]. intros _. apply F. cbn. rewrite Z.eqb_refl. reflexivity.
  - apply SoConR; [assumption | assumption |]. intros _. apply F. cbn. rewrite Z.eqb_refl. reflexivity.
  - apply SoRstNack; [assumption |]. intros _. apply F. cbn. rewrite Z.eqb_refl. reflexivity.
Qed.

Lemma ex_quiet_inv : forall y, ex_quiet y = true ->
  ex_y_c2s y = [] /\ ex_y_s2c y = [] /\ ex_s_pend (ex_y_s y) = [] /\ ex_s_con (ex_y_s y) = [].
Proof.
  assert (N : forall (A : Type) (l : list A), ex_is_nil l = true -> l = []).
  { intros A [| x l] E; [reflexivity | discriminate E]. }
  intros y H. unfold ex_quiet in H. rewrite !andb_true_iff in H.
  destruct H as [[[H1 H2] H3] H4]. auto.
Qed.

(* what the client does with a response of the current exchange: the queued request, if any,
   is that of the exchange and leaves the queue *)
Section ClientRx.
  Variables (maxr : Z) (c : ex_cli) (mc kc sc : Z).
  Hypothesis Hq : forall q, ex_c_q c = Some q ->
                  ex_q_mid q = mc /\ ex_q_tok q = kc /\ ex_q_sty q = sc.

  Definition ex_same_session (c1 : ex_cli) : Prop :=
    ex_c_lack c1 = ex_c_lack c /\ ex_c_lcon c1 = ex_c_lcon c /\ ex_c_mid c1 = ex_c_mid c.

  Lemma ex_cancel_cur : ex_c_q (ex_cancel_tok c kc) = None.
  Proof.
    unfold ex_cancel_tok. destruct (ex_c_q c) as [q |] eqn:Q; [| exact Q].
    destruct (Hq q eq_refl) as [_ [-> _]]. rewrite Z.eqb_refl. reflexivity.
  Qed.

  Lemma ex_remove_cur : ex_c_q (fst (ex_remove_mid c mc)) = None.
  Proof.
    unfold ex_remove_mid. destruct (ex_c_q c) as [q |] eqn:Q; [| exact Q].
    destruct (Hq q eq_refl) as [-> _]. rewrite Z.eqb_refl. reflexivity.
  Qed.

  (* piggybacked response: filtered by last_ack_mid, or delivered *)
  Lemma ex_rx_ackr : forall ok c1 outs,
    ex_cli_step maxr c (ExRx (ExAckR mc kc) ok) = (c1, outs) ->
    ex_c_q c1 = None /\ ex_c_lcon c1 = ex_c_lcon c /\ ex_c_mid c1 = ex_c_mid c /\
    (mc = ex_c_lack c /\ ex_c_lack c1 = ex_c_lack c /\ outs = [] \/
     mc <> ex_c_lack c /\ ex_c_lack c1 = mc /\ exists st, outs = [ExResp 2 mc kc st]).
  Proof.
    intros ok c1 outs. rewrite ex_step_ackr.
    pose proof ex_remove_cur as Q. pose proof (ex_remove_mid_fields c mc) as F. cbn zeta in F.
    destruct (ex_remove_mid c mc) as [c0 sent]. cbn [fst] in Q, F. destruct F as (Elc & Ela & _ & Em & _).
    destruct (mc =? ex_c_lack c) eqn:E; intros [= <- <-]; cbn [ex_c_q ex_c_lcon ex_c_lack ex_c_mid].
    - apply Z.eqb_eq in E. auto 8.
    - apply Z.eqb_neq in E. eauto 10.
  Qed.

  (* separate Confirmable response: answered again when its mid is last_con_mid, or delivered *)
  Lemma ex_rx_conr : forall mid ok c1 outs,
    ex_cli_step maxr c (ExRx (ExConR mid kc) ok) = (c1, outs) ->
    ex_c_q c1 = None /\ ex_c_lack c1 = ex_c_lack c /\ ex_c_mid c1 = ex_c_mid c /\
    exists a, (a = ExAckE mid \/ a = ExRst mid) /\
      (mid = ex_c_lcon c /\ ex_c_lcon c1 = ex_c_lcon c /\ outs = [ExTx a] \/
       mid <> ex_c_lcon c /\ ex_c_lcon c1 = mid /\ exists st, outs = [ExResp 0 mid kc st; ExTx a]).
  Proof.
    intros mid ok c1 outs. rewrite ex_step_conr. cbn zeta.
    destruct (ex_cancel_tok_fields c kc) as (Elc & Ela & _ & Em & _).
    destruct (mid =? ex_c_lcon c) eqn:E; intros [= <- <-]; cbn [ex_c_q ex_c_lcon ex_c_lack ex_c_mid];
      (apply Z.eqb_eq in E || apply Z.eqb_neq in E); repeat (split; [auto using ex_cancel_cur |]).
    - exists (if ex_c_lres c then ExAckE mid else ExRst mid). destruct (ex_c_lres c); auto.
    - exists (if ok then ExAckE mid else ExRst mid). destruct ok; eauto 8.
  Qed.

  Lemma ex_rx_nonr : forall mid ok c1 outs,
    ex_cli_step maxr c (ExRx (ExNonR mid kc) ok) = (c1, outs) ->
    ex_c_q c1 = None /\ ex_same_session c1 /\
    exists st, outs = [ExResp 1 mid kc st] \/ outs = [ExResp 1 mid kc st; ExTx (ExRst mid)].
  Proof.
    intros mid ok c1 outs. rewrite ex_step_nonr. intros [= <- <-]. unfold ex_same_session. cbn.
    split; [exact ex_cancel_cur |]. split; [auto |]. destruct ok; eauto.
  Qed.
End ClientRx.

Lemma ex_rx_acke : forall maxr c mid ok c1 outs,
  ex_cli_step maxr c (ExRx (ExAckE mid) ok) = (c1, outs) ->
  (forall q, ex_c_q c1 = Some q -> ex_c_q c = Some q) /\ ex_same_session c c1 /\ outs = [].
Proof.
  intros maxr c mid ok c1 outs. cbn [ex_cli_step]. unfold ex_remove_mid, ex_same_session.
  destruct (ex_c_q c) as [q |] eqn:Q; [destruct (ex_q_mid q =? mid) |]; intros [= <- <-]; cbn;
    rewrite ?Q; auto.
  split; [intros q0 E; discriminate E | auto].
Qed.

(* the style of the current exchange after a client step *)
Definition ex_sc_after (i : ex_cin) (outs : list ex_out) (sc : Z) : Z :=
  match i, outs with
  | ExSend sty, [ExTx (ExReq _ _ _)] => sty
  | _, _ => sc
  end.

Definition ex_cg (y : ex_sys) (m : ex_mon) (sc : Z) (i : ex_cin) (c1 : ex_cli)
  (outs : list ex_out) (s2c' : list ex_dg) : Prop :=
  forall m' app', ex_step_ok false m (i, outs) m' ->
    (forall k, existsb (ex_is_concl k) outs = true -> ex_memz k (ex_m_done m) = false) /\
    ex_ginv (Build_ex_sys c1 (ex_y_s y) (ex_y_c2s y ++ ex_txs outs) s2c' app') m'
            (ex_sc_after i outs sc).

Lemma ex_ginv_intro : forall y' m' mc kc rest sc,
  ex_m_reqs m' = (mc, kc) :: rest -> ex_guard y' (ex_m_done m') mc kc sc -> ex_ginv y' m' sc.
Proof. intros y' m' mc kc rest sc E G. unfold ex_ginv. rewrite E. exact G. Qed.

Lemma ex_ginv_guard : forall y m sc mc kc rest,
  ex_ginv y m sc -> ex_m_reqs m = (mc, kc) :: rest -> ex_guard y (ex_m_done m) mc kc sc.
Proof. intros y m sc mc kc rest G E. unfold ex_ginv in G. rewrite E in G. exact G. Qed.

Lemma ex_memz_false_nil : forall k, ex_memz k [] = false.
Proof. reflexivity. Qed.

Lemma ex_not_done : forall k l, ~ In k l -> ex_memz k l = false.
Proof.
  intros k l H. destruct (ex_memz k l) eqn:E; [| reflexivity]. apply ex_memz_In in E. contradiction.
Qed.

(* a step that concludes nothing and sends at most a retransmission: the monitor is as before *)
Lemma ex_cg_same : forall y m sc i c1 outs s2c',
  ex_ginv y m sc ->
  (forall sty mid tok, (i, outs) <> (ExSend sty, [ExTx (ExReq mid tok sty)])) ->
  (forall k, existsb (ex_is_concl k) outs = false) -> ex_sc_after i outs sc = sc ->
  (forall q', ex_c_q c1 = Some q' ->
     exists q, ex_c_q (ex_y_c y) = Some q /\ ex_req_of q' = ex_req_of q) ->
  ex_c_lack c1 = ex_c_lack (ex_y_c y) -> ex_c_lcon c1 = ex_c_lcon (ex_y_c y) ->
  (forall d, In d (ex_txs outs) ->
     ex_is_req d = false \/ exists q, ex_c_q (ex_y_c y) = Some q /\ d = ex_req_of q) ->
  (forall d, In d s2c' -> In d (ex_y_s2c y)) ->
  ex_cg y m sc i c1 outs s2c'.
Proof.
  intros y m sc i c1 outs s2c' G Hns Hk Hsc Hq Hla Hlc Htx Hs m' app' Hstep.
  split; [intros k E; rewrite Hk in E; discriminate E |].
  destruct (ex_step_reqs_inv _ _ _ _ Hstep) as [E1 | (sty & mid & tok & E & _)];
    [| destruct (Hns _ _ _ E)].
  destruct (ex_step_done_inv _ _ _ _ Hstep) as [[E2 _] | (tok & _ & Ec)];
    [| specialize (Ec tok); cbn [snd] in Ec; rewrite Hk, Z.eqb_refl in Ec; discriminate Ec].
  unfold ex_ginv in *. rewrite E1, E2, Hsc.
  destruct (ex_m_reqs m) as [| [mc kc] rest]; [exact I |].
  apply (ex_guard_transfer y); cbn [ex_y_c ex_y_s ex_y_c2s ex_y_s2c]; auto.
  - apply ex_sub_same_srv; auto.
  - intros d Hd. apply in_app_iff in Hd. destruct Hd as [Hd | Hd]; auto.
Qed.

(* a step that concludes the current exchange: the queue is empty afterwards, and the client's
   filters cover what is left of the exchange *)
Lemma ex_cg_conclude : forall y m sc i c1 outs s2c' mc kc rest,
  ex_m_reqs m = (mc, kc) :: rest -> ex_guard y (ex_m_done m) mc kc sc ->
  (forall sty mid tok, (i, outs) <> (ExSend sty, [ExTx (ExReq mid tok sty)])) ->
  existsb (ex_is_concl kc) outs = true -> ex_sc_after i outs sc = sc ->
  ex_c_q c1 = None -> (forall d, In d (ex_txs outs) -> ex_is_req d = false) ->
  (forall d, In d s2c' -> In d (ex_y_s2c y)) ->
  (ex_gdone y mc kc sc -> False) ->
  (sc = 0 -> existsb ex_is_req (ex_y_c2s y) = true \/ existsb ex_is_ackr (ex_y_s2c y) = true ->
   ex_c_lack c1 = mc) ->
  (forall a, In a (ex_conmids y) -> a = ex_c_lcon c1) ->
  In (mc, kc) (ex_s_seen (ex_y_s y)) \/ existsb ex_is_req (ex_y_c2s y) = false ->
  ex_cg y m sc i c1 outs s2c'.
Proof.
  intros y m sc i c1 outs s2c' mc kc rest ER [GC GD] Hns Hc Hsc Q Htx Hs Hnd D2 D3 D4 m' app' Hstep.
  destruct (ex_step_reqs_inv _ _ _ _ Hstep) as [E1 | (sty & mid & tok & E & _)];
    [| destruct (Hns _ _ _ E)].
  destruct (ex_step_done_inv _ _ _ _ Hstep) as [[_ Ec] | (tok & E2 & Ec)]; cbn [snd] in Ec;
    [rewrite Ec in Hc; discriminate Hc |].
  rewrite Ec in Hc. apply Z.eqb_eq in Hc. subst tok. split.
  { intros k E. rewrite Ec in E. apply Z.eqb_eq in E. subst k.
    apply ex_not_done. intros Hd. apply Hnd, GD, Hd. }
  apply (ex_ginv_intro _ _ mc kc rest); [rewrite E1; exact ER |]. rewrite E2, Hsc.
  assert (S : ex_sub y (Build_ex_sys c1 (ex_y_s y) (ex_y_c2s y ++ ex_txs outs) s2c' app')).
  { apply ex_sub_same_srv; auto. }
  assert (Hr : forall d, In d (ex_y_c2s y ++ ex_txs outs) -> In d (ex_y_c2s y) \/ ex_is_req d = false).
  { intros d Hd. apply in_app_iff in Hd. destruct Hd as [Hd | Hd]; auto. }
  split.
  - apply (ex_gcore_transfer y); cbn [ex_y_c ex_y_c2s]; auto.
    + intros q' Q'. congruence.
    + intros d Hd. destruct (Hr d Hd); auto.
  - intros _. apply (ex_gdone_intro y); auto.
Qed.

Lemma ex_cg_timer : forall cf y m s2c' sc,
  ex_basic y m -> ex_ginv y m sc ->
  (forall d, In d s2c' -> In d (ex_y_s2c y)) ->
  ex_will_nack cf (ex_y_c y) = false \/ ex_quiet y = true ->
  let r := ex_cli_step (ex_cf_maxr cf) (ex_y_c y) ExTimer in
  ex_cg y m sc ExTimer (fst r) (snd r) s2c'.
Proof.
  intros cf y m s2c' sc B G Hs Hw. cbn zeta. cbn [ex_cli_step].
  destruct (ex_c_q (ex_y_c y)) as [q |] eqn:Q.
  - destruct (ex_q_cnt q <? ex_cf_maxr cf) eqn:E; cbn [fst snd].
    + (* retransmission *)
      apply ex_cg_same; cbn [ex_set_q ex_c_q ex_c_lack ex_c_lcon ex_txs]; auto.
      * intros sty0 mid0 tok0 [=].
      * intros q' [= <-]. exists q. auto.
      * intros d [<- | []]. right. exists q. auto.
    + (* give-up: the network is quiet *)
      destruct Hw as [Hw | Hw].
      { unfold ex_will_nack in Hw. rewrite Q, E in Hw. discriminate Hw. }
      destruct (ex_quiet_inv _ Hw) as [Q1 [Q2 [Q3 Q4]]].
      destruct (cm_q _ _ (bs_cm _ _ B) q Q) as [Hr _].
      destruct (ex_m_reqs m) as [| [mc kc] rest] eqn:ER; [destruct Hr |].
      pose proof (ex_ginv_guard _ _ _ _ _ _ G ER) as GG.
      destruct (g_q (proj1 GG) _ Q) as [_ [<- _]].
      eapply ex_cg_conclude; try eassumption; try reflexivity.
      * intros sty0 mid0 tok0 [=].
      * cbn. rewrite Z.eqb_refl. reflexivity.
      * intros d [].
      * intros [D1 _]. congruence.
      * rewrite Q1, Q2. intros _ [H | H]; discriminate H.
      * unfold ex_conmids. rewrite Q2, Q3, Q4. intros a [].
      * right. rewrite Q1. reflexivity.
  - cbn [fst snd]. apply ex_cg_same; cbn [ex_txs]; auto.
    + intros sty0 mid0 tok0 [=].
    + intros q' Q'. congruence.
    + intros d [].
Qed.

Lemma ex_cg_send : forall cf y m sty s2c' sc,
  ex_basic y m -> ex_ginv y m sc ->
  (forall d, In d s2c' -> In d (ex_y_s2c y)) -> ex_quiet y = true ->
  let r := ex_cli_step (ex_cf_maxr cf) (ex_y_c y) (ExSend sty) in
  ex_cg y m sc (ExSend sty) (fst r) (snd r) s2c'.
Proof.
  intros cf y m sty s2c' sc B G Hs Hq. cbn zeta. cbn [ex_cli_step].
  destruct (ex_c_q (ex_y_c y)) as [q |] eqn:Q; cbn [fst snd].
  - (* skipped *)
    apply ex_cg_same; cbn [ex_txs]; auto.
    + intros sty0 mid0 tok0 [=].
    + intros q' Q'. exists q'. auto.
    + intros d [].
  - pose proof (bs_cm _ _ B) as C.
    destruct (ex_quiet_inv _ Hq) as [Q1 [Q2 [Q3 Q4]]].
    assert (S0 : s2c' = []).
    { apply ex_nil_sub. intros d Hd. apply Hs in Hd. rewrite Q2 in Hd. exact Hd. }
    intros m' app' Hstep. inversion Hstep; subst.
    split; [intros k Hk'; discriminate Hk' |].
    eapply ex_ginv_intro; [reflexivity |].
    cbn [ex_m_done ex_txs ex_sc_after]. rewrite Q1. cbn [app].
    split.
    + constructor; cbn [ex_y_c ex_y_s ex_y_c2s ex_y_s2c ex_c_q]; rewrite ?Q3, ?Q4;
        try (intros x []; fail); auto.
      * intros q0 [= <-]. cbn. auto.
      * intros m0 k0 s0 [E | []]. injection E as <- <- <-. auto.
      * unfold ex_conmids. cbn [ex_y_s ex_y_s2c]. rewrite Q3, Q4. intros a b [].
    + (* the token is new *)
      intros Hd. exfalso. apply (ex_cm_next_tok _ _ C), (cm_stop _ _ C), (cm_done _ _ C), Hd.
Qed.

Lemma ex_cg_acke : forall cf y m mid ok s2c' sc,
  ex_ginv y m sc -> (forall d, In d s2c' -> In d (ex_y_s2c y)) ->
  let r := ex_cli_step (ex_cf_maxr cf) (ex_y_c y) (ExRx (ExAckE mid) ok) in
  ex_cg y m sc (ExRx (ExAckE mid) ok) (fst r) (snd r) s2c'.
Proof.
  intros cf y m mid ok s2c' sc G Hs. cbn zeta.
  destruct (ex_cli_step (ex_cf_maxr cf) (ex_y_c y) (ExRx (ExAckE mid) ok)) as [c1 outs] eqn:Ecs.
  cbn [fst snd]. destruct (ex_rx_acke _ _ _ _ _ _ Ecs) as [Hq [[Ela [Elc _]] ->]].
  apply ex_cg_same; cbn [ex_txs]; auto.
  - intros sty0 mid0 tok0 [=].
  - intros q' Q'. exists q'. auto.
  - intros d [].
Qed.

Lemma ex_rx_cur : forall y m sc d,
  ex_basic y m -> ex_ginv y m sc -> In d (ex_y_s2c y) -> ex_is_respdg d = true ->
  exists mc kc rest, ex_m_reqs m = (mc, kc) :: rest /\ ex_guard y (ex_m_done m) mc kc sc /\
                     ex_g_s2c_ok mc kc sc d /\ In (mc, kc) (ex_s_seen (ex_y_s y)).
Proof.
  intros y m sc d B G Hin Hd.
  pose proof (bs_s2c _ _ B) as S2. rewrite Forall_forall in S2. specialize (S2 _ Hin).
  destruct (ex_m_reqs m) as [| [mc kc] rest] eqn:ER.
  { destruct d; try discriminate Hd; cbn in S2; tauto. }
  pose proof (ex_ginv_guard _ _ _ _ _ _ G ER) as GG. destruct GG as [GC GD].
  exists mc, kc, rest. split; [reflexivity |]. split; [split; assumption |].
  destruct (g_s2c GC _ Hin) as [Hok Hs]. auto.
Qed.

Lemma ex_cg_nonr : forall cf y m mid tok ok s2c' sc,
  ex_basic y m -> ex_ginv y m sc ->
  (forall d, In d s2c' -> In d (ex_y_s2c y)) -> In (ExNonR mid tok) (ex_y_s2c y) ->
  let r := ex_cli_step (ex_cf_maxr cf) (ex_y_c y) (ExRx (ExNonR mid tok) ok) in
  ex_cg y m sc (ExRx (ExNonR mid tok) ok) (fst r) (snd r) s2c'.
Proof.
  intros cf y m mid tok ok s2c' sc B G Hs Hin. cbn zeta.
  destruct (ex_rx_cur _ _ _ _ B G Hin eq_refl) as [mc [kc [rest [ER [[GC _] [[Ek _] _]]]]]].
  subst tok.
  destruct (ex_cli_step (ex_cf_maxr cf) (ex_y_c y) (ExRx (ExNonR mid kc) ok)) as [c1 outs] eqn:Ecs.
  cbn [fst snd]. destruct (ex_rx_nonr _ _ _ _ _ (g_q GC) _ _ _ _ Ecs) as [Q [[Ela [Elc _]] [st Ho]]].
  apply ex_cg_same; auto.
  - intros sty0 mid0 tok0 [=].
  - intros k. destruct Ho as [-> | ->]; reflexivity.
  - intros q' Q'. congruence.
  - intros d Hd. left. destruct Ho as [-> | ->]; cbn in Hd; [destruct Hd | destruct Hd as [<- | []]; reflexivity].
Qed.

Lemma ex_cg_ackr : forall cf y m mid tok ok s2c' sc,
  ex_basic y m -> ex_ginv y m sc ->
  (forall d, In d s2c' -> In d (ex_y_s2c y)) -> In (ExAckR mid tok) (ex_y_s2c y) ->
  let r := ex_cli_step (ex_cf_maxr cf) (ex_y_c y) (ExRx (ExAckR mid tok) ok) in
  ex_cg y m sc (ExRx (ExAckR mid tok) ok) (fst r) (snd r) s2c'.
Proof.
  intros cf y m mid tok ok s2c' sc B G Hs Hin. cbn zeta.
  destruct (ex_rx_cur _ _ _ _ B G Hin eq_refl) as [mc [kc [rest [ER [[GC GD] [[Em [Ek E0]] Hseen]]]]]].
  subst mid tok sc.
  destruct (ex_cli_step (ex_cf_maxr cf) (ex_y_c y) (ExRx (ExAckR mc kc) ok)) as [c1 outs] eqn:Ecs.
  cbn [fst snd]. destruct (ex_rx_ackr _ _ _ _ _ (g_q GC) _ _ _ Ecs)
    as [Q [Elc [_ [[Ef [Ela ->]] | [Ef [Ela [st ->]]]]]]].
  - (* filtered *)
    apply ex_cg_same; cbn [ex_txs]; auto.
    + intros sty0 mid0 tok0 [=].
    + intros q' Q'. congruence.
    + intros d [].
  - (* delivered *)
    eapply ex_cg_conclude; try eassumption; try reflexivity; auto.
    + split; assumption.
    + intros sty0 mid0 tok0 [=].
    + cbn. rewrite Z.eqb_refl. reflexivity.
    + intros d [].
    + intros [_ [D2 _]]. apply Ef. symmetry. apply D2; [reflexivity |].
      right. apply existsb_exists. exists (ExAckR mc kc). auto.
    + (* a piggybacked response excludes separate ones *)
      intros a Ha. exfalso. apply ex_conmids_In in Ha.
      destruct Ha as [[k Hk] | [[r [Hr _]] | [p [Hp _]]]].
      * destruct (g_s2c GC _ Hk) as [[_ Hx] _]. apply Hx. reflexivity.
      * destruct (g_con GC _ Hr) as [_ [Hx _]]. apply Hx. reflexivity.
      * destruct (g_pend GC _ Hp) as [_ [Hx _]]. apply Hx. reflexivity.
Qed.

Lemma ex_cg_conr : forall cf y m mid tok ok s2c' sc,
  ex_basic y m -> ex_ginv y m sc ->
  (forall d, In d s2c' -> In d (ex_y_s2c y)) -> In (ExConR mid tok) (ex_y_s2c y) ->
  let r := ex_cli_step (ex_cf_maxr cf) (ex_y_c y) (ExRx (ExConR mid tok) ok) in
  ex_cg y m sc (ExRx (ExConR mid tok) ok) (fst r) (snd r) s2c'.
Proof.
  intros cf y m mid tok ok s2c' sc B G Hs Hin. cbn zeta.
  destruct (ex_rx_cur _ _ _ _ B G Hin eq_refl) as [mc [kc [rest [ER [[GC GD] [[Ek Hsc] Hseen]]]]]].
  subst tok.
  assert (Hmid : In mid (ex_conmids y)) by (apply ex_conmids_In; eauto).
  destruct (ex_cli_step (ex_cf_maxr cf) (ex_y_c y) (ExRx (ExConR mid kc) ok)) as [c1 outs] eqn:Ecs.
  cbn [fst snd]. destruct (ex_rx_conr _ _ _ _ _ (g_q GC) _ _ _ _ Ecs)
    as [Q [Ela [_ [a [Ha [[Ef [Elc ->]] | [Ef [Elc [st ->]]]]]]]]].
  - (* duplicate: acknowledged again *)
    apply ex_cg_same; cbn [ex_txs]; auto.
    + intros sty0 mid0 tok0 [=].
    + intros q' Q'. congruence.
    + intros d [<- | []]. left. destruct Ha as [-> | ->]; reflexivity.
  - (* delivered *)
    eapply ex_cg_conclude; try eassumption; try reflexivity; auto.
    + split; assumption.
    + intros sty0 mid0 tok0 [=].
    + cbn. rewrite Z.eqb_refl. reflexivity.
    + intros d [<- | []]. destruct Ha as [-> | ->]; reflexivity.
    + intros [_ [_ [D3 _]]]. apply Ef. apply D3. exact Hmid.
    + intros Hz. contradiction.
    + (* there is one message id for Confirmable responses, the one just remembered *)
      intros b Hb. rewrite Elc. apply (g_uni GC); assumption.
Qed.

Definition ex_sc_of_obs (obs : list ex_obs) (sc : Z) : Z :=
  match obs with
  | [(i, outs)] => ex_sc_after i outs sc
  | _ => sc
  end.

Lemma ex_inv_client : forall cf y m sc i s2c',
  ex_basic y m -> ex_admissible m i -> Forall (ex_s2c_ok (ex_m_reqs m)) s2c' ->
  (let r := ex_cli_step (ex_cf_maxr cf) (ex_y_c y) i in ex_cg y m sc i (fst r) (snd r) s2c') ->
  let r := ex_sys_client cf y i s2c' in
  exists m', ex_mon_path true m (snd r) m' /\ ex_basic (fst r) m' /\
             ex_ginv (fst r) m' (ex_sc_of_obs (snd r) sc).
Proof.
  intros cf y m sc i s2c' B A S CG. cbn zeta in *.
  pose proof (ex_basic_client cf y m i s2c' B A S) as H. cbn zeta in H.
  unfold ex_sys_client in *.
  destruct (ex_cli_step (ex_cf_maxr cf) (ex_y_c y) i) as [c1 outs]. cbn [fst snd] in *.
  destruct H as [m' [P B']].
  apply ex_mon_path_cons_inv in P. destruct P as [m1 [Hs P]].
  apply ex_mon_path_nil_inv in P. subst m1.
  exists m'.
  match goal with
  | |- context [Build_ex_sys c1 (ex_y_s y) _ s2c' ?app] => destruct (CG m' app Hs) as [Fr GI]
  end.
  split; [| split; [exact B' | exact GI]].
  econstructor; [| constructor]. apply ex_step_strengthen; assumption.
Qed.

(* a client input the guarded system lets happen, and what it leaves on the way to the client *)
Definition ex_enabled (cf : ex_cfg) (y : ex_sys) (i : ex_cin) (s2c' : list ex_dg) : Prop :=
  match i with
  | ExSend _ => ex_y_app y = None /\ ex_quiet y = true /\ s2c' = ex_y_s2c y
  | ExTimer => (ex_will_nack cf (ex_y_c y) = false \/ ex_quiet y = true) /\ s2c' = ex_y_s2c y
  | ExRx d _ => exists n, nth_error (ex_y_s2c y) n = Some d /\ s2c' = ex_remove_nth n (ex_y_s2c y)
  end.

Lemma ex_client_act : forall maxr y a, ex_is_env a = false ->
  let cf := ex_cfg_guarded maxr in
  ex_sys_step cf y a = (y, []) \/
  exists i s2c', ex_sys_step cf y a = ex_sys_client cf y i s2c' /\ ex_enabled cf y i s2c'.
Proof.
  intros maxr y a Ha. cbn zeta.
  destruct a as [sty | | n ok | | | | | | |]; try discriminate Ha;
    cbn [ex_sys_step ex_cfg_guarded ex_cf_quiet ex_cf_patient andb].
  - destruct (ex_y_app y) eqn:A; [left; reflexivity |].
    destruct (ex_quiet y) eqn:Q; cbn [negb]; [right | left; reflexivity].
    exists (ExSend sty), (ex_y_s2c y). cbn. auto.
  - destruct (ex_will_nack (ex_cfg_guarded maxr) (ex_y_c y)) eqn:W; cbn [andb];
      [destruct (ex_quiet y) eqn:Q; cbn [negb]; [| left; reflexivity] |];
      right; exists ExTimer, (ex_y_s2c y); cbn; auto.
  - destruct (nth_error (ex_y_s2c y) n) as [d |] eqn:E; [right | left; reflexivity].
    exists (ExRx d ok), (ex_remove_nth n (ex_y_s2c y)). cbn. eauto.
Qed.

Lemma ex_cg_enabled : forall cf y m sc i s2c',
  ex_basic y m -> ex_ginv y m sc -> ex_enabled cf y i s2c' ->
  ex_admissible m i /\ Forall (ex_s2c_ok (ex_m_reqs m)) s2c' /\
  let r := ex_cli_step (ex_cf_maxr cf) (ex_y_c y) i in ex_cg y m sc i (fst r) (snd r) s2c'.
Proof.
  intros cf y m sc i s2c' B G En. destruct i as [sty | | d ok]; cbn [ex_enabled] in En.
  - destruct En as [_ [Q ->]]. split; [exact I |]. split; [apply B |]. apply ex_cg_send; auto.
  - destruct En as [W ->]. split; [exact I |]. split; [apply B |]. apply ex_cg_timer; auto.
  - destruct En as [n [E ->]].
    pose proof (nth_error_In _ _ E) as Hin.
    pose proof (ex_Forall_nth _ _ _ _ _ (bs_s2c _ _ B) E) as Hok.
    assert (Hsub : forall x, In x (ex_remove_nth n (ex_y_s2c y)) -> In x (ex_y_s2c y)).
    { intros x. apply ex_In_remove_nth. }
    split; [exact Hok |]. split; [apply ex_Forall_remove_nth; apply B |].
    destruct d as [mid tok sty | mid | mid tok | mid tok | mid tok | mid]; cbn in Hok; try contradiction.
    + apply ex_cg_acke; auto.
    + apply ex_cg_ackr; auto.
    + apply ex_cg_conr; auto.
    + apply ex_cg_nonr; auto.
Qed.

Lemma ex_inv_step : forall maxr y m sc a,
  ex_basic y m -> ex_ginv y m sc ->
  let r := ex_sys_step (ex_cfg_guarded maxr) y a in
  exists m', ex_mon_path true m (snd r) m' /\ ex_basic (fst r) m' /\
             ex_ginv (fst r) m' (ex_sc_of_obs (snd r) sc).
Proof.
  intros maxr y m sc a B G. cbn zeta. set (cf := ex_cfg_guarded maxr).
  destruct (ex_is_env a) eqn:Ea.
  - (* no client step: the monitor stays *)
    pose proof (ex_basic_step cf y m a B) as H. cbn zeta in H. destruct H as [m' [P B']].
    destruct (ex_env_frame cf y a Ea) as [E _]. rewrite E in *.
    apply ex_mon_path_nil_inv in P. subst m'.
    exists m. split; [constructor | split; [exact B' |]].
    unfold ex_ginv in *. destruct (ex_m_reqs m) as [| [mc kc] rest]; [exact I |].
    apply ex_guard_env; auto.
  - destruct (ex_client_act maxr y a Ea) as [E | [i [s2c' [E En]]]]; fold cf in E; rewrite E.
    + exists m. split; [constructor | split; assumption].
    + destruct (ex_cg_enabled cf y m sc i s2c' B G En) as [A [S CG]]. apply ex_inv_client; assumption.
Qed.

Lemma ex_inv_run : forall maxr acts y m sc,
  ex_basic y m -> ex_ginv y m sc ->
  let r := ex_sys_run (ex_cfg_guarded maxr) y acts in
  exists m' sc', ex_mon_path true m (snd r) m' /\ ex_basic (fst r) m' /\ ex_ginv (fst r) m' sc'.
Proof.
  intros maxr acts. induction acts as [| a acts IH]; intros y m sc B G; cbn zeta.
  - exists m, sc. split; [constructor | split; assumption].
  - cbn [ex_sys_run].
    pose proof (ex_inv_step maxr y m sc a B G) as H. cbn zeta in H.
    destruct (ex_sys_step (ex_cfg_guarded maxr) y a) as [y1 o]. cbn [fst snd] in H.
    destruct H as [m1 [P1 [B1 G1]]].
    pose proof (IH y1 m1 _ B1 G1) as H2. cbn zeta in H2.
    destruct (ex_sys_run (ex_cfg_guarded maxr) y1 acts) as [y2 t]. cbn [fst snd] in *.
    destruct H2 as [m2 [sc2 [P2 [B2 G2]]]].
    exists m2, sc2. split; [eapply ex_mon_path_snoc; eassumption | split; assumption].
Qed.

(* the acceptor accepts every behaviour of the guarded system *)
Theorem ex_system_accepted : forall maxr cmid0 smid0 acts,
  accepts_c07 (ex_sys_trace (ex_cfg_guarded maxr) (ex_sys_init cmid0 smid0) acts) = true.
Proof.
  intros maxr cmid0 smid0 acts. unfold ex_sys_trace, accepts_c07, ex_judge.
  pose proof (ex_inv_run maxr acts _ _ 0 (ex_basic_init cmid0 smid0) I) as H. cbn zeta in H.
  destruct H as [m' [sc' [P _]]]. apply Z.eqb_eq. eapply ex_path_judge. exact P.
Qed.

(* C07 under the three hypotheses, for every schedule: the six clauses of Spec.v *)
Theorem ex_system_safe : forall maxr cmid0 smid0 acts,
  ex_property (ex_sys_trace (ex_cfg_guarded maxr) (ex_sys_init cmid0 smid0) acts).
Proof. intros. apply ex_accepts_sound, ex_system_accepted. Qed.
