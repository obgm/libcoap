(* C07 - the closed system of System.v in every configuration (any server variant, no quiet or
   patience hypothesis), for all schedules: the client's trace is accepted by the judge without
   clause 2: handler token, stop of retransmission, ACK/RST of Confirmable responses, duplicate
   handling, NON delivery.  Clause 2, at most one conclusion per request token, needs the three
   hypotheses: GuardProofs.v. *)
From LibcoapV Require Import Base.Tactics Exchange.Exchange Exchange.Accept Exchange.Spec
  Exchange.AcceptProofs Exchange.ClientProofs Exchange.System.
Local Open Scope Z_scope.

Lemma ex_In_remove_nth : forall (A : Type) i (l : list A) x, In x (ex_remove_nth i l) -> In x l.
Proof.
  intros A i l. revert i. induction l as [| y l IH]; intros i x H; cbn in H.
  - destruct i; exact H.
  - destruct i; [right; exact H |]. destruct H as [-> | H]; [left; reflexivity | right; eauto].
Qed.

Lemma ex_In_set_nth : forall (A : Type) j (x : A) l r, In r (ex_set_nth j x l) -> r = x \/ In r l.
Proof.
  intros A j x l. revert j. induction l as [| y l IH]; intros j r H; cbn in H.
  - destruct j; contradiction.
  - destruct j.
    + destruct H as [<- | H]; [left; reflexivity | right; right; exact H].
    + destruct H as [<- | H]; [right; left; reflexivity |].
      destruct (IH _ _ H) as [E | E]; [left; exact E | right; right; exact E].
Qed.

Lemma ex_Forall_remove_nth : forall (A : Type) (P : A -> Prop) i l,
  Forall P l -> Forall P (ex_remove_nth i l).
Proof.
  intros A P i l H. rewrite Forall_forall in *. intros x Hx. apply H, (ex_In_remove_nth _ i), Hx.
Qed.

Lemma ex_Forall_set_nth : forall (A : Type) (P : A -> Prop) i x l,
  Forall P l -> P x -> Forall P (ex_set_nth i x l).
Proof.
  intros A P i x l H Hx. rewrite Forall_forall in *. intros r Hr.
  destruct (ex_In_set_nth _ _ _ _ _ Hr) as [-> | Hr']; auto.
Qed.

Lemma ex_Forall_nth : forall (A : Type) (P : A -> Prop) i l d,
  Forall P l -> nth_error l i = Some d -> P d.
Proof.
  intros A P i l d H E. apply nth_error_In in E. rewrite Forall_forall in H. apply H. exact E.
Qed.

Lemma ex_Forall_snoc : forall (A : Type) (P : A -> Prop) l x,
  Forall P l -> P x -> Forall P (l ++ [x]).
Proof. intros. apply Forall_app. split; [assumption | constructor; [assumption | constructor]]. Qed.

(* The invariant of every configuration (ex_basic), between the system state and the state the
   lenient judge has reached on the trace so far: whatever is in flight or held by the server
   names a request the monitor has seen, and the client agrees with the monitor (ex_cm).  Message
   ids are >= 0, so a filter slot that equals one is not the -1 of an empty slot. *)
Definition ex_c2s_ok (reqs : list (Z * Z)) (d : ex_dg) : Prop :=
  match d with
  | ExReq m k _ => In (m, k) reqs
  | ExAckE _ | ExRst _ => True
  | _ => False
  end.

Definition ex_s2c_ok (reqs : list (Z * Z)) (d : ex_dg) : Prop :=
  match d with
  | ExAckR m k => In (m, k) reqs
  | ExConR s k | ExNonR s k => In k (map snd reqs) /\ 0 <= s
  | ExAckE _ => True
  | _ => False
  end.

(* the part of the invariant that relates the client to the monitor *)
Record ex_cm (c : ex_cli) (m : ex_mon) : Prop := {
  cm_tok : forall mid tok, In (mid, tok) (ex_m_reqs m) -> tok <= ex_c_tok c /\ 0 <= mid;
  cm_fun : forall m1 m2 k, In (m1, k) (ex_m_reqs m) -> In (m2, k) (ex_m_reqs m) -> m1 = m2;
  cm_q : forall q, ex_c_q c = Some q ->
         In (ex_q_mid q, ex_q_tok q) (ex_m_reqs m) /\ ~ In (ex_q_tok q) (ex_m_stop m);
  cm_lack : ex_c_lack c = -1 \/ In (ex_c_lack c) (ex_m_acks m);
  cm_lcon : ex_c_lcon c = -1 \/ In (ex_c_lcon c) (ex_m_cons m);
  cm_last : forall s la, ex_m_last m = Some (s, la) -> ex_c_lcon c = s /\ ex_c_lres c = la;
  cm_done : forall k, In k (ex_m_done m) -> In k (ex_m_stop m);
  cm_stop : ex_stop_sub m
}.

Record ex_basic (y : ex_sys) (m : ex_mon) : Prop := {
  bs_cm : ex_cm (ex_y_c y) m;
  bs_c2s : Forall (ex_c2s_ok (ex_m_reqs m)) (ex_y_c2s y);
  bs_s2c : Forall (ex_s2c_ok (ex_m_reqs m)) (ex_y_s2c y);
  bs_pend : Forall (fun p => In (ex_p_tok p) (ex_toks m) /\ 0 <= ex_p_mid p)
                   (ex_s_pend (ex_y_s y));
  bs_con : Forall (fun r => In (ex_r_tok r) (ex_toks m) /\ 0 <= ex_r_mid r)
                  (ex_s_con (ex_y_s y))
}.

(* the server's async entries and unacknowledged responses carry tokens of requests sent *)
Definition ex_srv_ok (reqs : list (Z * Z)) (s : ex_srv) : Prop :=
  Forall (fun p => In (ex_p_tok p) (map snd reqs) /\ 0 <= ex_p_mid p) (ex_s_pend s) /\
  Forall (fun r => In (ex_r_tok r) (map snd reqs) /\ 0 <= ex_r_mid r) (ex_s_con s).

Lemma ex_c2s_ok_incl : forall reqs reqs' d,
  incl reqs reqs' -> ex_c2s_ok reqs d -> ex_c2s_ok reqs' d.
Proof. intros reqs reqs' [] I H; cbn in *; auto. Qed.

Lemma ex_s2c_ok_incl : forall reqs reqs' d,
  incl reqs reqs' -> ex_s2c_ok reqs d -> ex_s2c_ok reqs' d.
Proof.
  intros reqs reqs' [] I H; cbn in *; auto; (split; [apply (incl_map snd I) |]; apply H).
Qed.

Lemma ex_srv_ok_incl : forall reqs reqs' s,
  incl reqs reqs' -> ex_srv_ok reqs s -> ex_srv_ok reqs' s.
Proof.
  intros reqs reqs' s I [Hp Hc].
  split; (eapply Forall_impl; [| eassumption]); intros x [H1 H2];
    (split; [apply (incl_map snd I) |]; assumption).
Qed.

Lemma ex_basic_init : forall cmid0 smid0, ex_basic (ex_sys_init cmid0 smid0) ex_mon_init.
Proof. intros. constructor; [constructor | ..]; cbn; auto; easy. Qed.

Lemma ex_next_mid_range : forall m, 0 <= ex_next_mid m < 65536.
Proof. intros m. unfold ex_next_mid. apply Z.mod_pos_bound. lia. Qed.

Lemma ex_fresh_false : forall m tok, ex_fresh false m tok.
Proof. intros m tok H. discriminate H. Qed.

Lemma ex_stop_sub_concl : forall m tok last cons acks,
  ex_stop_sub m -> In tok (ex_toks m) -> ex_stop_sub (ex_mon_concl m tok last cons acks).
Proof.
  intros m tok last cons acks S Ht k Hk. unfold ex_toks in *. cbn in *.
  destruct Hk as [<- | Hk]; [exact Ht | apply S; exact Hk].
Qed.

(* a client step with result r is accepted by the lenient judge and keeps the invariant; the
   request list only grows, and what goes out is covered by it *)
Definition ex_cm_next (m : ex_mon) (i : ex_cin) (r : ex_cli * list ex_out) : Prop :=
  exists m', ex_step_ok false m (i, snd r) m' /\ ex_cm (fst r) m' /\
             incl (ex_m_reqs m) (ex_m_reqs m') /\
             Forall (ex_c2s_ok (ex_m_reqs m')) (ex_txs (snd r)).

(* the common case: the monitor stays where it is *)
Lemma ex_cm_keep : forall m i c' outs,
  ex_step_ok false m (i, outs) m -> ex_cm c' m -> Forall (ex_c2s_ok (ex_m_reqs m)) (ex_txs outs) ->
  ex_cm_next m i (c', outs).
Proof.
  intros m i c' outs S C T. exists m.
  split; [exact S | split; [exact C | split; [apply incl_refl | exact T]]].
Qed.

(* the fields of ex_cm, with the projections of the new client and monitor state evaluated *)
Ltac ex_cm_fields :=
  constructor; cbn [ex_m_reqs ex_m_stop ex_m_acks ex_m_cons ex_m_last ex_m_done ex_mon_concl
                    ex_c_q ex_c_tok ex_c_lack ex_c_lcon ex_c_lres ex_set_q fst snd].

Lemma ex_cm_drop_q : forall c m, ex_cm c m -> ex_cm (ex_set_q c None) m.
Proof.
  intros c m C. ex_cm_fields; try apply C. intros q E. discriminate E.
Qed.

Lemma ex_remove_mid_cm : forall c m mid,
  ex_cm c m ->
  let c1 := fst (ex_remove_mid c mid) in
  ex_cm c1 m /\ forall q, ex_c_q c1 = Some q -> ex_q_mid q <> mid /\ ex_c_q c = Some q.
Proof.
  intros c m mid C. cbn zeta. unfold ex_remove_mid.
  destruct (ex_c_q c) as [q |] eqn:Q; [destruct (ex_q_mid q =? mid) eqn:E |]; cbn [fst];
    (split; [try apply ex_cm_drop_q; exact C |]); intros q0 E0.
  - discriminate E0.
  - rewrite Q in E0. injection E0 as <-. split; [apply Z.eqb_neq, E | reflexivity].
  - rewrite Q in E0. discriminate E0.
Qed.

Lemma ex_cancel_tok_cm : forall c m tok,
  ex_cm c m ->
  let c1 := ex_cancel_tok c tok in
  ex_cm c1 m /\ forall q, ex_c_q c1 = Some q -> ex_q_tok q <> tok /\ ex_c_q c = Some q.
Proof.
  intros c m tok C. cbn zeta. unfold ex_cancel_tok.
  destruct (ex_c_q c) as [q |] eqn:Q; [destruct (ex_q_tok q =? tok) eqn:E |];
    (split; [try apply ex_cm_drop_q; exact C |]); intros q0 E0.
  - discriminate E0.
  - rewrite Q in E0. injection E0 as <-. split; [apply Z.eqb_neq, E | reflexivity].
  - rewrite Q in E0. discriminate E0.
Qed.

(* the monitor concludes for a token; the queue entry (if any is left) belongs to another *)
Lemma ex_done_concl : forall m tok k,
  (forall k, In k (ex_m_done m) -> In k (ex_m_stop m)) ->
  In k (tok :: ex_m_done m) -> In k (tok :: ex_m_stop m).
Proof. intros m tok k H [E | Hk]; [left; exact E | right; apply H; exact Hk]. Qed.

Lemma ex_cm_q_other : forall c m q tok,
  ex_cm c m -> ex_c_q c = Some q -> ex_q_tok q <> tok ->
  In (ex_q_mid q, ex_q_tok q) (ex_m_reqs m) /\ ~ In (ex_q_tok q) (tok :: ex_m_stop m).
Proof.
  intros c m q tok C Q N. destruct (cm_q _ _ C _ Q) as [H1 H2].
  split; [exact H1 | intros [E | H]; [apply N; symmetry; exact E | contradiction]].
Qed.

(* coap_session_new_token counts up: the next token is above every token sent *)
Lemma ex_cm_next_tok : forall c m, ex_cm c m -> ~ In (ex_c_tok c + 1) (ex_toks m).
Proof.
  intros c m C Hin. apply ex_toks_In in Hin. destruct Hin as [mm Hin].
  apply (cm_tok _ _ C) in Hin. lia.
Qed.

Lemma ex_cm_send : forall maxr c m sty,
  ex_cm c m -> ex_cm_next m (ExSend sty) (ex_cli_step maxr c (ExSend sty)).
Proof.
  intros maxr c m sty C. unfold ex_cli_step.
  destruct (ex_c_q c) as [q |] eqn:Q; [apply ex_cm_keep; [apply SoSkip | exact C | constructor] |].
  cbv zeta. unfold ex_req_of. cbn [ex_q_mid ex_q_tok ex_q_sty].
  pose proof (ex_cm_next_tok _ _ C) as Hfresh.
  set (mid := (ex_c_mid c + 1) mod 65536). set (tok := ex_c_tok c + 1) in *.
  eexists. split; [apply SoSend; apply not_true_is_false; rewrite ex_memz_In; exact Hfresh |].
  split; [| split; [apply incl_tl, incl_refl | repeat constructor]].
  ex_cm_fields; try apply C.
  - intros mid0 tok0 [E | Hin].
    + injection E as <- <-. split; [lia | apply Z.mod_pos_bound; lia].
    + apply (cm_tok _ _ C) in Hin. subst tok. lia.
  - intros m1 m2 k [E1 | H1] [E2 | H2].
    + congruence.
    + injection E1 as <- <-. exfalso. apply Hfresh. eapply ex_tok_in_toks. exact H2.
    + injection E2 as <- <-. exfalso. apply Hfresh. eapply ex_tok_in_toks. exact H1.
    + eapply (cm_fun _ _ C); eassumption.
  - intros q0 E. injection E as <-. cbn [ex_q_mid ex_q_tok]. split; [left; reflexivity |].
    intros Hs. apply Hfresh. apply (cm_stop _ _ C). exact Hs.
  - destruct (mid =? ex_c_lack c); [left; reflexivity | apply (cm_lack _ _ C)].
  - intros k Hk. right. apply (cm_stop _ _ C). exact Hk.
Qed.

Lemma ex_cm_timer : forall maxr c m,
  ex_cm c m -> ex_cm_next m ExTimer (ex_cli_step maxr c ExTimer).
Proof.
  intros maxr c m C. unfold ex_cli_step.
  destruct (ex_c_q c) as [q |] eqn:Q;
    [| apply ex_cm_keep; [apply SoTimerNone | exact C | constructor]].
  destruct (cm_q _ _ C _ Q) as [Hq1 Hq2].
  destruct (ex_q_cnt q <? maxr) eqn:E; unfold ex_req_of.
  - apply ex_cm_keep; [| | repeat constructor; exact Hq1].
    + apply SoTimerTx; [exact Hq1 | apply not_true_is_false; rewrite ex_memz_In; exact Hq2].
    + ex_cm_fields; try apply C.
      intros q0 E0. injection E0 as <-. split; assumption.
  - eexists. split; [apply SoTimerNack; [exact Hq1 | apply ex_fresh_false] |].
    split; [| split; [apply incl_refl | constructor]].
    ex_cm_fields; try apply C.
    + intros q0 E0. discriminate E0.
    + intros k. apply ex_done_concl, C.
    + apply ex_stop_sub_concl; [apply C | eapply ex_tok_in_toks; exact Hq1].
Qed.

Lemma ex_cm_acke : forall maxr c m mid ok,
  ex_cm c m -> ex_cm_next m (ExRx (ExAckE mid) ok) (ex_cli_step maxr c (ExRx (ExAckE mid) ok)).
Proof.
  intros maxr c m mid ok C. unfold ex_cli_step.
  destruct (ex_remove_mid_cm c m mid C) as [C1 _].
  destruct (ex_remove_mid c mid) as [c1 [q |]]; cbn [fst] in *;
    (apply ex_cm_keep; [apply SoAckE | | constructor]); [| exact C1].
  (* the token drawn for the separate response *)
  ex_cm_fields; try apply C1.
  intros mid0 tok0 Hin. apply (cm_tok _ _ C1) in Hin. lia.
Qed.

Lemma ex_cm_ackr : forall maxr c m mid tok ok,
  ex_cm c m -> In (mid, tok) (ex_m_reqs m) ->
  ex_cm_next m (ExRx (ExAckR mid tok) ok) (ex_cli_step maxr c (ExRx (ExAckR mid tok) ok)).
Proof.
  intros maxr c m mid tok ok C Hreq. rewrite ex_step_ackr.
  pose proof (ex_remove_mid_cm c m mid C) as R. cbn zeta in R.
  destruct (ex_remove_mid c mid) as [c1 sent]. cbn [fst] in R.
  destruct R as [C1 Hq].
  destruct (mid =? ex_c_lack c) eqn:E.
  - (* a duplicate: last_ack_mid is the mid of a request, so not -1, so a delivered one *)
    apply ex_cm_keep; [| exact C1 | constructor].
    apply SoAckRDup. apply Z.eqb_eq in E. rewrite E.
    destruct (cm_lack _ _ C) as [L | L]; [apply (cm_tok _ _ C) in Hreq; lia | exact L].
  - eexists. split; [apply SoAckR; [exact Hreq | apply ex_fresh_false] |].
    split; [| split; [apply incl_refl | constructor]].
    ex_cm_fields; try apply C.
    + intros q Q. destruct (Hq q Q) as [Hne Qc]. apply (ex_cm_q_other c); [exact C | exact Qc |].
      intros Ek. apply Hne. apply (cm_fun _ _ C _ _ tok); [| exact Hreq].
      rewrite <- Ek. apply (cm_q _ _ C _ Qc).
    + right. left. reflexivity.
    + intros s la E0. discriminate E0.
    + intros k. apply ex_done_concl, C.
    + apply ex_stop_sub_concl; [apply C | eapply ex_tok_in_toks; exact Hreq].
Qed.

Lemma ex_cm_conr : forall maxr c m mid tok ok,
  ex_cm c m -> In tok (ex_toks m) -> 0 <= mid ->
  ex_cm_next m (ExRx (ExConR mid tok) ok) (ex_cli_step maxr c (ExRx (ExConR mid tok) ok)).
Proof.
  intros maxr c m mid tok ok C Htok Hmid. rewrite ex_step_conr. cbn zeta.
  destruct (ex_cancel_tok_cm c m tok C) as [C1 Hq].
  destruct (mid =? ex_c_lcon c) eqn:E.
  - (* a duplicate: last_con_mid is not -1, so the mid of a delivered one; answered as remembered *)
    apply Z.eqb_eq in E.
    apply ex_cm_keep; [| exact C1 | destruct (ex_c_lres c); repeat constructor].
    apply (SoConRDup false m mid tok ok (ex_c_lres c)).
    + rewrite E. destruct (cm_lcon _ _ C) as [L | L]; [lia | exact L].
    + intros la HL. apply (cm_last _ _ C) in HL. symmetry. apply HL.
  - assert (HL : ex_last_is m mid = false).
    { unfold ex_last_is. destruct (ex_m_last m) as [[lm la] |] eqn:EL; [| reflexivity].
      apply (cm_last _ _ C) in EL. destruct EL as [<- _]. rewrite Z.eqb_sym. exact E. }
    eexists. split; [apply SoConR; [exact Htok | exact HL | apply ex_fresh_false] |].
    split; [| split; [apply incl_refl | destruct ok; repeat constructor]].
    ex_cm_fields; try apply C.
    + intros q Q. destruct (Hq q Q) as [Hne Qc]. exact (ex_cm_q_other c m q tok C Qc Hne).
    + right. left. reflexivity.
    + intros s la E0. injection E0 as <- <-. split; reflexivity.
    + intros k. apply ex_done_concl, C.
    + apply ex_stop_sub_concl; [apply C | exact Htok].
Qed.

Lemma ex_cm_nonr : forall maxr c m mid tok ok,
  ex_cm c m -> In tok (ex_toks m) ->
  ex_cm_next m (ExRx (ExNonR mid tok) ok) (ex_cli_step maxr c (ExRx (ExNonR mid tok) ok)).
Proof.
  intros maxr c m mid tok ok C Htok. rewrite ex_step_nonr.
  destruct (ex_cancel_tok_cm c m tok C) as [_ Hq].
  eexists. split; [destruct ok; [apply SoNonR | apply SoNonRRst]; exact Htok |].
  split; [| split; [apply incl_refl | destruct ok; repeat constructor]].
  ex_cm_fields; try apply C.
  - intros q Q. destruct (Hq q Q) as [Hne Qc]. exact (ex_cm_q_other c m q tok C Qc Hne).
  - intros s la E0. discriminate E0.
  - intros k Hk. right. apply (cm_done _ _ C). exact Hk.
  - intros k [<- | Hk]; [exact Htok | apply (cm_stop _ _ C); exact Hk].
Qed.

Definition ex_admissible (m : ex_mon) (i : ex_cin) : Prop :=
  match i with
  | ExRx d _ => ex_s2c_ok (ex_m_reqs m) d
  | _ => True
  end.

Lemma ex_cm_step : forall maxr c m i,
  ex_cm c m -> ex_admissible m i -> ex_cm_next m i (ex_cli_step maxr c i).
Proof.
  intros maxr c m i C A. destruct i as [sty | | d ok].
  - apply ex_cm_send. exact C.
  - apply ex_cm_timer. exact C.
  - destruct d as [mid tok sty | mid | mid tok | mid tok | mid tok | mid]; cbn in A.
    + destruct A.
    + apply ex_cm_acke. exact C.
    + apply ex_cm_ackr; assumption.
    + destruct A. apply ex_cm_conr; assumption.
    + destruct A. apply ex_cm_nonr; assumption.
    + destruct A.
Qed.

Lemma ex_basic_client : forall cf y m i s2c,
  ex_basic y m -> ex_admissible m i -> Forall (ex_s2c_ok (ex_m_reqs m)) s2c ->
  let r := ex_sys_client cf y i s2c in
  exists m', ex_mon_path false m (snd r) m' /\ ex_basic (fst r) m'.
Proof.
  intros cf y m i s2c B A S. cbn zeta. unfold ex_sys_client.
  destruct (ex_cm_step (ex_cf_maxr cf) (ex_y_c y) m i (bs_cm _ _ B) A)
    as (m' & Hs & C1 & Hx & Htx).
  destruct (ex_cli_step (ex_cf_maxr cf) (ex_y_c y) i) as [c1 outs]. cbn [fst snd] in *.
  destruct (ex_srv_ok_incl _ _ (ex_y_s y) Hx (conj (bs_pend _ _ B) (bs_con _ _ B))) as [Hp Hc].
  exists m'. split; [econstructor; [exact Hs | constructor] |].
  constructor; cbn [ex_y_c ex_y_s ex_y_c2s ex_y_s2c]; try apply C1; try assumption.
  - apply Forall_app. split; [| exact Htx].
    eapply Forall_impl; [| apply (bs_c2s _ _ B)]. intros d. apply ex_c2s_ok_incl, Hx.
  - eapply Forall_impl; [| exact S]. intros d. apply ex_s2c_ok_incl, Hx.
Qed.

Lemma ex_srv_rx_ok : forall cf s d reqs,
  ex_c2s_ok reqs d -> ex_srv_ok reqs s ->
  let r := ex_srv_rx cf s d in Forall (ex_s2c_ok reqs) (snd r) /\ ex_srv_ok reqs (fst r).
Proof.
  intros cf s d reqs Hd [Hp Hc]. cbn zeta. unfold ex_srv_rx, ex_srv_ok.
  destruct d as [m k sty | m | m k | m k | m k | m]; cbn in Hd; try contradiction.
  - pose proof (ex_next_mid_range (ex_s_mid s)) as Hn.
    pose proof (ex_tok_in_toks _ _ _ Hd) as Hk.
    repeat case_if; cbn [fst snd ex_s_pend ex_s_con];
      repeat first [assumption | apply ex_Forall_snoc | split | constructor]; cbn; auto; lia.
  - cbn [fst snd ex_s_pend ex_s_con]. split; [constructor | split; [assumption |]].
    eapply incl_Forall; [apply incl_filter | exact Hc].
  - cbn [fst snd ex_s_pend ex_s_con]. split; [constructor | split; [assumption |]].
    eapply incl_Forall; [apply incl_filter | exact Hc].
Qed.

Lemma ex_srv_fire_ok : forall s j reqs,
  ex_srv_ok reqs s ->
  let r := ex_srv_fire s j in Forall (ex_s2c_ok reqs) (snd r) /\ ex_srv_ok reqs (fst r).
Proof.
  intros s j reqs [Hp Hc]. cbn zeta. unfold ex_srv_fire, ex_srv_ok.
  destruct (nth_error (ex_s_pend s) j) as [p |] eqn:E; [| cbn [fst snd]; auto].
  pose proof (ex_Forall_nth _ _ _ _ _ Hp E) as Hpp. cbn beta in Hpp.
  destruct (ex_p_sty p =? 3); cbn [fst snd ex_s_pend ex_s_con];
    (split; [constructor; [exact Hpp | constructor] |
            split; [apply ex_Forall_remove_nth; exact Hp |]]);
    [apply ex_Forall_snoc; [exact Hc | exact Hpp] | exact Hc].
Qed.

Lemma ex_srv_timer_ok : forall maxr s j reqs,
  ex_srv_ok reqs s ->
  let r := ex_srv_timer maxr s j in Forall (ex_s2c_ok reqs) (snd r) /\ ex_srv_ok reqs (fst r).
Proof.
  intros maxr s j reqs [Hp Hc]. cbn zeta. unfold ex_srv_timer, ex_srv_ok.
  destruct (nth_error (ex_s_con s) j) as [r |] eqn:E; [| cbn [fst snd]; auto].
  pose proof (ex_Forall_nth _ _ _ _ _ Hc E) as Hr. cbn beta in Hr.
  destruct (ex_r_cnt r <? maxr); cbn [fst snd ex_s_pend ex_s_con].
  - split; [constructor; [exact Hr | constructor] | split; [exact Hp |]].
    apply ex_Forall_set_nth; [exact Hc | exact Hr].
  - split; [constructor | split; [exact Hp | apply ex_Forall_remove_nth; exact Hc]].
Qed.

(* the network and the server move: client and monitor stay *)
Lemma ex_basic_silent : forall y m s c2s s2c,
  ex_basic y m -> ex_srv_ok (ex_m_reqs m) s ->
  Forall (ex_c2s_ok (ex_m_reqs m)) c2s -> Forall (ex_s2c_ok (ex_m_reqs m)) s2c ->
  let r := (Build_ex_sys (ex_y_c y) s c2s s2c (ex_y_app y), @nil ex_obs) in
  exists m', ex_mon_path false m (snd r) m' /\ ex_basic (fst r) m'.
Proof.
  intros y m s c2s s2c B [Hp Hc] H1 H2. exists m. split; [constructor |].
  constructor; cbn [fst ex_y_c ex_y_s ex_y_c2s ex_y_s2c]; try apply B; assumption.
Qed.

Lemma ex_basic_step : forall cf y m a,
  ex_basic y m ->
  let r := ex_sys_step cf y a in
  exists m', ex_mon_path false m (snd r) m' /\ ex_basic (fst r) m'.
Proof.
  intros cf y m a B. cbn zeta.
  pose proof (conj (bs_pend _ _ B) (bs_con _ _ B) : ex_srv_ok (ex_m_reqs m) (ex_y_s y)) as Bs.
  assert (Same : exists m', ex_mon_path false m (snd (y, @nil ex_obs)) m' /\
                            ex_basic (fst (y, @nil ex_obs)) m').
  { exists m. split; [constructor | exact B]. }
  destruct a as [sty | | i ok | i | i | i | i | i | j | j]; unfold ex_sys_step.
  - destruct (ex_y_app y); [exact Same |].
    destruct (ex_cf_quiet cf && negb (ex_quiet y)); [exact Same |].
    apply ex_basic_client; [exact B | exact I | apply B].
  - destruct (ex_cf_patient cf && ex_will_nack cf (ex_y_c y) && negb (ex_quiet y)); [exact Same |].
    apply ex_basic_client; [exact B | exact I | apply B].
  - destruct (nth_error (ex_y_s2c y) i) as [d |] eqn:E; [| exact Same].
    apply ex_basic_client; [exact B | | apply ex_Forall_remove_nth; apply B].
    cbn. eapply ex_Forall_nth; [apply (bs_s2c _ _ B) | exact E].
  - destruct (nth_error (ex_y_s2c y) i) as [d |] eqn:E; [| exact Same].
    apply ex_basic_silent; [exact B | exact Bs | apply B |].
    apply ex_Forall_snoc; [apply B |]. eapply ex_Forall_nth; [apply (bs_s2c _ _ B) | exact E].
  - apply ex_basic_silent; [exact B | exact Bs | apply B | apply ex_Forall_remove_nth; apply B].
  - destruct (nth_error (ex_y_c2s y) i) as [d |] eqn:E; [| exact Same].
    pose proof (ex_Forall_nth _ _ _ _ _ (bs_c2s _ _ B) E) as Hd.
    destruct (ex_srv_rx_ok cf (ex_y_s y) d (ex_m_reqs m) Hd Bs) as [R1 R2].
    destruct (ex_srv_rx cf (ex_y_s y) d) as [s1 ds]. cbn [fst snd] in *.
    apply ex_basic_silent; [exact B | exact R2 | apply ex_Forall_remove_nth; apply B |].
    apply Forall_app. split; [apply B | exact R1].
  - destruct (nth_error (ex_y_c2s y) i) as [d |] eqn:E; [| exact Same].
    apply ex_basic_silent; [exact B | exact Bs | | apply B].
    apply ex_Forall_snoc; [apply B |]. eapply ex_Forall_nth; [apply (bs_c2s _ _ B) | exact E].
  - apply ex_basic_silent; [exact B | exact Bs | apply ex_Forall_remove_nth; apply B | apply B].
  - destruct (ex_srv_fire_ok (ex_y_s y) j (ex_m_reqs m) Bs) as [R1 R2].
    destruct (ex_srv_fire (ex_y_s y) j) as [s1 ds]. cbn [fst snd] in *.
    apply ex_basic_silent; [exact B | exact R2 | apply B |].
    apply Forall_app. split; [apply B | exact R1].
  - destruct (ex_srv_timer_ok (ex_cf_maxr cf) (ex_y_s y) j (ex_m_reqs m) Bs) as [R1 R2].
    destruct (ex_srv_timer (ex_cf_maxr cf) (ex_y_s y) j) as [s1 ds]. cbn [fst snd] in *.
    apply ex_basic_silent; [exact B | exact R2 | apply B |].
    apply Forall_app. split; [apply B | exact R1].
Qed.

Lemma ex_basic_run : forall cf acts y m,
  ex_basic y m ->
  let r := ex_sys_run cf y acts in
  exists m', ex_mon_path false m (snd r) m' /\ ex_basic (fst r) m'.
Proof.
  intros cf acts. induction acts as [| a acts IH]; intros y m B; cbn zeta.
  - exists m. split; [constructor | exact B].
  - cbn [ex_sys_run].
    destruct (ex_basic_step cf y m a B) as (m1 & P1 & B1).
    destruct (ex_sys_step cf y a) as [y1 o]. cbn [fst snd] in *.
    destruct (IH y1 m1 B1) as (m2 & P2 & B2).
    destruct (ex_sys_run cf y1 acts) as [y2 t]. cbn [fst snd] in *.
    exists m2. split; [eapply ex_mon_path_snoc; eassumption | exact B2].
Qed.

(* the judge without clause 2 accepts every behaviour of every configuration ... *)
Theorem ex_system_lenient : forall cf cmid0 smid0 acts,
  ex_judge_lenient (ex_sys_trace cf (ex_sys_init cmid0 smid0) acts) = 0.
Proof.
  intros cf cmid0 smid0 acts.
  destruct (ex_basic_run cf acts _ _ (ex_basic_init cmid0 smid0)) as (m' & P & _).
  eapply ex_path_judge. exact P.
Qed.

(* ... so every trace has the five clauses that judge stands for *)
Theorem ex_system_local : forall cf cmid0 smid0 acts,
  let t := ex_sys_trace cf (ex_sys_init cmid0 smid0) acts in
  ex_P_token t /\ ex_P_stops t /\ ex_P_conack t /\ ex_P_dup t /\ ex_P_non t.
Proof. intros. apply ex_lenient_sound, ex_system_lenient. Qed.
