(* C07 - soundness of the acceptor: a trace the judge accepts has the property of Spec.v.
   The judge's step is read as a relation (ex_step_ok, equivalent to it in both directions); the
   clauses are proved about paths of that relation (ex_mon_path), and SystemProofs.v and
   GuardProofs.v show that the judge accepts the model's traces by building such paths. *)
From LibcoapV Require Import Base.Tactics Exchange.Exchange Exchange.Accept Exchange.Spec.
Local Open Scope Z_scope.

Lemma ex_memz_In : forall x l, ex_memz x l = true <-> In x l.
Proof.
  intros x l. unfold ex_memz. rewrite existsb_exists. split.
  - intros [y [Hy E]]. apply Z.eqb_eq in E. subst. exact Hy.
  - intros H. exists x. split; [exact H | apply Z.eqb_refl].
Qed.

Lemma ex_mem2_In : forall a b l, ex_mem2 a b l = true <-> In (a, b) l.
Proof.
  intros a b l. unfold ex_mem2. rewrite existsb_exists. split.
  - intros [[x y] [Hy E]]. cbn [fst snd] in E. apply andb_true_iff in E. destruct E as [E1 E2].
    apply Z.eqb_eq in E1. apply Z.eqb_eq in E2. subst. exact Hy.
  - intros H. exists (a, b). split; [exact H |]. cbn [fst snd]. rewrite !Z.eqb_refl. reflexivity.
Qed.

Lemma ex_dg_eqb_eq : forall a b, ex_dg_eqb a b = true -> a = b.
Proof.
  intros a b H. destruct a, b; cbn in H; try discriminate;
    repeat (apply andb_true_iff in H; destruct H as [H ?]);
    repeat match goal with E : (_ =? _) = true |- _ => apply Z.eqb_eq in E end; subst; reflexivity.
Qed.

Lemma ex_is_tx_eq : forall o d, ex_is_tx o d = true -> o = ExTx d.
Proof.
  intros o d H. destruct o; cbn in H; try discriminate. apply ex_dg_eqb_eq in H. subst. reflexivity.
Qed.

Lemma ex_is_resp_eq : forall o kind mid tok,
  ex_is_resp o kind mid tok = true -> exists st, o = ExResp kind mid tok st.
Proof.
  intros o kind mid tok H. destruct o; cbn in H; try discriminate.
  apply andb_true_iff in H. destruct H as [H H3]. apply andb_true_iff in H. destruct H as [H1 H2].
  apply Z.eqb_eq in H1. apply Z.eqb_eq in H2. apply Z.eqb_eq in H3. subst. eexists. reflexivity.
Qed.

Lemma ex_is_skip_eq : forall o, ex_is_skip o = true -> o = ExSkip.
Proof. intros o H. destruct o; cbn in H; try discriminate. reflexivity. Qed.

Definition ex_mon_concl (m : ex_mon) (tok : Z) (last : option (Z * bool)) (cons acks : list Z)
  : ex_mon :=
  Build_ex_mon (ex_m_reqs m) (tok :: ex_m_done m) (tok :: ex_m_stop m) cons acks last.

Definition ex_fresh (strict : bool) (m : ex_mon) (tok : Z) : Prop :=
  strict = true -> ex_memz tok (ex_m_done m) = false.

(* ex_judge_step strict m o = ExOk m', one constructor per accepted shape of step
   (ex_judge_step_inv, ex_step_ok_judge) *)
Inductive ex_step_ok (strict : bool) (m : ex_mon) : ex_obs -> ex_mon -> Prop :=
| SoSkip : forall sty, ex_step_ok strict m (ExSend sty, [ExSkip]) m
| SoSend : forall sty mid tok,
    ex_memz tok (ex_toks m) = false ->
    ex_step_ok strict m (ExSend sty, [ExTx (ExReq mid tok sty)])
      (Build_ex_mon ((mid, tok) :: ex_m_reqs m) (ex_m_done m) (ex_m_stop m) (ex_m_cons m)
                    (ex_m_acks m) (ex_m_last m))
| SoTimerNone : ex_step_ok strict m (ExTimer, []) m
| SoTimerTx : forall mid tok s,
    In (mid, tok) (ex_m_reqs m) -> ex_memz tok (ex_m_stop m) = false ->
    ex_step_ok strict m (ExTimer, [ExTx (ExReq mid tok s)]) m
| SoTimerNack : forall mid tok,
    In (mid, tok) (ex_m_reqs m) -> ex_fresh strict m tok ->
    ex_step_ok strict m (ExTimer, [ExNack tok 0 mid])
      (ex_mon_concl m tok (ex_m_last m) (ex_m_cons m) (ex_m_acks m))
| SoAckE : forall mid ok, ex_step_ok strict m (ExRx (ExAckE mid) ok, []) m
| SoAckRDup : forall mid tok ok,
    In mid (ex_m_acks m) -> ex_step_ok strict m (ExRx (ExAckR mid tok) ok, []) m
| SoAckR : forall mid tok ok st,
    In (mid, tok) (ex_m_reqs m) -> ex_fresh strict m tok ->
    ex_step_ok strict m (ExRx (ExAckR mid tok) ok, [ExResp 2 mid tok st])
      (ex_mon_concl m tok None (ex_m_cons m) (mid :: ex_m_acks m))
| SoConR : forall mid tok ok st,
    In tok (ex_toks m) -> ex_last_is m mid = false -> ex_fresh strict m tok ->
    ex_step_ok strict m
      (ExRx (ExConR mid tok) ok, [ExResp 0 mid tok st; ExTx (if ok then ExAckE mid else ExRst mid)])
      (ex_mon_concl m tok (Some (mid, ok)) (mid :: ex_m_cons m) (ex_m_acks m))
| SoConRDup : forall mid tok ok (isack : bool),
    In mid (ex_m_cons m) ->
    (forall la, ex_m_last m = Some (mid, la) -> la = isack) ->
    ex_step_ok strict m
      (ExRx (ExConR mid tok) ok, [ExTx (if isack then ExAckE mid else ExRst mid)]) m
| SoNonR : forall mid tok ok st,
    In tok (ex_toks m) ->
    ex_step_ok strict m (ExRx (ExNonR mid tok) ok, [ExResp 1 mid tok st])
      (Build_ex_mon (ex_m_reqs m) (ex_m_done m) (tok :: ex_m_stop m) (ex_m_cons m) (ex_m_acks m)
                    None)
| SoNonRRst : forall mid tok st,
    In tok (ex_toks m) ->
    ex_step_ok strict m (ExRx (ExNonR mid tok) false, [ExResp 1 mid tok st; ExTx (ExRst mid)])
      (Build_ex_mon (ex_m_reqs m) (ex_m_done m) (tok :: ex_m_stop m) (ex_m_cons m) (ex_m_acks m)
                    None)
| SoRstNack : forall mid tok ok,
    In (mid, tok) (ex_m_reqs m) -> ex_fresh strict m tok ->
    ex_step_ok strict m (ExRx (ExRst mid) ok, [ExNack tok 2 mid])
      (ex_mon_concl m tok (ex_m_last m) (ex_m_cons m) (ex_m_acks m))
| SoRstNull : forall mid ok,
    ex_step_ok strict m (ExRx (ExRst mid) ok, [ExNackNull 2 mid]) m.

Lemma ex_conclude_inv : forall strict m tok last cons acks m',
  ex_conclude strict m tok last cons acks = ExOk m' ->
  ex_fresh strict m tok /\ m' = ex_mon_concl m tok last cons acks.
Proof.
  intros strict m tok last cons acks m' H. unfold ex_conclude in H.
  destruct (strict && ex_memz tok (ex_m_done m)) eqn:E; [discriminate |].
  inversion H. split; [| reflexivity].
  intros Hs. subst strict. cbn in E. exact E.
Qed.

Lemma ex_j_nack_inv : forall strict m tok mid m',
  ex_j_nack strict m tok mid = ExOk m' ->
  In (mid, tok) (ex_m_reqs m) /\ ex_fresh strict m tok /\
  m' = ex_mon_concl m tok (ex_m_last m) (ex_m_cons m) (ex_m_acks m).
Proof.
  intros strict m tok mid m' H. unfold ex_j_nack in H.
  destruct (ex_mem2 mid tok (ex_m_reqs m)) eqn:E; cbn in H; [| discriminate].
  apply ex_mem2_In in E. apply ex_conclude_inv in H. tauto.
Qed.

(* H : (if b then .. else ..) = ExOk _ where one branch is an ExBad: b took the other one *)
Ltac ex_pass H E :=
  match type of H with
  | (if negb ?b then _ else _) = _ => destruct b eqn:E; cbn [negb] in H; try discriminate H
  | (if ?b then _ else _) = _ => destruct b eqn:E; try discriminate H
  end.

Lemma ex_judge_step_inv : forall strict m o m',
  ex_judge_step strict m o = ExOk m' -> ex_step_ok strict m o m'.
Proof.
  intros strict m [i outs] m' H. unfold ex_judge_step in H. cbn [fst snd] in H.
  destruct i as [sty | | [mid tok sty | mid | mid tok | mid tok | mid tok | mid] ok].
  - unfold ex_j_send in H.
    destruct outs as [| [[mid tok sty' | | | | |] | | | |] [|]]; try discriminate H.
    + ex_pass H E1. ex_pass H E2. injection H as <-.
      apply Z.eqb_eq in E1. subst sty'. apply SoSend, E2.
    + injection H as <-. apply SoSkip.
  - unfold ex_j_timer in H.
    destruct outs as [| [[mid tok s | | | | |] | | tok reason mid | |] [|]]; try discriminate H.
    + injection H as <-. apply SoTimerNone.
    + ex_pass H E1. ex_pass H E2. injection H as <-.
      apply SoTimerTx; [apply ex_mem2_In, E1 | exact E2].
    + ex_pass H E1. apply Z.eqb_eq in E1. subst reason.
      apply ex_j_nack_inv in H. destruct H as (H1 & H2 & ->). apply SoTimerNack; assumption.
  - discriminate H.
  - destruct outs; [| discriminate H]. injection H as <-. apply SoAckE.
  - unfold ex_j_ackr in H. destruct outs as [| a [|]]; try discriminate H.
    + ex_pass H E. injection H as <-. apply SoAckRDup, ex_memz_In, E.
    + ex_pass H E1. ex_pass H E2. apply ex_is_resp_eq in E1. destruct E1 as [st ->].
      apply ex_conclude_inv in H. destruct H as [H1 ->].
      apply SoAckR; [apply ex_mem2_In, E2 | exact H1].
  - unfold ex_j_conr in H. destruct outs as [| a [| b [|]]]; try discriminate H.
    + (* not delivered: an ACK or a RST, and the one remembered if this mid was the last *)
      ex_pass H E1. ex_pass H E2. apply ex_memz_In in E2.
      assert (Ea : exists isack : bool, a = ExTx (if isack then ExAckE mid else ExRst mid)).
      { apply orb_true_iff in E1. destruct E1 as [E1 | E1]; apply ex_is_tx_eq in E1;
          [exists true | exists false]; exact E1. }
      destruct Ea as [isack ->].
      assert (HL : m' = m /\ forall la, ex_m_last m = Some (mid, la) -> la = isack).
      { destruct (ex_m_last m) as [[lm la] |]; [| split; [congruence | discriminate]].
        ex_pass H E3. split; [congruence |]. intros la' HL. injection HL as -> ->.
        rewrite Z.eqb_refl in E3. destruct la', isack; cbn in E3; rewrite ?Z.eqb_refl in E3;
          (reflexivity || discriminate E3). }
      destruct HL as [-> HL]. apply SoConRDup; assumption.
    + ex_pass H E1. ex_pass H E2. ex_pass H E3. ex_pass H E4.
      apply ex_is_resp_eq in E1. destruct E1 as [st ->]. apply ex_is_tx_eq in E2. subst b.
      apply ex_conclude_inv in H. destruct H as [H1 ->].
      apply SoConR; [apply ex_memz_In, E3 | exact E4 | exact H1].
  - unfold ex_j_nonr in H. destruct outs as [| a [| b [|]]]; try discriminate H.
    + ex_pass H E1. ex_pass H E3. apply ex_is_resp_eq in E1. destruct E1 as [st ->].
      injection H as <-. apply SoNonR, ex_memz_In, E3.
    + ex_pass H E1. ex_pass H E2. ex_pass H E3. apply ex_is_resp_eq in E1. destruct E1 as [st ->].
      apply orb_false_iff in E2. destruct E2 as [-> E2].
      apply negb_false_iff, ex_is_tx_eq in E2. subst b.
      injection H as <-. apply SoNonRRst, ex_memz_In, E3.
  - unfold ex_j_rst in H.
    destruct outs as [| [| | tok reason mid' | reason mid' |] [|]]; try discriminate H;
      ex_pass H E1; apply andb_true_iff in E1; destruct E1 as [E1 E2];
      apply Z.eqb_eq in E1; apply Z.eqb_eq in E2; subst reason mid'.
    + apply ex_j_nack_inv in H. destruct H as (H1 & H2 & ->). apply SoRstNack; assumption.
    + injection H as <-. apply SoRstNull.
Qed.

Lemma ex_bad_nonzero : forall strict m o c, ex_judge_step strict m o = ExBad c -> c <> 0.
Proof.
  intros strict m [i outs] c H.
  (* every ExBad in the judge is a literal between 1 and 9: go through its branches *)
  unfold ex_judge_step, ex_j_send, ex_j_timer, ex_j_ackr, ex_j_conr, ex_j_nonr, ex_j_rst,
    ex_j_nack, ex_conclude in H.
  cbn [fst snd] in H.
  repeat match type of H with
         | context [match ?x with _ => _ end] => destruct x
         end;
    try discriminate; inversion H; discriminate.
Qed.

Lemma ex_judge_from_cons : forall strict m o t,
  ex_judge_from strict m (o :: t) = 0 ->
  exists m', ex_step_ok strict m o m' /\ ex_judge_from strict m' t = 0.
Proof.
  intros strict m o t H. cbn [ex_judge_from] in H.
  destruct (ex_judge_step strict m o) as [m' | c] eqn:E.
  - exists m'. split; [apply ex_judge_step_inv; exact E | exact H].
  - apply ex_bad_nonzero in E. contradiction.
Qed.

Inductive ex_mon_path (strict : bool) : ex_mon -> list ex_obs -> ex_mon -> Prop :=
| MpNil : forall m, ex_mon_path strict m [] m
| MpCons : forall m o m1 t m2,
    ex_step_ok strict m o m1 -> ex_mon_path strict m1 t m2 -> ex_mon_path strict m (o :: t) m2.

Lemma ex_judge_path : forall strict t m,
  ex_judge_from strict m t = 0 -> exists m', ex_mon_path strict m t m'.
Proof.
  intros strict t. induction t as [| o t IH]; intros m H.
  - exists m. constructor.
  - apply ex_judge_from_cons in H. destruct H as [m1 [H1 H2]].
    destruct (IH m1 H2) as [m2 H3]. exists m2. econstructor; eassumption.
Qed.

Lemma ex_mon_path_cons_inv : forall strict m o t m2,
  ex_mon_path strict m (o :: t) m2 ->
  exists m1, ex_step_ok strict m o m1 /\ ex_mon_path strict m1 t m2.
Proof. intros strict m o t m2 H. inversion H; subst. eauto. Qed.

Lemma ex_mon_path_nil_inv : forall strict m m2, ex_mon_path strict m [] m2 -> m2 = m.
Proof. intros strict m m2 H. inversion H; subst. reflexivity. Qed.

Lemma ex_mon_path_app : forall strict t1 t2 m m2,
  ex_mon_path strict m (t1 ++ t2) m2 ->
  exists m1, ex_mon_path strict m t1 m1 /\ ex_mon_path strict m1 t2 m2.
Proof.
  intros strict t1. induction t1 as [| o t1 IH]; intros t2 m m2 H.
  - exists m. split; [constructor | exact H].
  - cbn [app] in H. apply ex_mon_path_cons_inv in H. destruct H as [m1 [Hs Hp]].
    destruct (IH _ _ _ Hp) as [mm [Ha Hb]].
    exists mm. split; [econstructor; eassumption | exact Hb].
Qed.

Lemma ex_mon_path_snoc : forall strict t1 t2 m m1 m2,
  ex_mon_path strict m t1 m1 -> ex_mon_path strict m1 t2 m2 -> ex_mon_path strict m (t1 ++ t2) m2.
Proof.
  intros strict t1. induction t1 as [| o t1 IH]; intros t2 m m1 m2 H1 H2.
  - apply ex_mon_path_nil_inv in H1. subst. exact H2.
  - apply ex_mon_path_cons_inv in H1. destruct H1 as [mx [Hs Hp]].
    cbn [app]. econstructor; [eassumption |]. eapply IH; eassumption.
Qed.

Lemma ex_mon_path_in : forall strict t m m2 o,
  ex_mon_path strict m t m2 -> In o t -> exists ma mb, ex_step_ok strict ma o mb.
Proof.
  intros strict t m m2 o H. induction H as [| m o1 m1 t m2 Hs Hp IH]; intros Hin; [destruct Hin |].
  destruct Hin as [-> | Hin]; eauto.
Qed.

Lemma ex_mon_path_keeps : forall strict (P : ex_mon -> Prop),
  (forall m o m', ex_step_ok strict m o m' -> P m -> P m') ->
  forall t m m2, ex_mon_path strict m t m2 -> P m -> P m2.
Proof. intros strict P Step t m m2 H. induction H; eauto. Qed.

Lemma ex_sound_conack : forall strict t m m2, ex_mon_path strict m t m2 -> ex_P_conack t.
Proof.
  intros strict t m m2 H s k ok outs Hin.
  destruct (ex_mon_path_in _ _ _ _ _ H Hin) as [ma [mb Hs]].
  unfold ex_con_answer_ok. inversion Hs; subst.
  - left. eexists. reflexivity.
  - destruct isack; tauto.
Qed.

Lemma ex_sound_non : forall strict t m m2, ex_mon_path strict m t m2 -> ex_P_non t.
Proof.
  intros strict t m m2 H s k ok outs Hin.
  destruct (ex_mon_path_in _ _ _ _ _ H Hin) as [ma [mb Hs]].
  inversion Hs; subst; eexists; [left | right]; eauto.
Qed.

Definition ex_b2n (b : bool) : nat := if b then 1%nat else 0%nat.

Lemma ex_memz_cons : forall x y l, ex_memz x (y :: l) = (x =? y) || ex_memz x l.
Proof. reflexivity. Qed.

(* a step that concludes for k finds k not done (strict judge) and leaves it done *)
Lemma ex_step_count : forall m o m' k,
  ex_step_ok true m o m' ->
  (length (filter (ex_is_concl k) (snd o)) + ex_b2n (ex_memz k (ex_m_done m))
   <= ex_b2n (ex_memz k (ex_m_done m')))%nat.
Proof.
  intros m o m' k H.
  assert (Hc : forall tok, ex_fresh true m tok ->
             ((if Z.eqb tok k then 1 else 0) + ex_b2n (ex_memz k (ex_m_done m))
              <= ex_b2n (ex_memz k (tok :: ex_m_done m)))%nat).
  { intros tok Hf. rewrite ex_memz_cons, (Z.eqb_sym k tok).
    destruct (tok =? k) eqn:E; [| cbn; lia].
    apply Z.eqb_eq in E. subst tok. rewrite (Hf eq_refl). cbn. lia. }
  (* the four steps that conclude carry [ex_fresh] for their token; the others conclude nothing
     and leave the done list alone *)
  destruct H; cbn [snd filter ex_is_concl ex_mon_concl ex_m_done length];
    try (cbn; lia);
    match goal with F : ex_fresh true m ?tok |- _ => specialize (Hc tok F) end;
    change (negb (2 =? 1)) with true; change (negb (0 =? 1)) with true; cbn [andb];
    destruct (tok =? k); cbn [length] in *; lia.
Qed.

Lemma ex_concl_count_cons : forall k o t,
  ex_concl_count k (o :: t) = (length (filter (ex_is_concl k) (snd o)) + ex_concl_count k t)%nat.
Proof.
  intros. unfold ex_concl_count, ex_outs_of. cbn [flat_map].
  rewrite filter_app, app_length. reflexivity.
Qed.

Lemma ex_path_once : forall t m m2 k,
  ex_mon_path true m t m2 ->
  (ex_concl_count k t + ex_b2n (ex_memz k (ex_m_done m)) <= 1)%nat.
Proof.
  intros t m m2 k H. induction H as [m | m o m1 t m2 Hs Hp IH].
  - unfold ex_concl_count. cbn. destruct (ex_memz k (ex_m_done m)); cbn; lia.
  - rewrite ex_concl_count_cons. pose proof (ex_step_count _ _ _ k Hs). lia.
Qed.

Lemma ex_sound_once : forall t m2, ex_mon_path true ex_mon_init t m2 -> ex_P_once t.
Proof.
  intros t m2 H k. pose proof (ex_path_once _ _ _ k H). lia.
Qed.

Definition ex_reqs_ok (m : ex_mon) (t0 : list ex_obs) : Prop :=
  forall mid tok, In (mid, tok) (ex_m_reqs m) -> ex_sent_req mid tok t0.

Lemma ex_sent_req_mono : forall mid tok t0 t1,
  ex_sent_req mid tok t0 -> ex_sent_req mid tok (t0 ++ t1).
Proof. intros mid tok t0 t1 [s H]. exists s. apply in_or_app. left. exact H. Qed.

Lemma ex_step_reqs_inv : forall strict m o m',
  ex_step_ok strict m o m' ->
  ex_m_reqs m' = ex_m_reqs m \/
  exists sty mid tok, o = (ExSend sty, [ExTx (ExReq mid tok sty)]) /\
                      ex_m_reqs m' = (mid, tok) :: ex_m_reqs m.
Proof.
  intros strict m o m' H. destruct H; cbn [ex_m_reqs ex_mon_concl]; auto.
  right. eauto.
Qed.

Lemma ex_step_reqs : forall strict m o m' t0,
  ex_step_ok strict m o m' -> ex_reqs_ok m t0 -> ex_reqs_ok m' (t0 ++ [o]).
Proof.
  intros strict m o m' t0 H R mid tok Hin.
  destruct (ex_step_reqs_inv _ _ _ _ H) as [E | (sty & mid' & tok' & -> & E)]; rewrite E in Hin;
    [| destruct Hin as [[= <- <-] | Hin]]; try (apply ex_sent_req_mono, R, Hin).
  exists sty. apply in_or_app. right. left. reflexivity.
Qed.

Lemma ex_path_reqs : forall strict t1 m m1 t0,
  ex_mon_path strict m t1 m1 -> ex_reqs_ok m t0 -> ex_reqs_ok m1 (t0 ++ t1).
Proof.
  intros strict t1 m m1 t0 H. revert t0. induction H as [m | m o mx t1 m1 Hs Hp IH]; intros t0 R.
  - rewrite app_nil_r. exact R.
  - replace (t0 ++ o :: t1) with ((t0 ++ [o]) ++ t1) by (rewrite <- app_assoc; reflexivity).
    apply IH. eapply ex_step_reqs; eassumption.
Qed.

Lemma ex_toks_In : forall m tok, In tok (ex_toks m) -> exists mid, In (mid, tok) (ex_m_reqs m).
Proof.
  intros m tok H. unfold ex_toks in H. apply in_map_iff in H.
  destruct H as [[a b] [E H]]. cbn in E. subst b. exists a. exact H.
Qed.

Lemma ex_tok_in_toks : forall mid tok (reqs : list (Z * Z)),
  In (mid, tok) reqs -> In tok (map snd reqs).
Proof. intros mid tok reqs H. apply (in_map snd) in H. exact H. Qed.

Lemma ex_step_token : forall strict m o m' kind mid k st,
  ex_step_ok strict m o m' -> In (ExResp kind mid k st) (snd o) ->
  In k (ex_toks m) /\ (kind = 2 -> In (mid, k) (ex_m_reqs m)).
Proof.
  intros strict m o m' kind mid k st H.
  destruct H; intros Hin; cbn [snd In] in Hin; repeat (destruct Hin as [Hin | Hin]);
    try discriminate Hin; try contradiction; try (destruct ok; discriminate Hin);
    injection Hin as <- <- <- <-; (split; [| auto; discriminate]); try assumption.
  eapply ex_tok_in_toks. eassumption.
Qed.

Lemma ex_sound_token : forall strict t m2, ex_mon_path strict ex_mon_init t m2 -> ex_P_token t.
Proof.
  intros strict t m2 H t1 i outs t2 kind mid k st Et Hin. subst t.
  apply ex_mon_path_app in H. destruct H as [m1 [Ha Hb]].
  assert (R : ex_reqs_ok m1 t1).
  { apply (ex_path_reqs _ _ _ _ [] Ha). intros a b Hab. destruct Hab. }
  apply ex_mon_path_cons_inv in Hb. destruct Hb as [mx [Hs _]].
  destruct (ex_step_token _ _ _ _ _ _ _ _ Hs Hin) as [Hk H2].
  split; [| intros E; apply R, H2, E].
  destruct (ex_toks_In _ _ Hk) as [mm Hm]. exists mm. apply R. exact Hm.
Qed.

Definition ex_stop_sub (m : ex_mon) : Prop :=
  forall k, In k (ex_m_stop m) -> In k (ex_toks m).

Lemma ex_step_stop_sub : forall strict m o m',
  ex_step_ok strict m o m' -> ex_stop_sub m -> ex_stop_sub m'.
Proof.
  intros strict m o m' H S. unfold ex_stop_sub, ex_toks in *.
  destruct H; intros k Hin; cbn [ex_m_stop ex_m_reqs ex_mon_concl map snd In] in *;
    try (apply S; exact Hin);
    try (destruct Hin as [<- | Hin]; [eauto using ex_tok_in_toks | apply S; exact Hin]).
  right. apply S. exact Hin.
Qed.

Lemma ex_step_stop_mono : forall strict m o m' k,
  ex_step_ok strict m o m' -> In k (ex_m_stop m) -> In k (ex_m_stop m').
Proof.
  intros strict m o m' k H Hin. destruct H; cbn [ex_m_stop ex_mon_concl In]; auto.
Qed.

(* the done list grows by the token of the one conclusion in the step's output, if there is one *)
Lemma ex_step_done_inv : forall strict m o m',
  ex_step_ok strict m o m' ->
  (ex_m_done m' = ex_m_done m /\ forall k, existsb (ex_is_concl k) (snd o) = false) \/
  exists tok, ex_m_done m' = tok :: ex_m_done m /\
              forall k, existsb (ex_is_concl k) (snd o) = (tok =? k).
Proof.
  intros strict m o m' H. destruct H; cbn;
    first [left; split; [reflexivity | intros k; reflexivity]
          | right; eexists; split; [reflexivity | intros k; apply orb_false_r]].
Qed.

Lemma ex_step_ends : forall strict m o m' k,
  ex_step_ok strict m o m' -> ex_ends k o -> In k (ex_m_stop m').
Proof.
  intros strict m o m' k H.
  destruct H; intros [(kind & mid0 & st0 & Hin) | (r & mid0 & Hin)];
    cbn [snd In] in Hin; repeat (destruct Hin as [Hin | Hin]);
    try discriminate Hin; try contradiction; try (destruct ok; discriminate Hin);
    try (destruct isack; discriminate Hin);
    injection Hin as <-; cbn [ex_m_stop ex_mon_concl In]; auto.
Qed.

Lemma ex_step_no_tx : forall strict m o m' mid k s,
  ex_step_ok strict m o m' -> ex_stop_sub m -> In k (ex_m_stop m) ->
  ~ In (ExTx (ExReq mid k s)) (snd o).
Proof.
  intros strict m o m' mid k s H S Hk.
  destruct H; intros Hin; cbn [snd In] in Hin; repeat (destruct Hin as [Hin | Hin]);
    try discriminate Hin; try contradiction; try (destruct ok; discriminate Hin);
    try (destruct isack; discriminate Hin);
    injection Hin as <- <- <-.
  - (* send: the token is fresh *)
    apply S in Hk. apply ex_memz_In in Hk. congruence.
  - (* timer: the token is not stopped *)
    apply ex_memz_In in Hk. congruence.
Qed.

Lemma ex_sound_stops : forall strict t m2, ex_mon_path strict ex_mon_init t m2 -> ex_P_stops t.
Proof.
  intros strict t m2 H t1 o t2 o' t3 k Et He mid s. subst t.
  apply ex_mon_path_app in H. destruct H as [m1 [Ha Hb]].
  apply ex_mon_path_cons_inv in Hb. destruct Hb as [m3 [Hs Hb]].
  apply ex_mon_path_app in Hb. destruct Hb as [m4 [Hc Hd]].
  apply ex_mon_path_cons_inv in Hd. destruct Hd as [m5 [Hs' _]].
  assert (S4 : ex_stop_sub m4).
  { apply (ex_mon_path_keeps strict ex_stop_sub (ex_step_stop_sub strict) _ _ _ Hc).
    apply (ex_step_stop_sub _ _ _ _ Hs).
    apply (ex_mon_path_keeps strict ex_stop_sub (ex_step_stop_sub strict) _ _ _ Ha).
    intros x Hx. destruct Hx. }
  assert (K : In k (ex_m_stop m4)).
  { apply (ex_mon_path_keeps strict (fun m => In k (ex_m_stop m))
             (fun m o m' Hso => ex_step_stop_mono strict m o m' k Hso) _ _ _ Hc).
    eapply ex_step_ends; eassumption. }
  eapply ex_step_no_tx; eassumption.
Qed.

Lemma ex_step_last_keep : forall strict m o m',
  ex_step_ok strict m o m' -> ex_delivers o = false -> ex_m_last m' = ex_m_last m.
Proof.
  intros strict m o m' H.
  destruct H; intros D; cbn [ex_m_last ex_mon_concl]; try reflexivity;
    unfold ex_delivers in D; cbn in D; discriminate.
Qed.

Lemma ex_path_last_keep : forall strict t m m2,
  ex_mon_path strict m t m2 -> (forall o, In o t -> ex_delivers o = false) ->
  ex_m_last m2 = ex_m_last m.
Proof.
  intros strict t m m2 H. induction H as [| m o mx t m2 Hs Hp IH]; intros D; [reflexivity |].
  rewrite IH by (intros; apply D; right; assumption).
  eapply ex_step_last_keep; [eassumption |]. apply D. left. reflexivity.
Qed.

Lemma ex_sound_dup : forall strict t m2, ex_mon_path strict ex_mon_init t m2 -> ex_P_dup t.
Proof.
  intros strict t m2 H t1 s k ok st a t2 k' ok' outs' t3 Et D. subst t.
  apply ex_mon_path_app in H. destruct H as [m1 [Ha Hb]].
  apply ex_mon_path_cons_inv in Hb. destruct Hb as [m3 [Hs Hb]].
  apply ex_mon_path_app in Hb. destruct Hb as [m4 [Hc Hd]].
  apply ex_mon_path_cons_inv in Hd. destruct Hd as [m5 [Hs' _]].
  pose proof (ex_path_last_keep _ _ _ _ Hc D) as L.
  inversion Hs; subst.
  cbn [ex_m_last ex_mon_concl] in L.
  inversion Hs'; subst.
  - (* delivered again: excluded by the judge *)
    match goal with Hx : ex_last_is _ _ = false |- _ =>
      unfold ex_last_is in Hx; rewrite L in Hx; rewrite Z.eqb_refl in Hx; discriminate end.
  - match goal with Hx : forall la, ex_m_last _ = Some _ -> _ |- _ =>
      specialize (Hx _ L); subst isack end.
    reflexivity.
Qed.

Lemma ex_path_sound : forall strict t m2,
  ex_mon_path strict ex_mon_init t m2 ->
  ex_P_token t /\ ex_P_stops t /\ ex_P_conack t /\ ex_P_dup t /\ ex_P_non t.
Proof.
  intros strict t m2 H.
  split; [eapply ex_sound_token; exact H |].
  split; [eapply ex_sound_stops; exact H |].
  split; [eapply ex_sound_conack; exact H |].
  split; [eapply ex_sound_dup; exact H | eapply ex_sound_non; exact H].
Qed.

Theorem ex_accepts_sound : forall t, accepts_c07 t = true -> ex_property t.
Proof.
  intros t H. unfold accepts_c07 in H. apply Z.eqb_eq in H.
  apply ex_judge_path in H. destruct H as [m2 H].
  split; [eapply ex_sound_once; exact H | eapply ex_path_sound; exact H].
Qed.

(* the judge without clause 2 still establishes everything but "at most once" *)
Theorem ex_lenient_sound : forall t, ex_judge_lenient t = 0 ->
  ex_P_token t /\ ex_P_stops t /\ ex_P_conack t /\ ex_P_dup t /\ ex_P_non t.
Proof.
  intros t H. apply ex_judge_path in H. destruct H as [m2 H]. eapply ex_path_sound; exact H.
Qed.

Lemma ex_In_memz : forall x l, In x l -> ex_memz x l = true.
Proof. intros. apply ex_memz_In. assumption. Qed.
Lemma ex_In_mem2 : forall a b l, In (a, b) l -> ex_mem2 a b l = true.
Proof. intros. apply ex_mem2_In. assumption. Qed.

Lemma ex_dg_eqb_refl : forall d, ex_dg_eqb d d = true.
Proof. intros d. destruct d; cbn; rewrite ?Z.eqb_refl; reflexivity. Qed.

Lemma ex_conclude_ok : forall strict m tok last cons acks,
  ex_fresh strict m tok ->
  ex_conclude strict m tok last cons acks = ExOk (ex_mon_concl m tok last cons acks).
Proof.
  intros strict m tok last cons acks F. unfold ex_conclude.
  destruct strict; cbn [andb]; [rewrite (F eq_refl) |]; reflexivity.
Qed.

Lemma ex_step_ok_judge : forall strict m o m',
  ex_step_ok strict m o m' -> ex_judge_step strict m o = ExOk m'.
Proof.
  intros strict m o m' H.
  destruct H as [sty | sty mid tok Hf | | mid tok s Hr Hs | mid tok Hr Hf | mid ok | mid tok ok Ha
                 | mid tok ok st Hr Hf | mid tok ok st Ht Hl Hf | mid tok ok isack Hc Hl
                 | mid tok ok st Ht | mid tok st Ht | mid tok ok Hr Hf | mid ok];
    unfold ex_judge_step; cbn [fst snd].
  - reflexivity.
  - unfold ex_j_send. rewrite Z.eqb_refl, Hf. reflexivity.
  - reflexivity.
  - unfold ex_j_timer. rewrite (ex_In_mem2 _ _ _ Hr), Hs. reflexivity.
  - unfold ex_j_timer, ex_j_nack. rewrite (ex_In_mem2 _ _ _ Hr). apply ex_conclude_ok, Hf.
  - reflexivity.
  - unfold ex_j_ackr. rewrite (ex_In_memz _ _ Ha). reflexivity.
  - unfold ex_j_ackr, ex_is_resp. rewrite !Z.eqb_refl, (ex_In_mem2 _ _ _ Hr).
    apply ex_conclude_ok, Hf.
  - unfold ex_j_conr, ex_is_resp, ex_is_tx.
    rewrite !Z.eqb_refl, ex_dg_eqb_refl, (ex_In_memz _ _ Ht), Hl. apply ex_conclude_ok, Hf.
  - unfold ex_j_conr, ex_is_tx.
    replace (ex_dg_eqb _ (ExAckE mid) || ex_dg_eqb _ (ExRst mid)) with true
      by (destruct isack; cbn; rewrite Z.eqb_refl; reflexivity).
    rewrite (ex_In_memz _ _ Hc). cbn [negb].
    destruct (ex_m_last m) as [[lm la] |] eqn:EL; [| reflexivity].
    destruct (lm =? mid) eqn:E2; [| reflexivity]. apply Z.eqb_eq in E2. subst lm.
    rewrite (Hl la eq_refl), ex_dg_eqb_refl. reflexivity.
  - unfold ex_j_nonr, ex_is_resp. rewrite !Z.eqb_refl, (ex_In_memz _ _ Ht). reflexivity.
  - unfold ex_j_nonr, ex_is_resp, ex_is_tx.
    rewrite !Z.eqb_refl, ex_dg_eqb_refl, (ex_In_memz _ _ Ht). reflexivity.
  - unfold ex_j_rst, ex_j_nack. rewrite !Z.eqb_refl, (ex_In_mem2 _ _ _ Hr).
    apply ex_conclude_ok, Hf.
  - unfold ex_j_rst. rewrite !Z.eqb_refl. reflexivity.
Qed.

Lemma ex_path_judge : forall strict t m m',
  ex_mon_path strict m t m' -> ex_judge_from strict m t = 0.
Proof.
  intros strict t. induction t as [| o t IH]; intros m m' P.
  - reflexivity.
  - apply ex_mon_path_cons_inv in P. destruct P as [m1 [Hs P]].
    cbn [ex_judge_from]. rewrite (ex_step_ok_judge _ _ _ _ Hs). eapply IH. exact P.
Qed.
