(* C07 - the hypotheses of "at most once" are necessary: with any one of the three switches
   of System.v off, a schedule exists on which a request token concludes twice.  The same
   schedules are replayed on the real library (corpus/C07/f1..f3). *)
From LibcoapV Require Import Base.Tactics Exchange.Exchange Exchange.Accept Exchange.Spec
  Exchange.System Exchange.ClientProofs.
Local Open Scope Z_scope.

Definition ex_y0 : ex_sys := ex_sys_init 100 7000.

(* F1: the next exchange starts while a duplicate of the previous response is still in flight
   (piggybacked responses; the same happens with separate Confirmable responses) *)
Definition ex_w_slot_ack : list ex_act :=
  [ExASend 0; ExADelS 0; ExADupC 0; ExADelC 0 true;
   ExASend 0; ExADelS 0; ExADelC 1 true; ExADelC 0 true].

Definition ex_w_slot_con : list ex_act :=
  [ExASend 1; ExADelS 0; ExADupC 0; ExADelC 0 true; ExADelC 0 true; ExADelS 0;
   ExASend 1; ExADelS 0; ExADelC 1 true; ExADelC 0 true].

(* F2: the server processes a retransmitted request again (empty ACK and first copy of the
   separate response lost; the client retransmits; the server's own retransmission of the
   first response arrives after the second response) *)
Definition ex_w_newmid : list ex_act :=
  [ExASend 1; ExADelS 0; ExADropC 0; ExADropC 0; ExATimer; ExADelS 0;
   ExADelC 0 true; ExASrvTimer 0; ExADelC 1 true].

(* F3: the client gives up while the server's async response is still to come *)
Definition ex_w_late : list ex_act :=
  [ExASend 3; ExADelS 0; ExADropC 0; ExATimer; ExATimer; ExATimer; ExATimer; ExATimer;
   ExAFire 0; ExADelC 0 true].

(* F3 with loss only and an immediate server: four copies of the request, the empty ACK and the
   first copy of the separate response are lost, the client gives up, the server's
   retransmission of the response arrives *)
Definition ex_w_late_loss : list ex_act :=
  [ExASend 1; ExATimer; ExATimer; ExATimer; ExATimer;
   ExADropS 0; ExADropS 0; ExADropS 0; ExADropS 0; ExADelS 0; ExADropC 0; ExADropC 0;
   ExATimer; ExASrvTimer 0; ExADelC 0 true].

Lemma ex_once_refuted_quiet :
  exists acts k, ex_concl_count k (ex_sys_trace (Build_ex_cfg 4 true false true) ex_y0 acts) = 2%nat.
Proof. exists ex_w_slot_ack, 1. vm_compute. reflexivity. Qed.

Lemma ex_once_refuted_quiet_con :
  exists acts k, ex_concl_count k (ex_sys_trace (Build_ex_cfg 4 true false true) ex_y0 acts) = 2%nat.
Proof. exists ex_w_slot_con, 1. vm_compute. reflexivity. Qed.

Lemma ex_once_refuted_dedup :
  exists acts k, ex_concl_count k (ex_sys_trace (Build_ex_cfg 4 false true true) ex_y0 acts) = 2%nat.
Proof. exists ex_w_newmid, 1. vm_compute. reflexivity. Qed.

Lemma ex_once_refuted_patient :
  exists acts k, ex_concl_count k (ex_sys_trace (Build_ex_cfg 4 true true false) ex_y0 acts) = 2%nat.
Proof. exists ex_w_late, 1. vm_compute. reflexivity. Qed.

Lemma ex_once_refuted_patient_loss :
  exists acts k, ex_concl_count k (ex_sys_trace (Build_ex_cfg 4 true true false) ex_y0 acts) = 2%nat.
Proof. exists ex_w_late_loss, 1. vm_compute. reflexivity. Qed.

(* with every hypothesis on, the same schedules are harmless: the offending send or give-up is
   disabled, the retransmitted request is only acknowledged again *)
Example ex_guarded_slot_ack :
  accepts_c07 (ex_sys_trace (ex_cfg_guarded 4) ex_y0 ex_w_slot_ack) = true.
Proof. vm_compute. reflexivity. Qed.
Example ex_guarded_newmid :
  accepts_c07 (ex_sys_trace (ex_cfg_guarded 4) ex_y0 ex_w_newmid) = true.
Proof. vm_compute. reflexivity. Qed.
Example ex_guarded_late :
  accepts_c07 (ex_sys_trace (ex_cfg_guarded 4) ex_y0 ex_w_late) = true.
Proof. vm_compute. reflexivity. Qed.

(* non-vacuity of the guarded system: a lossy exchange with a FAIL verdict *)
Lemma ex_nonvacuous :
  let t := ex_sys_trace (ex_cfg_guarded 4) (ex_sys_init 100 7000)
             [ExASend 1; ExADelS 0; ExADropC 1; ExATimer; ExADupC 0; ExADelC 0 false;
              ExADelC 0 true; ExADelS 0; ExADelS 0; ExADelS 0] in
  ex_concl_count 1 t = 1%nat /\
  In (ExRx (ExConR 7001 1) false, [ExResp 0 7001 1 (-1); ExTx (ExRst 7001)]) t /\
  In (ExRx (ExConR 7001 1) true, [ExTx (ExRst 7001)]) t /\
  accepts_c07 t = true.
Proof. vm_compute. repeat split; auto 10. Qed.

(* F5: message-id wrap.
   (a) the client's own ids: one exchange answered piggybacked (last_ack_mid := 101), 65535
       exchanges answered by an empty ACK and a separate Confirmable response (they do not touch
       last_ack_mid), then the request that carries mid 101 again.  Without the fix of finding
       C07-F5a (/repo: a new Confirmable whose mid equals last_ack_mid invalidates it) its
       piggybacked response is discarded as a duplicate; with it, it is delivered.
   (b) the peer's ids: a separate Confirmable response with mid 7000, 65535 exchanges answered by
       separate Non-confirmable responses (mids 7001 ...; they do not touch last_con_mid), then a
       separate Confirmable response whose mid is 7000 again: discarded as a duplicate (and
       acknowledged, so the server stops), the request has left the send queue - neither handler
       nor NACK.  The hypothesis "the server's message ids do not wrap within the run" of the
       liveness theorem is necessary.
   Stated on the client alone with an honest peer that echoes mid and token of every request. *)
Fixpoint ex_wrap_mid (n : nat) (con : bool) (mid tok smid : Z) : list ex_cin :=
  match n with
  | O => []
  | S k =>
      let m := (mid + 1) mod 65536 in
      [ExSend 1; ExRx (ExAckE m) true;
       ExRx (if con then ExConR (smid mod 65536) (tok + 1) else ExNonR (smid mod 65536) (tok + 1)) true]
      ++ ex_wrap_mid k con m (tok + 2) (smid + 1)
  end.

(* (a) *)
Definition ex_wrap_inputs (n : nat) : list ex_cin :=
  [ExSend 0; ExRx (ExAckR 101 1) true] ++ ex_wrap_mid n true 101 1 7001 ++
  [ExSend 0; ExRx (ExAckR ((101 + Z.of_nat n + 1) mod 65536) (2 + 2 * Z.of_nat n)) true].

(* (b) *)
Definition ex_wrap_inputs_con (n : nat) : list ex_cin :=
  [ExSend 1; ExRx (ExAckE 101) true; ExRx (ExConR 7000 1) true] ++ ex_wrap_mid n false 101 2 7001 ++
  [ExSend 1; ExRx (ExAckE ((101 + Z.of_nat n + 1) mod 65536)) true;
   ExRx (ExConR ((7000 + Z.of_nat n + 1) mod 65536) (3 + 2 * Z.of_nat n)) true].

(* the last observed step and the send queue afterwards *)
Definition ex_wrap_summary (ins : list ex_cin) : ex_obs * option ex_qent :=
  let r := ex_cli_run 4 (ex_cli_init 100 0) ins in
  let t := snd r in
  (nth (length t - 1) t (ExTimer, []), ex_c_q (fst r)).

(* a run of the wrap schedules is cut into its parts; only the state matters between them *)
Lemma ex_nth_last_app : forall (A : Type) (t1 t2 : list A) d,
  t2 <> [] -> nth (length (t1 ++ t2) - 1) (t1 ++ t2) d = nth (length t2 - 1) t2 d.
Proof.
  intros A t1 t2 d H. assert (0 < length t2)%nat by (destruct t2; [congruence | cbn; lia]).
  rewrite app_length, app_nth2 by lia. f_equal. lia.
Qed.

Lemma ex_wrap_summary_app : forall pre post,
  post <> [] ->
  ex_wrap_summary (pre ++ post) =
  let r := ex_cli_run 4 (fst (ex_cli_run 4 (ex_cli_init 100 0) pre)) post in
  (nth (length (snd r) - 1) (snd r) (ExTimer, []), ex_c_q (fst r)).
Proof.
  intros pre post H. unfold ex_wrap_summary. rewrite ex_cli_run_app. cbn [fst snd].
  rewrite ex_nth_last_app; [reflexivity |].
  intros E. apply H.
  rewrite <- (ex_cli_run_trace_inputs 4 post (fst (ex_cli_run 4 (ex_cli_init 100 0) pre))), E.
  reflexivity.
Qed.

(* one exchange of ex_wrap_mid, from an idle client: the request takes the next mid, its empty
   ACK removes it from the queue, the separate response is handled (or discarded as a duplicate,
   which leaves the same state) *)
Lemma ex_wrap_round : forall maxr (con : bool) lcon lack mid tok smid,
  let m := (mid + 1) mod 65536 in
  fst (ex_cli_run maxr (Build_ex_cli None lcon lack true mid tok)
         [ExSend 1; ExRx (ExAckE m) true;
          ExRx (if con then ExConR smid (tok + 1) else ExNonR smid (tok + 1)) true]) =
  Build_ex_cli None (if con then smid else lcon) (if m =? lack then -1 else lack) true m (tok + 2).
Proof.
  intros. subst m. replace (tok + 2) with (tok + 1 + 1) by ring.
  rewrite !ex_cli_run_cons. cbn -[Z.add Z.modulo Z.eqb]. rewrite Z.eqb_refl.
  destruct con; cbn -[Z.add Z.modulo Z.eqb]; [| reflexivity].
  destruct (smid =? lcon) eqn:E; [| reflexivity]. apply Z.eqb_eq in E. subst lcon. reflexivity.
Qed.

(* n such exchanges advance tx_mid by n (mod 2^16) and tx_token by 2 n; Non-confirmable
   responses leave last_con_mid alone *)
Lemma ex_wrap_mid_run : forall maxr n con lcon lack mid tok smid,
  0 <= mid < 65536 ->
  exists lcon' lack',
    fst (ex_cli_run maxr (Build_ex_cli None lcon lack true mid tok)
                    (ex_wrap_mid n con mid tok smid)) =
    Build_ex_cli None lcon' lack' true ((mid + Z.of_nat n) mod 65536) (tok + 2 * Z.of_nat n) /\
    (con = false -> lcon' = lcon).
Proof.
  intros maxr n. induction n as [| n IH]; intros con lcon lack mid tok smid Hm.
  - exists lcon, lack. cbn [ex_wrap_mid ex_cli_run fst Z.of_nat].
    rewrite Z.add_0_r, Z.add_0_r, Z.mod_small by exact Hm. auto.
  - cbn [ex_wrap_mid]. rewrite ex_cli_run_app. cbn [fst]. rewrite ex_wrap_round.
    destruct (IH con (if con then smid mod 65536 else lcon)
                 (if (mid + 1) mod 65536 =? lack then -1 else lack) ((mid + 1) mod 65536)
                 (tok + 2) (smid + 1)) as (lcon' & lack' & E & K).
    { apply Z.mod_pos_bound. lia. }
    exists lcon', lack'. rewrite E, Zplus_mod_idemp_l, Nat2Z.inj_succ. split.
    + f_equal; [f_equal |]; ring.
    + intros ->. apply K. reflexivity.
Qed.

(* the point of the fix: once a request with mid m is out, last_ack_mid is not m *)
Lemma ex_lack_invalidated : forall m lack,
  0 <= m -> (m =? (if m =? lack then -1 else lack)) = false.
Proof. intros m lack Hm. destruct (m =? lack) eqn:E; [lia | exact E]. Qed.

(* (a) for any number of exchanges in between: the last piggybacked response is delivered *)
Theorem ex_wrap_own_any : forall n,
  let m := (101 + Z.of_nat n + 1) mod 65536 in
  let k := 2 + 2 * Z.of_nat n in
  ex_wrap_summary (ex_wrap_inputs n) = ((ExRx (ExAckR m k) true, [ExResp 2 m k k]), None).
Proof.
  intros n m k. unfold ex_wrap_inputs.
  rewrite app_assoc, ex_wrap_summary_app, ex_cli_run_app by discriminate. cbn [fst].
  change (fst (ex_cli_run 4 (ex_cli_init 100 0) [ExSend 0; ExRx (ExAckR 101 1) true]))
    with (Build_ex_cli None (-1) 101 true 101 1).
  destruct (ex_wrap_mid_run 4 n true (-1) 101 101 1 7001) as (lcon & lack & -> & _); [lia |].
  replace (1 + 2 * Z.of_nat n) with (k - 1) by (unfold k; ring). fold m k.
  cbn -[Z.add Z.sub Z.modulo Z.eqb]. rewrite Zplus_mod_idemp_l. fold m.
  rewrite Z.eqb_refl. cbn -[Z.add Z.sub Z.modulo Z.eqb].
  rewrite ex_lack_invalidated by (apply Z.mod_pos_bound; lia).
  replace (k - 1 + 1) with k by ring. reflexivity.
Qed.

(* (b) for any number of exchanges in between: the last Confirmable response is discarded
   exactly when its mid has come round to 7000 again *)
Theorem ex_wrap_peer_any : forall n,
  let s := (7000 + Z.of_nat n + 1) mod 65536 in
  let k := 3 + 2 * Z.of_nat n in
  ex_wrap_summary (ex_wrap_inputs_con n) =
  ((ExRx (ExConR s k) true,
    if s =? 7000 then [ExTx (ExAckE s)] else [ExResp 0 s k (-1); ExTx (ExAckE s)]), None).
Proof.
  intros n s k. unfold ex_wrap_inputs_con.
  rewrite app_assoc, ex_wrap_summary_app, ex_cli_run_app by discriminate. cbn [fst].
  change (fst (ex_cli_run 4 (ex_cli_init 100 0)
                 [ExSend 1; ExRx (ExAckE 101) true; ExRx (ExConR 7000 1) true]))
    with (Build_ex_cli None 7000 (-1) true 101 2).
  destruct (ex_wrap_mid_run 4 n false 7000 (-1) 101 2 7001) as (lcon & lack & -> & K); [lia |].
  rewrite (K eq_refl).
  replace (2 + 2 * Z.of_nat n) with (k - 1) by (unfold k; ring). fold s k.
  cbn -[Z.add Z.sub Z.modulo Z.eqb]. rewrite Zplus_mod_idemp_l, Z.eqb_refl.
  cbn -[Z.add Z.sub Z.modulo Z.eqb].
  replace (k - 1 + 1 + 1) with (k + 1) by ring.
  destruct (s =? 7000); reflexivity.
Qed.

(* (b) one exchange short of the wrap the response is still delivered *)
Lemma ex_wrap_peer_not_yet :
  ex_wrap_summary (ex_wrap_inputs_con (Z.to_nat 65534)) =
  ((ExRx (ExConR 6999 131071) true, [ExResp 0 6999 131071 (-1); ExTx (ExAckE 6999)]), None).
Proof. rewrite ex_wrap_peer_any, Z2Nat.id by lia. reflexivity. Qed.
