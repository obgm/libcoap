(* C07 - what the client does for ANY peer: theorems about Exchange.ex_cli_run for all client
   states and all input sequences (no honesty assumption on the datagrams). *)
From LibcoapV Require Import Base.Tactics Exchange.Exchange Exchange.Spec.
Local Open Scope Z_scope.

Lemma ex_cli_run_cons : forall maxr c i ins,
  ex_cli_run maxr c (i :: ins) =
  (fst (ex_cli_run maxr (fst (ex_cli_step maxr c i)) ins),
   (i, snd (ex_cli_step maxr c i)) :: snd (ex_cli_run maxr (fst (ex_cli_step maxr c i)) ins)).
Proof.
  intros. cbn [ex_cli_run]. destruct (ex_cli_step maxr c i) as [c1 o]. cbn [fst snd].
  destruct (ex_cli_run maxr c1 ins). reflexivity.
Qed.

Lemma ex_cli_run_app : forall maxr ins1 ins2 c,
  ex_cli_run maxr c (ins1 ++ ins2) =
  (fst (ex_cli_run maxr (fst (ex_cli_run maxr c ins1)) ins2),
   snd (ex_cli_run maxr c ins1) ++ snd (ex_cli_run maxr (fst (ex_cli_run maxr c ins1)) ins2)).
Proof.
  intros maxr ins1. induction ins1 as [| i ins1 IH]; intros ins2 c; cbn [app].
  - cbn [ex_cli_run fst snd app]. destruct (ex_cli_run maxr c ins2). reflexivity.
  - rewrite !ex_cli_run_cons, IH. reflexivity.
Qed.

Lemma ex_cli_run_trace_inputs : forall maxr ins c,
  map fst (snd (ex_cli_run maxr c ins)) = ins.
Proof.
  intros maxr ins. induction ins as [| i ins IH]; intros c; [reflexivity |].
  rewrite ex_cli_run_cons. cbn [snd map fst]. rewrite IH. reflexivity.
Qed.

Lemma ex_run_split : forall maxr c ins t1 o t2,
  snd (ex_cli_run maxr c ins) = t1 ++ o :: t2 ->
  snd (ex_cli_run maxr c (map fst t1)) = t1 /\
  let c1 := fst (ex_cli_run maxr c (map fst t1)) in
  snd (ex_cli_step maxr c1 (fst o)) = snd o /\
  snd (ex_cli_run maxr (fst (ex_cli_step maxr c1 (fst o))) (map fst t2)) = t2.
Proof.
  intros maxr c ins t1 [i outs] t2 E.
  pose proof (ex_cli_run_trace_inputs maxr ins c) as Hi. rewrite E in Hi. subst ins.
  revert c E. induction t1 as [| o1 t1 IH]; intros c E;
    cbn [app map] in E; rewrite ex_cli_run_cons in E; cbn [snd] in E; injection E as E1 E2.
  - cbn [map ex_cli_run fst snd]. auto.
  - cbn [map]. rewrite ex_cli_run_cons. cbn [fst snd]. destruct (IH _ E2) as [I1 I2].
    rewrite I1, E1. auto.
Qed.

Lemma ex_cli_run_in : forall maxr ins c i outs,
  In (i, outs) (snd (ex_cli_run maxr c ins)) ->
  exists c0, outs = snd (ex_cli_step maxr c0 i).
Proof.
  intros maxr ins c i outs H. apply in_split in H. destruct H as (t1 & t2 & E).
  apply ex_run_split in E. destruct E as (_ & E & _). eexists. symmetry. exact E.
Qed.

Lemma ex_run_invariant : forall maxr (P : ex_cli -> Prop) (Q : ex_obs -> Prop),
  (forall c i, P c -> Q (i, snd (ex_cli_step maxr c i)) -> P (fst (ex_cli_step maxr c i))) ->
  forall ins c, P c -> (forall o, In o (snd (ex_cli_run maxr c ins)) -> Q o) ->
  P (fst (ex_cli_run maxr c ins)).
Proof.
  intros maxr P Q Step ins. induction ins as [| i ins IH]; intros c Hc HQ; [exact Hc |].
  rewrite ex_cli_run_cons in *. cbn [fst snd] in *.
  apply IH; [apply Step; [exact Hc |] |]; auto using in_eq, in_cons.
Qed.

Lemma ex_cancel_tok_fields : forall c k,
  let c1 := ex_cancel_tok c k in
  ex_c_lcon c1 = ex_c_lcon c /\ ex_c_lack c1 = ex_c_lack c /\ ex_c_lres c1 = ex_c_lres c /\
  ex_c_mid c1 = ex_c_mid c /\ ex_c_tok c1 = ex_c_tok c.
Proof.
  intros c k. unfold ex_cancel_tok.
  destruct (ex_c_q c) as [q |]; [destruct (ex_q_tok q =? k) |]; cbn; auto.
Qed.

Lemma ex_remove_mid_fields : forall c mid,
  let c1 := fst (ex_remove_mid c mid) in
  ex_c_lcon c1 = ex_c_lcon c /\ ex_c_lack c1 = ex_c_lack c /\ ex_c_lres c1 = ex_c_lres c /\
  ex_c_mid c1 = ex_c_mid c /\ ex_c_tok c1 = ex_c_tok c.
Proof.
  intros c mid. unfold ex_remove_mid.
  destruct (ex_c_q c) as [q |]; [destruct (ex_q_mid q =? mid) |]; cbn; auto.
Qed.

(* what the client does with a response: handle_response behind the duplicate filter *)
Lemma ex_step_conr : forall maxr c s k ok,
  ex_cli_step maxr c (ExRx (ExConR s k) ok) =
  let c0 := ex_cancel_tok c k in
  if s =? ex_c_lcon c then (c0, [ExTx (if ex_c_lres c then ExAckE s else ExRst s)])
  else (Build_ex_cli (ex_c_q c0) s (ex_c_lack c) ok (ex_c_mid c) (ex_c_tok c),
        [ExResp 0 s k (-1); ExTx (if ok then ExAckE s else ExRst s)]).
Proof.
  intros. cbn [ex_cli_step]. destruct (ex_cancel_tok_fields c k) as (-> & -> & -> & -> & ->).
  unfold ex_deliver. destruct (s =? ex_c_lcon c), ok; reflexivity.
Qed.

Lemma ex_step_nonr : forall maxr c s k ok,
  ex_cli_step maxr c (ExRx (ExNonR s k) ok) =
  (Build_ex_cli (ex_c_q (ex_cancel_tok c k)) (ex_c_lcon c) (ex_c_lack c) ok (ex_c_mid c)
                (ex_c_tok c),
   if ok then [ExResp 1 s k (-1)] else [ExResp 1 s k (-1); ExTx (ExRst s)]).
Proof.
  intros. cbn [ex_cli_step]. unfold ex_deliver.
  destruct (ex_cancel_tok_fields c k) as (-> & -> & _ & -> & ->). destruct ok; reflexivity.
Qed.

Lemma ex_step_ackr : forall maxr c s k ok,
  ex_cli_step maxr c (ExRx (ExAckR s k) ok) =
  let (c0, sent) := ex_remove_mid c s in
  if s =? ex_c_lack c then (c0, [])
  else (Build_ex_cli (ex_c_q c0) (ex_c_lcon c) s true (ex_c_mid c) (ex_c_tok c),
        [ExResp 2 s k (ex_stok sent)]).
Proof.
  intros. cbn [ex_cli_step]. pose proof (ex_remove_mid_fields c s) as F.
  destruct (ex_remove_mid c s) as [c0 sent]. cbn [fst] in F.
  destruct F as (-> & -> & _ & -> & ->).
  unfold ex_deliver. destruct (s =? ex_c_lack c), ok; reflexivity.
Qed.

(* every Confirmable response is answered by exactly one ACK or RST, after the handler *)
Theorem ex_client_conack : forall maxr c ins, ex_P_conack (snd (ex_cli_run maxr c ins)).
Proof.
  intros maxr c ins s k ok outs H. apply ex_cli_run_in in H. destruct H as [c0 ->].
  rewrite ex_step_conr. unfold ex_con_answer_ok.
  destruct (s =? ex_c_lcon c0); [destruct (ex_c_lres c0) |]; cbn [snd]; eauto.
Qed.

(* a Non-confirmable response is delivered exactly once per datagram *)
Theorem ex_client_non : forall maxr c ins, ex_P_non (snd (ex_cli_run maxr c ins)).
Proof.
  intros maxr c ins s k ok outs H. apply ex_cli_run_in in H. destruct H as [c0 ->].
  rewrite ex_step_nonr. destruct ok; cbn [snd]; eauto.
Qed.

(* The duplicate filter, exactly.  When does the client hand the same message (type, mid) to the
   handler twice?  Only if, in between, a response of the same type with another mid was handled
   (the slot was overwritten) or - for piggybacked responses - a new request took that mid (wrap).
   For every client state and every input sequence.  This is the formal content of the signature
   of finding C07-F1. *)
Definition ex_delivers_kind (kind : Z) (o : ex_obs) : bool :=
  existsb (fun x => match x with ExResp k _ _ _ => k =? kind | _ => false end) (snd o).

Definition ex_sends_mid (mid : Z) (o : ex_obs) : bool :=
  existsb (fun x => match x with ExTx (ExReq m _ _) => m =? mid | _ => false end) (snd o).

Lemma ex_delivers_none : forall kind o, ex_delivers o = false -> ex_delivers_kind kind o = false.
Proof.
  intros kind [i outs]. unfold ex_delivers, ex_delivers_kind. cbn [snd].
  induction outs as [| [] outs IH]; cbn; auto; discriminate.
Qed.

(* each slot of the duplicate filter changes only in a step whose output shows it *)
Lemma ex_step_filter : forall maxr c i,
  let r := ex_cli_step maxr c i in
  (ex_delivers_kind 0 (i, snd r) = false -> ex_c_lcon (fst r) = ex_c_lcon c) /\
  (ex_delivers (i, snd r) = false -> ex_c_lres (fst r) = ex_c_lres c) /\
  (ex_delivers_kind 2 (i, snd r) = false -> ex_sends_mid (ex_c_lack c) (i, snd r) = false ->
   ex_c_lack (fst r) = ex_c_lack c).
Proof.
  intros maxr c i. unfold ex_delivers, ex_delivers_kind, ex_sends_mid. cbn [snd].
  destruct i as [sty | | [m k s | m | m k | m k | m k | m] ok].
  - cbn [ex_cli_step]. destruct (ex_c_q c); cbn; auto.
    rewrite orb_false_r. repeat split. intros _ ->. reflexivity.
  - cbn [ex_cli_step]. destruct (ex_c_q c) as [q |]; [destruct (ex_q_cnt q <? maxr) |]; cbn; auto.
  - cbn; auto.
  - cbn [ex_cli_step]. pose proof (ex_remove_mid_fields c m) as F.
    destruct (ex_remove_mid c m) as [c1 [q |]]; cbn in *; intuition.
  - rewrite ex_step_ackr. pose proof (ex_remove_mid_fields c m) as F.
    destruct (ex_remove_mid c m) as [c1 sent], (m =? ex_c_lack c); cbn in *;
      intuition discriminate.
  - rewrite ex_step_conr. pose proof (ex_cancel_tok_fields c k) as F.
    destruct (m =? ex_c_lcon c); cbn in *; intuition discriminate.
  - rewrite ex_step_nonr. destruct ok; cbn; intuition discriminate.
  - cbn [ex_cli_step]. pose proof (ex_remove_mid_fields c m) as F.
    destruct (ex_remove_mid c m) as [c1 [q |]]; cbn in *; intuition.
Qed.

Lemma ex_run_split3 : forall maxr c ins t1 o1 t2 o2 t3,
  snd (ex_cli_run maxr c ins) = t1 ++ o1 :: t2 ++ o2 :: t3 ->
  exists c1 c2 c3,
    ex_cli_step maxr c1 (fst o1) = (c2, snd o1) /\
    snd (ex_cli_run maxr c2 (map fst t2)) = t2 /\
    c3 = fst (ex_cli_run maxr c2 (map fst t2)) /\
    snd (ex_cli_step maxr c3 (fst o2)) = snd o2.
Proof.
  intros maxr c ins t1 o1 t2 o2 t3 E.
  apply ex_run_split in E. destruct E as (_ & E1 & E).
  apply ex_run_split in E. destruct E as (E2 & E3 & _).
  do 3 eexists. split; [| split; [exact E2 | split; [reflexivity | exact E3]]].
  rewrite <- E1. apply surjective_pairing.
Qed.

Theorem ex_client_dup : forall maxr c ins, ex_P_dup (snd (ex_cli_run maxr c ins)).
Proof.
  intros maxr c ins t1 s k ok st a t2 k' ok' outs' t3 Et D.
  destruct (ex_run_split3 _ _ _ _ _ _ _ _ Et) as (c1 & c2 & c3 & E1 & E2 & E3 & E4).
  cbn [fst snd] in *.
  (* the delivering step sets the slot and remembers the answer *)
  assert (S2 : ex_c_lcon c2 = s /\ a = if ex_c_lres c2 then ExAckE s else ExRst s).
  { rewrite ex_step_conr in E1.
    destruct (s =? ex_c_lcon c1); [destruct (ex_c_lres c1); discriminate E1 |].
    injection E1 as <- _ <-. cbn. destruct ok; auto. }
  assert (K : ex_c_lcon c3 = ex_c_lcon c2 /\ ex_c_lres c3 = ex_c_lres c2).
  { subst c3. apply ex_run_invariant with (Q := fun o => ex_delivers o = false);
      [| auto | rewrite E2; exact D].
    intros c0 i [<- <-] Q. split; apply ex_step_filter; [apply ex_delivers_none |]; exact Q. }
  destruct S2 as [S2 ->], K as [K1 K2].
  rewrite <- E4, ex_step_conr, K1, S2, Z.eqb_refl, K2. reflexivity.
Qed.

(* a Confirmable response is delivered a second time only after a Confirmable response with
   another mid was delivered in between *)
Theorem ex_client_con_filter : forall maxr c ins t1 s k ok st a t2 k' ok' outs' t3,
  snd (ex_cli_run maxr c ins) =
    t1 ++ (ExRx (ExConR s k) ok, [ExResp 0 s k st; ExTx a]) :: t2 ++
    (ExRx (ExConR s k') ok', outs') :: t3 ->
  (forall o, In o t2 -> ex_delivers_kind 0 o = false) ->
  ex_delivers_kind 0 (ExRx (ExConR s k') ok', outs') = false.
Proof.
  intros maxr c ins t1 s k ok st a t2 k' ok' outs' t3 Et D.
  destruct (ex_run_split3 _ _ _ _ _ _ _ _ Et) as (c1 & c2 & c3 & E1 & E2 & E3 & E4).
  cbn [fst snd] in *.
  assert (S2 : ex_c_lcon c2 = s).
  { rewrite ex_step_conr in E1.
    destruct (s =? ex_c_lcon c1); [destruct (ex_c_lres c1); discriminate E1 |].
    injection E1 as <- _ _. reflexivity. }
  assert (K : ex_c_lcon c3 = s).
  { subst c3. apply ex_run_invariant with (Q := fun o => ex_delivers_kind 0 o = false);
      [| exact S2 | rewrite E2; exact D].
    intros c0 i <- Q. apply ex_step_filter. exact Q. }
  rewrite <- E4, ex_step_conr, K, Z.eqb_refl. reflexivity.
Qed.

(* a piggybacked response is delivered a second time only after a piggybacked response with
   another mid was delivered, or a new request took that mid, in between *)
Theorem ex_client_ack_filter : forall maxr c ins t1 s k ok st t2 k' ok' outs' t3,
  snd (ex_cli_run maxr c ins) =
    t1 ++ (ExRx (ExAckR s k) ok, [ExResp 2 s k st]) :: t2 ++ (ExRx (ExAckR s k') ok', outs') :: t3 ->
  (forall o, In o t2 -> ex_delivers_kind 2 o = false /\ ex_sends_mid s o = false) ->
  outs' = [].
Proof.
  intros maxr c ins t1 s k ok st t2 k' ok' outs' t3 Et D.
  destruct (ex_run_split3 _ _ _ _ _ _ _ _ Et) as (c1 & c2 & c3 & E1 & E2 & E3 & E4).
  cbn [fst snd] in *.
  assert (S2 : ex_c_lack c2 = s).
  { rewrite ex_step_ackr in E1. destruct (ex_remove_mid c1 s) as [c0 sent].
    destruct (s =? ex_c_lack c1); [discriminate E1 |]. injection E1 as <- _. reflexivity. }
  assert (K : ex_c_lack c3 = s).
  { subst c3.
    apply ex_run_invariant
      with (Q := fun o => ex_delivers_kind 2 o = false /\ ex_sends_mid s o = false);
      [| exact S2 | rewrite E2; exact D].
    intros c0 i <- [Q1 Q2]. apply ex_step_filter; assumption. }
  rewrite <- E4, ex_step_ackr, K, Z.eqb_refl. destruct (ex_remove_mid c3 s). reflexivity.
Qed.
