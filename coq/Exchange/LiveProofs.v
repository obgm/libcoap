(* C07 - liveness: with the three hypotheses of System.v on and message ids of the server's
   session that do not wrap within the run, once the system is at rest (nothing in flight, no
   work at the server, empty send queue) every request token was answered - handler or NACK -
   unless its response was irrecoverably lost: a Non-confirmable response dropped by the
   network, or a Confirmable response the server gave up on (the property's fairness
   hypothesis: not all MAX_RETRANSMIT + 1 transmissions of a Confirmable are lost).

   The invariant [ex_live]: every older token is answered; while the application waits for the
   current one, the client's filter slots cannot match its response, the request is still queued
   or the server has seen it, and for a separate response something of it is alive (a pending
   entry, an unacknowledged Confirmable response, a Non-confirmable response in flight) or its
   loss is recorded.  The budget n keeps the server's message ids below 2^16. *)
From LibcoapV Require Import Base.Tactics Exchange.Exchange Exchange.Accept Exchange.Spec
  Exchange.AcceptProofs Exchange.System Exchange.SystemProofs Exchange.GuardProofs.
Local Open Scope Z_scope.

Lemma ex_step_stop_inv : forall strict m o m' k,
  ex_step_ok strict m o m' -> In k (ex_m_stop m') ->
  In k (ex_m_stop m) \/ existsb (ex_out_ends k) (snd o) = true.
Proof.
  intros strict m o m' k H.
  destruct H; intros Hin; cbn [ex_m_stop ex_mon_concl snd existsb ex_out_ends] in *; auto;
    destruct Hin as [<- | Hin]; auto; right; rewrite Z.eqb_refl; reflexivity.
Qed.

Lemma ex_step_stop_fwd : forall strict m o m' k,
  ex_step_ok strict m o m' -> existsb (ex_out_ends k) (snd o) = true -> In k (ex_m_stop m').
Proof.
  intros strict m o m' k H E. eapply ex_step_ends; [exact H |].
  apply existsb_exists in E. destruct E as [out [Hin E]].
  destruct out; cbn in E; try discriminate; apply Z.eqb_eq in E; subst.
  - left. eauto.
  - right. eauto.
Qed.

Lemma ex_path_stop_answered : forall strict t m m' k,
  ex_mon_path strict m t m' -> In k (ex_m_stop m') -> In k (ex_m_stop m) \/ ex_answered k t.
Proof.
  intros strict t. induction t as [| o t IH]; intros m m' k P Hin.
  - apply ex_mon_path_nil_inv in P. subst. left. exact Hin.
  - apply ex_mon_path_cons_inv in P. destruct P as [m1 [Hs P]].
    destruct (IH _ _ _ P Hin) as [H | [o' [out [H1 [H2 H3]]]]].
    + destruct (ex_step_stop_inv _ _ _ _ _ Hs H) as [H0 | H0]; [left; exact H0 | right].
      apply existsb_exists in H0. destruct H0 as [out [Ho Ho2]].
      exists o, out. split; [left; reflexivity | split; assumption].
    + right. exists o', out. split; [right; exact H1 | split; assumption].
Qed.

Lemma ex_path_reqs_mono : forall strict t m m' x,
  ex_mon_path strict m t m' -> In x (ex_m_reqs m) -> In x (ex_m_reqs m').
Proof.
  intros strict t m m' x. apply (ex_mon_path_keeps strict (fun m => In x (ex_m_reqs m))).
  intros m0 o m1 Hs Hx. destruct (ex_step_reqs_inv _ _ _ _ Hs) as [E | [a [b [c [_ E]]]]];
    rewrite E; [exact Hx | right; exact Hx].
Qed.

Lemma ex_path_reqs_sent : forall strict t m m' mid tok,
  ex_mon_path strict m t m' -> ex_sent_req mid tok t -> In (mid, tok) (ex_m_reqs m').
Proof.
  intros strict t. induction t as [| o t IH]; intros m m' mid tok P [s Hin].
  - destruct Hin.
  - apply ex_mon_path_cons_inv in P. destruct P as [m1 [Hs P]].
    destruct Hin as [-> | Hin].
    + apply (ex_path_reqs_mono _ _ _ _ _ P). inversion Hs; subst. cbn. left. reflexivity.
    + eapply IH; [exact P | exists s; exact Hin].
Qed.

Definition ex_has_nonr (l : list ex_dg) : Prop := exists a k, In (ExNonR a k) l.

(* the separate response of the current exchange is still on its way, or is lost for good *)
Definition ex_alive (y : ex_sys) (lost : list Z) (kc : Z) : Prop :=
  ex_s_pend (ex_y_s y) <> [] \/ ex_s_con (ex_y_s y) <> [] \/ ex_has_nonr (ex_y_s2c y) \/ In kc lost.

Definition ex_unanswered (y : ex_sys) (m : ex_mon) (lost : list Z) (sc mc kc : Z) : Prop :=
  ~ In kc (ex_m_stop m) /\
  Forall (fun d => ex_is_req d = true) (ex_y_c2s y) /\
  ex_c_lack (ex_y_c y) <> mc /\
  (forall a, In a (ex_conmids y) -> ex_c_lcon (ex_y_c y) < a) /\
  (sc = 0 -> ex_c_q (ex_y_c y) <> None) /\
  (~ In (mc, kc) (ex_s_seen (ex_y_s y)) -> ex_c_q (ex_y_c y) <> None) /\
  (sc <> 0 -> In (mc, kc) (ex_s_seen (ex_y_s y)) -> ex_alive y lost kc).

Record ex_live (y : ex_sys) (m : ex_mon) (lost : list Z) (sc n : Z) : Prop := {
  lv_smid : 0 <= ex_s_mid (ex_y_s y) /\ ex_s_mid (ex_y_s y) + n < 65536;
  lv_lcon_le : ex_c_lcon (ex_y_c y) <= ex_s_mid (ex_y_s y);
  lv_mids_le : forall a, In a (ex_conmids y) -> a <= ex_s_mid (ex_y_s y);
  lv_head : forall mc kc rest, ex_m_reqs m = (mc, kc) :: rest -> mc = ex_c_mid (ex_y_c y);
  lv_old : forall k, In k (ex_toks m) -> ex_y_app y <> Some k -> In k (ex_m_stop m);
  lv_acke : forall a mc kc rest, In (ExAckE a) (ex_y_s2c y) -> ex_m_reqs m = (mc, kc) :: rest ->
            In (mc, kc) (ex_s_seen (ex_y_s y)) /\ sc <> 0;
  lv_un : forall mc kc rest, ex_m_reqs m = (mc, kc) :: rest -> ex_y_app y = Some kc ->
          ex_unanswered y m lost sc mc kc;
  lv_app : forall k, ex_y_app y = Some k -> exists mc rest, ex_m_reqs m = (mc, k) :: rest;
  lv_seen : forall a k, In (a, k) (ex_s_seen (ex_y_s y)) -> In k (ex_toks m)
}.
Arguments lv_smid {y m lost sc n}.
Arguments lv_lcon_le {y m lost sc n}.
Arguments lv_mids_le {y m lost sc n}.
Arguments lv_head {y m lost sc n}.
Arguments lv_old {y m lost sc n}.
Arguments lv_acke {y m lost sc n}.
Arguments lv_un {y m lost sc n}.
Arguments lv_app {y m lost sc n}.
Arguments lv_seen {y m lost sc n}.

Lemma ex_live_init : forall cmid0 smid0 n,
  0 <= smid0 -> smid0 + n < 65536 ->
  ex_live (ex_sys_init cmid0 smid0) ex_mon_init [] 0 n.
Proof.
  intros cmid0 smid0 n H2 H4.
  constructor; cbn; try lia; try (intros; contradiction); intros; discriminate.
Qed.

(* a step that leaves client, application and monitor alone *)
Lemma ex_live_frame : forall y y' m lost lost' sc n,
  ex_live y m lost sc (n + 1) -> 0 <= n ->
  ex_y_c y' = ex_y_c y -> ex_y_app y' = ex_y_app y ->
  ex_s_mid (ex_y_s y) <= ex_s_mid (ex_y_s y') <= ex_s_mid (ex_y_s y) + 1 ->
  (forall a k, In (a, k) (ex_s_seen (ex_y_s y')) -> In k (ex_toks m)) ->
  (forall a, In a (ex_conmids y') -> a <= ex_s_mid (ex_y_s y')) ->
  (forall a mc kc rest, In (ExAckE a) (ex_y_s2c y') -> ex_m_reqs m = (mc, kc) :: rest ->
                        In (mc, kc) (ex_s_seen (ex_y_s y')) /\ sc <> 0) ->
  (forall mc kc rest, ex_m_reqs m = (mc, kc) :: rest -> ex_y_app y = Some kc ->
     ex_unanswered y m lost sc mc kc ->
     Forall (fun d => ex_is_req d = true) (ex_y_c2s y') /\
     (forall a, In a (ex_conmids y') -> ex_c_lcon (ex_y_c y) < a) /\
     (~ In (mc, kc) (ex_s_seen (ex_y_s y')) -> ex_c_q (ex_y_c y) <> None) /\
     (sc <> 0 -> In (mc, kc) (ex_s_seen (ex_y_s y')) -> ex_alive y' lost' kc)) ->
  ex_live y' m lost' sc n.
Proof.
  intros y y' m lost lost' sc n L Hn Hc Happ Hmid Hsn Hle Hacke Hun.
  constructor; rewrite ?Hc, ?Happ.
  - pose proof (lv_smid L). lia.
  - pose proof (lv_lcon_le L). lia.
  - exact Hle.
  - apply L.
  - apply L.
  - exact Hacke.
  - intros mc kc rest E A. pose proof (lv_un L mc kc rest E A) as U.
    destruct (Hun mc kc rest E A U) as [H1 [H2 [H3 H4]]].
    destruct U as [U1 [U2 [U3 [U4 [U5 [U6 U7]]]]]].
    unfold ex_unanswered. rewrite Hc. auto 8.
  - apply L.
  - exact Hsn.
Qed.

Lemma ex_live_sub : forall y y' m lost lost' sc n,
  ex_ginv y m sc -> ex_live y m lost sc (n + 1) -> 0 <= n ->
  ex_sub y y' -> ex_y_c y' = ex_y_c y -> ex_y_app y' = ex_y_app y ->
  (forall d, In d (ex_y_c2s y') -> In d (ex_y_c2s y)) ->
  (forall mc kc, ex_gcore y mc kc sc -> Forall (fun d => ex_is_req d = true) (ex_y_c2s y) ->
                 ex_alive y lost kc -> ex_alive y' lost' kc) ->
  ex_live y' m lost' sc n.
Proof.
  intros y y' m lost lost' sc n G L Hn S Hc Happ Hc2s Halive.
  assert (CM : forall a, In a (ex_conmids y') -> In a (ex_conmids y)).
  { intros a. apply ex_sub_conmids. exact S. }
  apply (ex_live_frame y y' m lost); auto; rewrite ?(sub_seen S), ?(sub_mid S).
  - lia.
  - apply L.
  - intros a Ha. apply (lv_mids_le L). apply CM. exact Ha.
  - intros a mc kc rest Ha E. destruct (sub_s2c S _ Ha) as [H | [k [sty [H1 [H2 H3]]]]].
    + apply (lv_acke L a mc kc rest H E).
    + destruct (ex_ginv_guard _ _ _ _ _ _ G E) as [GC _].
      destruct (g_c2s GC _ _ _ H1) as [-> [-> ->]]. auto.
  - intros mc kc rest E A [U1 [U2 [U3 [U4 [U5 [U6 U7]]]]]].
    split; [eapply incl_Forall; [exact Hc2s | exact U2] |].
    split; [intros a Ha; apply U4; apply CM; exact Ha |]. split; [exact U6 |].
    intros Hsc Hseen. destruct (ex_ginv_guard _ _ _ _ _ _ G E) as [GC _]. eauto.
Qed.

Lemma ex_In_remove_nth_or : forall (A : Type) i (l : list A) x,
  In x l -> In x (ex_remove_nth i l) \/ nth_error l i = Some x.
Proof.
  intros A i l. revert i. induction l as [| y l IH]; intros i x H; [destruct H |].
  destruct i; cbn.
  - destruct H as [<- | H]; [right; reflexivity | left; exact H].
  - destruct H as [<- | H]; [left; left; reflexivity |].
    destruct (IH i x H) as [H0 | H0]; [left; right; exact H0 | right; exact H0].
Qed.

Lemma ex_set_nth_nonnil : forall (A : Type) j (x : A) l, l <> [] -> ex_set_nth j x l <> [].
Proof. intros A j x l H. destruct l; [contradiction |]. destruct j; cbn; discriminate. Qed.

Lemma ex_snoc_nonnil : forall (A : Type) (l : list A) x, l ++ [x] <> [].
Proof. intros A l x H. apply app_eq_nil in H. destruct H as [_ H]. discriminate H. Qed.

Lemma ex_has_nonr_app : forall l ds, ex_has_nonr l -> ex_has_nonr (l ++ ds).
Proof. intros l ds [a [k H]]. exists a, k. apply in_or_app. left. exact H. Qed.

(* While only requests travel to the server, the separate response of the current exchange
   stays on its way through every action of the network and the server, or is recorded lost. *)
Lemma ex_env_alive : forall cf y a lost mc kc sc,
  ex_is_env a = true -> ex_gcore y mc kc sc -> Forall (fun d => ex_is_req d = true) (ex_y_c2s y) ->
  ex_alive y lost kc -> ex_alive (fst (ex_sys_step cf y a)) (lost ++ ex_lost_step cf y a) kc.
Proof.
  intros cf y a lost mc kc sc Ha GC Hreq A. unfold ex_alive in *.
  assert (Lost : In kc lost -> In kc (lost ++ ex_lost_step cf y a)) by (intros H; apply in_or_app; auto).
  assert (Same : forall c c2s app ds,
            let y' := Build_ex_sys c (ex_y_s y) c2s (ex_y_s2c y ++ ds) app in
            ex_s_pend (ex_y_s y') <> [] \/ ex_s_con (ex_y_s y') <> [] \/ ex_has_nonr (ex_y_s2c y') \/
            In kc (lost ++ ex_lost_step cf y a)).
  { intros c c2s app ds. cbn. destruct A as [A | [A | [A | A]]]; auto using ex_has_nonr_app. }
  destruct a as [sty | | i ok | i | i | i | i | i | j | j]; try discriminate Ha; cbn [ex_sys_step].
  - destruct (nth_error (ex_y_s2c y) i); [apply Same | tauto].
  - cbn [fst ex_y_s ex_y_s2c ex_lost_step]. destruct A as [A | [A | [[a [k A]] | A]]]; auto.
    destruct (ex_In_remove_nth_or _ i _ _ A) as [H | H].
    + right. right. left. exists a, k. exact H.
    + (* the dropped datagram carries the token of the current exchange *)
      rewrite H. destruct (g_s2c GC _ A) as [[-> _] _].
      right. right. right. apply in_or_app. right. left. reflexivity.
  - destruct (nth_error (ex_y_c2s y) i) as [d |] eqn:E; [| tauto].
    pose proof (ex_Forall_nth _ _ _ _ _ Hreq E) as Hd. destruct d as [m k s | | | | |]; try discriminate Hd.
    cbn [ex_srv_rx].
    destruct (ex_cf_dedup cf && ex_mem2 m k (ex_s_seen (ex_y_s y))); [apply Same |].
    destruct (ex_pend_has k (ex_s_pend (ex_y_s y))); [apply Same |].
    destruct (s =? 0); [| destruct (s =? 1); [| destruct (s =? 2)]];
      cbn [fst ex_y_s ex_y_s2c ex_s_pend ex_s_con];
      destruct A as [A | [A | [A | A]]]; auto using ex_has_nonr_app, ex_snoc_nonnil.
  - destruct (nth_error (ex_y_c2s y) i); cbn [fst ex_y_s ex_y_s2c]; tauto.
  - cbn [fst ex_y_s ex_y_s2c]. tauto.
  - unfold ex_srv_fire. destruct (nth_error (ex_s_pend (ex_y_s y)) j) as [p |]; [| apply Same].
    destruct (ex_p_sty p =? 3); cbn [fst ex_y_s ex_y_s2c ex_s_pend ex_s_con].
    + right. left. apply ex_snoc_nonnil.
    + right. right. left. exists (ex_p_mid p), (ex_p_tok p). apply in_or_app. right. left. reflexivity.
  - unfold ex_srv_timer.
    destruct (nth_error (ex_s_con (ex_y_s y)) j) as [r |] eqn:E; [| apply Same].
    cbn [ex_lost_step]. rewrite E. apply nth_error_In in E.
    destruct (ex_r_cnt r <? ex_cf_maxr cf); cbn [fst ex_y_s ex_y_s2c ex_s_pend ex_s_con].
    + right. left. apply ex_set_nth_nonnil. intros H. rewrite H in E. destruct E.
    + (* given up: the response is lost *)
      destruct (g_con GC _ E) as [-> _].
      right. right. right. apply in_or_app. right. left. reflexivity.
Qed.

Lemma ex_next_mid_succ : forall m n, 0 <= m -> 0 <= n -> m + (n + 1) < 65536 -> ex_next_mid m = m + 1.
Proof. intros m n H1 H2 H3. unfold ex_next_mid. apply Z.mod_small. lia. Qed.

Lemma ex_live_first : forall cf y m lost sc n i mc kc rest,
  ex_ginv y m sc -> ex_live y m lost sc (n + 1) -> 0 <= n ->
  ex_m_reqs m = (mc, kc) :: rest -> ex_first_rx y i mc kc sc ->
  ex_live (fst (ex_sys_step cf y (ExADelS i))) m lost sc n.
Proof.
  intros cf y m lost sc n i mc kc rest G L Hn Er [E Hns]. cbn [ex_sys_step]. rewrite E.
  destruct (ex_ginv_guard _ _ _ _ _ _ G Er) as [GC _].
  destruct (ex_g_unseen _ _ _ _ GC Hns) as [U1 [U2 U3]].
  destruct (ex_srv_rx cf (ex_y_s y) (ExReq mc kc sc)) as [s' ds] eqn:Es. cbn [fst].
  destruct (ex_srv_rx_first _ _ _ _ _ _ _ Hns U2 U3 Es) as [F1 [F2 [F3 [_ [_ [_ [F7 F8]]]]]]].
  pose proof (lv_smid L) as [Hs0 Hs1].
  rewrite (ex_next_mid_succ _ _ Hs0 Hn Hs1) in F2, F3.
  (* the Confirmable responses there are carry the message id just drawn *)
  assert (CM : forall a, In a (ex_conmids_of (ex_y_s2c y ++ ds) (ex_s_con s') (ex_s_pend s')) ->
                         a = ex_s_mid (ex_y_s y) + 1 /\ ex_s_mid s' = ex_s_mid (ex_y_s y) + 1).
  { intros a Ha. apply F3. eapply ex_conmids_noresp; eassumption. }
  apply (ex_live_frame y _ m lost); auto; cbn [ex_y_c ex_y_s ex_y_c2s ex_y_s2c ex_y_app ex_conmids].
  - lia.
  - intros a k Hk. rewrite F1 in Hk. destruct Hk as [[= <- <-] | Hk].
    + unfold ex_toks. rewrite Er. left. reflexivity.
    + apply (lv_seen L a k Hk).
  - intros a Ha. destruct (CM a Ha) as [-> ->]. lia.
  - intros a mc0 kc0 rest0 Ha Er0. rewrite Er in Er0. injection Er0 as <- <- <-.
    rewrite F1. split; [left; reflexivity |].
    apply in_app_iff in Ha. destruct Ha as [Ha | Ha]; [| eapply F7; exact Ha].
    apply (lv_acke L a mc kc rest Ha Er).
  - intros mc0 kc0 rest0 Er0 A [V1 [V2 _]]. rewrite Er in Er0. injection Er0 as <- <- <-.
    split; [apply ex_Forall_remove_nth; exact V2 |].
    split; [intros a Ha; destruct (CM a Ha) as [-> _]; pose proof (lv_lcon_le L); lia |].
    split; [intros Hx; exfalso; apply Hx; rewrite F1; left; reflexivity |].
    intros Hsc _. unfold ex_alive. cbn [ex_y_s ex_y_s2c].
    destruct (F8 Hsc) as [H | [H | [a H]]]; auto.
    right. right. left. exists a, kc. apply in_or_app. right. exact H.
Qed.

Lemma ex_live_env : forall cf y m lost sc n a,
  ex_cf_dedup cf = true -> ex_is_env a = true ->
  ex_basic y m -> ex_ginv y m sc -> ex_live y m lost sc (n + 1) -> 0 <= n ->
  ex_live (fst (ex_sys_step cf y a)) m (lost ++ ex_lost_step cf y a) sc n.
Proof.
  intros cf y m lost sc n a Hdd Ha B G L Hn.
  destruct (ex_first_rx_dec y a) as [[i [mr [kr [sty [-> F]]]]] | Hold].
  - pose proof (proj1 F) as E. cbn [ex_lost_step]. rewrite app_nil_r.
    pose proof (ex_Forall_nth _ _ _ _ _ (bs_c2s _ _ B) E) as BC. cbn in BC.
    destruct (ex_m_reqs m) as [| [mc kc] rest] eqn:Er; [destruct BC |].
    destruct (ex_ginv_guard _ _ _ _ _ _ G Er) as [GC _].
    destruct (g_c2s GC _ _ _ (nth_error_In _ _ E)) as [-> [-> ->]].
    eapply ex_live_first; eassumption.
  - destruct (ex_env_frame cf y a Ha) as [_ [Hc [Happ Hs]]].
    apply (ex_live_sub y _ m lost); auto.
    + apply ex_env_sub; assumption.
    + intros mc kc. apply ex_env_alive. exact Ha.
Qed.

Lemma ex_live_weaken : forall y m lost lost' sc n,
  ex_live y m lost sc (n + 1) -> 0 <= n -> (forall k, In k lost -> In k lost') ->
  ex_live y m lost' sc n.
Proof.
  intros y m lost lost' sc n L Hn Hl. constructor; try apply L.
  - pose proof (lv_smid L). lia.
  - intros mc kc rest E A. destruct (lv_un L mc kc rest E A) as [U1 [U2 [U3 [U4 [U5 [U6 U7]]]]]].
    unfold ex_unanswered. repeat (split; [assumption |]).
    intros H1 H2. destruct (U7 H1 H2) as [H | [H | [H | H]]]; unfold ex_alive; auto.
Qed.

Lemma ex_app_after_some : forall app outs k,
  ex_app_after app outs = Some k -> app = Some k /\ existsb (ex_out_ends k) outs = false.
Proof.
  intros [k0 |] outs k; cbn; [| discriminate].
  destruct (existsb (ex_out_ends k0) outs) eqn:E; [discriminate |]. intros [= <-]. auto.
Qed.

Lemma ex_app_after_not : forall app outs k,
  ex_app_after app outs <> Some k -> app <> Some k \/ existsb (ex_out_ends k) outs = true.
Proof.
  intros [k0 |] outs k; cbn; [| auto].
  destruct (existsb (ex_out_ends k0) outs) eqn:E; [| auto].
  intros _. destruct (Z.eq_dec k0 k) as [<- | N]; [right; exact E | left; congruence].
Qed.

Lemma ex_conmids_sub_s2c : forall y c1 c2s' s2c' app' a,
  (forall d, In d s2c' -> In d (ex_y_s2c y)) ->
  In a (ex_conmids (Build_ex_sys c1 (ex_y_s y) c2s' s2c' app')) -> In a (ex_conmids y).
Proof.
  intros y c1 c2s' s2c' app' a Hs. apply ex_sub_conmids. apply ex_sub_same_srv; auto.
Qed.

(* a client step other than a send *)
Lemma ex_live_client_gen : forall y m m' lost sc n c1 outs s2c' i,
  ex_live y m lost sc (n + 1) -> 0 <= n ->
  ex_step_ok true m (i, outs) m' -> ex_m_reqs m' = ex_m_reqs m ->
  ex_c_mid c1 = ex_c_mid (ex_y_c y) ->
  ex_c_lcon c1 <= ex_s_mid (ex_y_s y) ->
  (forall d, In d s2c' -> In d (ex_y_s2c y)) ->
  (forall mc kc rest, ex_m_reqs m = (mc, kc) :: rest -> ex_y_app y = Some kc ->
     existsb (ex_out_ends kc) outs = false ->
     ex_c_lack c1 = ex_c_lack (ex_y_c y) /\ ex_c_lcon c1 = ex_c_lcon (ex_y_c y) /\
     Forall (fun d => ex_is_req d = true) (ex_txs outs) /\
     (ex_c_q c1 = None -> ex_c_q (ex_y_c y) = None \/ exists a, In (ExAckE a) (ex_y_s2c y)) /\
     (ex_has_nonr (ex_y_s2c y) -> ex_has_nonr s2c')) ->
  ex_live (Build_ex_sys c1 (ex_y_s y) (ex_y_c2s y ++ ex_txs outs) s2c' (ex_app_after (ex_y_app y) outs))
          m' lost sc n.
Proof.
  intros y m m' lost sc n c1 outs s2c' i L Hn Hs Er Hmid Hlc Sub Hun.
  assert (Toks : ex_toks m' = ex_toks m) by (unfold ex_toks; rewrite Er; reflexivity).
  assert (StopMono : forall k, In k (ex_m_stop m) -> In k (ex_m_stop m')).
  { intros k. eapply ex_step_stop_mono. exact Hs. }
  constructor; cbn [ex_y_c ex_y_s ex_y_c2s ex_y_s2c ex_y_app].
  - pose proof (lv_smid L). lia.
  - exact Hlc.
  - intros a Ha. apply (lv_mids_le L). eapply ex_conmids_sub_s2c; [exact Sub | exact Ha].
  - intros mc kc rest E. rewrite Er in E. rewrite Hmid. eapply (lv_head L). exact E.
  - intros k Hk Ha. rewrite Toks in Hk. destruct (ex_app_after_not _ _ _ Ha) as [A | E2].
    + apply StopMono. apply (lv_old L); assumption.
    + eapply ex_step_stop_fwd; [exact Hs | exact E2].
  - intros a mc kc rest Ha E. rewrite Er in E. apply (lv_acke L a mc kc rest); auto.
  - intros mc kc rest E A'. rewrite Er in E. destruct (ex_app_after_some _ _ _ A') as [A E2].
    destruct (lv_un L mc kc rest E A) as [U1 [U2 [U3 [U4 [U5 [U6 U7]]]]]].
    destruct (Hun mc kc rest E A E2) as [B1 [B2 [B3 [B4 B5]]]].
    assert (Q1 : ex_c_q c1 = None -> sc <> 0 /\ In (mc, kc) (ex_s_seen (ex_y_s y)) \/ ex_c_q (ex_y_c y) = None).
    { intros Q. destruct (B4 Q) as [H | [a Ha]]; [right; exact H | left].
      destruct (lv_acke L a mc kc rest Ha E) as [H1 H2]. auto. }
    unfold ex_unanswered. cbn [ex_y_c ex_y_s ex_y_c2s ex_y_s2c].
    split.
    { intros Hk. destruct (ex_step_stop_inv _ _ _ _ _ Hs Hk) as [H | H]; [contradiction |].
      cbn [snd] in H. congruence. }
    split; [apply Forall_app; split; assumption |].
    split; [rewrite B1; exact U3 |].
    split.
    { intros a Ha. rewrite B2. apply U4. eapply ex_conmids_sub_s2c; [exact Sub | exact Ha]. }
    split.
    { intros Hsc Q. destruct (Q1 Q) as [[H _] | H]; [contradiction | exact (U5 Hsc H)]. }
    split.
    { intros Hns Q. destruct (Q1 Q) as [[_ H] | H]; [contradiction | exact (U6 Hns H)]. }
    intros Hsc Hseen. destruct (U7 Hsc Hseen) as [H | [H | [H | H]]]; unfold ex_alive;
      cbn [ex_y_s ex_y_s2c]; auto.
  - intros k A. rewrite Er. apply (lv_app L). apply (ex_app_after_some _ _ _ A).
  - intros a k Hk. rewrite Toks. apply (lv_seen L a k Hk).
Qed.

Lemma ex_live_same_sys : forall y m lost sc n c2s',
  ex_live y m lost sc n -> c2s' = ex_y_c2s y ->
  ex_live (Build_ex_sys (ex_y_c y) (ex_y_s y) c2s' (ex_y_s2c y) (ex_y_app y)) m lost sc n.
Proof. intros y m lost sc n c2s' L ->. destruct y. exact L. Qed.

Lemma ex_has_nonr_remove : forall l i d,
  nth_error l i = Some d -> (forall a k, d <> ExNonR a k) -> ex_has_nonr l ->
  ex_has_nonr (ex_remove_nth i l).
Proof.
  intros l i d E Hd [a [k Hk]]. destruct (ex_In_remove_nth_or _ i _ _ Hk) as [H | H].
  - exists a, k. exact H.
  - rewrite E in H. inversion H. exfalso. eapply Hd. eassumption.
Qed.

(* a step that ends the application's wait for the current exchange *)
Lemma ex_live_client_ends : forall y m m' lost sc n c1 outs s2c' i mc kc rest,
  ex_live y m lost sc (n + 1) -> 0 <= n ->
  ex_step_ok true m (i, outs) m' -> ex_m_reqs m' = ex_m_reqs m ->
  ex_m_reqs m = (mc, kc) :: rest -> existsb (ex_out_ends kc) outs = true ->
  ex_c_mid c1 = ex_c_mid (ex_y_c y) -> ex_c_lcon c1 <= ex_s_mid (ex_y_s y) ->
  (forall d, In d s2c' -> In d (ex_y_s2c y)) ->
  ex_live (Build_ex_sys c1 (ex_y_s y) (ex_y_c2s y ++ ex_txs outs) s2c' (ex_app_after (ex_y_app y) outs))
          m' lost sc n.
Proof.
  intros y m m' lost sc n c1 outs s2c' i mc kc rest L Hn Hs Er E He Hmid Hlc Sub.
  apply (ex_live_client_gen y m m' lost sc n c1 outs s2c' i L Hn Hs Er Hmid Hlc Sub).
  intros mc0 kc0 rest0 E0 _ Hf. rewrite E in E0. injection E0 as <- <- <-. congruence.
Qed.

Lemma ex_live_rx : forall maxr y m m' lost sc n i d ok c1 outs,
  ex_basic y m -> ex_ginv y m sc -> ex_live y m lost sc (n + 1) -> 0 <= n ->
  nth_error (ex_y_s2c y) i = Some d ->
  ex_cli_step maxr (ex_y_c y) (ExRx d ok) = (c1, outs) ->
  ex_step_ok true m (ExRx d ok, outs) m' -> ex_m_reqs m' = ex_m_reqs m ->
  ex_live (Build_ex_sys c1 (ex_y_s y) (ex_y_c2s y ++ ex_txs outs) (ex_remove_nth i (ex_y_s2c y))
                        (ex_app_after (ex_y_app y) outs)) m' lost sc n.
Proof.
  intros maxr y m m' lost sc n i d ok c1 outs B G L Hn E Ecs Hs Er.
  pose proof (nth_error_In _ _ E) as Hin.
  pose proof (ex_Forall_nth _ _ _ _ _ (bs_s2c _ _ B) E) as Hok.
  assert (Sub : forall x, In x (ex_remove_nth i (ex_y_s2c y)) -> In x (ex_y_s2c y)).
  { intros x. apply ex_In_remove_nth. }
  destruct d as [mid tok sty | mid | mid tok | mid tok | mid tok | mid]; cbn in Hok; try contradiction.
  - (* empty ACK *)
    destruct (ex_rx_acke _ _ _ _ _ _ Ecs) as [_ [[Ela [Elc Em]] ->]].
    apply (ex_live_client_gen y m m' lost sc n c1 _ _ _ L Hn Hs Er Em); [| exact Sub |].
    + rewrite Elc. apply L.
    + intros mc kc rest E0 A _. repeat split; auto; [constructor | eauto |].
      apply (ex_has_nonr_remove _ _ _ E). intros a k. discriminate.
  - (* piggybacked response *)
    destruct (ex_rx_cur _ _ _ _ B G Hin eq_refl) as [mc [kc [rest [E0 [[GC _] [[-> [-> _]] _]]]]]].
    pose proof (ex_rx_ackr _ _ _ _ _ (g_q GC) _ _ _ Ecs) as R.
    assert (Hlc : ex_c_lcon c1 <= ex_s_mid (ex_y_s y)).
    { destruct R as [_ [-> _]]. apply L. }
    destruct R as [_ [_ [Em [[Ef _] | [_ [_ [st ->]]]]]]].
    + (* filtered: cannot happen while the exchange is unanswered *)
      apply (ex_live_client_gen y m m' lost sc n c1 _ _ _ L Hn Hs Er Em Hlc Sub).
      intros mc0 kc0 rest0 E1 A _. rewrite E0 in E1. injection E1 as <- <- <-.
      destruct (lv_un L mc kc rest E0 A) as [_ [_ [U3 _]]]. congruence.
    + apply (ex_live_client_ends y m m' lost sc n c1 _ _ _ mc kc rest L Hn Hs Er E0); auto.
      cbn. rewrite Z.eqb_refl. reflexivity.
  - (* separate Confirmable response *)
    destruct (ex_rx_cur _ _ _ _ B G Hin eq_refl) as [mc [kc [rest [E0 [[GC _] [[-> _] _]]]]]].
    assert (Hmid : In mid (ex_conmids y)) by (apply ex_conmids_In; eauto).
    destruct (ex_rx_conr _ _ _ _ _ (g_q GC) _ _ _ _ Ecs)
      as [_ [_ [Em [a [_ [[Ef [Elc _]] | [_ [Elc [st ->]]]]]]]]].
    + (* answered as a duplicate: cannot happen while the exchange is unanswered *)
      apply (ex_live_client_gen y m m' lost sc n c1 _ _ _ L Hn Hs Er Em); [| exact Sub |].
      * rewrite Elc. apply L.
      * intros mc0 kc0 rest0 E1 A _. rewrite E0 in E1. injection E1 as <- <- <-.
        destruct (lv_un L mc kc rest E0 A) as [_ [_ [_ [U4 _]]]].
        specialize (U4 _ Hmid). lia.
    + apply (ex_live_client_ends y m m' lost sc n c1 _ _ _ mc kc rest L Hn Hs Er E0); auto.
      * cbn. rewrite Z.eqb_refl. reflexivity.
      * rewrite Elc. apply (lv_mids_le L). exact Hmid.
  - (* Non-confirmable response *)
    destruct (ex_rx_cur _ _ _ _ B G Hin eq_refl) as [mc [kc [rest [E0 [[GC _] [[-> _] _]]]]]].
    destruct (ex_rx_nonr _ _ _ _ _ (g_q GC) _ _ _ _ Ecs) as [_ [[_ [Elc Em]] [st Ho]]].
    apply (ex_live_client_ends y m m' lost sc n c1 _ _ _ mc kc rest L Hn Hs Er E0); auto.
    + destruct Ho as [-> | ->]; cbn; rewrite Z.eqb_refl; reflexivity.
    + rewrite Elc. apply L.
Qed.

Lemma ex_live_timer : forall maxr y m m' lost sc n c1 outs,
  ex_ginv y m sc -> ex_live y m lost sc (n + 1) -> 0 <= n ->
  ex_cli_step maxr (ex_y_c y) ExTimer = (c1, outs) ->
  ex_step_ok true m (ExTimer, outs) m' -> ex_m_reqs m' = ex_m_reqs m ->
  ex_live (Build_ex_sys c1 (ex_y_s y) (ex_y_c2s y ++ ex_txs outs) (ex_y_s2c y)
                        (ex_app_after (ex_y_app y) outs)) m' lost sc n.
Proof.
  intros maxr y m m' lost sc n c1 outs G L Hn Ecs Hs Er.
  unfold ex_cli_step in Ecs.
  destruct (ex_c_q (ex_y_c y)) as [q |] eqn:Q.
  - destruct (ex_q_cnt q <? maxr) eqn:Ec; inversion Ecs; subst c1 outs.
    + (* retransmission *)
      apply (ex_live_client_gen y m m' lost sc n _ _ _ _ L Hn Hs Er);
        cbn [ex_set_q ex_c_mid ex_c_lack ex_c_lcon ex_c_q]; auto.
      * apply L.
      * intros mc kc rest E0 A _. repeat split; auto.
        -- unfold ex_req_of. cbn. constructor; [reflexivity | constructor].
        -- intros H. discriminate H.
    + (* give-up *)
      apply (ex_live_client_gen y m m' lost sc n _ _ _ _ L Hn Hs Er);
        cbn [ex_set_q ex_c_mid ex_c_lack ex_c_lcon ex_c_q]; auto.
      * apply L.
      * intros mc kc rest E0 A Hf. exfalso.
        destruct (ex_ginv_guard _ _ _ _ _ _ G E0) as [GC _].
        destruct (g_q GC _ Q) as [_ [Hk _]].
        cbn in Hf. rewrite Hk, Z.eqb_refl in Hf. discriminate Hf.
  - inversion Ecs; subst c1 outs.
    apply (ex_live_client_gen y m m' lost sc n _ _ _ _ L Hn Hs Er); auto.
    + apply L.
    + intros mc kc rest E0 A _. repeat split; auto. constructor.
Qed.

Lemma ex_live_send : forall maxr y m m' lost sc n sty c1 outs,
  ex_basic y m -> ex_live y m lost sc (n + 1) -> 0 <= n ->
  ex_y_app y = None -> ex_quiet y = true ->
  ex_cli_step maxr (ex_y_c y) (ExSend sty) = (c1, outs) ->
  ex_step_ok true m (ExSend sty, outs) m' ->
  ex_live (Build_ex_sys c1 (ex_y_s y) (ex_y_c2s y ++ ex_txs outs) (ex_y_s2c y)
             (match ex_sent_tok outs with Some k => Some k | None => ex_y_app y end))
          m' lost (ex_sc_after (ExSend sty) outs sc) n.
Proof.
  intros maxr y m m' lost sc n sty c1 outs B L Hn Happ Hq Ecs Hs.
  pose proof (bs_cm _ _ B) as C.
  unfold ex_cli_step in Ecs.
  destruct (ex_c_q (ex_y_c y)) as [q |] eqn:Q.
  - (* skipped *)
    inversion Ecs; subst c1 outs. inversion Hs; subst m'. cbn [ex_sent_tok ex_txs ex_sc_of_obs ex_sc_after].
    rewrite app_nil_r. destruct y as [c s c2s s2c app]. cbn in *.
    eapply ex_live_weaken; [exact L | exact Hn | auto].
  - cbv zeta in Ecs. unfold ex_req_of in Ecs. cbn [ex_q_mid ex_q_tok ex_q_sty] in Ecs.
    inversion Ecs; subst c1 outs. clear Ecs.
    destruct (ex_quiet_inv _ Hq) as [Q1 [Q2 [Q3 Q4]]].
    assert (Hmid0 : 0 <= (ex_c_mid (ex_y_c y) + 1) mod 65536) by (apply Z.mod_pos_bound; lia).
    set (mid := (ex_c_mid (ex_y_c y) + 1) mod 65536) in *. set (tok := ex_c_tok (ex_y_c y) + 1) in *.
    inversion Hs; subst m'.
    assert (Hfresh : ~ In tok (ex_toks m)) by exact (ex_cm_next_tok _ _ C).
    assert (CM0 : forall a c0 app0, In a (ex_conmids (Build_ex_sys c0
                     (ex_y_s y) (ex_y_c2s y ++ [ExReq mid tok sty]) (ex_y_s2c y) app0)) -> False).
    { intros a c0 app0 Ha. unfold ex_conmids in Ha. cbn [ex_y_s ex_y_s2c] in Ha.
      rewrite Q2, Q3, Q4 in Ha. destruct Ha. }
    cbn [ex_sent_tok ex_txs ex_sc_of_obs ex_sc_after].
    constructor; cbn [ex_y_c ex_y_s ex_y_c2s ex_y_s2c ex_y_app ex_c_mid ex_c_lack ex_c_lcon ex_c_q
                      ex_m_reqs ex_m_stop].
    + pose proof (lv_smid L). lia.
    + apply L.
    + intros a Ha. exfalso. eapply CM0. exact Ha.
    + intros mc kc rest E. inversion E; subst. reflexivity.
    + intros k Hk Ha. unfold ex_toks in Hk. cbn in Hk. destruct Hk as [<- | Hk]; [congruence |].
      apply (lv_old L); [exact Hk | rewrite Happ; discriminate].
    + intros a mc kc rest Ha. rewrite Q2 in Ha. destruct Ha.
    + intros mc kc rest E A. inversion E; subst mc kc rest. clear E.
      unfold ex_unanswered. cbn [ex_y_c ex_y_s ex_y_c2s ex_y_s2c ex_c_lack ex_c_lcon ex_c_q ex_m_stop].
      split; [intros Hk; apply Hfresh; apply (cm_stop _ _ C); exact Hk |].
      split; [rewrite Q1; cbn; constructor; [reflexivity | constructor] |].
      split.
      { destruct (mid =? ex_c_lack (ex_y_c y)) eqn:El; [lia |]. apply Z.eqb_neq in El. congruence. }
      split; [intros a Ha; exfalso; eapply CM0; exact Ha |].
      split; [intros _ Hx; discriminate Hx |].
      split; [intros _ Hx; discriminate Hx |].
      intros _ Hseen. exfalso. apply Hfresh. eapply (lv_seen L). exact Hseen.
    + intros k E. inversion E; subst. eauto.
    + intros a k Hk. unfold ex_toks. cbn. right. apply (lv_seen L a k Hk).
Qed.

Lemma ex_live_client : forall cf y m m' lost sc n i s2c',
  ex_basic y m -> ex_ginv y m sc -> ex_live y m lost sc (n + 1) -> 0 <= n ->
  ex_enabled cf y i s2c' ->
  let r := ex_sys_client cf y i s2c' in
  ex_mon_path true m (snd r) m' -> ex_live (fst r) m' lost (ex_sc_of_obs (snd r) sc) n.
Proof.
  intros cf y m m' lost sc n i s2c' B G L Hn En. cbn zeta. unfold ex_sys_client.
  destruct (ex_cli_step (ex_cf_maxr cf) (ex_y_c y) i) as [c1 outs] eqn:Ecs.
  cbn [fst snd ex_sc_of_obs]. intros P.
  apply ex_mon_path_cons_inv in P. destruct P as [m1 [Hs P]].
  apply ex_mon_path_nil_inv in P. subst m1.
  pose proof (ex_step_reqs_inv _ _ _ _ Hs) as Er.
  destruct i as [sty | | d ok]; cbn [ex_enabled ex_sc_after] in *.
  - destruct En as [A [Q ->]]. eapply ex_live_send; eassumption.
  - destruct En as [_ ->]. destruct Er as [Er | [a [b [c [Er _]]]]]; [| discriminate Er].
    eapply ex_live_timer; eassumption.
  - destruct En as [k [E ->]]. destruct Er as [Er | [a [b [c [Er _]]]]]; [| discriminate Er].
    eapply ex_live_rx; eassumption.
Qed.

Lemma ex_full_step : forall maxr y m sc lost n a,
  ex_basic y m -> ex_ginv y m sc -> ex_live y m lost sc (n + 1) -> 0 <= n ->
  let cf := ex_cfg_guarded maxr in
  let r := ex_sys_step cf y a in
  exists m', ex_mon_path true m (snd r) m' /\ ex_basic (fst r) m' /\
             ex_ginv (fst r) m' (ex_sc_of_obs (snd r) sc) /\
             ex_live (fst r) m' (lost ++ ex_lost_step cf y a) (ex_sc_of_obs (snd r) sc) n.
Proof.
  intros maxr y m sc lost n a B G L Hn. cbn zeta. set (cf := ex_cfg_guarded maxr).
  pose proof (ex_inv_step maxr y m sc a B G) as H. cbn zeta in H. fold cf in H.
  destruct H as [m' [P [B' G']]].
  exists m'. split; [exact P |]. split; [exact B' |]. split; [exact G' |].
  destruct (ex_is_env a) eqn:Ea.
  - destruct (ex_env_frame cf y a Ea) as [E _]. rewrite E in *.
    apply ex_mon_path_nil_inv in P. subst m'. apply ex_live_env; auto.
  - replace (ex_lost_step cf y a) with (@nil Z) by (destruct a; try discriminate Ea; reflexivity).
    rewrite app_nil_r.
    destruct (ex_client_act maxr y a Ea) as [E | [i [s2c' [E En]]]]; fold cf in E; rewrite E in *.
    + apply ex_mon_path_nil_inv in P. subst m'. eapply ex_live_weaken; eauto.
    + eapply ex_live_client; eassumption.
Qed.

Lemma ex_full_run : forall maxr acts y m sc lost,
  ex_basic y m -> ex_ginv y m sc -> ex_live y m lost sc (Z.of_nat (length acts)) ->
  let cf := ex_cfg_guarded maxr in
  let r := ex_sys_run cf y acts in
  exists m' sc', ex_mon_path true m (snd r) m' /\ ex_basic (fst r) m' /\
                 ex_live (fst r) m' (lost ++ ex_lost_run cf y acts) sc' 0.
Proof.
  intros maxr acts. induction acts as [| a acts IH]; intros y m sc lost B G L; cbn zeta.
  - exists m, sc. cbn. rewrite app_nil_r. split; [constructor | split; assumption].
  - cbn [ex_sys_run ex_lost_run].
    replace (Z.of_nat (length (a :: acts))) with (Z.of_nat (length acts) + 1) in L
      by (cbn [length]; lia).
    pose proof (ex_full_step maxr y m sc lost (Z.of_nat (length acts)) a B G L (Nat2Z.is_nonneg _)) as H.
    cbn zeta in H.
    destruct (ex_sys_step (ex_cfg_guarded maxr) y a) as [y1 o] eqn:Es. cbn [fst snd] in H.
    destruct H as [m1 [P1 [B1 [G1 L1]]]].
    pose proof (IH y1 m1 _ _ B1 G1 L1) as H2. cbn zeta in H2.
    destruct (ex_sys_run (ex_cfg_guarded maxr) y1 acts) as [y2 t]. cbn [fst snd] in *.
    destruct H2 as [m2 [sc2 [P2 [B2 L2]]]].
    exists m2, sc2. split; [eapply ex_mon_path_snoc; eassumption |]. split; [exact B2 |].
    rewrite app_assoc. exact L2.
Qed.

(* what the invariant is for: at rest, every token the monitor knows has been answered or lost *)
Lemma ex_live_at_rest : forall y m lost sc n k,
  ex_live y m lost sc n -> ex_at_rest y = true -> In k (ex_toks m) ->
  In k (ex_m_stop m) \/ In k lost.
Proof.
  intros y m lost sc n k L Hrest Htok.
  unfold ex_at_rest in Hrest. apply andb_true_iff in Hrest. destruct Hrest as [Hq Hcq].
  destruct (ex_quiet_inv _ Hq) as [Q1 [Q2 [Q3 Q4]]].
  destruct (ex_y_app y) as [ka |] eqn:A; [| left; apply (lv_old L); [exact Htok | congruence]].
  destruct (Z.eq_dec k ka) as [-> | Hne]; [right | left; apply (lv_old L); [exact Htok | congruence]].
  (* the application still waits for ka: nothing is queued, so only a loss explains the rest *)
  destruct (lv_app L ka A) as [mc [rest E]].
  destruct (lv_un L mc ka rest E A) as [U1 [U2 [U3 [U4 [U5 [U6 U7]]]]]].
  assert (Qn : ex_c_q (ex_y_c y) = None).
  { destruct (ex_c_q (ex_y_c y)); [discriminate Hcq | reflexivity]. }
  destruct (Z.eq_dec sc 0) as [E0 | E0]; [exfalso; apply (U5 E0 Qn) |].
  destruct (ex_seen_dec mc ka (ex_s_seen (ex_y_s y))) as [Hs | Hs]; [| exfalso; apply (U6 Hs Qn)].
  destruct (U7 E0 Hs) as [Hx | [Hx | [[a [k' Hx]] | Hx]]].
  - rewrite Q3 in Hx. contradiction.
  - rewrite Q4 in Hx. contradiction.
  - rewrite Q2 in Hx. destruct Hx.
  - exact Hx.
Qed.

(* Liveness, for every schedule of the guarded system *)
Theorem ex_system_live : forall maxr cmid0 smid0 acts,
  0 <= smid0 -> smid0 + Z.of_nat (length acts) < 65536 ->
  let cf := ex_cfg_guarded maxr in
  let y0 := ex_sys_init cmid0 smid0 in
  let r := ex_sys_run cf y0 acts in
  ex_at_rest (fst r) = true ->
  forall mid k, ex_sent_req mid k (snd r) ->
    ex_answered k (snd r) \/ In k (ex_lost_run cf y0 acts).
Proof.
  intros maxr cmid0 smid0 acts H2 H4. cbn zeta. intros Hrest mid k Hsent.
  pose proof (ex_full_run maxr acts _ _ 0 [] (ex_basic_init cmid0 smid0) I
                          (ex_live_init cmid0 smid0 _ H2 H4)) as H. cbn zeta in H.
  destruct (ex_sys_run (ex_cfg_guarded maxr) (ex_sys_init cmid0 smid0) acts) as [y t].
  cbn [fst snd app] in *. destruct H as [m' [sc' [P [B L]]]].
  pose proof (ex_tok_in_toks _ _ _ (ex_path_reqs_sent _ _ _ _ _ _ P Hsent)) as Htok.
  destruct (ex_live_at_rest _ _ _ _ _ k L Hrest Htok) as [Hk | Hk]; [left | right; exact Hk].
  destruct (ex_path_stop_answered _ _ _ _ _ P Hk) as [[] | H]. exact H.
Qed.

(* exactly once: with nothing irrecoverably lost *)
Theorem ex_system_exactly_once : forall maxr cmid0 smid0 acts,
  0 <= smid0 -> smid0 + Z.of_nat (length acts) < 65536 ->
  let cf := ex_cfg_guarded maxr in
  let y0 := ex_sys_init cmid0 smid0 in
  let r := ex_sys_run cf y0 acts in
  ex_at_rest (fst r) = true -> ex_lost_run cf y0 acts = [] ->
  forall mid k, ex_sent_req mid k (snd r) ->
    ex_answered k (snd r) /\ (ex_concl_count k (snd r) <= 1)%nat.
Proof.
  intros maxr cmid0 smid0 acts H2 H4. cbn zeta. intros Hr Hl mid k Hs. split.
  - destruct (ex_system_live maxr cmid0 smid0 acts H2 H4 Hr mid k Hs) as [H | H]; [exact H |].
    rewrite Hl in H. destruct H.
  - apply (ex_system_safe maxr cmid0 smid0 acts).
Qed.

(* the fairness hypothesis is needed *)
Lemma ex_live_needs_fairness :
  exists acts,
    let r := ex_sys_run (ex_cfg_guarded 4) (ex_sys_init 100 7000) acts in
    ex_at_rest (fst r) = true /\ ex_sent_req 101 1 (snd r) /\
    ex_lost_run (ex_cfg_guarded 4) (ex_sys_init 100 7000) acts = [1] /\
    forall o out, In o (snd r) -> In out (snd o) -> ex_out_ends 1 out = false.
Proof.
  exists [ExASend 2; ExADelS 0; ExADropC 0; ExADelC 0 true].
  vm_compute. split; [reflexivity |]. split; [exists 2; left; reflexivity |]. split; [reflexivity |].
  intros o out [<- | [<- | []]] Hin; cbn in Hin;
    repeat (destruct Hin as [<- | Hin]; [reflexivity |]); destruct Hin.
Qed.
