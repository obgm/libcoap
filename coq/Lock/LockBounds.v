(* C13 - upper bounds for the counters of global_lock: in_callback and lock_count never exceed
   the maximal frame-stack height of the programs (hence, for structured programs, twice the
   callback nesting depth plus two).  With LockProofs.lk_counters_nonneg this shows that the
   uint32_t counters of the C code hold exactly the model's values for every program nested less
   than 2^31 deep: no wrap-around. *)
From LibcoapV Require Import Base.Tactics Lock.LockModel Lock.LockProofs.
Local Open Scope Z_scope.

Definition lk_hgt (k : lk_stack) : Z := Z.of_nat (length k).

(* highest frame stack seen while the bracket checker runs p from k *)
Fixpoint lk_peak (k : lk_stack) (p : list lk_op) : Z :=
  match p with
  | [] => lk_hgt k
  | o :: tl => match lk_sstep k o with
               | Some k' => Z.max (lk_hgt k) (lk_peak k' tl)
               | None => lk_hgt k
               end
  end.

Lemma lk_hgt_cons : forall f k, lk_hgt (f :: k) = 1 + lk_hgt k.
Proof. intros. unfold lk_hgt. cbn [length]. lia. Qed.

Lemma lk_peak_ge : forall p k, lk_hgt k <= lk_peak k p.
Proof. destruct p; intros; cbn; [lia|]. destruct (lk_sstep k l); lia. Qed.

Lemma lk_peak_app : forall p q k,
  lk_peak k (p ++ q) = match lk_srun k p with
                       | Some k' => Z.max (lk_peak k p) (lk_peak k' q)
                       | None => lk_peak k p
                       end.
Proof.
  induction p as [|o p IH]; intros q k.
  - cbn. pose proof (lk_peak_ge q k). lia.
  - cbn [app lk_peak lk_srun]. destruct (lk_sstep k o) as [k1|]; auto.
    rewrite IH. destruct (lk_srun k1 p); lia.
Qed.

(* no instruction raises a counter by more than one *)
Lemma lk_after_le : forall t o l,
  lk_incb (lk_after t o l) <= lk_incb l + 1 /\ lk_cnt (lk_after t o l) <= lk_cnt l + 1.
Proof.
  intros t o l. unfold lk_after. destruct o; cbn.
  - unfold lk_lock_func.
    destruct (negb (lk_incb l =? 0) && (lk_pid l =? t)); [|destruct (lk_held l)]; cbn; lia.
  - unfold lk_unlock_func. destruct (negb (lk_incb l =? 0)); cbn; lia.
  - lia.
  - lia.
  - lia.
  - lia.
Qed.

Lemma lk_own_le_hgt : forall t k,
  lk_incb (lk_own t k) <= lk_hgt k /\ lk_cnt (lk_own t k) <= lk_hgt k.
Proof.
  induction k as [|f r IH].
  - cbn. unfold lk_hgt. cbn. lia.
  - cbn [lk_own]. pose proof (lk_after_le t (lk_open f) (lk_own t r)). rewrite lk_hgt_cons. lia.
Qed.

Section Bounded.
Variable progs : list (list lk_op).
Hypothesis progs_wf : Forall (fun p => lk_wfprog p = true) progs.
Variable D : Z.
Hypothesis D_nonneg : 0 <= D.
Hypothesis progs_peak : Forall (fun p => lk_peak [] p <= D) progs.

(* the lock is what the history of some thread makes it (lk_inv): its counters are bounded by
   the height of that thread's frame stack, which the thread reached while running a prefix of
   its program *)
Theorem lk_counters_bounded : forall s,
  lk_reach (lk_init progs) s ->
  0 <= lk_incb (lk_l s) <= D /\ 0 <= lk_cnt (lk_l s) <= D.
Proof.
  intros s R.
  pose proof (lk_counters_nonneg progs progs_wf s R) as (A & B & _).
  destruct (lk_inv_reach _ progs_wf s R) as (stk & TO & w & L & _).
  destruct (TO w) as (done & E & RUN).
  assert (PK : lk_peak [] (nth_default [] progs w) <= D).
  { unfold nth_default. destruct (nth_error progs w) as [p|] eqn:N; [|exact D_nonneg].
    rewrite Forall_forall in progs_peak. apply progs_peak. eapply nth_error_In; eauto. }
  rewrite E, lk_peak_app, RUN in PK.
  pose proof (lk_peak_ge (nth_default [] (lk_thr s) w) (stk w)).
  pose proof (lk_own_le_hgt (lk_tid w) (stk w)) as [I C]. rewrite <- L in I, C. lia.
Qed.

End Bounded.

(* frame-stack height a structured program needs: one frame per call, per callback, per access *)
Fixpoint lk_height (p : lk_calls) : Z :=
  match p with
  | LkDone => 0
  | LkCall b n => Z.max (1 + lk_height_items b) (lk_height n)
  end
with lk_height_items (b : lk_items) : Z :=
  match b with
  | LkRet => 0
  | LkWork n => Z.max 1 (lk_height_items n)
  | LkCb _ ap n => Z.max (1 + lk_height ap) (lk_height_items n)
  end.

Lemma lk_height_nonneg :
  (forall p, 0 <= lk_height p) /\ (forall b, 0 <= lk_height_items b).
Proof. apply lk_prog_mutind; intros; cbn [lk_height lk_height_items]; lia. Qed.

Lemma lk_peak_bracket : forall f k p q,
  lk_fits f k = true -> lk_srun (f :: k) p = Some (f :: k) ->
  lk_peak k (lk_open f :: p ++ lk_close f :: q) = Z.max (lk_peak (f :: k) p) (lk_peak k q).
Proof.
  intros f k p q F RUN. cbn [lk_peak]. rewrite (lk_sstep_open _ _ F), lk_peak_app, RUN.
  cbn [lk_peak]. rewrite lk_sstep_close.
  pose proof (lk_peak_ge p (f :: k)). pose proof (lk_peak_ge q k). rewrite lk_hgt_cons in *. lia.
Qed.

Section Structured.
Variable c : lk_cfg.
Hypothesis c_wf : lk_cfg_wf c = true.

Lemma lk_flat_peak :
  (forall p k, lk_appmode k = true -> lk_peak k (lk_flat c p) <= lk_hgt k + lk_height p) /\
  (forall b k, lk_peak (FCall :: k) (lk_flat_items c b)
               <= lk_hgt (FCall :: k) + lk_height_items b).
Proof.
  destruct lk_height_nonneg as [HP HI]. destruct (lk_flat_balanced c c_wf) as [BP BI].
  apply lk_prog_mutind.
  - intros k A. cbn. lia.
  - intros b IHb n IHn k A. rewrite (lk_flat_call c c_wf), lk_peak_bracket; auto.
    specialize (IHb k). specialize (IHn k A). specialize (HI b). specialize (HP n).
    cbn [lk_height]. rewrite lk_hgt_cons in *. lia.
  - intros k. cbn. lia.
  - intros n IHn k. cbn [lk_flat_items lk_peak lk_sstep lk_height_items].
    specialize (IHn k). specialize (HI n). rewrite !lk_hgt_cons in *. lia.
  - intros kd ap IHa n IHn k.
    assert (F : lk_fits (lk_cb_frame kd) (FCall :: k) = true) by (destruct kd; reflexivity).
    assert (A : lk_appmode (lk_cb_frame kd :: FCall :: k) = true) by (destruct kd; reflexivity).
    rewrite (lk_flat_cb c c_wf), lk_peak_bracket; auto.
    specialize (IHa _ A). specialize (IHn k). specialize (HI n). specialize (HP ap).
    cbn [lk_height_items]. rewrite !lk_hgt_cons in *. lia.
Qed.

(* the counters are bounded by the height of the programs, for every configuration that passes
   lk_cfg_wf *)
Theorem lk_cfg_counters_bounded : forall (progs : list lk_calls) D s,
  0 <= D -> Forall (fun p => lk_height p <= D) progs ->
  lk_reach (lk_init (map (lk_flat c) progs)) s ->
  0 <= lk_incb (lk_l s) <= D /\ 0 <= lk_cnt (lk_l s) <= D.
Proof.
  intros progs D s D0 H R.
  apply (lk_counters_bounded (map (lk_flat c) progs) (lk_flat_all_wf c c_wf progs) D D0); auto.
  apply Forall_forall. intros p I. apply in_map_iff in I. destruct I as (q & <- & IQ).
  rewrite Forall_forall in H. specialize (H q IQ).
  pose proof (proj1 lk_flat_peak q [] eq_refl). unfold lk_hgt in *. cbn in *. lia.
Qed.

End Structured.

(* non-vacuity / tightness: the nested example reaches in_callback = 2 = lock_count with
   height 6 *)
Example lk_height_example : lk_height lk_ex_nested = 6.
Proof. reflexivity. Qed.
