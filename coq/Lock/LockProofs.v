(* C13 - proofs about the lock model of LockModel.v: the invariant that ties every thread's
   position in its (well-bracketed) program to the state of global_lock, and from it mutual
   exclusion, re-entry, full release and absence of deadlock for any number of threads. *)
From LibcoapV Require Import Base.Tactics Lock.LockModel.
Local Open Scope Z_scope.

(* closes the conjunctions of facts about the fields of a lock *)
Ltac lk_fin :=
  repeat split; intros; cbn [lk_held lk_pid lk_incb lk_cnt] in *; try congruence; try lia.

(* The bracket checker lk_sstep pushes a frame or pops the top one: each kind of frame has one
   instruction that opens it and one that closes it. *)
Definition lk_open (f : lk_frame) : lk_op :=
  match f with FCall => LkLock LkTApi | FKeep => LkInc | FRel => LkUnlock LkTCb | FWork => LkWb end.

Definition lk_close (f : lk_frame) : lk_op :=
  match f with FCall => LkUnlock LkTApi | FKeep => LkDec | FRel => LkLock LkTCb | FWork => LkWe end.

Definition lk_appmode (k : lk_stack) : bool :=
  match k with [] | FKeep :: _ | FRel :: _ => true | _ => false end.

(* application code may only call the API; everything else is opened by library code *)
Definition lk_fits (f : lk_frame) (k : lk_stack) : bool :=
  match f, k with
  | FCall, _ => lk_appmode k
  | _, FCall :: _ => true
  | _, _ => false
  end.

Fixpoint lk_stack_ok (k : lk_stack) : bool :=
  match k with
  | [] => true
  | f :: r => lk_fits f r && lk_stack_ok r
  end.

Lemma lk_sstep_open : forall f k, lk_fits f k = true -> lk_sstep k (lk_open f) = Some (f :: k).
Proof. intros [] [|[] r] F; try discriminate F; reflexivity. Qed.

Lemma lk_sstep_close : forall f k, lk_sstep (f :: k) (lk_close f) = Some k.
Proof. intros []; reflexivity. Qed.

Lemma lk_sstep_inv : forall k o k', lk_sstep k o = Some k' ->
  exists f, (o = lk_open f /\ lk_fits f k = true /\ k' = f :: k) \/ (o = lk_close f /\ k = f :: k').
Proof.
  intros k o k' S.
  destruct o as [[]|[]| | | |];
    [exists FCall|exists FRel|exists FCall|exists FRel|exists FKeep|exists FKeep|exists FWork
    |exists FWork];
    destruct k as [|[] r]; try discriminate S; injection S as <-; auto.
Qed.

Lemma lk_sstep_ok : forall k o k',
  lk_stack_ok k = true -> lk_sstep k o = Some k' -> lk_stack_ok k' = true.
Proof.
  intros k o k' OK S. destruct (lk_sstep_inv _ _ _ S) as (f & [(_ & F & ->)|(_ & ->)]); cbn in *.
  - rewrite F. exact OK.
  - apply andb_true_iff in OK. apply OK.
Qed.

Definition lk_after (t : Z) (o : lk_op) (l : lk_lock) : lk_lock :=
  match lk_exec t o l with Some l' => l' | None => l end.

(* global_lock as thread t's own history leaves it: the instructions that opened its frames,
   replayed from the outermost inwards on the initial lock *)
Fixpoint lk_own (t : Z) (k : lk_stack) : lk_lock :=
  match k with
  | [] => lk_lock0
  | f :: r => lk_after t (lk_open f) (lk_own t r)
  end.

(* what a lock that thread t may regard as its own looks like: the counters are not negative,
   lock_count is only used while in_callback is non-zero, and the mutex is held by t, or the
   whole lock is in its initial state *)
Definition lk_mine (t : Z) (l : lk_lock) : Prop :=
  0 <= lk_incb l /\ 0 <= lk_cnt l /\ (lk_incb l = 0 -> lk_cnt l = 0) /\
  (lk_held l = true -> lk_pid l = t) /\ (lk_held l = false -> l = lk_lock0).

(* coap_lock_lock_func succeeds for a caller that finds the lock initial, or held by itself from
   inside a callback; the matching unlock call restores the lock *)
Lemma lk_call_mine : forall t l, lk_mine t l -> (lk_held l = true -> 1 <= lk_incb l) ->
  exists l', lk_lock_func t l = Some l' /\ lk_unlock_func l' = l /\
    lk_mine t l' /\ lk_held l' = true /\ (lk_incb l' <> 0 -> 1 <= lk_cnt l').
Proof.
  intros t [[] p i c] (I0 & C0 & IC & PID & FREE) IN; unfold lk_lock_func, lk_unlock_func;
    cbn in *.
  - specialize (IN eq_refl). rewrite (PID eq_refl), Z.eqb_refl.
    replace (i =? 0) with false by lia. cbn. eexists. split; [reflexivity|]. cbn.
    replace (i =? 0) with false by lia. cbn. split; [f_equal; lia|]. lk_fin.
  - injection (FREE eq_refl) as -> -> ->. cbn. eexists. split; [reflexivity|].
    split; [reflexivity|]. lk_fin.
Qed.

(* the lock call that ends an unlocked callback restores what the unlock call changed *)
Lemma lk_relock : forall t l,
  lk_held l = true -> lk_pid l = t -> lk_lock_func t (lk_unlock_func l) = Some l.
Proof.
  intros t [h p i c] H P. cbn in H, P. subst h p. unfold lk_unlock_func, lk_lock_func.
  cbn [lk_incb]. destruct (i =? 0) eqn:E; cbn [negb lk_held lk_pid lk_incb lk_cnt]; rewrite E.
  - reflexivity.
  - rewrite Z.eqb_refl. cbn [negb andb]. do 2 f_equal. lia.
Qed.

Lemma lk_lock_blocked : forall t g l,
  lk_held l = true -> lk_pid l <> t -> lk_exec t (LkLock g) l = None.
Proof.
  intros t g l H P. cbn. unfold lk_lock_func. rewrite H.
  replace (lk_pid l =? t) with false by lia. rewrite andb_false_r. reflexivity.
Qed.

(* What a well-bracketed history implies for the lock.  The last three lines are about the top
   frame: library code and stay-locked callbacks run with the mutex held; application code that
   holds it runs inside a stay-locked callback; a call made from there has been counted. *)
Lemma lk_own_props : forall t k, lk_stack_ok k = true ->
  lk_mine t (lk_own t k) /\
  (match k with [] | FRel :: _ => True | _ => lk_held (lk_own t k) = true end) /\
  (lk_appmode k = true -> lk_held (lk_own t k) = true -> 1 <= lk_incb (lk_own t k)) /\
  (lk_appmode k = false -> lk_incb (lk_own t k) <> 0 -> 1 <= lk_cnt (lk_own t k)).
Proof.
  induction k as [|f r IH]; intros OK.
  - unfold lk_mine, lk_lock0. cbn. lk_fin.
  - cbn in OK. apply andb_true_iff in OK. destruct OK as [F OK]. specialize (IH OK).
    cbn [lk_own]. set (l := lk_own t r) in *. clearbody l.
    destruct IH as (M & TOP & APP & LIB). unfold lk_after. destruct f; cbn [lk_open lk_exec].
    1:{ destruct (lk_call_mine t l M (APP F)) as (l' & -> & _ & M' & H' & C').
        split; [exact M'|]. cbn [lk_appmode]. lk_fin. }
    (* the other frames sit on a call *)
    all: destruct r as [|[] r]; try discriminate F; destruct M as (I0 & C0 & IC & PID & FREE);
      cbn in TOP; specialize (PID TOP); specialize (LIB eq_refl).
    + cbn. lk_fin.
    + unfold lk_unlock_func. destruct (lk_incb l =? 0) eqn:E; cbn.
      * assert (Z : lk_incb l = 0) by lia. rewrite Z, (IC Z). lk_fin.
      * lk_fin.
    + cbn. lk_fin.
Qed.

(* an API call made by application code is granted, and its return restores the lock *)
Lemma lk_own_call : forall t r, lk_stack_ok r = true -> lk_appmode r = true ->
  lk_lock_func t (lk_own t r) = Some (lk_own t (FCall :: r)) /\
  lk_unlock_func (lk_own t (FCall :: r)) = lk_own t r.
Proof.
  intros t r OK A. destruct (lk_own_props t r OK) as (M & _ & APP & _).
  destruct (lk_call_mine t _ M (APP A)) as (l' & E & U & _).
  cbn [lk_own lk_open]. unfold lk_after. cbn [lk_exec]. rewrite E. auto.
Qed.

(* A thread whose history the lock reflects is never refused, and the lock then reflects its
   new history: opening a frame is the definition of lk_own, closing one undoes it. *)
Lemma lk_own_step : forall t k o k',
  lk_stack_ok k = true -> lk_sstep k o = Some k' ->
  lk_exec t o (lk_own t k) = Some (lk_own t k').
Proof.
  intros t k o k' OK S.
  destruct (lk_sstep_inv _ _ _ S) as (f & [(-> & F & ->)|(-> & ->)]).
  - destruct f; try reflexivity. apply lk_own_call; auto.
  - cbn in OK. apply andb_true_iff in OK. destruct OK as [F OK]. destruct f.
    + cbn [lk_close lk_exec]. f_equal. apply lk_own_call; auto.
    + cbn. destruct (lk_own t k'); cbn. do 2 f_equal. lia.
    + destruct k' as [|[] r]; try discriminate F.
      destruct (lk_own_props t _ OK) as ((_ & _ & _ & PID & _) & TOP & _).
      apply (lk_relock t (lk_own t (FCall :: r))); auto.
    + reflexivity.
Qed.

(* a thread that does not hold the mutex can only be about to take it *)
Lemma lk_waiter_op : forall t k o k',
  lk_stack_ok k = true -> lk_sstep k o = Some k' -> lk_held (lk_own t k) = false ->
  exists g, o = LkLock g.
Proof.
  intros t k o k' OK S H.
  destruct (lk_own_props t k OK) as (_ & TOP & _).
  destruct (lk_sstep_inv _ _ _ S) as (f & [(-> & F & ->)|(-> & ->)]);
    destruct f; try (eexists; reflexivity); try congruence;
    destruct k as [|[] r]; try discriminate F; congruence.
Qed.

Lemma lk_waiter_blocked : forall t k o k' l,
  lk_stack_ok k = true -> lk_sstep k o = Some k' -> lk_held (lk_own t k) = false ->
  lk_held l = true -> lk_pid l <> t -> lk_exec t o l = None.
Proof.
  intros t k o k' l OK S H HL P. destruct (lk_waiter_op _ _ _ _ OK S H) as (g & ->).
  apply lk_lock_blocked; auto.
Qed.

Lemma lk_upd_length : forall A (l : list A) i x, length (lk_upd l i x) = length l.
Proof. induction l; destruct i; cbn; auto. Qed.

Lemma lk_upd_same : forall A (l : list A) i x y,
  nth_error l i = Some y -> nth_error (lk_upd l i x) i = Some x.
Proof. induction l; destruct i; cbn; intros; try discriminate; eauto. Qed.

Lemma lk_upd_other : forall A (l : list A) i j x,
  j <> i -> nth_error (lk_upd l i x) j = nth_error l j.
Proof.
  induction l; destruct i, j; cbn; intros; auto; try congruence.
Qed.

Lemma lk_tid_inj : forall i j, lk_tid i = lk_tid j -> i = j.
Proof. unfold lk_tid; intros; lia. Qed.

Lemma lk_srun_cons : forall k o p r,
  lk_srun k (o :: p) = Some r -> exists k', lk_sstep k o = Some k' /\ lk_srun k' p = Some r.
Proof. intros k o p r H. cbn in H. destruct (lk_sstep k o); [eauto|discriminate]. Qed.

Lemma lk_srun_app : forall p q k,
  lk_srun k (p ++ q) = match lk_srun k p with Some k' => lk_srun k' q | None => None end.
Proof.
  induction p as [|o p IH]; intros q k; cbn; auto.
  destruct (lk_sstep k o); auto.
Qed.

Lemma lk_srun_ok : forall p k k',
  lk_stack_ok k = true -> lk_srun k p = Some k' -> lk_stack_ok k' = true.
Proof.
  induction p as [|o p IH]; intros k k' OK RUN.
  - cbn in RUN. congruence.
  - destruct (lk_srun_cons _ _ _ _ RUN) as (k1 & SS & RUN1). eauto using lk_sstep_ok.
Qed.

Lemma lk_step_inv : forall i s s', lk_step i s = Some s' ->
  exists o rest l', nth_error (lk_thr s) i = Some (o :: rest) /\
    lk_exec (lk_tid i) o (lk_l s) = Some l' /\
    s' = {| lk_l := l'; lk_thr := lk_upd (lk_thr s) i rest |}.
Proof.
  intros i s s' ST. unfold lk_step in ST.
  destruct (nth_error (lk_thr s) i) as [[|o rest]|]; try discriminate.
  destruct (lk_exec (lk_tid i) o (lk_l s)) as [l'|] eqn:EX; try discriminate.
  injection ST as <-. exists o, rest, l'. auto.
Qed.

Lemma lk_run_reach : forall s0 sched s, lk_reach s0 s -> lk_reach s0 (lk_run sched s).
Proof.
  induction sched as [|i tl IH]; intros s R; cbn; auto.
  destruct (lk_step i s) eqn:ST; auto. apply IH. eapply lk_reach_step; eauto.
Qed.

Lemma lk_not_done : forall s, lk_all_doneb s = false ->
  exists i o rest, nth_error (lk_thr s) i = Some (o :: rest).
Proof.
  intros s. unfold lk_all_doneb. induction (lk_thr s) as [|[|o r] tl IH]; cbn; intros ND.
  - discriminate.
  - destruct (IH ND) as (i & N). exists (S i). exact N.
  - exists 0%nat, o, r. reflexivity.
Qed.

Lemma lk_done_nth : forall s i, lk_all_doneb s = true -> nth_default [] (lk_thr s) i = [].
Proof.
  intros s i D. unfold lk_all_doneb in D. rewrite forallb_forall in D. unfold nth_default.
  destruct (nth_error (lk_thr s) i) as [p|] eqn:N; auto.
  specialize (D _ (nth_error_In _ _ N)). destruct p; [reflexivity|discriminate].
Qed.

(* thread i has executed a prefix of its program, and stk i is where the bracket checker stands
   after that prefix (a thread that does not exist has the empty program) *)
Definition lk_thr_ok (progs : list (list lk_op)) (stk : nat -> lk_stack)
    (thr : list (list lk_op)) : Prop :=
  forall i, exists done,
    nth_default [] progs i = done ++ nth_default [] thr i /\ lk_srun [] done = Some (stk i).

(* the lock is what thread i's history makes it, and by their histories no other thread holds
   the mutex; when the mutex is free this is true of every i (lk_lock_at_cases) *)
Definition lk_lock_at (stk : nat -> lk_stack) (l : lk_lock) (i : nat) : Prop :=
  l = lk_own (lk_tid i) (stk i) /\ forall j, j <> i -> lk_held (lk_own (lk_tid j) (stk j)) = false.

Definition lk_inv (progs : list (list lk_op)) (s : lk_state) : Prop :=
  exists stk, lk_thr_ok progs stk (lk_thr s) /\ exists w, lk_lock_at stk (lk_l s) w.

Section Reachable.
Variable progs : list (list lk_op).
Hypothesis progs_wf : Forall (fun p => lk_wfprog p = true) progs.

Lemma lk_thr_ok_stack : forall stk thr i, lk_thr_ok progs stk thr ->
  lk_stack_ok (stk i) = true /\ lk_srun (stk i) (nth_default [] thr i) = Some [].
Proof.
  intros stk thr i TO. destruct (TO i) as (done & E & RUN). split.
  - apply (lk_srun_ok done []); auto.
  - assert (W : lk_srun [] (nth_default [] progs i) = Some []).
    { unfold nth_default. destruct (nth_error progs i) as [p|] eqn:N; auto.
      rewrite Forall_forall in progs_wf. specialize (progs_wf p (nth_error_In _ _ N)).
      unfold lk_wfprog in progs_wf. destruct (lk_srun [] p) as [[|]|]; try discriminate.
      reflexivity. }
    rewrite E, lk_srun_app, RUN in W. exact W.
Qed.

Lemma lk_thr_ok_next : forall stk thr i o rest,
  lk_thr_ok progs stk thr -> nth_error thr i = Some (o :: rest) ->
  lk_stack_ok (stk i) = true /\ exists k', lk_sstep (stk i) o = Some k'.
Proof.
  intros stk thr i o rest TO N. destruct (lk_thr_ok_stack stk thr i TO) as (OK & RUN).
  unfold nth_default in RUN. rewrite N in RUN.
  destruct (lk_srun_cons _ _ _ _ RUN) as (k' & SS & _). eauto.
Qed.

Lemma lk_thr_ok_mine : forall stk thr i,
  lk_thr_ok progs stk thr -> lk_mine (lk_tid i) (lk_own (lk_tid i) (stk i)).
Proof. intros stk thr i TO. apply lk_own_props. apply (lk_thr_ok_stack _ _ i TO). Qed.

Lemma lk_lock_at_mine : forall stk thr l w,
  lk_thr_ok progs stk thr -> lk_lock_at stk l w -> lk_mine (lk_tid w) l.
Proof. intros stk thr l w TO (-> & _). exact (lk_thr_ok_mine _ _ w TO). Qed.

(* every thread either may take the lock for its own, or does not hold a mutex that another
   thread holds *)
Lemma lk_lock_at_cases : forall stk thr l w j, lk_thr_ok progs stk thr -> lk_lock_at stk l w ->
  lk_lock_at stk l j \/
  (lk_held l = true /\ lk_pid l <> lk_tid j /\ lk_held (lk_own (lk_tid j) (stk j)) = false).
Proof.
  intros stk thr l w j TO LW. destruct (Nat.eq_dec j w) as [->|NE]; [left; exact LW|].
  destruct (lk_lock_at_mine _ _ _ _ TO LW) as (_ & _ & _ & PID & FREE). destruct LW as (L & NH).
  destruct (lk_held l) eqn:H.
  - right. split; auto. split; auto. rewrite (PID eq_refl). intro E. apply lk_tid_inj in E. auto.
  - left. split.
    + destruct (lk_thr_ok_mine _ _ j TO) as (_ & _ & _ & _ & FREEj).
      rewrite (FREE eq_refl). symmetry. auto.
    + intros x NX. destruct (Nat.eq_dec x w) as [->|]; [congruence|auto].
Qed.

Lemma lk_inv_init : lk_inv progs (lk_init progs).
Proof.
  exists (fun _ => []). split.
  - intros i. exists []. auto.
  - exists 0%nat. split; auto.
Qed.

Lemma lk_inv_step : forall s i s', lk_inv progs s -> lk_step i s = Some s' -> lk_inv progs s'.
Proof.
  intros s i s' (stk & TO & w & LW) ST.
  destruct (lk_step_inv _ _ _ ST) as (o & rest & l' & N & EX & ->).
  destruct (lk_thr_ok_next _ _ _ _ _ TO N) as (OKi & k' & SS).
  exists (fun j => if Nat.eqb j i then k' else stk j). cbn [lk_l lk_thr]. split.
  - intros j. destruct (TO j) as (done & E & RUN). unfold nth_default in *.
    destruct (Nat.eqb_spec j i) as [->|NE].
    + exists (done ++ [o]). rewrite (lk_upd_same _ _ _ _ _ N), <- app_assoc, lk_srun_app, RUN.
      rewrite N in E. cbn. rewrite SS. auto.
    + exists done. rewrite lk_upd_other by auto. auto.
  - (* i was not refused: the lock was free or its own, and now is what its new history says *)
    destruct (lk_lock_at_cases _ _ _ _ i TO LW) as [(L & NH)|(H & P & NHi)].
    2:{ rewrite (lk_waiter_blocked _ _ _ _ _ OKi SS NHi H P) in EX. discriminate. }
    rewrite L, (lk_own_step _ _ _ _ OKi SS) in EX. injection EX as <-.
    exists i. split; [rewrite Nat.eqb_refl; reflexivity|].
    intros j NE. destruct (Nat.eqb_spec j i); [contradiction|auto].
Qed.

Lemma lk_inv_reach : forall s, lk_reach (lk_init progs) s -> lk_inv progs s.
Proof.
  intros s R. induction R; [apply lk_inv_init|eapply lk_inv_step; eauto].
Qed.

(* a thread the lock can be taken for moves whenever it has an instruction left *)
Lemma lk_own_runs : forall s stk i o rest,
  lk_thr_ok progs stk (lk_thr s) -> lk_l s = lk_own (lk_tid i) (stk i) ->
  nth_error (lk_thr s) i = Some (o :: rest) -> exists s', lk_step i s = Some s'.
Proof.
  intros s stk i o rest TO L N. destruct (lk_thr_ok_next _ _ _ _ _ TO N) as (OKi & k' & SS).
  unfold lk_step. rewrite N, L, (lk_own_step _ _ _ _ OKi SS). eauto.
Qed.

(* a thread in the middle of an access to library state owns the mutex *)
Lemma lk_access_owns : forall s i,
  lk_reach (lk_init progs) s -> lk_accessing s i ->
  lk_held (lk_l s) = true /\ lk_pid (lk_l s) = lk_tid i.
Proof.
  intros s i R (rest & N). destruct (lk_inv_reach _ R) as (stk & TO & w & LW).
  destruct (lk_thr_ok_next _ _ _ _ _ TO N) as (OKi & k' & SS).
  destruct (lk_own_props (lk_tid i) _ OKi) as ((_ & _ & _ & PID & _) & TOP & _).
  assert (H : lk_held (lk_own (lk_tid i) (stk i)) = true).
  { cbn in SS. destruct (stk i) as [|[] r]; try discriminate SS. exact TOP. }
  destruct (lk_lock_at_cases _ _ _ _ i TO LW) as [(L & _)|(_ & _ & NH)]; [|congruence].
  rewrite L. auto.
Qed.

(* mutual exclusion: never two threads inside an access to library state *)
Theorem lk_mutex : forall s i j,
  lk_reach (lk_init progs) s -> lk_accessing s i -> lk_accessing s j -> i = j.
Proof.
  intros s i j R Ai Aj.
  destruct (lk_access_owns s i R Ai) as (_ & Pi).
  destruct (lk_access_owns s j R Aj) as (_ & Pj).
  apply lk_tid_inj. congruence.
Qed.

(* a thread that owns the mutex is never refused, whatever it does next (in particular a nested
   API call made from a callback); and it always has something left to do *)
Theorem lk_owner_runs : forall s i,
  lk_reach (lk_init progs) s -> lk_held (lk_l s) = true -> lk_pid (lk_l s) = lk_tid i ->
  exists s', lk_step i s = Some s'.
Proof.
  intros s i R H P. destruct (lk_inv_reach _ R) as (stk & TO & w & LW).
  destruct (lk_lock_at_cases _ _ _ _ i TO LW) as [(L & _)|(_ & NP & _)]; [|contradiction].
  destruct (lk_thr_ok_stack _ _ i TO) as (_ & RUN). unfold nth_default in RUN.
  destruct (nth_error (lk_thr s) i) as [[|o rest]|] eqn:N; [| eapply lk_own_runs; eauto |];
    (* nothing left to do: the frame stack is empty and the thread holds nothing *)
    injection RUN as E; rewrite L, E in H; discriminate.
Qed.

(* whenever the mutex is free, the whole lock is back in its initial state *)
Theorem lk_free_is_initial : forall s,
  lk_reach (lk_init progs) s -> lk_held (lk_l s) = false -> lk_l s = lk_lock0.
Proof.
  intros s R. destruct (lk_inv_reach _ R) as (stk & TO & w & LW).
  apply (lk_lock_at_mine _ _ _ _ TO LW).
Qed.

(* the counters never go below zero (no wrap of the unsigned C counters), and lock_count is
   only used while in_callback is non-zero *)
Theorem lk_counters_nonneg : forall s,
  lk_reach (lk_init progs) s ->
  0 <= lk_incb (lk_l s) /\ 0 <= lk_cnt (lk_l s) /\ (lk_incb (lk_l s) = 0 -> lk_cnt (lk_l s) = 0).
Proof.
  intros s R. destruct (lk_inv_reach _ R) as (stk & TO & w & LW).
  destruct (lk_lock_at_mine _ _ _ _ TO LW) as (I0 & C0 & IC & _). auto.
Qed.

(* no deadlock: unless every thread has returned, some thread can move - the owner if the
   mutex is held, any unfinished thread if it is free *)
Theorem lk_progress : forall s,
  lk_reach (lk_init progs) s -> lk_all_doneb s = false -> exists i s', lk_step i s = Some s'.
Proof.
  intros s R ND. destruct (lk_inv_reach _ R) as (stk & TO & w & LW).
  destruct (lk_held (lk_l s)) eqn:H.
  - exists w. apply lk_owner_runs; auto. apply (lk_lock_at_mine _ _ _ _ TO LW). exact H.
  - destruct (lk_not_done s ND) as (i & o & rest & N). exists i.
    destruct (lk_lock_at_cases _ _ _ _ i TO LW) as [(L & _)|(H' & _)]; [|congruence].
    eapply lk_own_runs; eauto.
Qed.

(* "no thread blocks forever once the others return": the last thread standing always runs *)
Theorem lk_last_thread_runs : forall s i o rest,
  lk_reach (lk_init progs) s ->
  nth_error (lk_thr s) i = Some (o :: rest) ->
  (forall j, j <> i -> nth_error (lk_thr s) j = Some [] \/ nth_error (lk_thr s) j = None) ->
  exists s', lk_step i s = Some s'.
Proof.
  intros s i o rest R N OTH.
  assert (ND : lk_all_doneb s = false).
  { unfold lk_all_doneb. apply not_true_is_false. intro A.
    rewrite forallb_forall in A. specialize (A _ (nth_error_In _ _ N)). discriminate. }
  destruct (lk_progress s R ND) as (j & s' & ST).
  destruct (Nat.eq_dec j i) as [->|NE]; [eauto|].
  unfold lk_step in ST. destruct (OTH j NE) as [E|E]; rewrite E in ST; discriminate.
Qed.

Theorem lk_done_released : forall s,
  lk_reach (lk_init progs) s -> lk_all_doneb s = true -> lk_l s = lk_lock0.
Proof.
  intros s R D. destruct (lk_inv_reach _ R) as (stk & TO & w & L & _).
  destruct (lk_thr_ok_stack _ _ w TO) as (_ & RUN).
  rewrite (lk_done_nth s w D) in RUN. injection RUN as E. rewrite L, E. reflexivity.
Qed.

(* while a thread owns the mutex no other thread can take a step *)
Lemma lk_owner_excludes : forall s i j,
  lk_reach (lk_init progs) s -> lk_pid (lk_l s) = lk_tid i -> j <> i -> lk_step j s = None.
Proof.
  intros s i j R P NE. destruct (lk_inv_reach _ R) as (stk & TO & w & LW).
  destruct (lk_lock_at_cases _ _ _ _ j TO LW) as [LJ|(H & NP & NH)].
  - (* the lock cannot be j's: it would be free, or have j's id *)
    destruct (lk_lock_at_mine _ _ _ _ TO LJ) as (_ & _ & _ & PID & FREE).
    destruct (lk_held (lk_l s)).
    + rewrite (PID eq_refl) in P. apply lk_tid_inj in P. congruence.
    + rewrite (FREE eq_refl) in P. unfold lk_tid in P. cbn in P. lia.
  - unfold lk_step. destruct (nth_error (lk_thr s) j) as [[|o rest]|] eqn:N; auto.
    destruct (lk_thr_ok_next _ _ _ _ _ TO N) as (OKj & k' & SS).
    rewrite (lk_waiter_blocked _ _ _ _ _ OKj SS NH H NP). reflexivity.
Qed.

End Reachable.

Definition lk_total (s : lk_state) : nat :=
  fold_right (fun p a => (length p + a)%nat) 0%nat (lk_thr s).

Lemma lk_total_upd : forall (thr : list (list lk_op)) i o rest,
  nth_error thr i = Some (o :: rest) ->
  S (fold_right (fun p a => (length p + a)%nat) 0%nat (lk_upd thr i rest)) =
  fold_right (fun p a => (length p + a)%nat) 0%nat thr.
Proof.
  induction thr as [|p tl IH]; intros i o rest N; destruct i; cbn in *; try discriminate.
  - injection N as ->. cbn. lia.
  - rewrite <- (IH _ _ _ N). lia.
Qed.

Lemma lk_step_total : forall i s s', lk_step i s = Some s' -> S (lk_total s') = lk_total s.
Proof.
  intros i s s' ST. destruct (lk_step_inv _ _ _ ST) as (o & rest & l' & N & _ & ->).
  eapply lk_total_upd; eauto.
Qed.

Section Completes.
Variable progs : list (list lk_op).
Hypothesis progs_wf : Forall (fun p => lk_wfprog p = true) progs.

(* from every reachable state there is a schedule that lets every thread return.  Every step
   consumes one instruction, so together with lk_progress: every maximal execution is finite and
   ends with all calls completed (no deadlock and no livelock). *)
Theorem lk_completes : forall s,
  lk_reach (lk_init progs) s ->
  exists sched, lk_reach (lk_init progs) (lk_run sched s) /\
                lk_all_doneb (lk_run sched s) = true.
Proof.
  intros s R. remember (lk_total s) as n eqn:T. revert s R T.
  induction n as [|n IH]; intros s R T; destruct (lk_all_doneb s) eqn:D.
  1, 3: exists []; auto.
  all: destruct (lk_progress progs progs_wf s R D) as (i & s' & ST);
    pose proof (lk_step_total _ _ _ ST) as T'.
  - lia.
  - destruct (IH s' (lk_reach_step _ _ _ _ R ST)) as (sched & R' & D'); [lia|].
    exists (i :: sched). cbn [lk_run]. rewrite ST. auto.
Qed.

(* the number of steps of any execution is bounded by the size of the programs *)
Theorem lk_steps_bounded : forall s,
  lk_reach (lk_init progs) s -> (lk_total s <= lk_total (lk_init progs))%nat.
Proof.
  intros s R. induction R; auto. pose proof (lk_step_total _ _ _ H). lia.
Qed.

End Completes.

Scheme lk_calls_mut := Induction for lk_calls Sort Prop
with lk_items_mut := Induction for lk_items Sort Prop.
Combined Scheme lk_prog_mutind from lk_calls_mut, lk_items_mut.

Lemma lk_mops_eqb_eq : forall a b, lk_mops_eqb a b = true -> a = b.
Proof.
  induction a as [|x a IH]; destruct b as [|y b]; cbn; intros H; try discriminate; auto.
  apply andb_true_iff in H. destruct H as [E H]. f_equal; auto.
  destruct x, y; cbn in E; try discriminate; auto.
Qed.

Lemma lk_cfg_wf_macros : forall c, lk_cfg_wf c = true ->
  lk_m_api c = lk_canon_api /\ lk_m_keep c = lk_canon_keep /\ lk_m_keepret c = lk_canon_keep /\
  lk_m_rel c = lk_canon_rel /\ lk_m_relret c = lk_canon_rel /\ lk_m_wait c = lk_canon_rel /\
  lk_compiled c = true /\ lk_reports c = true /\ lk_api_ok c = true /\ lk_cb_ok c = true.
Proof.
  intros c W. unfold lk_cfg_wf in W. repeat (apply andb_true_iff in W; destruct W as [W ?]).
  repeat match goal with H : lk_mops_eqb _ _ = true |- _ => apply lk_mops_eqb_eq in H end.
  destruct (lk_compiled c); [|discriminate].
  destruct (lk_reports c); [|discriminate]. repeat split; auto.
Qed.

(* an instruction sequence between the opening and the closing instruction of a frame that it
   leaves in place *)
Lemma lk_srun_bracket : forall f k p q,
  lk_fits f k = true -> lk_srun (f :: k) p = Some (f :: k) ->
  lk_srun k (lk_open f :: p ++ lk_close f :: q) = lk_srun k q.
Proof.
  intros f k p q F RUN. cbn [lk_srun]. rewrite (lk_sstep_open _ _ F), lk_srun_app, RUN.
  cbn [lk_srun]. rewrite lk_sstep_close. reflexivity.
Qed.

(* the frame a callback macro opens around the application's code *)
Definition lk_cb_frame (kd : lk_kind) : lk_frame :=
  match kd with LkKeep | LkKeepRet => FKeep | _ => FRel end.

Section Structured.
Variable c : lk_cfg.
Hypothesis c_wf : lk_cfg_wf c = true.

(* what a configuration that passes lk_cfg_wf expands calls and callbacks to *)
Lemma lk_flat_call : forall b n,
  lk_flat c (LkCall b n) = lk_open FCall :: lk_flat_items c b ++ lk_close FCall :: lk_flat c n.
Proof.
  intros b n. destruct (lk_cfg_wf_macros c c_wf) as (A & _).
  cbn [lk_flat]. rewrite A. cbn. rewrite <- app_assoc. reflexivity.
Qed.

Lemma lk_flat_cb : forall kd ap n,
  lk_flat_items c (LkCb kd ap n) =
  lk_open (lk_cb_frame kd) :: lk_flat c ap ++ lk_close (lk_cb_frame kd) :: lk_flat_items c n.
Proof.
  intros kd ap n. destruct (lk_cfg_wf_macros c c_wf) as (_ & K & KR & R & RR & WT & _).
  cbn [lk_flat_items]. destruct kd; cbn [lk_macro]; rewrite ?K, ?KR, ?R, ?RR, ?WT; cbn;
    rewrite <- app_assoc; reflexivity.
Qed.

(* the flattening is balanced: application code returns to the frame it started in *)
Lemma lk_flat_balanced :
  (forall p k, lk_appmode k = true -> lk_srun k (lk_flat c p) = Some k) /\
  (forall b k, lk_srun (FCall :: k) (lk_flat_items c b) = Some (FCall :: k)).
Proof.
  apply lk_prog_mutind.
  - reflexivity.
  - intros b IHb n IHn k A. rewrite lk_flat_call, lk_srun_bracket; auto.
  - reflexivity.
  - intros n IHn k. apply IHn.
  - intros kd ap IHa n IHn k. rewrite lk_flat_cb, lk_srun_bracket; auto.
    + destruct kd; reflexivity.
    + apply IHa. destruct kd; reflexivity.
Qed.

Lemma lk_flat_all_wf : forall progs, Forall (fun p => lk_wfprog p = true) (map (lk_flat c) progs).
Proof.
  intros progs. apply Forall_forall. intros p I. apply in_map_iff in I. destruct I as (q & <- & _).
  unfold lk_wfprog. rewrite (proj1 lk_flat_balanced q []); auto.
Qed.

Variable progs : list lk_calls.
Let init := lk_init (map (lk_flat c) progs).
Let wf := lk_flat_all_wf progs.

Theorem lk_cfg_released : forall s,
  lk_reach init s ->
  (forall i rest, nth_error (lk_thr s) i = Some (lk_flat c rest) -> lk_pid (lk_l s) <> lk_tid i) /\
  (lk_held (lk_l s) = false -> lk_l s = lk_lock0) /\
  (lk_all_doneb s = true -> lk_l s = lk_lock0).
Proof.
  intros s R. split; [|split].
  - (* a thread whose remaining program is a sequence of complete API calls is outside any
       call: its frame stack is empty *)
    intros i rest N. destruct (lk_inv_reach _ wf s R) as (stk & TO & w & LW).
    destruct (lk_thr_ok_stack _ wf _ _ i TO) as (_ & RUN). unfold nth_default in RUN.
    rewrite N in RUN.
    assert (E : stk i = []).
    { destruct (lk_appmode (stk i)) eqn:A.
      - rewrite (proj1 lk_flat_balanced rest _ A) in RUN. congruence.
      - destruct rest as [|b n]; [cbn in RUN; congruence|].
        rewrite lk_flat_call in RUN. cbn in RUN.
        destruct (stk i) as [|[] r]; discriminate. }
    destruct (lk_lock_at_cases _ wf _ _ _ _ i TO LW) as [(L & _)|(_ & NP & _)]; auto.
    rewrite L, E. unfold lk_tid. cbn. lia.
  - apply (lk_free_is_initial _ wf); auto.
  - apply (lk_done_released _ wf); auto.
Qed.

Theorem lk_cfg_completes : forall s,
  lk_reach init s ->
  (lk_total s <= lk_total init)%nat /\
  exists sched, lk_reach init (lk_run sched s) /\ lk_all_doneb (lk_run sched s) = true /\
                lk_l (lk_run sched s) = lk_lock0.
Proof.
  intros s R. split; [apply (lk_steps_bounded _ s R)|].
  destruct (lk_completes _ wf s R) as (sched & R' & D).
  exists sched. repeat split; auto. apply (lk_done_released _ wf); auto.
Qed.

End Structured.

(* one API call that touches library state *)
Definition lk_ex_work : lk_calls := LkCall (LkWork LkRet) LkDone.
(* one API call whose body runs an event handler (coap_lock_callback_ret) and then touches state *)
Definition lk_ex_event : lk_calls := LkCall (LkCb LkKeepRet LkDone (LkWork LkRet)) LkDone.

(* before /repo commit 0dc3221: thread 0 makes one call that runs an event handler and returns;
   the mutex stays locked; thread 1's first call then waits for ever *)
Theorem lk_double_inc_refuted :
  exists progs sched,
    let s := lk_run sched (lk_init (map (lk_flat lk_cfg_double_inc) progs)) in
    nth_error (lk_thr s) 0 = Some [] /\ lk_held (lk_l s) = true /\
    lk_stuckb s = true /\ lk_verdict s = 2.
Proof.
  exists [lk_ex_event; lk_ex_work], [0; 0; 0; 0; 0; 0; 0; 1; 1]%nat.
  vm_compute. repeat split; reflexivity.
Qed.

(* before /repo commit b19334a: no locking is compiled in although support is reported; two
   threads are inside library state at the same time *)
Theorem lk_cmake_on_refuted :
  lk_reports lk_cfg_cmake_on = true /\
  exists progs sched,
    let s := lk_run sched (lk_init (map (lk_flat lk_cfg_cmake_on) progs)) in
    lk_accessingb s 0 = true /\ lk_accessingb s 1 = true /\ lk_verdict s = 1.
Proof.
  split; [reflexivity|].
  exists [lk_ex_work; lk_ex_work], [0; 1]%nat. vm_compute. repeat split; reflexivity.
Qed.

Theorem lk_historical_cfgs_rejected :
  lk_cfg_wf lk_cfg_double_inc = false /\ lk_cfg_wf lk_cfg_cmake_on = false /\
  lk_cfg_wf lk_canon = true.
Proof. repeat split; reflexivity. Qed.

(* non-vacuity: three threads; thread 0 is two callbacks deep (event handler -> send -> pong
   handler -> send), in_callback = 2, lock_count = 2, accessing library state; thread 1 waits
   for the lock; thread 2 sits in coap_io_process's wait with the lock released ... *)
Definition lk_ex_nested : lk_calls :=
  LkCall (LkCb LkKeepRet
            (LkCall (LkCb LkKeep (LkCall (LkWork LkRet) LkDone) (LkWork LkRet)) LkDone)
            (LkWork LkRet)) LkDone.
Definition lk_ex_io : lk_calls :=
  LkCall (LkCb LkWait LkDone
         (LkCb LkRel (LkCall (LkWork LkRet) LkDone) (LkWork LkRet))) LkDone.

Definition lk_mk (t i c : Z) : lk_lock :=
  {| lk_held := true; lk_pid := t; lk_incb := i; lk_cnt := c |}.

Theorem lk_nonvacuous :
  let progs := [lk_ex_nested; lk_ex_work; lk_ex_io] in
  lk_cfg_wf lk_canon = true /\
  exists sched,
    let s := lk_run sched (lk_init (map (lk_flat lk_canon) progs)) in
    lk_reach (lk_init (map (lk_flat lk_canon) progs)) s /\
    lk_l s = lk_mk (lk_tid 0) 2 2 /\ lk_accessingb s 0 = true /\
    lk_enabledb s 1 = false /\ lk_enabledb s 0 = true /\ lk_verdict s = 0.
Proof.
  split; [reflexivity|].
  exists [2; 2; 0; 0; 0; 0; 0; 0; 1]%nat. split; [apply lk_run_reach; constructor|].
  vm_compute. repeat split; reflexivity.
Qed.

(* coap_lock_lock_func evaluates "global_lock.in_callback && coap_thread_pid == global_lock.pid"
   BEFORE it has the mutex (finding C13-F3: ThreadSanitizer reports these reads).  The model's
   lk_lock_func takes the decision atomically.  This is justified here: while thread i stands
   in front of a lock call, whatever the other threads do between its read of in_callback, its
   read of pid and the moment it acts, the decision is the one the atomic version takes - if i
   is the re-entering owner nobody else can move at all, otherwise pid never becomes i's id. *)

Inductive lk_others (i : nat) : lk_state -> lk_state -> Prop :=
| lk_others_refl : forall s, lk_others i s s
| lk_others_step : forall s j s' s'', j <> i -> lk_step j s = Some s' ->
                   lk_others i s' s'' -> lk_others i s s''.

Definition lk_reentry_test (i : nat) (x y : lk_state) : bool :=
  negb (lk_incb (lk_l x) =? 0) && (lk_pid (lk_l y) =? lk_tid i).

Lemma lk_exec_pid : forall t o l l',
  lk_exec t o l = Some l' -> lk_pid l' = lk_pid l \/ lk_pid l' = 0 \/ lk_pid l' = t.
Proof.
  intros t o l l' EX. destruct o; cbn in EX; try (injection EX as <-; auto; fail).
  - unfold lk_lock_func in EX.
    destruct (negb (lk_incb l =? 0) && (lk_pid l =? t)); [|destruct (lk_held l); [discriminate|]];
      injection EX as <-; auto.
  - injection EX as <-. unfold lk_unlock_func. destruct (negb (lk_incb l =? 0)); auto.
Qed.

(* the other threads never write i's id into pid *)
Lemma lk_others_pid : forall i s s',
  lk_others i s s' -> lk_pid (lk_l s) <> lk_tid i -> lk_pid (lk_l s') <> lk_tid i.
Proof.
  intros i s s' O. induction O as [|s j s' s'' NE ST O IH]; auto.
  intros P. apply IH. destruct (lk_step_inv _ _ _ ST) as (o & rest & l' & _ & EX & ->).
  destruct (lk_exec_pid _ _ _ _ EX) as [E|[E|E]]; cbn [lk_l]; rewrite E; auto.
  - unfold lk_tid. lia.
  - intro F. apply lk_tid_inj in F. contradiction.
Qed.

Lemma lk_others_stuck : forall i s s',
  (forall j, j <> i -> lk_step j s = None) -> lk_others i s s' -> s' = s.
Proof.
  intros i s s' ST O. destruct O as [|s j s' s'' NE ST' _]; auto.
  rewrite (ST j NE) in ST'. discriminate.
Qed.

Section RacyRead.
Variable progs : list (list lk_op).
Hypothesis progs_wf : Forall (fun p => lk_wfprog p = true) progs.

Theorem lk_racy_read_safe : forall s s1 s2 i,
  lk_reach (lk_init progs) s -> lk_others i s s1 -> lk_others i s1 s2 ->
  lk_reentry_test i s1 s2 = lk_reentry_test i s s /\
  lk_reentry_test i s2 s2 = lk_reentry_test i s s /\
  (lk_reentry_test i s s = true -> s1 = s /\ s2 = s).
Proof.
  intros s s1 s2 i R O1 O2.
  destruct (Z.eq_dec (lk_pid (lk_l s)) (lk_tid i)) as [P|P].
  - (* i owns the mutex: nobody else moves *)
    pose proof (fun j => lk_owner_excludes progs progs_wf s i j R P) as ST.
    apply (lk_others_stuck _ _ _ ST) in O1. subst s1.
    apply (lk_others_stuck _ _ _ ST) in O2. subst s2. auto.
  - (* i does not own it: pid never becomes i's id, the test stays false *)
    pose proof (lk_others_pid _ _ _ O1 P) as P1.
    pose proof (lk_others_pid _ _ _ O2 P1) as P2.
    unfold lk_reentry_test.
    replace (lk_pid (lk_l s) =? lk_tid i) with false by lia.
    replace (lk_pid (lk_l s2) =? lk_tid i) with false by lia.
    rewrite !andb_false_r. repeat split; auto; discriminate.
Qed.

End RacyRead.

Lemma lk_rc_same : forall t l,
  (lk_held l = false -> lk_incb l = 0) -> lk_lock_func_rc t l = lk_lock_func t l.
Proof.
  intros t l H. unfold lk_lock_func_rc, lk_lock_func.
  destruct (lk_held l) eqn:HL.
  - destruct (lk_pid l =? t); destruct (negb (lk_incb l =? 0)); reflexivity.
  - rewrite (H eq_refl). reflexivity.
Qed.

(* on every reachable state both variants of coap_lock_lock_func take the same decision for
   every caller: all theorems hold for a build with COAP_THREAD_RECURSIVE_CHECK as well *)
Theorem lk_rc_same_reachable : forall progs,
  Forall (fun p => lk_wfprog p = true) progs -> forall s t,
  lk_reach (lk_init progs) s -> lk_lock_func_rc t (lk_l s) = lk_lock_func t (lk_l s).
Proof.
  intros progs W s t R. apply lk_rc_same. intros H.
  rewrite (lk_free_is_initial progs W s R H). reflexivity.
Qed.

(* a state in which no thread can move is one in which every thread has returned: every
   maximal execution (finite by lk_steps_bounded) ends with all calls completed and, by
   lk_done_released, with the lock in its initial state *)
Theorem lk_quiescent_is_done : forall progs,
  Forall (fun p => lk_wfprog p = true) progs -> forall s,
  lk_reach (lk_init progs) s -> (forall i, lk_step i s = None) ->
  lk_all_doneb s = true /\ lk_l s = lk_lock0.
Proof.
  intros progs W s R Q.
  destruct (lk_all_doneb s) eqn:D.
  - split; auto. apply (lk_done_released progs W); auto.
  - destruct (lk_progress progs W s R D) as (i & s' & ST). rewrite Q in ST. discriminate.
Qed.
