(* C03 - the decoder accepts exactly the well-formed messages and reports what is on the wire.
   The encoding of RFC 7252 s.3 / RFC 8323 s.3 / RFC 8974 is canonical (every field has exactly
   one form: the nibble ranges 0..12 / 13..268 / 269..65804 do not overlap), so "well-formed with
   reference decoding m" is the relation  msg_wf m /\ bytes = serialize p m  over the
   independent encoder of Wire/Pdu.v.  The statements follow in a line or two from Wire/*.v. *)
From LibcoapV Require Import Base.Tactics Base.Bytes Wire.OptCodec Wire.OptCodecProofs Wire.Pdu
  Wire.PduProofs Wire.ParseSound Wire.Frame Wire.FrameProofs Wire.RfcLimits Wire.RfcLimitsProofs.
Local Open Scope Z_scope.

(* soundness on datagram transports: accepted => well-formed, and the accessors' view is the
   unique message whose encoding these bytes are *)
Theorem C03_sound_udp : forall bs m,
  wfb bs -> parse UDP bs = Some m -> msg_wf m /\ serialize UDP m = bs.
Proof. exact parse_sound_udp. Qed.
Print Assumptions C03_sound_udp.

(* soundness for every framing: everything after the framing header is the canonical encoding
   of the returned token, options and payload, which satisfy all well-formedness conditions
   (the stream readers of C05 check the Len prefix that delimits these bytes) *)
Theorem C03_sound_body : forall p bs m,
  wfb bs -> parse p bs = Some m ->
  exists b0 rest, bs = b0 :: rest /\
    drop (header_size p b0) bs = token_area (m_token m) ++ content_area m /\
    b0 mod 16 = tkl_nib (m_token m) /\
    len (m_token m) <= 65804 /\ wfb (m_token m) /\
    Forall opt_wf (m_opts m) /\ ascending 0 (m_opts m) /\
    limits_ok (m_code m) (m_opts m) = true /\ wfb (m_payload m) /\
    (m_code m = 0 -> m_token m = [] /\ m_opts m = [] /\ m_payload m = []).
Proof. exact parse_sound_body. Qed.
Print Assumptions C03_sound_body.

(* completeness: every well-formed message's encoding is accepted, with that decoding *)
Theorem C03_complete : forall p m,
  msg_wf m -> parse p (serialize p m) = Some (norm_fields p m).
Proof. exact parse_serialize. Qed.
Print Assumptions C03_complete.

(* stream framing (RFC 8323): coap_pdu_parse_size, which the TCP/TLS reader uses to cut the
   byte stream, yields exactly the number of bytes that follow the header of a well-formed
   message - token-length extension bytes, token, options, marker and payload *)
Theorem C03_stream_frame_size : forall m,
  msg_wf m -> len (content_area m) <= 65805 + 4294967295 ->
  fr_parse_size TCP (serialize TCP m) = len (token_area (m_token m)) + len (content_area m).
Proof. exact fr_parse_size_serialize. Qed.
Print Assumptions C03_stream_frame_size.

(* the reference decoding is unique *)
Theorem C03_unique : forall m1 m2,
  msg_wf m1 -> msg_wf m2 -> serialize UDP m1 = serialize UDP m2 -> m1 = m2.
Proof. exact (serialize_unique UDP). Qed.
Print Assumptions C03_unique.

(* "within the per-option length limits": the limits the decoder enforces ([limit_ok], the table
   transcribed from coap_pdu_parse_opt_base / _csm and swept against the C for every option
   number) are the limits of the RFCs (Wire/RfcLimits.v, written down from the RFC tables), for
   every code, option number and length - so soundness and completeness above hold with the
   RFCs' limits in place of the code's *)
Theorem C03_limits_are_the_rfc_limits : forall code n l,
  limit_ok code n l = rfc_limit_ok code n l.
Proof. exact limit_ok_is_rfc. Qed.
Print Assumptions C03_limits_are_the_rfc_limits.

Theorem C03_limits_ok_is_rfc : forall code os,
  limits_ok code os = forallb (fun o => rfc_limit_ok code (fst o) (len (snd o))) os.
Proof. exact limits_ok_is_rfc. Qed.
Print Assumptions C03_limits_ok_is_rfc.

(* the table of the pinned tree as found differed from the RFCs at exactly four option numbers,
   in both directions (repaired: known_findings.d/C03.json) *)
Theorem C03_limits_as_found_agree_elsewhere : forall n,
  n <> 15 -> n <> 19 -> n <> 31 -> n <> 252 -> base_limit_as_found n = rfc_base_limit n.
Proof. exact as_found_agrees_elsewhere. Qed.
Print Assumptions C03_limits_as_found_agree_elsewhere.

Theorem C03_limits_as_found_refuted :
  in_range (base_limit_as_found 15) 0 = false /\ in_range (rfc_base_limit 15) 0 = true /\
  in_range (base_limit_as_found 252) 0 = true /\ in_range (rfc_base_limit 252) 0 = false /\
  in_range (base_limit_as_found 19) 4 = true /\ in_range (rfc_base_limit 19) 4 = false /\
  in_range (base_limit_as_found 31) 4 = true /\ in_range (rfc_base_limit 31) 4 = false.
Proof. exact as_found_refuted. Qed.
Print Assumptions C03_limits_as_found_refuted.

Theorem C03_reject_reserved_delta : forall b0 r,
  0 <= b0 < 256 -> b0 / 16 = 15 -> opt_parse (b0 :: r) = None.
Proof. exact reject_reserved_delta. Qed.
Print Assumptions C03_reject_reserved_delta.

Theorem C03_reject_reserved_length : forall b0 r,
  0 <= b0 < 256 -> b0 mod 16 = 15 -> opt_parse (b0 :: r) = None.
Proof. exact reject_reserved_length. Qed.
Print Assumptions C03_reject_reserved_length.

Theorem C03_reject_truncated_value : forall d l v,
  0 <= d <= 65535 -> 0 <= l <= 65804 -> len v < l -> opt_parse (opt_hdr d l ++ v) = None.
Proof.
  intros d l v Hd Hl Hv. rewrite opt_parse_hdr by assumption.
  replace (l <=? len v) with false by lia. reflexivity.
Qed.
Print Assumptions C03_reject_truncated_value.

Theorem C03_reject_number_above_65535 : forall fuel prev d v rest b tl,
  b <> PAYLOAD_START -> opt_parse (b :: tl) = Some (d, v, rest) -> MAX_OPT < prev + d ->
  opts_parse (S fuel) prev (b :: tl) = None.
Proof. exact reject_number_overflow. Qed.
Print Assumptions C03_reject_number_above_65535.

(* concrete witnesses (also non-vacuity): marker without payload, non-empty Empty message,
   the 2-byte delta E0 FE FF that would wrap a uint16_t to 12, and lengths at which the limit
   table as found differed from the RFCs (empty Uri-Query, empty Echo, 4-byte Q-Block2) *)
Example C03_marker_without_payload : parse UDP [64; 1; 18; 52; 255] = None.
Proof. vm_compute. reflexivity. Qed.
Example C03_nonempty_empty : parse UDP [64; 0; 18; 52; 177; 97] = None.
Proof. vm_compute. reflexivity. Qed.
Example C03_delta_wrap_rejected : parse UDP [64; 1; 18; 52; 224; 254; 255] = None.
Proof. vm_compute. reflexivity. Qed.
Example C03_empty_uri_query_accepted :
  parse UDP [64; 1; 18; 52; 177; 97; 64] = Some (mkMsg 0 1 4660 [] [(11, [97]); (15, [])] []).
Proof. vm_compute. reflexivity. Qed.
Example C03_empty_echo_rejected : parse UDP [64; 1; 18; 52; 208; 239] = None.
Proof. vm_compute. reflexivity. Qed.
Example C03_long_qblock2_rejected : parse UDP [64; 1; 18; 52; 212; 18; 0; 0; 0; 6] = None.
Proof. vm_compute. reflexivity. Qed.
Example C03_accepts_something :
  parse UDP [66; 1; 18; 52; 7; 8; 177; 97; 255; 1] = Some (mkMsg 0 1 4660 [7; 8] [(11, [97])] [1]).
Proof. vm_compute. reflexivity. Qed.
