(* C08 - NSTART bounds in-flight Confirmables; held messages go out in order, none lost.
   Statements only: each is an instance of the theorem of Nstart/NstartProofs.v,
   NstartCtxProofs.v or NstartFailProofs.v that proves it.

   Model (Nstart/Nstart.v): one datagram session of libcoap - state, con_active, delay queue,
   this session's nodes of the send queue - under every sequence of events
   Submit CON|NON, ACK, RST, timer, separate response (cancel by token), Up, Fail.
   Nstart/NstartCtx.v puts several sessions on the context's one send queue, Nstart/NstartFail.v
   lets socket writes fail; their theorems stand at the end.
   [ns_wf c] = the code as repaired (/repo adf1662, 39d6f14) and 0 <= NSTART <= 255 (con_active
   is a uint8_t).  [NoDup (ns_sub_mids evs)] = the application uses fresh message ids
   (coap_new_message_id).  No hypothesis on the peer is needed for the repaired code: the
   theorems hold for ACKs / RSTs of arbitrary ids, which includes the property's peer. *)
From LibcoapV Require Import Base.Tactics Nstart.Nstart Nstart.NstartProofs Nstart.NstartFail
  Nstart.NstartFailProofs Nstart.NstartCtx Nstart.NstartCtxProofs.
Local Open Scope Z_scope.

(* Bound, for every reachable state and on the observable history.  con_active is exactly the
   number of this session's nodes in the send queue, all of them are CONs, there are at most
   NSTART of them; the delay queue holds only messages that were never transmitted
   (retransmit_cnt = 0); and the in-flight list that the history checker computes from the wire
   alone (transmitted, minus acknowledged / reset / given up / cancelled / failed) is that set,
   so it never exceeds NSTART either - at every prefix, since evs is arbitrary. *)
Theorem C08_bound : forall c est0 evs, ns_wf c -> NoDup (ns_sub_mids evs) ->
  let s := ns_run c (ns_init est0) evs in
  ns_act s = Z.of_nat (length (ns_sq s)) /\
  forallb ns_ncon (ns_sq s) = true /\
  Z.of_nat (length (ns_sq s)) <= ns_nstart c /\
  forallb ns_cnt0 (ns_dq s) = true /\
  exists m, ns_mon_run c (ns_mkmon true est0 [] []) (ns_trace c (ns_init est0) evs) = Some m /\
            ns_minfl m = map ns_nmsg (ns_sq s) /\ ns_mpend m = map ns_nmsg (ns_dq s) /\
            Z.of_nat (length (ns_minfl m)) <= ns_nstart c.
Proof. exact ns_bound. Qed.
Print Assumptions C08_bound.

(* FIFO, none lost: the messages that left the delay queue (first transmission outside their
   own coap_send, or discarded by a disconnect), in the order in which they left it, followed
   by what is still waiting, are exactly the held submissions in submission order. *)
Theorem C08_fifo_once : forall c est0 evs, ns_wf c ->
  let t := ns_trace c (ns_init est0) evs in
  ns_released t ++ map ns_nmsg (ns_dq (ns_run c (ns_init est0) evs)) = ns_held t.
Proof.
  intros c est0 evs Hwf.
  exact (ns_fifo_once c Hwf evs _ (ns_inv_winv c _ (ns_init_inv c est0 Hwf))).
Qed.
Print Assumptions C08_fifo_once.

(* exactly once: no message id is transmitted for the first time twice *)
Theorem C08_once : forall c est0 evs, ns_wf c -> NoDup (ns_sub_mids evs) ->
  NoDup (map ns_mid (ns_txs (flat_map snd (ns_trace c (ns_init est0) evs)))).
Proof. intros c est0 evs Hwf. exact (ns_tx_once c Hwf est0 evs). Qed.
Print Assumptions C08_once.

(* nothing waits without a reason: on an established session the oldest held message is a
   CON and all NSTART slots are taken *)
Theorem C08_no_needless_hold : forall c est0 evs, ns_wf c ->
  let s := ns_run c (ns_init est0) evs in
  ns_est s = true ->
  match ns_dq s with
  | [] => True
  | q :: _ => ns_ncon q = true /\ Z.of_nat (length (ns_sq s)) = ns_nstart c
  end.
Proof. exact ns_no_needless_hold. Qed.
Print Assumptions C08_no_needless_hold.

(* none lost, the progress side: when every in-flight exchange of an established session has
   finished (acknowledged, reset, given up, cancelled) nothing is left waiting *)
Theorem C08_drained_when_idle : forall c est0 evs, ns_wf c -> 1 <= ns_nstart c ->
  let s := ns_run c (ns_init est0) evs in
  ns_est s = true -> ns_sq s = [] -> ns_dq s = [].
Proof. exact ns_drained_when_idle. Qed.
Print Assumptions C08_drained_when_idle.

(* a NON submitted on an established session is transmitted inside coap_send (any state) *)
Theorem C08_non_not_delayed : forall c s m,
  ns_open s = true -> ns_est s = true -> ns_con m = false ->
  ns_step c s (NsSubmit m) = (s, [NsAcc; NsTx m]).
Proof. exact ns_non_not_delayed. Qed.
Print Assumptions C08_non_not_delayed.

(* the session fails: every held CON is reported by exactly one NACK, nothing that was held is
   transmitted by the disconnect or at any time afterwards (whatever happens later, only message
   ids that are submitted again are ever transmitted; a client session, whose socket the
   disconnect closes, transmits nothing at all any more) *)
Theorem C08_fail_nacks : forall c est0 evs r, ns_wf c -> NoDup (ns_sub_mids evs) -> r <> ns_ICMP ->
  let s := ns_run c (ns_init est0) evs in
  ns_open s = true ->
  let s' := fst (ns_step c s (NsFail r)) in
  let o := snd (ns_step c s (NsFail r)) in
  ns_dq s' = [] /\ ns_sq s' = [] /\ ns_txs o = [] /\ ns_res o = [] /\
  (forall q, In q (ns_dq s) -> ns_ncon q = true -> ns_nack_count (ns_nmid q) o = 1%nat) /\
  (forall evs' x, ~ In x (ns_sub_mids evs') ->
                  ~ In x (map ns_mid (ns_txs (flat_map snd (ns_trace c s' evs'))))) /\
  (ns_client c = true ->
   forall evs', ns_txs (flat_map snd (ns_trace c s' evs')) = [] /\
                ns_res (flat_map snd (ns_trace c s' evs')) = []).
Proof. exact ns_fail_nacks. Qed.
Print Assumptions C08_fail_nacks.

(* the property as a checker of observable histories (the oracle that runs on the
   implementation's own traces): it accepts every history of the model ... *)
Theorem C08_checker_accepts_model : forall c est0 evs, ns_wf c -> NoDup (ns_sub_mids evs) ->
  ns_accepts c est0 (ns_trace c (ns_init est0) evs) = true.
Proof. exact ns_accepts_all. Qed.
Print Assumptions C08_checker_accepts_model.

(* ... and whatever it accepts - from any implementation - never has more than NSTART CONs in
   flight *)
Theorem C08_checker_sound_bound : forall c, 0 <= ns_nstart c -> forall t m m',
  Z.of_nat (length (ns_minfl m)) <= ns_nstart c ->
  ns_mon_run c m t = Some m' -> Z.of_nat (length (ns_minfl m')) <= ns_nstart c.
Proof. exact ns_accepts_bound. Qed.
Print Assumptions C08_checker_sound_bound.

(* ... and, as long as the session is not disconnected, the first transmissions outside their
   own coap_send happen in the order in which the messages were held, each held message at most
   once and none skipped: held so far = released so far ++ still pending *)
Theorem C08_checker_sound_fifo : forall c t m m', ns_mopen m = true -> ns_no_disconnect t ->
  ns_mon_run c m t = Some m' ->
  ns_mpend m ++ ns_held t = flat_map ns_rel_tx t ++ ns_mpend m' /\ ns_mopen m' = true.
Proof. exact ns_accepts_fifo. Qed.
Print Assumptions C08_checker_sound_fifo.

(* the hypotheses are satisfiable by a non-trivial history *)
Theorem C08_example :
  ns_wf ns_cfg_ex /\ NoDup (ns_sub_mids ns_evs_ex) /\
  map ns_mid (ns_held (ns_trace ns_cfg_ex (ns_init false) ns_evs_ex)) = [1; 2; 3; 4; 5; 8] /\
  map ns_mid (ns_released (ns_trace ns_cfg_ex (ns_init false) ns_evs_ex)) = [1; 2; 3; 4; 5; 8] /\
  map ns_mid (ns_txs (flat_map snd (ns_trace ns_cfg_ex (ns_init false) ns_evs_ex))) = [1; 2; 3; 6; 4; 5; 7] /\
  ns_accepts ns_cfg_ex false (ns_trace ns_cfg_ex (ns_init false) ns_evs_ex) = true /\
  ns_nack_count 8 (flat_map snd (ns_trace ns_cfg_ex (ns_init false) ns_evs_ex)) = 1%nat.
Proof. exact ns_example. Qed.
Print Assumptions C08_example.

(* Several sessions per context (NstartCtx.v): the send queue belongs to the context, entries are
   found by (session, id), (session, token) or session.  For every interleaving of the events of
   any number of sessions: the history and the state of each session (its data + its view of the
   shared queue) are exactly those of the single-session machine run on that session's own
   events - so every theorem above holds for every session, whatever the others do. *)
Theorem C08_sessions_independent : forall cf evs x sid,
  nsc_proj (nsc_run cf x evs) sid = ns_run (cf sid) (nsc_proj x sid) (nsc_evs_of sid evs) /\
  nsc_trace_of sid (nsc_trace cf x evs) = ns_trace (cf sid) (nsc_proj x sid) (nsc_evs_of sid evs).
Proof. exact nsc_run_proj. Qed.
Print Assumptions C08_sessions_independent.

(* spelled out for the bound: the number of a session's CON nodes in the shared queue equals its
   con_active and never exceeds its NSTART, and the checker accepts the session's history *)
Theorem C08_bound_shared_queue : forall cf est0 evs sid, ns_wf (cf sid) ->
  NoDup (ns_sub_mids (nsc_evs_of sid evs)) ->
  let x := nsc_run cf (nsc_init est0) evs in
  let mine := nsc_view sid (nsc_q x) in
  ns_act (nsc_ss x sid) = Z.of_nat (length mine) /\
  forallb ns_ncon mine = true /\
  Z.of_nat (length mine) <= ns_nstart (cf sid) /\
  ns_accepts (cf sid) (est0 sid) (nsc_trace_of sid (nsc_trace cf (nsc_init est0) evs)) = true.
Proof. exact nsc_bound. Qed.
Print Assumptions C08_bound_shared_queue.

(* two sessions using the same message ids, interleaved on one queue *)
Theorem C08_shared_queue_example :
  let x := nsc_run nsc_cf_ex (nsc_init (fun _ => true)) nsc_evs_ex in
  map (fun n => (nsc_sid n, ns_nmid (nsc_nd n))) (nsc_q x) = [] /\
  map (fun p => (fst (fst p), snd p)) (nsc_trace nsc_cf_ex (nsc_init (fun _ => true)) nsc_evs_ex) =
   [(0, [NsAcc; NsTx (ns_mkmsg true 7 101)]); (1, [NsAcc; NsTx (ns_mkmsg true 7 201)]);
    (0, [NsAcc]); (1, [NsAcc]);
    (1, [NsTx (ns_mkmsg true 8 202)]);
    (0, [NsTx (ns_mkmsg true 8 102); NsNack 2 7 true]);
    (0, [NsRe (ns_mkmsg true 8 102)]); (0, [NsNack 0 8 true]);
    (1, [NsRe (ns_mkmsg true 8 202)]); (1, [NsNack 2 8 true])].
Proof. exact nsc_example. Qed.
Print Assumptions C08_shared_queue_example.

(* Failing socket writes (coap_socket_send returns -1; NstartFail.v: the event NsfErr makes the
   next write fail, wherever it is attempted - coap_send, the flush loop, a retransmission).
   Whatever fails, con_active stays the number of the session's CON nodes in the send queue and
   never exceeds NSTART, and the delay queue still holds only never-transmitted messages. *)
Theorem C08_bound_write_failures : forall c est0 evs, ns_wf c ->
  let s := nsf_s (nsf_run c (nsf_init est0) evs) in
  ns_act s = Z.of_nat (length (ns_sq s)) /\ forallb ns_ncon (ns_sq s) = true /\
  Z.of_nat (length (ns_sq s)) <= ns_nstart c /\ forallb ns_cnt0 (ns_dq s) = true.
Proof.
  intros c est0 evs Hwf. cbn zeta.
  destruct (nsf_run_winv c Hwf evs (nsf_init est0) (ns_inv_winv c _ (ns_init_inv c est0 Hwf))).
  repeat split; try assumption. lia.
Qed.
Print Assumptions C08_bound_write_failures.

(* the extension changes nothing while no write fails: states and outputs are those of the
   session machine, so the theorems above are theorems about the extended machine too *)
Theorem C08_write_failures_conservative : forall c evs x, nsf_wfail x = false ->
  nsf_s (nsf_run c x (map NsfEv evs)) = ns_run c (nsf_s x) evs /\
  map snd (nsf_trace c x (map NsfEv evs)) = map snd (ns_trace c (nsf_s x) evs).
Proof. exact nsf_no_err. Qed.
Print Assumptions C08_write_failures_conservative.

(* The code as found: coap_retransmit released the slot of the node (con_active--) for
   coap_send_pdu to take it again, which it does not do when the write fails - but the node stays
   in the send queue.  Submit CON 1; the retransmission of 1 fails; Submit CON 2 goes out: two
   CONs in flight with NSTART = 1 (replayed on the real code: corpus/C08/fixed.case; repaired by
   /repo 39d6f14). *)
Theorem C08_found_write_failure_refuted :
  exists evs,
    let x := nsf_run ns_cfg_found (nsf_init true) evs in
    let t := nsf_trace ns_cfg_found (nsf_init true) evs in
    map ns_nmid (ns_sq (nsf_s x)) = [1; 2] /\ forallb ns_ncon (ns_sq (nsf_s x)) = true /\
    ns_act (nsf_s x) = 1 /\
    Z.of_nat (length (ns_sq (nsf_s x))) > ns_nstart ns_cfg_found /\
    nsb_run ns_cfg_found (nsb_mk true true []) t 0 = Some 3.
Proof. exact nsf_bound_refuted_found. Qed.
Print Assumptions C08_found_write_failure_refuted.

(* The code as found, server side: the leisure timer of a delayed multicast response released an
   NSTART slot (coap_retransmit did con_active-- for every node) and flushed the delay queue: with
   CON 1 in flight and CON 2 held (NSTART = 1) CON 2 goes out.  Repaired (/repo 6ed059d) the event
   is the flush of an established session ([NsUp]), which does nothing in that state.  Replayed on
   the real code: corpus/C08/fixed.case (ops M = multicast request, Y = its response goes out). *)
Theorem C08_found_mcast_refuted :
  let c := ns_mkcfg 1 4 true false false in
  let s := ns_run c (ns_init true) [NsSubmit (ns_mkmsg true 1 11); NsSubmit (ns_mkmsg true 2 12)] in
  map ns_nmid (ns_sq s) = [1] /\ map ns_nmid (ns_dq s) = [2] /\
  snd (ns_mcast_found c s) = [NsTx (ns_mkmsg true 2 12)] /\
  map ns_nmid (ns_sq (fst (ns_mcast_found c s))) = [1; 2] /\
  Z.of_nat (length (ns_sq (fst (ns_mcast_found c s)))) > ns_nstart c /\
  ns_step (ns_mkcfg 1 4 true true false) s NsUp = (s, []).
Proof. exact ns_mcast_refuted_found. Qed.
Print Assumptions C08_found_mcast_refuted.

(* The code as found (ns_fixed = false): the RST branch of coap_dispatch decremented con_active
   before it looked the message id up.  A peer that resets a NON it received releases a held CON
   while another one is still in flight (replayed on the real code: corpus/C08/fixed.case;
   repaired by /repo adf1662). *)
Theorem C08_found_bound_refuted :
  exists evs,
    let t := ns_trace ns_cfg_found (ns_init true) evs in
    let s := ns_run ns_cfg_found (ns_init true) evs in
    ns_peer_ok [] t = true /\ NoDup (ns_sub_mids evs) /\
    ns_accepts ns_cfg_found true t = false /\
    map ns_nmid (ns_sq s) = [1; 3] /\ forallb ns_ncon (ns_sq s) = true /\
    map ns_mid (ns_txs (flat_map snd t)) = [1; 2; 3] /\
    Z.of_nat (length (ns_sq s)) > ns_nstart ns_cfg_found.
Proof. exact ns_bound_refuted_found. Qed.
Print Assumptions C08_found_bound_refuted.
