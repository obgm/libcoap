(* C08 - the bound under failing socket writes (NstartFail.v).  What survives is [ns_winv]: the
   counter is exact and bounded; quiescence is lost, since the flush loop stops at a failed
   write. *)
From LibcoapV Require Import Base.Tactics Nstart.Nstart Nstart.NstartProofs Nstart.NstartFail.
Local Open Scope Z_scope.

(* the flush whose first write fails keeps what is owed *)
Lemma nsf_connected_pre c s k : ns_wf c -> ns_pre c s k ->
  ns_pre c (fst (fst (nsf_connected c s))) k.
Proof.
  intros [Hfx Hn] (Ho & Ha & Hl & Hc & Hd & He). unfold nsf_connected.
  destruct (ns_dq s) as [|q rest] eqn:Ed.
  - cbn [fst]. unfold ns_pre. ns_simp. repeat split; auto.
  - cbn [forallb] in Hd. apply andb_true_iff in Hd. destruct Hd as [Hq Hr].
    destruct (ns_ncon q) eqn:Eq.
    + destruct (ns_nstart c <=? ns_act s) eqn:El; cbn [fst]; unfold ns_pre; ns_simp.
      * cbn [forallb]. rewrite Hq, Hr. repeat split; auto.
      * rewrite ns_inc_small, app_length, forallb_app, Hc by lia. cbn [length forallb]. rewrite Eq.
        repeat split; auto; lia.
    + cbn [fst]. unfold ns_pre. ns_simp. repeat split; auto.
Qed.

Lemma nsf_dec_drain_pre c s k : ns_wf c -> ns_pre c s (S k) ->
  ns_pre c (fst (fst (nsf_dec_drain c s))) k.
Proof.
  intros Hwf (Ho & Ha & Hl & Hc & Hd & He). unfold nsf_dec_drain.
  destruct (ns_act s =? 0) eqn:E0; [lia|]. cbn [ns_set_act ns_est]. rewrite He by lia.
  apply nsf_connected_pre; [exact Hwf|].
  unfold ns_pre. ns_simp. repeat split; try assumption; try lia. intros _. apply He. lia.
Qed.

Lemma nsf_dec_n_pre c k : ns_wf c -> forall s fl, ns_pre c s k ->
  ns_pre c (fst (fst (nsf_dec_n c k s fl))) 0.
Proof.
  intros Hwf. induction k as [|k IH]; intros s fl Hp; [exact Hp|].
  cbn [nsf_dec_n]. destruct fl.
  - pose proof (nsf_dec_drain_pre c s k Hwf Hp) as H1.
    destruct (nsf_dec_drain c s) as [[s1 o1] used]. cbn [fst] in *.
    specialize (IH s1 (negb used) H1).
    destruct (nsf_dec_n c k s1 (negb used)) as [[s2 o2] fl2]. exact IH.
  - destruct (ns_dec_drain_char c s k Hwf Hp) as (_ & _ & _ & H1 & _).
    destruct (ns_dec_drain c s) as [s1 o1]. cbn [fst] in *.
    specialize (IH s1 false H1).
    destruct (nsf_dec_n c k s1 false) as [[s2 o2] fl2]. exact IH.
Qed.

Theorem nsf_step_fail_winv c s e : ns_wf c -> ns_winv c s ->
  ns_winv c (fst (fst (nsf_step_fail c s e))).
Proof.
  intros Hwf Hi. pose proof Hwf as [Hfx Hn]. destruct (ns_open s) eqn:Ho.
  2: { unfold nsf_step_fail. rewrite Ho. destruct e; exact Hi. }
  unfold nsf_step_fail. replace (negb (ns_open s)) with false by (rewrite Ho; reflexivity).
  pose proof (ns_step_winv c s e Hwf Hi) as Hs. unfold ns_step in Hs. rewrite Ho in Hs.
  cbn [negb] in Hs.
  destruct e as [m|mid|mid|mid|tok| |r].
  - destruct (negb (ns_est s) || ns_con m && (ns_nstart c <=? ns_act s)); [|exact Hi].
    destruct (ns_submit c s m) as [s' o]. exact Hs.
  - destruct (ns_remove mid (ns_sq s)) as [[n q]|] eqn:Er; [|exact Hi].
    destruct (ns_remove_pre c s mid n q Hi Ho Er) as [Hp _].
    apply (nsf_dec_drain_pre c _ 0 Hwf) in Hp.
    destruct (nsf_dec_drain c (ns_set_sq s q)) as [[s1 o] used]. apply ns_pre_winv. exact Hp.
  - rewrite Hfx. destruct (ns_remove mid (ns_sq s)) as [[n q]|] eqn:Er; [|exact Hi].
    destruct (ns_remove_pre c s mid n q Hi Ho Er) as [Hp Hn']. rewrite Hn'.
    apply (nsf_dec_drain_pre c _ 0 Hwf) in Hp.
    destruct (nsf_dec_drain c (ns_set_sq s q)) as [[s1 o] used]. apply ns_pre_winv. exact Hp.
  - destruct (ns_remove mid (ns_sq s)) as [[n q]|] eqn:Er; [|exact Hi].
    destruct (ns_remove_pre c s mid n q Hi Ho Er) as [Hp Hn'].
    destruct (ns_cnt n <? ns_maxrt c).
    + (* the slot released for the retransmission is taken back although the write failed *)
      destruct Hp as (_ & Ha & Hl & _ & _ & He). ns_simp.
      destruct (ns_act s =? 0) eqn:E0; [lia|].
      replace (negb (ns_est s) || ns_ncon n && (ns_nstart c <=? ns_act s - 1)) with false
        by (rewrite He, Hn' by lia; cbn [negb orb andb]; lia).
      rewrite Hfx. cbn [andb negb fst]. rewrite Z.sub_add.
      apply ns_pre_winv. apply ns_bump_pre. apply ns_winv_pre; assumption.
    + rewrite Hn'. apply (nsf_dec_drain_pre c _ 0 Hwf) in Hp.
      destruct (nsf_dec_drain c (ns_set_sq s q)) as [[s1 o] used]. apply ns_pre_winv. exact Hp.
  - apply ns_pre_winv. apply (nsf_dec_n_pre c _ Hwf). apply ns_sep_pre; assumption.
  - pose proof (nsf_connected_pre c s 0 Hwf (ns_winv_pre c s Hi Ho)) as H1.
    destruct (nsf_connected c s) as [[s' o] used]. apply ns_pre_winv. exact H1.
  - destruct (ns_fail c s r) as [s' o]. exact Hs.
Qed.

Theorem nsf_step_winv c x ev : ns_wf c -> ns_winv c (nsf_s x) ->
  ns_winv c (nsf_s (fst (nsf_step c x ev))).
Proof.
  intros Hwf Hi. unfold nsf_step. destruct ev as [e|]; [|exact Hi].
  destruct (nsf_wfail x).
  - pose proof (nsf_step_fail_winv c (nsf_s x) e Hwf Hi) as H.
    destruct (nsf_step_fail c (nsf_s x) e) as [[s' o] fl]. exact H.
  - pose proof (ns_step_winv c (nsf_s x) e Hwf Hi) as H.
    destruct (ns_step c (nsf_s x) e) as [s' o]. exact H.
Qed.

Theorem nsf_run_winv c : ns_wf c -> forall evs x,
  ns_winv c (nsf_s x) -> ns_winv c (nsf_s (nsf_run c x evs)).
Proof.
  intros Hwf. induction evs as [|e r IH]; intros x Hx; [exact Hx|]. cbn [nsf_run]. apply IH.
  apply nsf_step_winv; assumption.
Qed.

(* without failing writes the extension is the session machine itself, so every theorem about
   ns_run / ns_trace is a theorem about this machine *)
Theorem nsf_no_err c : forall evs x, nsf_wfail x = false ->
  nsf_s (nsf_run c x (map NsfEv evs)) = ns_run c (nsf_s x) evs /\
  map snd (nsf_trace c x (map NsfEv evs)) = map snd (ns_trace c (nsf_s x) evs).
Proof.
  induction evs as [|e r IH]; intros x Hx; [split; reflexivity|].
  cbn [map nsf_run nsf_trace ns_run ns_trace].
  assert (E : nsf_step c x (NsfEv e) =
              (nsf_mk (fst (ns_step c (nsf_s x) e)) false, snd (ns_step c (nsf_s x) e))).
  { unfold nsf_step. rewrite Hx. destruct (ns_step c (nsf_s x) e); reflexivity. }
  rewrite E. cbn [fst].
  destruct (ns_step c (nsf_s x) e) as [s' o]. cbn [fst snd].
  destruct (IH (nsf_mk s' false) eq_refl) as [A B]. cbn [nsf_s] in *.
  split; [exact A|]. cbn [map snd]. rewrite B. reflexivity.
Qed.

(* the code as found: a retransmission whose write fails gives its slot away although it stays
   in the send queue - two CONs in flight with NSTART = 1 *)
Definition nsf_witness : list nsf_ev :=
  [NsfEv (NsSubmit (ns_mkmsg true 1 11)); NsfErr; NsfEv (NsTick 1);
   NsfEv (NsSubmit (ns_mkmsg true 2 12))].

Lemma nsf_bound_refuted_found :
  exists evs,
    let x := nsf_run ns_cfg_found (nsf_init true) evs in
    let t := nsf_trace ns_cfg_found (nsf_init true) evs in
    map ns_nmid (ns_sq (nsf_s x)) = [1; 2] /\ forallb ns_ncon (ns_sq (nsf_s x)) = true /\
    ns_act (nsf_s x) = 1 /\
    Z.of_nat (length (ns_sq (nsf_s x))) > ns_nstart ns_cfg_found /\
    nsb_run ns_cfg_found (nsb_mk true true []) t 0 = Some 3.
Proof. exists nsf_witness. vm_compute. repeat split. Qed.
