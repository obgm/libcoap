(* C08 - proofs about the session machine of Nstart.v.
   The repaired machine keeps [ns_inv].  Every event other than a submission or a disconnect
   has one shape - nodes leave the send queue, their slots are released, the delay queue is
   flushed ([ns_step_char]) - and the bound, the FIFO identity, the budget of message ids and the
   agreement with the history checker are read off that shape. *)
From LibcoapV Require Import Base.Tactics Nstart.Nstart.
Local Open Scope Z_scope.

Definition ns_cfg_found : ns_cfg := ns_mkcfg 1 4 true false true.
Definition ns_witness : list ns_ev :=
  [NsSubmit (ns_mkmsg true 1 11); NsSubmit (ns_mkmsg false 2 12); NsSubmit (ns_mkmsg true 3 13);
   NsRst 2].

(* Reset of a NON that the peer received: two CONs in flight with NSTART = 1 *)
Lemma ns_bound_refuted_found :
  exists evs,
    let t := ns_trace ns_cfg_found (ns_init true) evs in
    let s := ns_run ns_cfg_found (ns_init true) evs in
    ns_peer_ok [] t = true /\ NoDup (ns_sub_mids evs) /\
    ns_accepts ns_cfg_found true t = false /\
    map ns_nmid (ns_sq s) = [1; 3] /\ forallb ns_ncon (ns_sq s) = true /\
    map ns_mid (ns_txs (flat_map snd t)) = [1; 2; 3] /\
    Z.of_nat (length (ns_sq s)) > ns_nstart ns_cfg_found.
Proof.
  exists ns_witness. vm_compute. repeat split; try reflexivity.
  repeat constructor; simpl; intuition discriminate.
Qed.

(* A delayed multicast response (server side) is sent by coap_retransmit(): as found it did
   "if (con_active) con_active--" for that node too, then coap_session_connected().  The node is
   never a CON, nothing took the slot again. *)
Definition ns_mcast_found (c : ns_cfg) (s : ns_st) : ns_st * list ns_out :=
  ns_connected c (ns_set_act s (if ns_act s =? 0 then 0 else ns_act s - 1)).

Lemma ns_mcast_refuted_found :
  let c := ns_mkcfg 1 4 true false false in
  let s := ns_run c (ns_init true) [NsSubmit (ns_mkmsg true 1 11); NsSubmit (ns_mkmsg true 2 12)] in
  map ns_nmid (ns_sq s) = [1] /\ map ns_nmid (ns_dq s) = [2] /\
  snd (ns_mcast_found c s) = [NsTx (ns_mkmsg true 2 12)] /\
  map ns_nmid (ns_sq (fst (ns_mcast_found c s))) = [1; 2] /\
  Z.of_nat (length (ns_sq (fst (ns_mcast_found c s)))) > ns_nstart c /\
  (* repaired: the event is the flush of an established session and does nothing here *)
  ns_step (ns_mkcfg 1 4 true true false) s NsUp = (s, []).
Proof. vm_compute. repeat split. Qed.

(* the code as repaired; con_active is a uint8_t *)
Definition ns_wf (c : ns_cfg) : Prop := ns_fixed c = true /\ 0 <= ns_nstart c <= 255.

Definition ns_quiet (c : ns_cfg) (act : Z) (dq : list ns_node) : Prop :=
  match dq with
  | [] => True
  | q :: _ => ns_ncon q = true /\ act = ns_nstart c
  end.

Definition ns_cnt0 (q : ns_node) : bool := ns_cnt q =? 0.

Record ns_inv (c : ns_cfg) (s : ns_st) : Prop := {
  iv_act : ns_act s = Z.of_nat (length (ns_sq s));
  iv_le : ns_act s <= ns_nstart c;
  iv_con : forallb ns_ncon (ns_sq s) = true;
  iv_est : ns_sq s <> [] -> ns_est s = true;
  iv_cnt : forallb ns_cnt0 (ns_dq s) = true;
  iv_qui : ns_est s = true -> ns_quiet c (ns_act s) (ns_dq s);
  iv_closed : ns_open s = false -> ns_dq s = [] /\ ns_sq s = [] }.

Lemma ns_inc_small a : 0 <= a < 255 -> ns_inc a = a + 1.
Proof. intros. unfold ns_inc. apply Z.mod_small. lia. Qed.

(* The part of the invariant that does not speak of quiescence.  It is what survives a failing
   socket write (NstartFailProofs.v): the flush loop stops there, so a message may be left
   waiting although a slot is free. *)
Record ns_winv (c : ns_cfg) (s : ns_st) : Prop := {
  wv_act : ns_act s = Z.of_nat (length (ns_sq s));
  wv_le : ns_act s <= ns_nstart c;
  wv_con : forallb ns_ncon (ns_sq s) = true;
  wv_est : ns_sq s <> [] -> ns_est s = true;
  wv_cnt : forallb ns_cnt0 (ns_dq s) = true;
  wv_closed : ns_open s = false -> ns_dq s = [] /\ ns_sq s = [] }.

Definition ns_qui (c : ns_cfg) (s : ns_st) : Prop :=
  ns_est s = true -> ns_quiet c (ns_act s) (ns_dq s).

Lemma ns_inv_iff c s : ns_inv c s <-> ns_winv c s /\ ns_qui c s.
Proof.
  split.
  - intros []. split; [constructor; assumption|assumption].
  - intros [[] Hq]. constructor; assumption.
Qed.

Lemma ns_inv_winv c s : ns_inv c s -> ns_winv c s.
Proof. intros H. apply ns_inv_iff in H. apply H. Qed.

Lemma ns_inv_act_pos c s : ns_inv c s -> 0 <= ns_act s.
Proof. intros []. lia. Qed.

Lemma ns_remove_some mid l n l' :
  ns_remove mid l = Some (n, l') ->
  length l = S (length l') /\ ns_nmid n = mid /\ In n l /\
  (forall P, forallb P l = true -> P n = true /\ forallb P l' = true) /\
  map ns_nmsg l' = ns_rm_mid mid (map ns_nmsg l).
Proof.
  revert n l'. induction l as [|h t IH]; intros n l' H; [discriminate|].
  cbn [ns_remove] in H. cbn [length map ns_rm_mid forallb].
  change (ns_mid (ns_nmsg h)) with (ns_nmid h). destruct (ns_nmid h =? mid) eqn:E.
  - inversion H; subst. split; [reflexivity|]. split; [lia|]. split; [left; reflexivity|].
    split; [|reflexivity]. intros P HP. apply andb_true_iff in HP. exact HP.
  - destruct (ns_remove mid t) as [[x r']|]; [|discriminate]. inversion H; subst.
    destruct (IH n r' eq_refl) as (A1 & A2 & A3 & A4 & A5).
    split; [cbn [length]; lia|]. split; [exact A2|]. split; [right; exact A3|].
    split; [|cbn [map]; rewrite A5; reflexivity].
    intros P HP. apply andb_true_iff in HP. destruct HP as [H1 H2].
    destruct (A4 P H2) as [B1 B2]. cbn [forallb]. rewrite H1, B2. split; [exact B1|reflexivity].
Qed.

Lemma ns_remove_none mid l :
  ns_remove mid l = None ->
  ns_rm_mid mid (map ns_nmsg l) = map ns_nmsg l /\ (forall n, In n l -> ns_nmid n <> mid).
Proof.
  induction l as [|h t IH]; intros H; [split; [reflexivity|intros n []]|].
  cbn [ns_remove] in H. cbn [map ns_rm_mid]. change (ns_mid (ns_nmsg h)) with (ns_nmid h).
  destruct (ns_nmid h =? mid) eqn:E; [discriminate|].
  destruct (ns_remove mid t) as [[x r']|]; [discriminate|].
  destruct (IH eq_refl) as [A1 A2]. rewrite A1.
  split; [reflexivity|]. intros n [Hn|Hn]; [subst; lia|apply A2; exact Hn].
Qed.

Lemma ns_bump_props mid l :
  length (ns_bump mid l) = length l /\ map ns_nmsg (ns_bump mid l) = map ns_nmsg l /\
  forallb ns_ncon (ns_bump mid l) = forallb ns_ncon l.
Proof.
  induction l as [|h t (A1 & A2 & A3)]; [repeat split|].
  cbn [ns_bump]. destruct (ns_nmid h =? mid); cbn [length map forallb ns_nmsg].
  - repeat split.
  - rewrite A1, A2. unfold ns_ncon in *. cbn [ns_nmsg]. rewrite A3. repeat split.
Qed.

Lemma ns_filter_split {A} (p : A -> bool) l :
  (length (filter p l) + length (filter (fun x => negb (p x)) l))%nat = length l.
Proof.
  induction l as [|h t IH]; [reflexivity|]. cbn [filter]. destruct (p h); cbn [negb length]; lia.
Qed.

Lemma ns_forallb_filter {A} (p q : A -> bool) l :
  forallb p l = true -> forallb p (filter q l) = true.
Proof.
  induction l as [|h t IH]; [reflexivity|]. cbn [forallb filter]. intros H.
  apply andb_true_iff in H. destruct H as [H1 H2]. destruct (q h); cbn [forallb];
  [rewrite H1|]; auto.
Qed.

Lemma ns_forallb_filter_self {A} (p : A -> bool) l : forallb p (filter p l) = true.
Proof.
  induction l as [|h t IH]; [reflexivity|]. cbn [filter]. destruct (p h) eqn:E; [|exact IH].
  cbn [forallb]. rewrite E. exact IH.
Qed.

Lemma ns_filter_all {A} (p : A -> bool) l : forallb p l = true -> filter p l = l.
Proof.
  induction l as [|h t IH]; [reflexivity|]. cbn [forallb filter]. intros H.
  apply andb_true_iff in H. destruct H as [H1 H2]. rewrite H1, IH; auto.
Qed.

Lemma ns_filter_map {A B} (f : A -> B) (p : B -> bool) l :
  filter p (map f l) = map f (filter (fun x => p (f x)) l).
Proof.
  induction l as [|h t IH]; [reflexivity|]. cbn [map filter].
  destruct (p (f h)); cbn [map]; rewrite IH; reflexivity.
Qed.

Ltac ns_simp := cbn [ns_set_act ns_set_sq ns_open ns_est ns_act ns_dq ns_sq ns_lg fst snd] in *.

Lemma ns_drain_spec c : ns_wf c -> forall dq act a r snt o,
  0 <= act <= ns_nstart c -> forallb ns_cnt0 dq = true ->
  ns_drain c act dq = (a, r, snt, o) ->
  exists rel, dq = rel ++ r /\ snt = filter ns_ncon rel /\
    o = map (fun q => NsTx (ns_nmsg q)) rel /\
    a = act + Z.of_nat (length snt) /\ a <= ns_nstart c /\ ns_quiet c a r.
Proof.
  intros [_ Hn]. induction dq as [|q rest IH]; intros act a r snt o Ha Hc H.
  - cbn in H. inversion H; subst. exists []. cbn. repeat split; lia.
  - cbn [ns_drain] in H. cbn [forallb] in Hc. apply andb_true_iff in Hc. destruct Hc as [Hq Hr].
    destruct (ns_ncon q) eqn:Eq.
    + destruct (ns_nstart c <=? act) eqn:El.
      * inversion H; subst. exists []. cbn [app filter map length ns_quiet].
        repeat split; try assumption; lia.
      * rewrite ns_inc_small in H by lia.
        destruct (ns_drain c (act + 1) rest) as [[[a' r'] s'] o'] eqn:Ed.
        unfold ns_cnt0 in Hq. rewrite Hq in H. inversion H; subst.
        destruct (IH (act + 1) _ _ _ _ ltac:(lia) Hr Ed) as (rel & E1 & E2 & E3 & E4 & Hle & Hqu).
        exists (q :: rel). cbn [app filter map]. rewrite Eq, <- E1, <- E2, <- E3. cbn [length].
        repeat split; try assumption; lia.
    + destruct (ns_drain c act rest) as [[[a' r'] s'] o'] eqn:Ed. inversion H; subst.
      destruct (IH _ _ _ _ _ Ha Hr Ed) as (rel & E1 & E2 & E3 & E4 & Hle & Hqu).
      exists (q :: rel). cbn [app filter map]. rewrite Eq, <- E1, <- E2, <- E3.
      repeat split; assumption.
Qed.

(* [ns_pre c s k]: an open session that still has k slots to release: con_active counts its
   send-queue nodes and k more *)
Definition ns_pre (c : ns_cfg) (s : ns_st) (k : nat) : Prop :=
  ns_open s = true /\ ns_act s = Z.of_nat (length (ns_sq s)) + Z.of_nat k /\
  ns_act s <= ns_nstart c /\ forallb ns_ncon (ns_sq s) = true /\
  forallb ns_cnt0 (ns_dq s) = true /\ (0 < ns_act s -> ns_est s = true).

Definition ns_post (c : ns_cfg) (s : ns_st) (k : nat) : Prop :=
  ns_pre c s k /\ ns_est s = true /\ ns_quiet c (ns_act s) (ns_dq s).

Lemma ns_winv_pre c s : ns_winv c s -> ns_open s = true -> ns_pre c s 0.
Proof.
  intros [] Ho. repeat split; try assumption; try lia.
  intros Ha. apply wv_est0. intros E. rewrite E in *. cbn [length] in *. lia.
Qed.

Lemma ns_pre_winv c s : ns_pre c s 0 -> ns_winv c s.
Proof.
  intros (Ho & Ha & Hl & Hc & Hd & He). constructor; try assumption; try lia; [|congruence].
  intros Hne. apply He. destruct (ns_sq s); [contradiction|cbn [length] in Ha; lia].
Qed.

(* [ns_rel s s' base txs]: the messages [txs] left the head of the delay queue in order, the
   CONs among them joined the send queue (whose other entries are [base]) *)
Definition ns_rel (s s' : ns_st) (base : list ns_node) (txs : list ns_msg) : Prop :=
  map ns_nmsg (ns_dq s) = txs ++ map ns_nmsg (ns_dq s') /\
  map ns_nmsg (ns_sq s') = map ns_nmsg base ++ filter ns_con txs.

Lemma ns_rel_refl s : ns_rel s s (ns_sq s) [].
Proof. split; [reflexivity|symmetry; apply app_nil_r]. Qed.

Lemma ns_rel_trans s s1 s2 base t1 t2 :
  ns_rel s s1 base t1 -> ns_rel s1 s2 (ns_sq s1) t2 -> ns_rel s s2 base (t1 ++ t2).
Proof.
  intros (A2 & A3) (B2 & B3). unfold ns_rel.
  rewrite A2, B2, B3, A3, filter_app, <- !app_assoc. split; reflexivity.
Qed.

Lemma ns_connected_char c s k : ns_wf c -> ns_pre c s k ->
  exists txs, snd (ns_connected c s) = map NsTx txs /\
              ns_rel s (fst (ns_connected c s)) (ns_sq s) txs /\
              ns_post c (fst (ns_connected c s)) k.
Proof.
  intros Hwf (Ho & Ha & Hl & Hc & Hd & He). unfold ns_connected.
  destruct (ns_drain c (ns_act s) (ns_dq s)) as [[[a r] snt] o] eqn:E. ns_simp.
  destruct (ns_drain_spec c Hwf _ (ns_act s) _ _ _ _ ltac:(lia) Hd E) as (rel & Ed & Es & Eo & Ea & Hle & Hq).
  rewrite Ed, forallb_app in Hd. apply andb_true_iff in Hd.
  exists (map ns_nmsg rel). split; [rewrite map_map; exact Eo|]. split; [split|].
  - rewrite Ed. apply map_app.
  - cbn [ns_sq]. rewrite Es, map_app, ns_filter_map. reflexivity.
  - unfold ns_post, ns_pre. ns_simp.
    rewrite app_length, forallb_app, Hc, Es, ns_forallb_filter_self, <- Es.
    repeat split; try assumption; try apply Hd; lia.
Qed.

Lemma ns_dec_drain_char c s k : ns_wf c -> ns_pre c s (S k) ->
  exists txs, snd (ns_dec_drain c s) = map NsTx txs /\
              ns_rel s (fst (ns_dec_drain c s)) (ns_sq s) txs /\
              ns_post c (fst (ns_dec_drain c s)) k.
Proof.
  intros Hwf (Ho & Ha & Hl & Hc & Hd & He). unfold ns_dec_drain.
  destruct (ns_act s =? 0) eqn:E0; [lia|]. cbn [ns_set_act ns_est]. rewrite He by lia.
  apply (ns_connected_char c (ns_set_act s (ns_act s - 1)) k Hwf).
  unfold ns_pre. ns_simp. repeat split; try assumption; try lia. intros _. apply He. lia.
Qed.

(* what every event other than a submission or a disconnect amounts to: nodes leave the send
   queue ([base] stay), the slots are released, the delay queue is flushed; nothing is owed
   afterwards and quiescence is not lost *)
Definition ns_flush (c : ns_cfg) (s s' : ns_st) (base : list ns_node) (txs : list ns_msg) : Prop :=
  ns_rel s s' base txs /\ ns_pre c s' 0 /\ (ns_qui c s -> ns_qui c s').

Lemma ns_dec_n_char c k : ns_wf c -> forall s, ns_pre c s k ->
  exists txs, snd (ns_dec_n c k s) = map NsTx txs /\
              ns_flush c s (fst (ns_dec_n c k s)) (ns_sq s) txs /\
              ns_est (fst (ns_dec_n c k s)) = ns_est s.
Proof.
  intros Hwf. induction k as [|k IH]; intros s Hp.
  - exists []. split; [reflexivity|]. split; [|reflexivity].
    split; [apply ns_rel_refl|]. split; [exact Hp|exact (fun H => H)].
  - cbn [ns_dec_n].
    destruct (ns_dec_drain_char c s k Hwf Hp) as (t1 & A1 & A2 & Hp1 & He1 & Hq1).
    destruct (ns_dec_drain c s) as [s1 o1]. ns_simp.
    destruct (IH s1 Hp1) as (t2 & B1 & (B2 & B3 & B4) & B5).
    destruct (ns_dec_n c k s1) as [s2 o2]. ns_simp.
    exists (t1 ++ t2). rewrite A1, B1, map_app. split; [reflexivity|]. split.
    + split; [eapply ns_rel_trans; eassumption|]. split; [exact B3|].
      intros _. apply B4. intros _. exact Hq1.
    + rewrite B5, He1. symmetry. apply Hp. destruct Hp as (_ & Ha & _). lia.
Qed.

(* messages accepted by coap_send() but not transmitted inside that call, in submission order *)
Definition ns_held (t : list (ns_ev * list ns_out)) : list ns_msg :=
  flat_map (fun eo => match fst eo with
                      | NsSubmit m =>
                        if ns_accepted (snd eo) && (match ns_txs (snd eo) with [] => true | _ => false end)
                        then [m] else []
                      | _ => []
                      end) t.

(* messages leaving the delay queue (first transmission, or discarded by a disconnect) *)
Definition ns_reltx (o : list ns_out) : list ns_msg :=
  flat_map (fun x => match x with NsTx m => [m] | NsDrop m => [m] | _ => [] end) o.

Definition ns_released (t : list (ns_ev * list ns_out)) : list ns_msg :=
  flat_map (fun eo => match fst eo with NsSubmit _ => [] | _ => ns_reltx (snd eo) end) t.

Lemma ns_reltx_app a b : ns_reltx (a ++ b) = ns_reltx a ++ ns_reltx b.
Proof. apply flat_map_app. Qed.
Lemma ns_txs_app a b : ns_txs (a ++ b) = ns_txs a ++ ns_txs b.
Proof. apply flat_map_app. Qed.
Lemma ns_res_app a b : ns_res (a ++ b) = ns_res a ++ ns_res b.
Proof. apply flat_map_app. Qed.

Lemma ns_out_flush txs extra :
  ns_txs (map NsTx txs ++ extra) = txs ++ ns_txs extra /\
  ns_reltx (map NsTx txs ++ extra) = txs ++ ns_reltx extra /\
  ns_res (map NsTx txs ++ extra) = ns_res extra /\
  ns_gaveup (map NsTx txs ++ extra) = ns_gaveup extra.
Proof.
  induction txs as [|h t (A & B & C & D)]; [repeat split|].
  unfold ns_txs, ns_reltx, ns_res, ns_gaveup in *. cbn [map app flat_map].
  rewrite A, B, C, D. repeat split.
Qed.

Lemma ns_gaveup_rst mid b : ns_gaveup [NsNack ns_RST mid b] = [].
Proof. reflexivity. Qed.
Lemma ns_gaveup_tm mid b : ns_gaveup [NsNack ns_TOO_MANY mid b] = [mid].
Proof. reflexivity. Qed.

Lemma ns_held_cons eo t : ns_held (eo :: t) = ns_held [eo] ++ ns_held t.
Proof. unfold ns_held. cbn [flat_map]. rewrite app_nil_r. reflexivity. Qed.

Lemma ns_released_cons eo t :
  ns_released (eo :: t) =
  (match fst eo with NsSubmit _ => [] | _ => ns_reltx (snd eo) end) ++ ns_released t.
Proof. reflexivity. Qed.

Lemma ns_trace_cons c s e r :
  ns_trace c s (e :: r) = (e, snd (ns_step c s e)) :: ns_trace c (fst (ns_step c s e)) r.
Proof. cbn [ns_trace]. destruct (ns_step c s e). reflexivity. Qed.

Definition ns_cm (x : Z) (l : list ns_msg) : nat := count_occ Z.eq_dec (map ns_mid l) x.

Lemma ns_cm_app x a b : ns_cm x (a ++ b) = (ns_cm x a + ns_cm x b)%nat.
Proof. unfold ns_cm. rewrite map_app. apply count_occ_app. Qed.

Lemma ns_cm_cons x h t : ns_cm x (h :: t) = (ns_cm x [h] + ns_cm x t)%nat.
Proof. exact (ns_cm_app x [h] t). Qed.

Lemma ns_cm_filter x p l : (ns_cm x (filter p l) <= ns_cm x l)%nat.
Proof.
  induction l as [|h t IH]; [apply le_n|]. cbn [filter]. rewrite (ns_cm_cons x h t).
  destruct (p h); [rewrite ns_cm_cons|]; lia.
Qed.

Lemma ns_cm_rm x mid l : (ns_cm x (ns_rm_mid mid l) <= ns_cm x l)%nat.
Proof.
  induction l as [|h t IH]; [apply le_n|]. cbn [ns_rm_mid]. rewrite (ns_cm_cons x h t).
  destruct (ns_mid h =? mid); [|rewrite ns_cm_cons]; lia.
Qed.

Lemma ns_cm_txs_reltx x o : (ns_cm x (ns_txs o) <= ns_cm x (ns_reltx o))%nat.
Proof.
  induction o as [|h t IH]; [apply le_n|].
  change (h :: t) with ([h] ++ t). rewrite ns_txs_app, ns_reltx_app, !ns_cm_app.
  destruct h; cbn [ns_txs ns_reltx flat_map app]; change (ns_cm x []) with O; lia.
Qed.

Lemma ns_existsb_mid_map mid l :
  existsb (fun p => ns_mid p =? mid) (map ns_nmsg l) = existsb (fun q => ns_nmid q =? mid) l.
Proof. induction l as [|h t IH]; [reflexivity|]. cbn [map existsb]. rewrite IH. reflexivity. Qed.

Lemma ns_mid_in mid l n : In n l -> ns_nmid n = mid ->
  existsb (fun y => ns_mid y =? mid) (map ns_nmsg l) = true.
Proof.
  intros Hin E. rewrite ns_existsb_mid_map. apply existsb_exists. exists n.
  split; [exact Hin|]. rewrite E. apply Z.eqb_refl.
Qed.

Lemma ns_mid_notin mid l : (forall n, In n l -> ns_nmid n <> mid) ->
  existsb (fun y => ns_mid y =? mid) (map ns_nmsg l) = false.
Proof.
  intros H. rewrite ns_existsb_mid_map. destruct (existsb _ l) eqn:E; [|reflexivity].
  apply existsb_exists in E. destruct E as (n & Hin & E). specialize (H n Hin). lia.
Qed.

Lemma ns_remove_pre c s mid n q : ns_winv c s -> ns_open s = true ->
  ns_remove mid (ns_sq s) = Some (n, q) -> ns_pre c (ns_set_sq s q) 1 /\ ns_ncon n = true.
Proof.
  intros Hi Ho Hr. destruct (ns_remove_some _ _ _ _ Hr) as (L & _ & _ & HP & _).
  destruct (HP ns_ncon (wv_con _ _ Hi)) as [Hn Hq]. split; [|exact Hn].
  destruct (ns_winv_pre c s Hi Ho) as (_ & Ha & Hl & _ & Hd & He).
  unfold ns_pre. ns_simp. repeat split; try assumption; lia.
Qed.

(* removal of one node, slot released, queue flushed: ACK, RST, give-up *)
Lemma ns_remove_dec_char c s mid n q : ns_wf c -> ns_winv c s -> ns_open s = true ->
  ns_remove mid (ns_sq s) = Some (n, q) ->
  ns_ncon n = true /\
  exists txs, snd (ns_dec_drain c (ns_set_sq s q)) = map NsTx txs /\
              ns_flush c s (fst (ns_dec_drain c (ns_set_sq s q))) q txs /\
              ns_est (fst (ns_dec_drain c (ns_set_sq s q))) = ns_est s.
Proof.
  intros Hwf Hi Ho Hr. destruct (ns_remove_pre c s mid n q Hi Ho Hr) as [Hp Hn].
  split; [exact Hn|].
  destruct (ns_dec_drain_char c _ 0 Hwf Hp) as (txs & A1 & A2 & Hp1 & He1 & Hq1).
  exists txs. split; [exact A1|]. split.
  - split; [exact A2|]. split; [exact Hp1|]. intros _ _. exact Hq1.
  - rewrite He1. symmetry. destruct Hp as (_ & Ha & _ & _ & _ & He). apply He. ns_simp. lia.
Qed.

Lemma ns_sep_pre c s tok : ns_winv c s -> ns_open s = true ->
  ns_pre c (ns_set_sq s (filter (fun n => negb (ns_tok (ns_nmsg n) =? tok)) (ns_sq s)))
           (length (filter ns_ncon (filter (fun n => ns_tok (ns_nmsg n) =? tok) (ns_sq s)))).
Proof.
  intros Hi Ho. destruct (ns_winv_pre c s Hi Ho) as (_ & Ha & Hl & Hc & Hd & He).
  pose proof (ns_filter_split (fun n => ns_tok (ns_nmsg n) =? tok) (ns_sq s)) as Hlen.
  cbn beta in Hlen. rewrite (ns_filter_all ns_ncon) by (apply ns_forallb_filter; exact Hc).
  unfold ns_pre. ns_simp. repeat split; try assumption; [lia|apply ns_forallb_filter; exact Hc].
Qed.

Lemma ns_bump_pre c s mid k : ns_pre c s k ->
  ns_pre c (ns_mkst (ns_open s) (ns_est s) (ns_act s) (ns_dq s) (ns_bump mid (ns_sq s)) (ns_lg s)) k.
Proof.
  destruct (ns_bump_props mid (ns_sq s)) as (B1 & _ & B3).
  unfold ns_pre. ns_simp. rewrite B1, B3. exact (fun H => H).
Qed.

(* [extra] is what the event reports after the flush; the table gives [base] at message level,
   where "node found" and "not found" are one case. *)
Lemma ns_step_char c s e : ns_wf c -> ns_winv c s -> ns_open s = true ->
  let sqm := map ns_nmsg (ns_sq s) in
  match e with
  | NsSubmit _ | NsFail _ => True
  | _ =>
    exists base txs extra,
      snd (ns_step c s e) = map NsTx txs ++ extra /\
      ns_flush c s (fst (ns_step c s e)) base txs /\
      ns_est (fst (ns_step c s e)) = (match e with NsUp => true | _ => ns_est s end) /\
      match e with
      | NsAck mid => map ns_nmsg base = ns_rm_mid mid sqm /\ extra = []
      | NsRst mid => map ns_nmsg base = ns_rm_mid mid sqm /\ exists b, extra = [NsNack ns_RST mid b]
      | NsTick mid =>
        (map ns_nmsg base = sqm /\
         ((existsb (fun y => ns_mid y =? mid) sqm = false /\ extra = []) \/
          (existsb (fun y => ns_mid y =? mid) sqm = true /\
           exists m, ns_mid m = mid /\ extra = [NsRe m]))) \/
        (map ns_nmsg base = ns_rm_mid mid sqm /\ extra = [NsNack ns_TOO_MANY mid true])
      | NsSep tok => map ns_nmsg base = filter (fun y => negb (ns_tok y =? tok)) sqm /\ extra = []
      | _ => base = ns_sq s /\ extra = []
      end
  end.
Proof.
  intros Hwf Hi Ho. pose proof Hwf as [Hfx Hn]. pose proof (ns_winv_pre c s Hi Ho) as Hp.
  assert (Hid : ns_flush c s s (ns_sq s) []).
  { split; [apply ns_rel_refl|]. split; [exact Hp|exact (fun H => H)]. }
  unfold ns_step. rewrite Ho. cbn [negb]. cbn zeta.
  destruct e as [m|mid|mid|mid|tok| |r]; try exact I.
  - unfold ns_ack. destruct (ns_remove mid (ns_sq s)) as [[n q]|] eqn:Er.
    + destruct (ns_remove_dec_char c s mid n q Hwf Hi Ho Er) as (_ & txs & A1 & A2 & A3).
      destruct (ns_remove_some _ _ _ _ Er) as (_ & _ & _ & _ & A5).
      destruct (ns_dec_drain c (ns_set_sq s q)) as [s1 o]. ns_simp.
      exists q, txs, []. rewrite app_nil_r. auto 7.
    + destruct (ns_remove_none _ _ Er) as [A1 _]. exists (ns_sq s), [], []. rewrite A1. auto 7.
  - unfold ns_rst. rewrite Hfx. destruct (ns_remove mid (ns_sq s)) as [[n q]|] eqn:Er.
    + destruct (ns_remove_dec_char c s mid n q Hwf Hi Ho Er) as (Hn' & txs & A1 & A2 & A3).
      destruct (ns_remove_some _ _ _ _ Er) as (_ & _ & _ & _ & A5). rewrite Hn'.
      destruct (ns_dec_drain c (ns_set_sq s q)) as [s1 o]. ns_simp.
      exists q, txs, [NsNack ns_RST mid true]. rewrite A1. eauto 8.
    + destruct (ns_remove_none _ _ Er) as [A1 _].
      exists (ns_sq s), [], [NsNack ns_RST mid false]. rewrite A1. eauto 8.
  - unfold ns_tick. destruct (ns_remove mid (ns_sq s)) as [[n q]|] eqn:Er.
    + destruct (ns_remove_some _ _ _ _ Er) as (_ & Hm & Hin & _ & A5).
      destruct (ns_cnt n <? ns_maxrt c).
      * (* retransmission: the slot is released and taken again *)
        destruct (ns_remove_pre c s mid n q Hi Ho Er) as [(_ & Ha & Hl & _ & _ & He) Hn']. ns_simp.
        destruct (ns_act s =? 0) eqn:E0; [lia|].
        replace (negb (ns_est s) || ns_ncon n && (ns_nstart c <=? ns_act s - 1)) with false
          by (rewrite He, Hn' by lia; cbn [negb orb andb]; lia).
        rewrite Hn', ns_inc_small, Z.sub_add by lia.
        destruct (ns_bump_props mid (ns_sq s)) as (_ & B2 & _).
        exists (ns_bump mid (ns_sq s)), [], [NsRe (ns_nmsg n)]. cbn [fst snd].
        apply (ns_bump_pre c s mid) in Hp. apply (ns_mid_in mid _ n Hin) in Hm as Hex.
        split; [reflexivity|]. split; [|eauto 10].
        split; [split; [reflexivity|symmetry; apply app_nil_r]|]. split; [exact Hp|exact (fun H => H)].
      * destruct (ns_remove_dec_char c s mid n q Hwf Hi Ho Er) as (Hn' & txs & A1 & A2 & A3).
        rewrite Hn'. destruct (ns_dec_drain c (ns_set_sq s q)) as [s1 o]. ns_simp.
        exists q, txs, [NsNack ns_TOO_MANY mid true]. rewrite A1. auto 8.
    + destruct (ns_remove_none _ _ Er) as [_ A2]. apply ns_mid_notin in A2.
      exists (ns_sq s), [], []. auto 10.
  - unfold ns_sep.
    destruct (ns_dec_n_char c _ Hwf _ (ns_sep_pre c s tok Hi Ho)) as (txs & A1 & A2 & A3).
    pose proof (ns_filter_map ns_nmsg (fun y => negb (ns_tok y =? tok)) (ns_sq s)) as Eb.
    symmetry in Eb. exists (filter (fun n => negb (ns_tok (ns_nmsg n) =? tok)) (ns_sq s)), txs, [].
    rewrite app_nil_r. auto 7.
  - destruct (ns_connected_char c s 0 Hwf Hp) as (txs & A1 & A2 & Hp' & He & Hq).
    exists (ns_sq s), txs, []. rewrite app_nil_r. unfold ns_flush, ns_qui. auto 9.
Qed.

(* what does not depend on the event *)
Lemma ns_step_gen c s e : ns_wf c -> ns_winv c s -> ns_open s = true ->
  match e with
  | NsSubmit _ | NsFail _ => True
  | _ =>
    exists base txs extra,
      snd (ns_step c s e) = map NsTx txs ++ extra /\
      ns_flush c s (fst (ns_step c s e)) base txs /\ ns_reltx extra = [] /\
      forall x, (ns_cm x (map ns_nmsg base) <= ns_cm x (map ns_nmsg (ns_sq s)))%nat
  end.
Proof.
  intros Hwf Hi Ho. pose proof (ns_step_char c s e Hwf Hi Ho) as H. cbn zeta in H.
  destruct e as [m|mid|mid|mid|tok| |r]; try exact I;
    destruct H as (base & txs & extra & Eo & Hf & _ & Hev); exists base, txs, extra;
    (split; [exact Eo|]); (split; [exact Hf|]).
  - destruct Hev as [Eb ->]. split; [reflexivity|]. intros x. rewrite Eb. apply ns_cm_rm.
  - destruct Hev as [Eb [b ->]]. split; [reflexivity|]. intros x. rewrite Eb. apply ns_cm_rm.
  - destruct Hev as [[Eb [[_ ->]|(_ & m & _ & ->)]]|[Eb ->]];
      (split; [reflexivity|]); intros x; rewrite Eb; (apply le_n || apply ns_cm_rm).
  - destruct Hev as [Eb ->]. split; [reflexivity|]. intros x. rewrite Eb. apply ns_cm_filter.
  - destruct Hev as [-> ->]. split; [reflexivity|]. intros x. apply le_n.
Qed.

Lemma ns_idle_inv c o e l : ns_wf c -> ns_inv c (ns_mkst o e 0 [] [] l).
Proof.
  intros [_ Hn]. constructor; ns_simp; cbn [length forallb ns_quiet]; try reflexivity;
    try lia; tauto.
Qed.

Theorem ns_step_keeps c s e : ns_wf c -> ns_winv c s ->
  ns_winv c (fst (ns_step c s e)) /\ (ns_qui c s -> ns_qui c (fst (ns_step c s e))).
Proof.
  intros Hwf Hi. destruct (ns_open s) eqn:Ho.
  2: { unfold ns_step. rewrite Ho. destruct e; (split; [exact Hi|exact (fun H => H)]). }
  pose proof (ns_step_gen c s e Hwf Hi Ho) as H.
  destruct e as [m| | | | | |r];
    try (destruct H as (base & txs & extra & _ & (_ & Hp & Hq) & _);
         split; [apply ns_pre_winv; exact Hp|exact Hq]).
  - clear H. destruct Hwf as [_ Hn]. destruct (ns_winv_pre c s Hi Ho) as (_ & Ha & Hl & Hc & Hd & He).
    unfold ns_step. rewrite Ho. cbn [negb]. unfold ns_submit.
    destruct (negb (ns_est s) || ns_con m && (ns_nstart c <=? ns_act s)) eqn:Eh.
    + destruct (existsb _ (ns_dq s)); cbn [fst]; [split; [exact Hi|exact (fun H => H)]|]. split.
      * apply ns_pre_winv. unfold ns_pre. ns_simp. rewrite forallb_app, Hd.
        repeat split; assumption.
      * (* the message waits for a reason *)
        intros Hq Hest. specialize (Hq Hest). ns_simp. rewrite Hest in Eh. cbn [negb orb] in Eh.
        destruct (ns_dq s); cbn [app ns_quiet] in *; [|exact Hq].
        unfold ns_ncon. cbn [ns_nmsg]. destruct (ns_con m); [split; [reflexivity|lia]|discriminate].
    + apply orb_false_iff in Eh. destruct Eh as [Hest Eh]. apply negb_false_iff in Hest.
      destruct (ns_con m) eqn:Ec; cbn [fst]; [|split; [exact Hi|exact (fun H => H)]].
      cbn [andb] in Eh. rewrite ns_inc_small by lia. split.
      * apply ns_pre_winv. unfold ns_pre. ns_simp.
        rewrite app_length, forallb_app, Hc. unfold ns_ncon. cbn [length forallb ns_nmsg].
        rewrite Ec. repeat split; auto; lia.
      * (* a slot was free, so nothing was waiting *)
        intros Hq _. specialize (Hq Hest). ns_simp.
        destruct (ns_dq s); cbn [ns_quiet] in *; [exact I|lia].
  - clear H. unfold ns_step. rewrite Ho. cbn [negb]. unfold ns_fail.
    destruct (r =? ns_ICMP); cbn [fst]; [split; [exact Hi|exact (fun H => H)]|].
    pose proof (ns_idle_inv c (negb (ns_client c)) (ns_udp c) [] Hwf) as H.
    apply ns_inv_iff in H. destruct H as [A B]. split; [exact A|intros _; exact B].
Qed.

Theorem ns_step_winv c s e : ns_wf c -> ns_winv c s -> ns_winv c (fst (ns_step c s e)).
Proof. intros Hwf Hi. apply ns_step_keeps; assumption. Qed.

Theorem ns_step_inv c s e : ns_wf c -> ns_inv c s -> ns_inv c (fst (ns_step c s e)).
Proof.
  intros Hwf Hi. apply ns_inv_iff in Hi. destruct Hi as [Hw Hq]. apply ns_inv_iff.
  destruct (ns_step_keeps c s e Hwf Hw) as [A B]. split; [exact A|exact (B Hq)].
Qed.

Lemma ns_init_inv c e : ns_wf c -> ns_inv c (ns_init e).
Proof. apply ns_idle_inv. Qed.

Theorem ns_run_inv c : ns_wf c -> forall evs s, ns_inv c s -> ns_inv c (ns_run c s evs).
Proof.
  intros Hwf. induction evs as [|e r IH]; intros s Hi; [exact Hi|].
  cbn [ns_run]. apply IH. apply ns_step_inv; assumption.
Qed.

(* where the message went, and that it went to one place only *)
Lemma ns_submit_char c s m :
  let s' := fst (ns_step c s (NsSubmit m)) in
  let o := snd (ns_step c s (NsSubmit m)) in
  map ns_nmsg (ns_dq s') = map ns_nmsg (ns_dq s) ++ ns_held [(NsSubmit m, o)] /\
  map ns_nmsg (ns_sq s') = map ns_nmsg (ns_sq s) ++ filter ns_con (ns_txs o) /\
  forall x, (ns_cm x (ns_txs o ++ ns_held [(NsSubmit m, o)]) <= ns_cm x [m])%nat.
Proof.
  unfold ns_step, ns_submit, ns_held. destruct (ns_open s); cbn [negb].
  2: { cbn [fst snd flat_map ns_txs ns_accepted existsb orb andb filter app]. rewrite !app_nil_r.
       repeat split. intros x. apply Nat.le_0_l. }
  destruct (negb (ns_est s) || ns_con m && (ns_nstart c <=? ns_act s)).
  - destruct (existsb _ (ns_dq s)); ns_simp;
      cbn [flat_map ns_txs ns_accepted existsb orb andb filter app]; rewrite !app_nil_r.
    + repeat split. intros x. apply Nat.le_0_l.
    + rewrite map_app. repeat split. intros x. apply le_n.
  - destruct (ns_con m) eqn:Ec; ns_simp;
      cbn [flat_map ns_txs ns_accepted existsb orb andb filter app]; rewrite ?Ec, !app_nil_r.
    + rewrite map_app. repeat split. intros x. apply le_n.
    + repeat split. intros x. apply le_n.
Qed.

Lemma ns_sub_mids_count e r x :
  count_occ Z.eq_dec (ns_sub_mids (e :: r)) x =
  ((match e with NsSubmit m => ns_cm x [m] | _ => 0 end) + count_occ Z.eq_dec (ns_sub_mids r) x)%nat.
Proof.
  destruct e; try reflexivity. unfold ns_cm. cbn [ns_sub_mids map count_occ].
  destruct (Z.eq_dec (ns_mid m) x); reflexivity.
Qed.

Definition ns_ffirst (s : ns_st) (r : Z) : list ns_out :=
  match ns_sq s with
  | n :: _ => if (r =? ns_ICMP) || negb (ns_ncon n) then [NsNack r (ns_nmid n) true] else []
  | [] => []
  end.
Definition ns_ffb (s : ns_st) (r : Z) : list ns_out :=
  match ns_lg s with m :: _ => [NsNack r m true] | [] => [NsNack r 0 false] end.
Definition ns_fmid (s : ns_st) (r : Z) : list ns_out :=
  if match ns_sq s, filter ns_ncon (ns_dq s) with [], [] => false | _, _ => true end
  then [] else ns_ffb s r.

Lemma ns_fail_shape c s r : (r =? ns_ICMP) = false ->
  ns_fail c s r = (ns_mkst (negb (ns_client c)) (ns_udp c) 0 [] [] [],
                   ns_ffirst s r ++ ns_drops r (ns_dq s) ++ ns_fmid s r ++ ns_nacks r (ns_sq s)).
Proof. intros E. unfold ns_fail, ns_ffirst, ns_fmid, ns_ffb. rewrite E. reflexivity. Qed.

Lemma ns_fail_shape_icmp c s r : (r =? ns_ICMP) = true ->
  ns_fail c s r = (s, match ns_sq s with [] => ns_ffb s r | _ :: _ => ns_ffirst s r end).
Proof. intros E. unfold ns_fail, ns_ffirst, ns_ffb. rewrite E. reflexivity. Qed.

Definition ns_notx (o : list ns_out) (rel : list ns_msg) : Prop :=
  ns_txs o = [] /\ ns_res o = [] /\ ns_reltx o = rel.

Lemma ns_notx_app a b ra rb : ns_notx a ra -> ns_notx b rb -> ns_notx (a ++ b) (ra ++ rb).
Proof.
  intros (A1 & A2 & A3) (B1 & B2 & B3). unfold ns_notx.
  rewrite ns_txs_app, ns_res_app, ns_reltx_app, A1, A2, A3, B1, B2, B3. repeat split.
Qed.

Lemma ns_flat_map_nil {A B C} (f : B -> list C) (g : A -> list B) l :
  (forall a, flat_map f (g a) = []) -> flat_map f (flat_map g l) = [].
Proof.
  intros H. induction l as [|h t IH]; [reflexivity|]. cbn [flat_map].
  rewrite flat_map_app, H, IH. reflexivity.
Qed.

Lemma ns_notx_nacks r l : ns_notx (ns_nacks r l) [].
Proof. repeat split; apply ns_flat_map_nil; intros a; destruct (ns_ncon a); reflexivity. Qed.

Lemma ns_notx_drops r l : ns_notx (ns_drops r l) (map ns_nmsg l).
Proof.
  split; [|split]; try (apply ns_flat_map_nil; intros a; destruct (ns_ncon a); reflexivity).
  induction l as [|h t IH]; [reflexivity|]. unfold ns_drops in *. cbn [flat_map map].
  rewrite ns_reltx_app, IH. destruct (ns_ncon h); reflexivity.
Qed.

Lemma ns_notx_ffirst s r : ns_notx (ns_ffirst s r) [].
Proof.
  unfold ns_ffirst. destruct (ns_sq s) as [|n t]; [repeat split|].
  destruct ((r =? ns_ICMP) || negb (ns_ncon n)); repeat split.
Qed.

Lemma ns_notx_ffb s r : ns_notx (ns_ffb s r) [].
Proof. unfold ns_ffb. destruct (ns_lg s); repeat split. Qed.

Lemma ns_notx_fmid s r : ns_notx (ns_fmid s r) [].
Proof.
  unfold ns_fmid. destruct (ns_sq s); destruct (filter ns_ncon (ns_dq s));
    first [apply ns_notx_ffb|repeat split].
Qed.

Lemma ns_fail_out c s r :
  ns_txs (snd (ns_fail c s r)) = [] /\ ns_res (snd (ns_fail c s r)) = [] /\
  ns_reltx (snd (ns_fail c s r)) ++ map ns_nmsg (ns_dq (fst (ns_fail c s r))) =
  map ns_nmsg (ns_dq s).
Proof.
  destruct (r =? ns_ICMP) eqn:Er.
  - rewrite (ns_fail_shape_icmp c s r Er). cbn [fst snd].
    assert (H : ns_notx (match ns_sq s with [] => ns_ffb s r | _ :: _ => ns_ffirst s r end) []).
    { destruct (ns_sq s); [apply ns_notx_ffb|apply ns_notx_ffirst]. }
    destruct H as (A1 & A2 & A3). rewrite A3. repeat split; assumption.
  - rewrite (ns_fail_shape c s r Er). cbn [fst snd ns_dq map].
    destruct (ns_notx_app _ _ _ _ (ns_notx_ffirst s r)
                (ns_notx_app _ _ _ _ (ns_notx_drops r (ns_dq s))
                   (ns_notx_app _ _ _ _ (ns_notx_fmid s r) (ns_notx_nacks r (ns_sq s)))))
      as (A1 & A2 & A3).
    rewrite A3. cbn [app]. rewrite !app_nil_r. repeat split; assumption.
Qed.

Lemma ns_step_rel c s e : ns_wf c -> ns_winv c s ->
  match e with
  | NsSubmit m =>
    map ns_nmsg (ns_dq (fst (ns_step c s e))) =
    map ns_nmsg (ns_dq s) ++ ns_held [(e, snd (ns_step c s e))]
  | _ =>
    ns_reltx (snd (ns_step c s e)) ++ map ns_nmsg (ns_dq (fst (ns_step c s e))) =
    map ns_nmsg (ns_dq s)
  end.
Proof.
  intros Hwf Hi. destruct (ns_open s) eqn:Ho.
  2: { unfold ns_step. rewrite Ho. destruct e; try reflexivity. cbn. rewrite app_nil_r. reflexivity. }
  pose proof (ns_step_gen c s e Hwf Hi Ho) as H.
  destruct e as [m| | | | | |r];
    try (destruct H as (base & txs & extra & -> & ((A & _) & _) & E & _);
         rewrite (proj1 (proj2 (ns_out_flush txs extra))), E, app_nil_r; symmetry; exact A).
  - apply ns_submit_char.
  - unfold ns_step. rewrite Ho. apply ns_fail_out.
Qed.

Theorem ns_fifo_once c : ns_wf c -> forall evs s, ns_winv c s ->
  ns_released (ns_trace c s evs) ++ map ns_nmsg (ns_dq (ns_run c s evs)) =
  map ns_nmsg (ns_dq s) ++ ns_held (ns_trace c s evs).
Proof.
  intros Hwf. induction evs as [|e r IH]; intros s Hi.
  - cbn. rewrite app_nil_r. reflexivity.
  - rewrite ns_trace_cons, ns_held_cons, ns_released_cons. cbn [ns_run fst snd].
    pose proof (ns_step_rel c s e Hwf Hi) as H.
    rewrite <- app_assoc, (IH _ (ns_step_winv c s e Hwf Hi)), !app_assoc. f_equal.
    destruct e; [exact H|..]; unfold ns_held; cbn [flat_map fst app]; rewrite app_nil_r; exact H.
Qed.

Lemma ns_flat_snd_cons {A B} (e : A) (o : list B) t :
  flat_map snd ((e, o) :: t) = o ++ flat_map snd t.
Proof. reflexivity. Qed.

Lemma ns_rel_tx_le x o a b : ns_reltx o ++ a = b ->
  (ns_cm x (ns_txs o) + ns_cm x a <= ns_cm x b)%nat.
Proof. intros <-. rewrite ns_cm_app. pose proof (ns_cm_txs_reltx x o). lia. Qed.

Lemma ns_step_tx c s e x : ns_wf c -> ns_winv c s ->
  (ns_cm x (ns_txs (snd (ns_step c s e))) + ns_cm x (map ns_nmsg (ns_dq (fst (ns_step c s e))))
   <= ns_cm x (map ns_nmsg (ns_dq s)) + match e with NsSubmit m => ns_cm x [m] | _ => 0 end)%nat.
Proof.
  intros Hwf Hi. pose proof (ns_step_rel c s e Hwf Hi) as H.
  destruct e as [m| | | | | |]; try (rewrite Nat.add_0_r; exact (ns_rel_tx_le x _ _ _ H)).
  destruct (ns_submit_char c s m) as (_ & _ & Hb). specialize (Hb x).
  rewrite H, !ns_cm_app in *. lia.
Qed.

Theorem ns_tx_budget c : ns_wf c -> forall x evs s, ns_winv c s ->
  (ns_cm x (ns_txs (flat_map snd (ns_trace c s evs))) +
   ns_cm x (map ns_nmsg (ns_dq (ns_run c s evs)))
   <= ns_cm x (map ns_nmsg (ns_dq s)) + count_occ Z.eq_dec (ns_sub_mids evs) x)%nat.
Proof.
  intros Hwf x. induction evs as [|e r IH]; intros s Hi; [cbn; lia|].
  rewrite ns_trace_cons, ns_flat_snd_cons, ns_txs_app, ns_cm_app, ns_sub_mids_count. cbn [ns_run].
  pose proof (ns_step_tx c s e x Hwf Hi). specialize (IH _ (ns_step_winv c s e Hwf Hi)). lia.
Qed.

Theorem ns_tx_once c : ns_wf c -> forall est0 evs,
  NoDup (ns_sub_mids evs) ->
  NoDup (map ns_mid (ns_txs (flat_map snd (ns_trace c (ns_init est0) evs)))).
Proof.
  intros Hwf est0 evs Hnd. apply (NoDup_count_occ Z.eq_dec). intros x.
  pose proof (ns_tx_budget c Hwf x evs _ (ns_inv_winv c _ (ns_init_inv c est0 Hwf))) as H.
  rewrite (NoDup_count_occ Z.eq_dec) in Hnd. specialize (Hnd x).
  unfold ns_cm in H. cbn [ns_init ns_dq map count_occ] in H. lia.
Qed.

(* message ids stay distinct: no id is in the queues or still to be submitted twice *)
Definition ns_budget (s : ns_st) (evs : list ns_ev) : Prop :=
  forall x, (ns_cm x (map ns_nmsg (ns_dq s)) + ns_cm x (map ns_nmsg (ns_sq s)) +
             count_occ Z.eq_dec (ns_sub_mids evs) x <= 1)%nat.

Lemma ns_rel_budget x s s' base txs : ns_rel s s' base txs ->
  (ns_cm x (map ns_nmsg base) <= ns_cm x (map ns_nmsg (ns_sq s)))%nat ->
  (ns_cm x (map ns_nmsg (ns_dq s')) + ns_cm x (map ns_nmsg (ns_sq s')) <=
   ns_cm x (map ns_nmsg (ns_dq s)) + ns_cm x (map ns_nmsg (ns_sq s)))%nat.
Proof.
  intros (A2 & A3) Hb. rewrite A2, A3, !ns_cm_app.
  pose proof (ns_cm_filter x ns_con txs). lia.
Qed.

Lemma ns_step_ids c s e x : ns_wf c -> ns_winv c s ->
  (ns_cm x (map ns_nmsg (ns_dq (fst (ns_step c s e)))) +
   ns_cm x (map ns_nmsg (ns_sq (fst (ns_step c s e))))
   <= ns_cm x (map ns_nmsg (ns_dq s)) + ns_cm x (map ns_nmsg (ns_sq s)) +
      match e with NsSubmit m => ns_cm x [m] | _ => 0 end)%nat.
Proof.
  intros Hwf Hi. destruct (ns_open s) eqn:Ho.
  2: { unfold ns_step. rewrite Ho. destruct e; apply Nat.le_add_r. }
  pose proof (ns_step_gen c s e Hwf Hi Ho) as H.
  destruct e as [m| | | | | |rr];
    try (destruct H as (base & txs & extra & _ & (Hr & _) & _ & Hx);
         rewrite Nat.add_0_r; exact (ns_rel_budget x _ _ _ _ Hr (Hx x))).
  - destruct (ns_submit_char c s m) as (A1 & A2 & A3). rewrite A1, A2, !ns_cm_app.
    pose proof (ns_cm_filter x ns_con (ns_txs (snd (ns_step c s (NsSubmit m))))).
    specialize (A3 x). rewrite ns_cm_app in A3. lia.
  - unfold ns_step. rewrite Ho. cbn [negb]. unfold ns_fail.
    destruct (rr =? ns_ICMP); cbn [fst]; [apply Nat.le_add_r|apply Nat.le_0_l].
Qed.

Lemma ns_step_budget c s e r : ns_wf c -> ns_winv c s ->
  ns_budget s (e :: r) -> ns_budget (fst (ns_step c s e)) r.
Proof.
  intros Hwf Hi Hb x. specialize (Hb x). rewrite ns_sub_mids_count in Hb.
  pose proof (ns_step_ids c s e x Hwf Hi). lia.
Qed.

Lemma ns_init_budget e evs : NoDup (ns_sub_mids evs) -> ns_budget (ns_init e) evs.
Proof.
  intros H x. rewrite (NoDup_count_occ Z.eq_dec) in H. specialize (H x).
  unfold ns_cm. cbn. lia.
Qed.

Lemma ns_run_budget c : ns_wf c -> forall evs s, ns_winv c s -> ns_budget s evs ->
  ns_budget (ns_run c s evs) [].
Proof.
  intros Hwf. induction evs as [|e r IH]; intros s Hi Hb; [exact Hb|].
  cbn [ns_run]. apply IH; [apply ns_step_winv|apply ns_step_budget]; assumption.
Qed.

(* what the history checker should know of a state *)
Definition ns_abs (s : ns_st) : ns_mon :=
  ns_mkmon (ns_open s) (ns_est s) (map ns_nmsg (ns_sq s)) (map ns_nmsg (ns_dq s)).

Lemma ns_msg_eqb_refl x : ns_msg_eqb x x = true.
Proof. unfold ns_msg_eqb. rewrite eqb_reflx, !Z.eqb_refl. reflexivity. Qed.

Lemma ns_mon_txs_ok nstart : forall txs infl rest,
  Z.of_nat (length (infl ++ filter ns_con txs)) <= nstart ->
  ns_mon_txs nstart infl (txs ++ rest) txs = Some (infl ++ filter ns_con txs, rest).
Proof.
  induction txs as [|x r IH]; intros infl rest H.
  - cbn [app filter]. rewrite app_nil_r. destruct rest; reflexivity.
  - cbn [app ns_mon_txs]. rewrite ns_msg_eqb_refl. cbn [filter] in *.
    rewrite app_length in H.
    destruct (ns_con x).
    + cbn [length] in H. rewrite app_length. cbn [length].
      destruct (Z.of_nat (length infl + 1) <=? nstart) eqn:E; [|lia].
      rewrite IH; [rewrite <- app_assoc; reflexivity|].
      rewrite <- app_assoc, app_length. cbn [app length]. lia.
    + destruct (Z.of_nat (length infl) <=? nstart) eqn:E; [|lia].
      apply IH. rewrite app_length. exact H.
Qed.

Lemma ns_quiescent_inv c s : ns_inv c s ->
  ns_quiescent (ns_nstart c) (ns_est s) (map ns_nmsg (ns_sq s)) (map ns_nmsg (ns_dq s)) = true.
Proof.
  intros Hi. unfold ns_quiescent. destruct (ns_est s) eqn:He; [|reflexivity].
  pose proof (iv_qui _ _ Hi He) as Hq. destruct (ns_dq s) as [|q t]; [reflexivity|].
  cbn [map ns_quiet] in *. destruct Hq as [Hq1 Hq2]. unfold ns_ncon in Hq1. rewrite Hq1.
  rewrite map_length, <- (iv_act _ _ Hi), Hq2, Z.eqb_refl. reflexivity.
Qed.

Lemma ns_mon_finish_ok c s s' base txs extra est infl : ns_qui c s -> ns_flush c s s' base txs ->
  ns_txs extra = [] -> ns_est s' = est -> map ns_nmsg base = infl ->
  ns_mon_finish c est infl (map ns_nmsg (ns_dq s)) (map NsTx txs ++ extra) = Some (ns_abs s').
Proof.
  intros Hq ((A2 & A3) & Hp & Hq') Ht <- <-.
  assert (Hi : ns_inv c s') by (apply ns_inv_iff; split; [apply ns_pre_winv; exact Hp|exact (Hq' Hq)]).
  unfold ns_mon_finish. rewrite (proj1 (ns_out_flush txs extra)), Ht, app_nil_r, A2, ns_mon_txs_ok.
  - rewrite <- A3, (ns_quiescent_inv c s' Hi). unfold ns_abs. rewrite (proj1 Hp). reflexivity.
  - rewrite <- A3, map_length, <- (iv_act _ _ Hi). exact (iv_le _ _ Hi).
Qed.

Ltac ns_mon_open Ho :=
  unfold ns_mon_step; cbn [ns_abs ns_mopen ns_mest ns_minfl ns_mpend]; rewrite Ho; cbn [negb].

Lemma ns_mon_step_submit c s m : ns_wf c -> ns_inv c s -> ns_open s = true ->
  ns_mon_step c (ns_abs s) (NsSubmit m) (snd (ns_step c s (NsSubmit m))) =
  Some (ns_abs (fst (ns_step c s (NsSubmit m)))).
Proof.
  intros Hwf Hi Ho. pose proof (ns_step_inv c s (NsSubmit m) Hwf Hi) as Hi'.
  revert Hi'. unfold ns_step. rewrite Ho. cbn [negb]. unfold ns_submit.
  destruct (negb (ns_est s) || ns_con m && (ns_nstart c <=? ns_act s)) eqn:Eh.
  - destruct (existsb (fun q => ns_nmid q =? ns_mid m) (ns_dq s)) eqn:Ex; ns_simp; intros Hi'.
    + ns_mon_open Ho. cbn. rewrite ns_existsb_mid_map, Ex. unfold ns_abs. rewrite ?Ho. reflexivity.
    + ns_mon_open Ho. simpl ns_gaveup; simpl ns_res; simpl ns_accepted; simpl ns_txs;
        cbn [fold_left forallb negb].
      assert (E1 : ns_est s && negb (ns_con m) = false).
      { destruct (ns_est s); [|reflexivity]. cbn [negb orb] in Eh.
        destruct (ns_con m); [reflexivity|discriminate]. }
      rewrite E1.
      pose proof (ns_quiescent_inv c _ Hi') as Hq. ns_simp. rewrite map_app in Hq. cbn [map ns_nmsg] in Hq.
      rewrite Hq. unfold ns_abs. ns_simp. rewrite ?Ho, map_app. reflexivity.
  - apply orb_false_iff in Eh. destruct Eh as [He Eh]. apply negb_false_iff in He.
    pose proof (iv_le _ _ Hi) as Hle. pose proof (iv_act _ _ Hi) as Hact.
    destruct (ns_con m) eqn:Ec; ns_simp; intros Hi';
      ns_mon_open Ho; simpl ns_gaveup; simpl ns_res; simpl ns_accepted; simpl ns_txs;
      cbn [fold_left forallb negb]; rewrite ns_msg_eqb_refl, He, Ec; cbn [andb].
    + pose proof (iv_le _ _ Hi') as Hle'. pose proof (iv_act _ _ Hi') as Hact'. ns_simp.
      rewrite Hact' in Hle'. rewrite app_length, map_length. rewrite app_length in Hle'.
      cbn [length] in *.
      destruct (Z.of_nat (length (ns_sq s) + 1) <=? ns_nstart c) eqn:El; [|lia].
      unfold ns_abs. ns_simp. rewrite ?Ho, ?He, map_app. reflexivity.
    + rewrite map_length.
      destruct (Z.of_nat (length (ns_sq s)) <=? ns_nstart c) eqn:El; [|lia].
      unfold ns_abs. rewrite ?Ho, ?He. reflexivity.
Qed.

Lemma ns_nack_count_app x a b : ns_nack_count x (a ++ b) = (ns_nack_count x a + ns_nack_count x b)%nat.
Proof. unfold ns_nack_count. rewrite filter_app, app_length. reflexivity. Qed.

Lemma ns_nack_count_one x r h b : ns_nack_count x [NsNack r (ns_nmid h) b] = ns_cm x [ns_nmsg h].
Proof.
  unfold ns_nack_count, ns_cm, ns_nmid. cbn [filter map count_occ].
  destruct (Z.eq_dec (ns_mid (ns_nmsg h)) x) as [E|E].
  - rewrite E, Z.eqb_refl. reflexivity.
  - destruct (ns_mid (ns_nmsg h) =? x) eqn:E'; [lia|reflexivity].
Qed.

(* one NACK per CON node of a queue, whatever else is reported with it *)
Lemma ns_nack_count_nodes x r (pre : ns_node -> list ns_out) l :
  (forall q, ns_nack_count x (pre q) = 0%nat) ->
  ns_nack_count x (flat_map (fun q => pre q ++ (if ns_ncon q then [NsNack r (ns_nmid q) true] else [])) l) =
  ns_cm x (filter ns_con (map ns_nmsg l)).
Proof.
  intros Hpre. induction l as [|h t IH]; [reflexivity|]. cbn [flat_map map filter].
  rewrite !ns_nack_count_app, Hpre, IH. change (ns_con (ns_nmsg h)) with (ns_ncon h).
  destruct (ns_ncon h); [rewrite ns_nack_count_one, (ns_cm_cons x _ (filter _ _))|]; reflexivity.
Qed.

Lemma ns_nack_count_drops x r l :
  ns_nack_count x (ns_drops r l) = ns_cm x (filter ns_con (map ns_nmsg l)).
Proof. exact (ns_nack_count_nodes x r (fun q => [NsDrop (ns_nmsg q)]) l (fun _ => eq_refl)). Qed.

Lemma ns_nack_count_nacks x r l :
  ns_nack_count x (ns_nacks r l) = ns_cm x (filter ns_con (map ns_nmsg l)).
Proof. exact (ns_nack_count_nodes x r (fun _ => []) l (fun _ => eq_refl)). Qed.

Lemma ns_cm_in x l m : In m l -> ns_mid m = x -> (1 <= ns_cm x l)%nat.
Proof.
  intros Hin E. unfold ns_cm. apply (count_occ_In Z.eq_dec). rewrite <- E. apply in_map. exact Hin.
Qed.

Lemma ns_ffirst_count s r x :
  (ns_nack_count x (ns_ffirst s r) <= ns_cm x (map ns_nmsg (ns_sq s)))%nat.
Proof.
  unfold ns_ffirst. destruct (ns_sq s) as [|n t]; [apply le_n|].
  destruct ((r =? ns_ICMP) || negb (ns_ncon n)); [|apply Nat.le_0_l].
  cbn [map]. rewrite ns_cm_cons, ns_nack_count_one. lia.
Qed.

Lemma ns_fail_count c s r : ns_budget s [] -> (r =? ns_ICMP) = false ->
  forall q, In q (ns_dq s) -> ns_ncon q = true ->
  ns_nack_count (ns_nmid q) (snd (ns_fail c s r)) = 1%nat.
Proof.
  intros Hb Er q Hin Ec. rewrite (ns_fail_shape c s r Er). cbn [snd].
  set (x := ns_nmid q). specialize (Hb x). cbn [ns_sub_mids count_occ] in Hb.
  assert (Hq : In (ns_nmsg q) (filter ns_con (map ns_nmsg (ns_dq s)))).
  { apply filter_In. split; [apply in_map; exact Hin|exact Ec]. }
  assert (Hm : ns_fmid s r = []).
  { unfold ns_fmid. destruct (filter ns_ncon (ns_dq s)) eqn:Ef; [|destruct (ns_sq s); reflexivity].
    exfalso. assert (In q (filter ns_ncon (ns_dq s))) by (apply filter_In; split; assumption).
    rewrite Ef in H. exact H. }
  rewrite !ns_nack_count_app, Hm, ns_nack_count_drops, ns_nack_count_nacks.
  pose proof (ns_ffirst_count s r x). pose proof (ns_cm_in x _ _ Hq eq_refl).
  pose proof (ns_cm_filter x ns_con (map ns_nmsg (ns_dq s))).
  pose proof (ns_cm_filter x ns_con (map ns_nmsg (ns_sq s))).
  change (ns_nack_count x []) with 0%nat. lia.
Qed.

Lemma ns_mon_step_fail c s r evs : ns_open s = true -> ns_budget s evs ->
  ns_mon_step c (ns_abs s) (NsFail r) (snd (ns_step c s (NsFail r))) =
  Some (ns_abs (fst (ns_step c s (NsFail r)))).
Proof.
  intros Ho Hb. unfold ns_step. rewrite Ho. cbn [negb].
  destruct (ns_fail_out c s r) as (Otx & Ore & _).
  ns_mon_open Ho. rewrite Otx, Ore. cbn [forallb negb].
  destruct (r =? ns_ICMP) eqn:Er.
  - rewrite (ns_fail_shape_icmp c s r Er). cbn [fst snd].
    replace (ns_gaveup _) with (@nil Z); [unfold ns_abs; rewrite Ho; reflexivity|].
    apply Z.eqb_eq in Er. subst r. unfold ns_ffirst, ns_ffb.
    destruct (ns_sq s); [destruct (ns_lg s)|]; reflexivity.
  - match goal with |- (if ?b then _ else _) = _ => assert (Hall : b = true) end.
    2: { rewrite Hall, (ns_fail_shape c s r Er). reflexivity. }
    rewrite forallb_forall. intros p Hp. apply in_map_iff in Hp. destruct Hp as (q & Hq & Hin).
    subst p. destruct (ns_con (ns_nmsg q)) eqn:Ec; [|reflexivity]. cbn [negb orb].
    apply Nat.eqb_eq. apply ns_fail_count; try assumption.
    intros x. specialize (Hb x). cbn [ns_sub_mids count_occ]. lia.
Qed.

Lemma ns_fold_rm_nil (l : list ns_msg) :
  fold_left (fun l0 mid => ns_rm_mid mid l0) [] l = l.
Proof. reflexivity. Qed.

Theorem ns_mon_step_ok c s e r : ns_wf c -> ns_inv c s -> ns_budget s (e :: r) ->
  ns_mon_step c (ns_abs s) e (snd (ns_step c s e)) = Some (ns_abs (fst (ns_step c s e))).
Proof.
  intros Hwf Hi Hb. destruct (ns_open s) eqn:Ho.
  2: { unfold ns_mon_step, ns_step. cbn [ns_abs ns_mopen]. rewrite Ho. cbn [negb].
       destruct e; reflexivity. }
  pose proof Hi as Hi0. apply ns_inv_iff in Hi0. destruct Hi0 as [Hw Hq].
  pose proof (ns_step_char c s e Hwf Hw Ho) as H. cbn zeta in H.
  destruct e as [m|mid|mid|mid|tok| |rr];
    [apply ns_mon_step_submit; assumption| | | | | |eapply ns_mon_step_fail; eassumption];
    destruct H as (base & txs & extra & Eo & Hf & He & Hev); ns_mon_open Ho;
    destruct (ns_out_flush txs extra) as (_ & _ & R & G); rewrite Eo, R, G;
    pose proof (fun est infl => ns_mon_finish_ok c s _ base txs extra est infl Hq Hf) as Fin.
  - destruct Hev as [Eb ->]. cbn [ns_gaveup ns_res flat_map fold_left forallb negb].
    exact (Fin _ _ eq_refl He Eb).
  - destruct Hev as [Eb [b ->]]. rewrite ns_gaveup_rst. cbn [ns_res flat_map app fold_left forallb negb].
    exact (Fin _ _ eq_refl He Eb).
  - destruct Hev as [[Eb [[Ex ->]|(Ex & m & Hm & ->)]]|[Eb ->]].
    + cbn [ns_gaveup ns_res flat_map fold_left forallb negb]. rewrite Ex. cbn [andb].
      exact (Fin _ _ eq_refl He Eb).
    + cbn [ns_gaveup ns_res flat_map app fold_left forallb existsb].
      rewrite Hm, Ex, Z.eqb_refl. cbn [negb orb andb]. exact (Fin _ _ eq_refl He Eb).
    + rewrite ns_gaveup_tm. cbn [ns_res flat_map app fold_left forallb existsb negb].
      rewrite Z.eqb_refl. cbn [orb negb]. rewrite andb_false_r. exact (Fin _ _ eq_refl He Eb).
  - destruct Hev as [Eb ->]. cbn [ns_gaveup ns_res flat_map fold_left forallb negb].
    exact (Fin _ _ eq_refl He Eb).
  - destruct Hev as [-> ->]. cbn [ns_gaveup ns_res flat_map fold_left forallb negb].
    exact (Fin _ _ eq_refl He eq_refl).
Qed.

Theorem ns_mon_run_ok c : ns_wf c -> forall evs s, ns_inv c s -> ns_budget s evs ->
  ns_mon_run c (ns_abs s) (ns_trace c s evs) = Some (ns_abs (ns_run c s evs)).
Proof.
  intros Hwf. induction evs as [|e r IH]; intros s Hi Hb; [reflexivity|].
  rewrite ns_trace_cons. cbn [ns_mon_run ns_run].
  rewrite (ns_mon_step_ok c s e r Hwf Hi Hb).
  apply IH; [apply ns_step_inv; assumption|].
  apply ns_step_budget; [exact Hwf|apply ns_inv_winv; exact Hi|exact Hb].
Qed.

(* the history checker accepts every history of the repaired session machine *)
Theorem ns_accepts_all c est0 evs : ns_wf c -> NoDup (ns_sub_mids evs) ->
  ns_accepts c est0 (ns_trace c (ns_init est0) evs) = true.
Proof.
  intros Hwf Hnd. unfold ns_accepts.
  change (ns_mkmon true est0 [] []) with (ns_abs (ns_init est0)).
  rewrite (ns_mon_run_ok c Hwf evs _ (ns_init_inv c est0 Hwf) (ns_init_budget est0 evs Hnd)).
  reflexivity.
Qed.

(* bound, on the state and on the trace: the in-flight set that the checker computes from the
   wire alone is the set of this session's CON nodes in the send queue, con_active is its size *)
Theorem ns_bound c est0 evs : ns_wf c -> NoDup (ns_sub_mids evs) ->
  let s := ns_run c (ns_init est0) evs in
  ns_act s = Z.of_nat (length (ns_sq s)) /\
  forallb ns_ncon (ns_sq s) = true /\
  Z.of_nat (length (ns_sq s)) <= ns_nstart c /\
  forallb ns_cnt0 (ns_dq s) = true /\
  exists m, ns_mon_run c (ns_mkmon true est0 [] []) (ns_trace c (ns_init est0) evs) = Some m /\
            ns_minfl m = map ns_nmsg (ns_sq s) /\ ns_mpend m = map ns_nmsg (ns_dq s) /\
            Z.of_nat (length (ns_minfl m)) <= ns_nstart c.
Proof.
  intros Hwf Hnd s.
  pose proof (ns_run_inv c Hwf evs _ (ns_init_inv c est0 Hwf)) as Hi. fold s in Hi.
  pose proof (iv_act _ _ Hi) as Ha. pose proof (iv_le _ _ Hi) as Hl.
  split; [exact Ha|]. split; [exact (iv_con _ _ Hi)|]. split; [lia|]. split; [exact (iv_cnt _ _ Hi)|].
  exists (ns_abs s). split.
  - change (ns_mkmon true est0 [] []) with (ns_abs (ns_init est0)).
    apply ns_mon_run_ok; [exact Hwf|apply ns_init_inv; exact Hwf|apply ns_init_budget; exact Hnd].
  - cbn [ns_abs ns_minfl ns_mpend]. rewrite map_length. repeat split. lia.
Qed.

(* nothing waits without a reason *)
Theorem ns_no_needless_hold c est0 evs : ns_wf c ->
  let s := ns_run c (ns_init est0) evs in
  ns_est s = true ->
  match ns_dq s with
  | [] => True
  | q :: _ => ns_ncon q = true /\ Z.of_nat (length (ns_sq s)) = ns_nstart c
  end.
Proof.
  intros Hwf s He.
  pose proof (ns_run_inv c Hwf evs _ (ns_init_inv c est0 Hwf)) as Hi. fold s in Hi.
  pose proof (iv_qui _ _ Hi He) as Hq. pose proof (iv_act _ _ Hi) as Ha.
  destruct (ns_dq s); [exact I|]. cbn [ns_quiet] in Hq. destruct Hq. split; [assumption|lia].
Qed.

(* none lost, the progress side: once every in-flight exchange of an established session has
   finished, nothing is left waiting (NSTART >= 1) *)
Theorem ns_drained_when_idle c est0 evs : ns_wf c -> 1 <= ns_nstart c ->
  let s := ns_run c (ns_init est0) evs in
  ns_est s = true -> ns_sq s = [] -> ns_dq s = [].
Proof.
  intros Hwf Hn s He Hs.
  pose proof (ns_no_needless_hold c est0 evs Hwf) as H. cbn zeta in H. fold s in H.
  specialize (H He). destruct (ns_dq s) as [|q t]; [reflexivity|].
  destruct H as [_ H]. rewrite Hs in H. cbn [length] in H. lia.
Qed.

(* a NON on an established session goes out inside coap_send(), whatever is waiting *)
Theorem ns_non_not_delayed c s m :
  ns_open s = true -> ns_est s = true -> ns_con m = false ->
  ns_step c s (NsSubmit m) = (s, [NsAcc; NsTx m]).
Proof.
  intros Ho He Hc. unfold ns_step, ns_submit. rewrite Ho, He, Hc. reflexivity.
Qed.

Lemma ns_closed_silent c : forall evs s, ns_open s = false ->
  ns_txs (flat_map snd (ns_trace c s evs)) = [] /\ ns_res (flat_map snd (ns_trace c s evs)) = [].
Proof.
  induction evs as [|e r IH]; intros s Ho; [split; reflexivity|].
  rewrite ns_trace_cons, ns_flat_snd_cons, ns_txs_app, ns_res_app.
  assert (E : fst (ns_step c s e) = s /\ ns_txs (snd (ns_step c s e)) = [] /\
              ns_res (snd (ns_step c s e)) = []).
  { unfold ns_step. rewrite Ho. cbn [negb]. destruct e; repeat split. }
  destruct E as (E1 & E2 & E3). rewrite E1, E2, E3. apply IH. exact Ho.
Qed.

(* the session fails: every held CON gets exactly one NACK and nothing held is transmitted;
   afterwards only ids that are submitted again go out, and none on a client session *)
Theorem ns_fail_nacks c est0 evs r : ns_wf c -> NoDup (ns_sub_mids evs) -> r <> ns_ICMP ->
  let s := ns_run c (ns_init est0) evs in
  ns_open s = true ->
  let s' := fst (ns_step c s (NsFail r)) in
  let o := snd (ns_step c s (NsFail r)) in
  ns_dq s' = [] /\ ns_sq s' = [] /\ ns_txs o = [] /\ ns_res o = [] /\
  (forall q, In q (ns_dq s) -> ns_ncon q = true -> ns_nack_count (ns_nmid q) o = 1%nat) /\
  (forall evs' x, ~ In x (ns_sub_mids evs') ->
                  ~ In x (map ns_mid (ns_txs (flat_map snd (ns_trace c s' evs'))))) /\
  (ns_client c = true ->
   forall evs', ns_txs (flat_map snd (ns_trace c s' evs')) = [] /\
                ns_res (flat_map snd (ns_trace c s' evs')) = []).
Proof.
  intros Hwf Hnd Hr s Ho s' o.
  pose proof (ns_run_inv c Hwf evs _ (ns_init_inv c est0 Hwf)) as Hi. fold s in Hi.
  pose proof (ns_run_budget c Hwf evs _ (ns_inv_winv c _ (ns_init_inv c est0 Hwf))
                (ns_init_budget est0 evs Hnd)) as Hb.
  fold s in Hb.
  assert (Er : (r =? ns_ICMP) = false) by (apply Z.eqb_neq; exact Hr).
  pose proof (ns_step_inv c s (NsFail r) Hwf Hi) as Hi'. fold s' in Hi'.
  assert (E : ns_step c s (NsFail r) = ns_fail c s r) by (unfold ns_step; rewrite Ho; reflexivity).
  unfold s', o in *. rewrite E in *. destruct (ns_fail_out c s r) as (T1 & T2 & _).
  split; [rewrite (ns_fail_shape c s r Er); reflexivity|].
  split; [rewrite (ns_fail_shape c s r Er); reflexivity|].
  split; [exact T1|]. split; [exact T2|].
  split; [intros q Hq Hc; apply ns_fail_count; assumption|].
  split.
  - intros evs' x Hx. pose proof (ns_tx_budget c Hwf x evs' _ (ns_inv_winv c _ Hi')) as Hbud.
    rewrite (ns_fail_shape c s r Er) in *. cbn [fst ns_dq map] in *.
    apply (count_occ_not_In Z.eq_dec) in Hx. apply (count_occ_not_In Z.eq_dec).
    unfold ns_cm in Hbud. cbn [map count_occ] in Hbud. lia.
  - intros Hcl evs'. apply ns_closed_silent. rewrite (ns_fail_shape c s r Er). cbn [fst ns_open].
    rewrite Hcl. reflexivity.
Qed.

Lemma ns_rm_mid_len mid l : (length (ns_rm_mid mid l) <= length l)%nat.
Proof.
  induction l as [|h t IH]; [apply le_n|]. cbn [ns_rm_mid].
  destruct (ns_mid h =? mid); cbn [length]; lia.
Qed.

Lemma ns_fold_rm_len g l :
  (length (fold_left (fun l0 mid => ns_rm_mid mid l0) g l) <= length l)%nat.
Proof.
  revert l. induction g as [|x g IH]; intros l; [apply le_n|]. cbn [fold_left].
  pose proof (IH (ns_rm_mid x l)). pose proof (ns_rm_mid_len x l). lia.
Qed.

Lemma ns_msg_eqb_eq a b : ns_msg_eqb a b = true -> a = b.
Proof.
  unfold ns_msg_eqb. intros H. apply andb_true_iff in H. destruct H as [H H3].
  apply andb_true_iff in H. destruct H as [H1 H2].
  apply eqb_prop in H1. apply Z.eqb_eq in H2. apply Z.eqb_eq in H3.
  destruct a, b. cbn in *. subst. reflexivity.
Qed.

Lemma ns_mon_txs_inv nstart : forall txs infl pend infl' pend',
  ns_mon_txs nstart infl pend txs = Some (infl', pend') ->
  pend = txs ++ pend' /\
  (Z.of_nat (length infl) <= nstart -> Z.of_nat (length infl') <= nstart).
Proof.
  induction txs as [|x r IH]; intros infl pend infl' pend' H.
  - destruct pend; cbn in H; inversion H; subst; (split; [reflexivity|exact (fun H => H)]).
  - destruct pend as [|p pr]; [discriminate|]. cbn [ns_mon_txs] in H.
    destruct (ns_msg_eqb x p) eqn:E; [|discriminate]. apply ns_msg_eqb_eq in E. subst p.
    destruct (Z.of_nat (length (if ns_con x then infl ++ [x] else infl)) <=? nstart) eqn:El;
      [|discriminate].
    destruct (IH _ _ _ _ H) as [A B]. split; [cbn [app]; f_equal; exact A|].
    intros _. apply B. lia.
Qed.

Lemma ns_mon_finish_inv c est infl pend o m :
  ns_mon_finish c est infl pend o = Some m ->
  ns_mopen m = true /\ pend = ns_txs o ++ ns_mpend m /\
  (Z.of_nat (length infl) <= ns_nstart c -> Z.of_nat (length (ns_minfl m)) <= ns_nstart c).
Proof.
  unfold ns_mon_finish. intros H.
  destruct (ns_mon_txs (ns_nstart c) infl pend (ns_txs o)) as [[i' p']|] eqn:E; [|discriminate].
  destruct (ns_quiescent (ns_nstart c) est i' p'); [|discriminate].
  inversion H; subst. cbn [ns_mopen ns_mpend ns_minfl]. split; [reflexivity|].
  eapply ns_mon_txs_inv. exact E.
Qed.

(* first transmissions of an event that are not the event's own submission *)
Definition ns_rel_tx (eo : ns_ev * list ns_out) : list ns_msg :=
  match fst eo with NsSubmit _ => [] | _ => ns_txs (snd eo) end.

Definition ns_no_disconnect (t : list (ns_ev * list ns_out)) : Prop :=
  Forall (fun eo => match fst eo with NsFail r => r = ns_ICMP | _ => True end) t.

Lemma ns_mon_step_sound c m e o m' : ns_mopen m = true -> ns_mon_step c m e o = Some m' ->
  (0 <= ns_nstart c -> Z.of_nat (length (ns_minfl m)) <= ns_nstart c ->
   Z.of_nat (length (ns_minfl m')) <= ns_nstart c) /\
  (match e with NsFail r => r = ns_ICMP | _ => True end ->
   ns_mpend m ++ ns_held [(e, o)] = ns_rel_tx (e, o) ++ ns_mpend m' /\ ns_mopen m' = true).
Proof.
  intros Ho H. unfold ns_mon_step in H. rewrite Ho in H. cbn [negb] in H.
  set (infl0 := fold_left (fun l mid => ns_rm_mid mid l) (ns_gaveup o) (ns_minfl m)) in *.
  assert (H0 : (length infl0 <= length (ns_minfl m))%nat) by apply ns_fold_rm_len.
  destruct (negb (forallb _ (ns_res o))); [discriminate|].
  unfold ns_rel_tx, ns_held. cbn [fst snd flat_map].
  destruct e as [x|mid|mid|mid|tok| |r]; rewrite ?app_nil_r.
  - destruct (ns_accepted o).
    + destruct (ns_txs o) as [|y [|]]; [| |discriminate]; cbn [andb].
      * destruct (ns_mest m && negb (ns_con x)); [discriminate|].
        destruct (ns_quiescent _ _ _ _); inversion H; subst. cbn [ns_minfl ns_mpend ns_mopen].
        split; [lia|]. repeat split.
      * destruct (ns_msg_eqb y x && ns_mest m); [|discriminate].
        destruct (Z.of_nat (length (if ns_con x then infl0 ++ [x] else infl0)) <=? ns_nstart c) eqn:E;
          inversion H; subst. cbn [ns_minfl ns_mpend ns_mopen app]. rewrite app_nil_r.
        split; [lia|]. repeat split.
    + cbn [andb]. destruct (ns_txs o); [|discriminate].
      destruct (existsb _ (ns_mpend m)); inversion H; subst. cbn [ns_minfl ns_mpend ns_mopen app].
      rewrite app_nil_r. split; [lia|]. repeat split.
  - apply ns_mon_finish_inv in H. destruct H as (A & B & C).
    split; [intros _ Hl; apply C; pose proof (ns_rm_mid_len mid infl0); lia|split; assumption].
  - apply ns_mon_finish_inv in H. destruct H as (A & B & C).
    split; [intros _ Hl; apply C; pose proof (ns_rm_mid_len mid infl0); lia|split; assumption].
  - destruct (existsb _ (ns_minfl m) && _); [discriminate|].
    apply ns_mon_finish_inv in H. destruct H as (A & B & C).
    split; [intros _ Hl; apply C; lia|split; assumption].
  - apply ns_mon_finish_inv in H. destruct H as (A & B & C).
    split; [intros _ Hl; apply C|split; assumption].
    pose proof (ns_filter_split (fun y => ns_tok y =? tok) infl0). cbn beta in *. lia.
  - apply ns_mon_finish_inv in H. destruct H as (A & B & C).
    split; [intros _ Hl; apply C; lia|split; assumption].
  - destruct (r =? ns_ICMP) eqn:Er.
    + destruct (ns_txs o); inversion H; subst. cbn [ns_minfl ns_mpend ns_mopen app].
      split; [lia|]. repeat split.
    + destruct (ns_txs o); [|discriminate].
      destruct (forallb _ (ns_mpend m)); inversion H; subst. cbn [ns_minfl length].
      split; [intros Hn _; exact Hn|]. intros ->. discriminate.
Qed.

Lemma ns_mon_step_closed c m e o m' : ns_mopen m = false ->
  ns_mon_step c m e o = Some m' -> m' = m.
Proof.
  intros Ho H. unfold ns_mon_step in H. rewrite Ho in H. cbn [negb] in H.
  destruct e; destruct o as [|[] [|]]; congruence.
Qed.

(* In any accepted history (of any implementation) the number of CONs in flight - transmitted
   and not acknowledged, reset, given up, cancelled - never exceeds NSTART, and the messages that
   are transmitted for the first time outside their own coap_send leave in the order in which
   they were held, none is skipped and none is transmitted twice: per event, what was pending
   before plus what the event holds = what the event releases plus what is pending after it. *)
Theorem ns_accepts_bound c : 0 <= ns_nstart c -> forall t m m',
  Z.of_nat (length (ns_minfl m)) <= ns_nstart c ->
  ns_mon_run c m t = Some m' -> Z.of_nat (length (ns_minfl m')) <= ns_nstart c.
Proof.
  intros Hn. induction t as [|[e o] r IH]; intros m m' Hl H.
  - inversion H; subst; exact Hl.
  - cbn [ns_mon_run] in H. destruct (ns_mon_step c m e o) as [m1|] eqn:E; [|discriminate].
    apply (IH m1 m'); [|exact H]. destruct (ns_mopen m) eqn:Ho.
    + apply (ns_mon_step_sound c m e o m1 Ho E); assumption.
    + rewrite (ns_mon_step_closed c m e o m1 Ho E). exact Hl.
Qed.

Theorem ns_accepts_fifo c : forall t m m', ns_mopen m = true -> ns_no_disconnect t ->
  ns_mon_run c m t = Some m' ->
  ns_mpend m ++ ns_held t = flat_map ns_rel_tx t ++ ns_mpend m' /\ ns_mopen m' = true.
Proof.
  induction t as [|[e o] r IH]; intros m m' Ho Hnd H.
  - inversion H; subst. cbn. rewrite app_nil_r. split; [reflexivity|exact Ho].
  - cbn [ns_mon_run] in H. destruct (ns_mon_step c m e o) as [m1|] eqn:E; [|discriminate].
    inversion Hnd as [|? ? Hd Hr]; subst.
    destruct (proj2 (ns_mon_step_sound c m e o m1 Ho E) Hd) as [Hs Ho1].
    destruct (IH m1 m' Ho1 Hr H) as [A B]. split; [|exact B].
    rewrite ns_held_cons. cbn [flat_map]. rewrite app_assoc, Hs, <- !app_assoc, A. reflexivity.
Qed.

Definition ns_cfg_ex : ns_cfg := ns_mkcfg 2 1 true true true.
Definition ns_evs_ex : list ns_ev :=
  [NsSubmit (ns_mkmsg true 1 101); NsSubmit (ns_mkmsg false 2 102); NsSubmit (ns_mkmsg true 3 103);
   NsSubmit (ns_mkmsg true 4 104); NsUp; NsSubmit (ns_mkmsg true 5 105); NsSubmit (ns_mkmsg false 6 106);
   NsRst 2; NsAck 1; NsTick 3; NsTick 3; NsSep 104; NsSubmit (ns_mkmsg true 7 107);
   NsSubmit (ns_mkmsg true 8 108); NsFail 1].

(* a history that starts before the handshake is over, holds CONs and NONs, releases them on
   Up / ACK / give-up / cancel and ends in a disconnect with one CON still held *)
Lemma ns_example :
  ns_wf ns_cfg_ex /\ NoDup (ns_sub_mids ns_evs_ex) /\
  map ns_mid (ns_held (ns_trace ns_cfg_ex (ns_init false) ns_evs_ex)) = [1; 2; 3; 4; 5; 8] /\
  map ns_mid (ns_released (ns_trace ns_cfg_ex (ns_init false) ns_evs_ex)) = [1; 2; 3; 4; 5; 8] /\
  map ns_mid (ns_txs (flat_map snd (ns_trace ns_cfg_ex (ns_init false) ns_evs_ex))) = [1; 2; 3; 6; 4; 5; 7] /\
  ns_accepts ns_cfg_ex false (ns_trace ns_cfg_ex (ns_init false) ns_evs_ex) = true /\
  ns_nack_count 8 (flat_map snd (ns_trace ns_cfg_ex (ns_init false) ns_evs_ex)) = 1%nat.
Proof.
  split; [split; [reflexivity|cbn; lia]|].
  split; [cbn; repeat constructor; cbn; intuition discriminate|].
  vm_compute. repeat split.
Qed.
