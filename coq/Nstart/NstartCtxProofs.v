(* C08 - a session of a context with a shared send queue is the single-session machine *)
From LibcoapV Require Import Base.Tactics Nstart.Nstart Nstart.NstartProofs Nstart.NstartCtx.
Local Open Scope Z_scope.

(* the entries of the other sessions, in queue order *)
Definition nsc_rest (sid : Z) (q : list nsc_node) : list nsc_node :=
  filter (fun n => negb (nsc_mine sid n)) q.

Lemma nsc_view_cons sid h t :
  nsc_view sid (h :: t) = if nsc_mine sid h then nsc_nd h :: nsc_view sid t else nsc_view sid t.
Proof. unfold nsc_view. cbn [filter]. destruct (nsc_mine sid h); reflexivity. Qed.

Lemma nsc_rest_cons sid h t :
  nsc_rest sid (h :: t) = if nsc_mine sid h then nsc_rest sid t else h :: nsc_rest sid t.
Proof. unfold nsc_rest. cbn [filter]. destruct (nsc_mine sid h); reflexivity. Qed.

Lemma nsc_view_app sid a b : nsc_view sid (a ++ b) = nsc_view sid a ++ nsc_view sid b.
Proof. unfold nsc_view. rewrite filter_app, map_app. reflexivity. Qed.

Lemma nsc_view_tag sid l : nsc_view sid (nsc_tag sid l) = l /\ nsc_rest sid (nsc_tag sid l) = [].
Proof.
  induction l as [|h t [IH1 IH2]]; [split; reflexivity|]. cbn [nsc_tag map].
  rewrite nsc_view_cons, nsc_rest_cons. unfold nsc_mine at 1 2. cbn [nsc_sid nsc_nd].
  rewrite Z.eqb_refl. fold (nsc_tag sid t). rewrite IH1. split; [reflexivity|exact IH2].
Qed.

(* what a session sees depends on its own entries only *)
Lemma nsc_view_rest sid sid' q : sid' <> sid -> nsc_view sid' (nsc_rest sid q) = nsc_view sid' q.
Proof.
  intros Hne. induction q as [|h t IH]; [reflexivity|].
  rewrite nsc_rest_cons, (nsc_view_cons sid' h t). destruct (nsc_mine sid h) eqn:Em.
  - unfold nsc_mine in *. destruct (nsc_sid h =? sid') eqn:E; [lia|exact IH].
  - rewrite nsc_view_cons, IH. reflexivity.
Qed.

Lemma nsc_same_rest sid sid' q q' : nsc_rest sid q' = nsc_rest sid q -> sid' <> sid ->
  nsc_view sid' q' = nsc_view sid' q.
Proof.
  intros H Hne. rewrite <- (nsc_view_rest sid sid' q'), H by exact Hne.
  apply nsc_view_rest. exact Hne.
Qed.

Lemma nsc_remove_none sid mid q : nsc_remove sid mid q = None ->
  ns_remove mid (nsc_view sid q) = None.
Proof.
  induction q as [|h t IH]; intros H; [reflexivity|]. cbn [nsc_remove] in H.
  rewrite nsc_view_cons.
  destruct (nsc_mine sid h) eqn:Em; cbn [andb] in H.
  - cbn [ns_remove]. destruct (ns_nmid (nsc_nd h) =? mid) eqn:E; [discriminate|].
    destruct (nsc_remove sid mid t) as [[x r']|]; [discriminate|]. rewrite (IH eq_refl). reflexivity.
  - destruct (nsc_remove sid mid t) as [[x r']|]; [discriminate|]. exact (IH eq_refl).
Qed.

Lemma nsc_remove_some sid mid q n q' : nsc_remove sid mid q = Some (n, q') ->
  ns_remove mid (nsc_view sid q) = Some (nsc_nd n, nsc_view sid q') /\
  nsc_rest sid q' = nsc_rest sid q.
Proof.
  revert n q'. induction q as [|h t IH]; intros n q' H; [discriminate|]. cbn [nsc_remove] in H.
  rewrite nsc_view_cons, (nsc_rest_cons sid h t).
  destruct (nsc_mine sid h) eqn:Em; cbn [andb] in H.
  - cbn [ns_remove]. destruct (ns_nmid (nsc_nd h) =? mid) eqn:E.
    + inversion H; subst. split; reflexivity.
    + destruct (nsc_remove sid mid t) as [[x r']|] eqn:Er; [|discriminate].
      inversion H; subst. destruct (IH n r' eq_refl) as [A B].
      rewrite A, nsc_view_cons, nsc_rest_cons, Em. split; [reflexivity|exact B].
  - destruct (nsc_remove sid mid t) as [[x r']|] eqn:Er; [|discriminate].
    inversion H; subst. destruct (IH n r' eq_refl) as [A B].
    rewrite nsc_view_cons, nsc_rest_cons, Em, B. split; [exact A|reflexivity].
Qed.

Lemma nsc_bump_view sid mid q :
  nsc_view sid (nsc_bump sid mid q) = ns_bump mid (nsc_view sid q) /\
  nsc_rest sid (nsc_bump sid mid q) = nsc_rest sid q.
Proof.
  induction q as [|h t [IH1 IH2]]; [split; reflexivity|].
  cbn [nsc_bump]. rewrite (nsc_view_cons sid h t), (nsc_rest_cons sid h t).
  destruct (nsc_mine sid h) eqn:Em; cbn [andb].
  - cbn [ns_bump]. destruct (ns_nmid (nsc_nd h) =? mid) eqn:E.
    + rewrite nsc_view_cons, nsc_rest_cons. unfold nsc_mine in *. cbn [nsc_sid nsc_nd].
      rewrite Em. split; reflexivity.
    + rewrite nsc_view_cons, nsc_rest_cons, Em, IH1. split; [reflexivity|exact IH2].
  - rewrite nsc_view_cons, nsc_rest_cons, Em, IH2. split; [exact IH1|reflexivity].
Qed.

Lemma nsc_hit_view sid tok q :
  nsc_view sid (filter (fun n => negb (nsc_hit sid tok n)) q) =
    filter (fun n => negb (ns_tok (ns_nmsg n) =? tok)) (nsc_view sid q) /\
  map nsc_nd (filter (nsc_hit sid tok) q) =
    filter (fun n => ns_tok (ns_nmsg n) =? tok) (nsc_view sid q) /\
  nsc_rest sid (filter (fun n => negb (nsc_hit sid tok n)) q) = nsc_rest sid q.
Proof.
  induction q as [|h t (IH1 & IH2 & IH3)]; [repeat split|].
  cbn [filter]. rewrite (nsc_view_cons sid h t), (nsc_rest_cons sid h t).
  change (nsc_hit sid tok h) with (nsc_mine sid h && (ns_tok (ns_nmsg (nsc_nd h)) =? tok)).
  destruct (nsc_mine sid h) eqn:Em; cbn [andb].
  - cbn [filter]. destruct (ns_tok (ns_nmsg (nsc_nd h)) =? tok) eqn:E; cbn [negb map].
    + rewrite IH1, IH2. repeat split. exact IH3.
    + rewrite nsc_view_cons, nsc_rest_cons, Em, IH1, IH2. repeat split. exact IH3.
  - cbn [negb]. rewrite nsc_view_cons, nsc_rest_cons, Em, IH1, IH2, IH3. repeat split.
Qed.

Lemma nsc_clear_view sid q : nsc_view sid (nsc_rest sid q) = [].
Proof.
  induction q as [|h t IH]; [reflexivity|]. rewrite nsc_rest_cons.
  destruct (nsc_mine sid h) eqn:Em; [exact IH|]. rewrite nsc_view_cons, Em. exact IH.
Qed.

(* [r], a result on the shared queue [q], is [r1] for the session and leaves the rest alone *)
Definition nsc_sim (sid : Z) (q : list nsc_node)
  (r : ns_st * list nsc_node * list ns_out) (r1 : ns_st * list ns_out) : Prop :=
  r1 = (ns_set_sq (fst (fst r)) (nsc_view sid (snd (fst r))), snd r) /\
  nsc_rest sid (snd (fst r)) = nsc_rest sid q.

Lemma nsc_connected_sim c sid s q :
  nsc_sim sid q (nsc_connected c sid s q) (ns_connected c (ns_set_sq s (nsc_view sid q))).
Proof.
  unfold nsc_connected, ns_connected. ns_simp.
  destruct (ns_drain c (ns_act s) (ns_dq s)) as [[[a r] snt] o].
  destruct (nsc_view_tag sid snt) as [T1 T2].
  unfold nsc_sim, nsc_rest in *. ns_simp. rewrite nsc_view_app, filter_app, T1, T2, app_nil_r.
  split; reflexivity.
Qed.

Lemma nsc_dec_drain_sim c sid s q :
  nsc_sim sid q (nsc_dec_drain c sid s q) (ns_dec_drain c (ns_set_sq s (nsc_view sid q))).
Proof.
  unfold nsc_dec_drain, ns_dec_drain. ns_simp.
  destruct (ns_act s =? 0); [split; reflexivity|].
  destruct (ns_est s); [|split; reflexivity].
  exact (nsc_connected_sim c sid (ns_set_act s (ns_act s - 1)) q).
Qed.

Lemma nsc_dec_n_sim c sid k : forall s q,
  nsc_sim sid q (nsc_dec_n c sid k s q) (ns_dec_n c k (ns_set_sq s (nsc_view sid q))).
Proof.
  induction k as [|k IH]; intros s q; [split; reflexivity|].
  cbn [nsc_dec_n ns_dec_n].
  destruct (nsc_dec_drain_sim c sid s q) as [A A3]. rewrite A.
  destruct (nsc_dec_drain c sid s q) as [[s1 q1] o1]. ns_simp.
  destruct (IH s1 q1) as [B B3]. rewrite B.
  destruct (nsc_dec_n c sid k s1 q1) as [[s2 q2] o2]. ns_simp.
  split; [reflexivity|]. ns_simp. rewrite B3. exact A3.
Qed.

Lemma nsc_set_sq_twice s a b : ns_set_sq (ns_set_sq s a) b = ns_set_sq s b.
Proof. reflexivity. Qed.

Lemma nsc_sim_proj sid x r r1 : nsc_sim sid (nsc_q x) r r1 ->
  let x' := nsc_mk (fun k => if k =? sid then fst (fst r) else nsc_ss x k) (snd (fst r)) in
  nsc_proj x' sid = fst r1 /\ snd r = snd r1 /\
  forall sid', sid' <> sid -> nsc_proj x' sid' = nsc_proj x sid'.
Proof.
  intros [-> A3]. unfold nsc_proj. cbn [nsc_ss nsc_q fst snd]. rewrite Z.eqb_refl.
  split; [reflexivity|]. split; [reflexivity|]. intros sid' Hne.
  destruct (sid' =? sid) eqn:E; [lia|]. rewrite (nsc_same_rest sid sid' _ _ A3 Hne). reflexivity.
Qed.

Lemma nsc_let3 {A B C D} (r : A * B * C) (f : A -> B -> C -> D) :
  (let '(a, b, c) := r in f a b c) = f (fst (fst r)) (snd (fst r)) (snd r).
Proof. destruct r as [[a b] c]. reflexivity. Qed.

Theorem nsc_step_proj cf x sid e :
  nsc_proj (fst (nsc_step cf x sid e)) sid = fst (ns_step (cf sid) (nsc_proj x sid) e) /\
  snd (nsc_step cf x sid e) = snd (ns_step (cf sid) (nsc_proj x sid) e) /\
  (forall sid', sid' <> sid -> nsc_proj (fst (nsc_step cf x sid e)) sid' = nsc_proj x sid').
Proof.
  unfold nsc_step. cbn zeta. rewrite nsc_let3. cbn [fst snd]. apply nsc_sim_proj.
  unfold nsc_proj.
  set (c := cf sid). set (s := nsc_ss x sid). set (q := nsc_q x).
  unfold ns_step. ns_simp.
  destruct (ns_open s) eqn:Ho; cbn [negb].
  2: { destruct e; split; reflexivity. }
  destruct e as [m|mid|mid|mid|tok| |rr].
  - unfold nsc_submit, ns_submit. ns_simp.
    destruct (negb (ns_est s) || ns_con m && (ns_nstart c <=? ns_act s)).
    + destruct (existsb _ (ns_dq s)); split; reflexivity.
    + destruct (ns_con m); [|split; reflexivity].
      destruct (nsc_view_tag sid [ns_mknode m 0]) as [T1 T2]. cbn [nsc_tag map] in T1, T2.
      unfold nsc_sim, nsc_rest in *. ns_simp. rewrite nsc_view_app, filter_app, T1, T2, app_nil_r.
      split; reflexivity.
  - unfold nsc_ack, ns_ack. ns_simp.
    destruct (nsc_remove sid mid q) as [[n q']|] eqn:Er.
    + destruct (nsc_remove_some _ _ _ _ _ Er) as [R1 R2]. rewrite R1.
      destruct (nsc_dec_drain_sim c sid s q') as [A A3]. rewrite nsc_set_sq_twice, A.
      destruct (nsc_dec_drain c sid s q') as [[s1 q1] o1].
      split; [reflexivity|]. ns_simp. rewrite A3. exact R2.
    + rewrite (nsc_remove_none _ _ _ Er). split; reflexivity.
  - unfold nsc_rst, ns_rst. destruct (ns_fixed c).
    + ns_simp. destruct (nsc_remove sid mid q) as [[n q']|] eqn:Er.
      * destruct (nsc_remove_some _ _ _ _ _ Er) as [R1 R2]. rewrite R1.
        destruct (ns_ncon (nsc_nd n)); [|split; [reflexivity|exact R2]].
        destruct (nsc_dec_drain_sim c sid s q') as [A A3]. rewrite nsc_set_sq_twice, A.
        destruct (nsc_dec_drain c sid s q') as [[s1 q1] o1].
        split; [reflexivity|]. ns_simp. rewrite A3. exact R2.
      * rewrite (nsc_remove_none _ _ _ Er). split; reflexivity.
    + destruct (nsc_dec_drain_sim c sid s q) as [A A3]. rewrite A.
      destruct (nsc_dec_drain c sid s q) as [[s1 q1] o1]. ns_simp.
      destruct (nsc_remove sid mid q1) as [[n q2]|] eqn:Er.
      * destruct (nsc_remove_some _ _ _ _ _ Er) as [R1 R2]. rewrite R1.
        split; [reflexivity|]. ns_simp. rewrite R2. exact A3.
      * rewrite (nsc_remove_none _ _ _ Er). split; [reflexivity|exact A3].
  - unfold nsc_tick, ns_tick. ns_simp.
    destruct (nsc_remove sid mid q) as [[n q']|] eqn:Er.
    + destruct (nsc_remove_some _ _ _ _ _ Er) as [R1 R2]. rewrite R1.
      destruct (ns_cnt (nsc_nd n) <? ns_maxrt c).
      * destruct (negb (ns_est s) || ns_ncon (nsc_nd n) &&
                  (ns_nstart c <=? (if ns_act s =? 0 then 0 else ns_act s - 1))).
        -- split; [reflexivity|exact R2].
        -- destruct (nsc_bump_view sid mid q) as [B1 B2].
           split; [ns_simp; rewrite B1; reflexivity|exact B2].
      * destruct (nsc_dec_drain_sim c sid s q') as [A A3]. rewrite nsc_set_sq_twice, A.
        destruct (nsc_dec_drain c sid s q') as [[s1 q1] o1].
        split; [reflexivity|]. ns_simp. rewrite A3. exact R2.
    + rewrite (nsc_remove_none _ _ _ Er). split; reflexivity.
  - unfold nsc_sep, ns_sep. ns_simp.
    destruct (nsc_hit_view sid tok q) as (H1 & H2 & H3).
    rewrite <- (map_length nsc_nd), <- (ns_filter_map nsc_nd ns_ncon), H2.
    match goal with |- nsc_sim _ _ (nsc_dec_n _ _ ?k _ ?qq) _ =>
      destruct (nsc_dec_n_sim c sid k s qq) as [A A3] end.
    rewrite H1 in A. ns_simp. split; [exact A|]. rewrite A3. exact H3.
  - exact (nsc_connected_sim c sid s q).
  - unfold nsc_fail, ns_fail. ns_simp.
    destruct (rr =? ns_ICMP); [split; reflexivity|].
    fold (nsc_rest sid q). split; [ns_simp; rewrite nsc_clear_view; reflexivity|].
    apply ns_filter_all. apply ns_forallb_filter_self.
Qed.

Theorem nsc_run_proj cf : forall evs x sid,
  nsc_proj (nsc_run cf x evs) sid = ns_run (cf sid) (nsc_proj x sid) (nsc_evs_of sid evs) /\
  nsc_trace_of sid (nsc_trace cf x evs) = ns_trace (cf sid) (nsc_proj x sid) (nsc_evs_of sid evs).
Proof.
  induction evs as [|[k e] r IH]; intros x sid; [split; reflexivity|].
  cbn [nsc_run nsc_trace]. unfold nsc_evs_of, nsc_trace_of in *. cbn [filter fst snd].
  destruct (nsc_step_proj cf x k e) as (A1 & A2 & A3).
  destruct (nsc_step cf x k e) as [x' o] eqn:Es. cbn [fst snd] in *.
  destruct (IH x' sid) as [B1 B2].
  destruct (k =? sid) eqn:Ek.
  - assert (k = sid) by lia. subst k. cbn [map filter fst snd]. rewrite Z.eqb_refl.
    cbn [map fst snd ns_run ns_trace]. rewrite <- A1.
    destruct (ns_step (cf sid) (nsc_proj x sid) e) as [s1 o1] eqn:E1. cbn [fst snd] in *. subst o1.
    split; [rewrite B1; subst s1; reflexivity|]. subst s1. rewrite B2. reflexivity.
  - assert (Hne : sid <> k) by lia. cbn [filter fst snd]. rewrite Ek.
    rewrite <- (A3 sid Hne). split; [exact B1|exact B2].
Qed.

Lemma nsc_init_proj est0 sid : nsc_proj (nsc_init est0) sid = ns_init (est0 sid).
Proof. reflexivity. Qed.

(* each session of a context with a shared send queue, whatever the other sessions do: the
   bound, on its part of the queue and on its part of the trace *)
Theorem nsc_bound cf est0 evs sid : ns_wf (cf sid) ->
  NoDup (ns_sub_mids (nsc_evs_of sid evs)) ->
  let x := nsc_run cf (nsc_init est0) evs in
  let mine := nsc_view sid (nsc_q x) in
  ns_act (nsc_ss x sid) = Z.of_nat (length mine) /\
  forallb ns_ncon mine = true /\
  Z.of_nat (length mine) <= ns_nstart (cf sid) /\
  ns_accepts (cf sid) (est0 sid) (nsc_trace_of sid (nsc_trace cf (nsc_init est0) evs)) = true.
Proof.
  intros Hwf Hnd x mine.
  destruct (nsc_run_proj cf evs (nsc_init est0) sid) as [A B]. rewrite nsc_init_proj in A, B.
  pose proof (ns_bound (cf sid) (est0 sid) (nsc_evs_of sid evs) Hwf Hnd) as H. cbn zeta in H.
  rewrite <- A in H. fold x in H. unfold nsc_proj in H. ns_simp. fold mine in H.
  destruct H as (H1 & H2 & H3 & _). repeat split; try assumption.
  rewrite B. apply ns_accepts_all; assumption.
Qed.

Theorem nsc_fifo_once cf est0 evs sid : ns_wf (cf sid) ->
  let t := nsc_trace_of sid (nsc_trace cf (nsc_init est0) evs) in
  ns_released t ++ map ns_nmsg (ns_dq (nsc_ss (nsc_run cf (nsc_init est0) evs) sid)) = ns_held t.
Proof.
  intros Hwf t.
  destruct (nsc_run_proj cf evs (nsc_init est0) sid) as [A B]. rewrite nsc_init_proj in A, B.
  unfold t. rewrite B.
  pose proof (ns_fifo_once (cf sid) Hwf (nsc_evs_of sid evs) _
                (ns_inv_winv _ _ (ns_init_inv (cf sid) (est0 sid) Hwf))) as H.
  rewrite <- A in H. unfold nsc_proj in H. ns_simp. exact H.
Qed.

(* non-vacuity: two sessions with the same message ids interleaved on one queue *)
Definition nsc_cf_ex (k : Z) : ns_cfg := ns_mkcfg 1 1 true true true.
Definition nsc_evs_ex : list (Z * ns_ev) :=
  [(0, NsSubmit (ns_mkmsg true 7 101)); (1, NsSubmit (ns_mkmsg true 7 201));
   (0, NsSubmit (ns_mkmsg true 8 102)); (1, NsSubmit (ns_mkmsg true 8 202));
   (1, NsAck 7); (0, NsRst 7); (0, NsTick 8); (0, NsTick 8); (1, NsTick 8); (1, NsFail 2)].

Lemma nsc_example :
  let x := nsc_run nsc_cf_ex (nsc_init (fun _ => true)) nsc_evs_ex in
  map (fun n => (nsc_sid n, ns_nmid (nsc_nd n))) (nsc_q x) = [] /\
  map (fun p => (fst (fst p), snd p)) (nsc_trace nsc_cf_ex (nsc_init (fun _ => true)) nsc_evs_ex) =
   [(0, [NsAcc; NsTx (ns_mkmsg true 7 101)]); (1, [NsAcc; NsTx (ns_mkmsg true 7 201)]);
    (0, [NsAcc]); (1, [NsAcc]);
    (1, [NsTx (ns_mkmsg true 8 202)]);
    (0, [NsTx (ns_mkmsg true 8 102); NsNack 2 7 true]);
    (0, [NsRe (ns_mkmsg true 8 102)]); (0, [NsNack 0 8 true]);
    (1, [NsRe (ns_mkmsg true 8 202)]); (1, [NsNack 2 8 true])].
Proof. vm_compute. split; reflexivity. Qed.
