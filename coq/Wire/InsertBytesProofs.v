(* coap_insert_option's in-place byte edit (Wire/InsertBytes.v) refines the abstract insert_opt:
   on the canonical encoding of any ascending, well-formed option list that contains an option
   with a larger number, the patched bytes are the canonical encoding of the list with the new
   option inserted after the last option whose number is <= n - whatever follows the options
   (payload marker and payload) is carried along unchanged. *)
From LibcoapV Require Import Base.Tactics Base.Bytes Base.BytesProofs Wire.OptCodec
  Wire.OptCodecProofs Wire.Pdu Wire.PduProofs Wire.InsertBytes.
Local Open Scope Z_scope.

(* (option[0] & 0x0f) of an option header is its length nibble *)
Lemma bi_lo_hdr n l tl : 0 <= n -> 0 <= l < 16 -> bi_lo ((16 * n + l) :: tl) = l.
Proof.
  intros Hn Hl. unfold bi_lo. cbn [nth]. change 15 with (Z.ones 4).
  rewrite Z.land_ones by lia. change (2 ^ 4) with 16. lia.
Qed.

Lemma bi_first_hdr n l tl d :
  0 <= n -> 0 <= l < 16 -> 0 <= d < 16 -> bi_first ((16 * n + l) :: tl) d = 16 * d + l.
Proof. intros Hn Hl Hd. unfold bi_first. rewrite bi_lo_hdr by assumption. lia. Qed.

(* the header patch: the delta field re-encoded in place, whatever the length nibble and
   whatever follows the delta's extension bytes *)
Lemma bi_patch_hdr d_old d_new l tl :
  1 <= d_new -> d_new <= d_old -> 0 <= l < 16 ->
  bi_patch ((16 * ext_nib d_old + l) :: ext_bytes d_old ++ tl) d_old d_new =
  (16 * ext_nib d_new + l) :: ext_bytes d_new ++ tl.
Proof.
  intros H1 H2 Hl. unfold bi_patch, ext_nib, ext_bytes.
  (* the tests of bi_patch are those of ext_nib / ext_bytes: deciding them picks the branch
     and the two encodings at once; of the nine combinations of forms, the three with d_new in
     a higher range than d_old are contradictory *)
  destruct (d_old <? 13) eqn:O1; [|destruct (d_old <? 269) eqn:O2];
    (destruct (d_new <? 13) eqn:N1; [|destruct (d_new <? 269) eqn:N2]);
    cbn [andb app bi_upd firstn skipn].
  1, 4, 5, 7, 8, 9: rewrite ?bi_first_hdr, ?bi_lo_hdr by lia;
    repeat (match goal with |- _ :: _ = _ :: _ => apply f_equal2 end); try reflexivity; lia.
  all: lia.
Qed.

Lemma bi_patch_enc d_old d_new w rest :
  1 <= d_new -> d_new <= d_old -> d_old <= 65535 ->
  bi_patch (opt_enc d_old w ++ rest) d_old d_new = opt_enc d_new w ++ rest.
Proof.
  intros H1 H2 _. pose proof (ext_nib_range (len w) (len_nonneg w)).
  unfold opt_enc, opt_hdr. cbn [app]. rewrite <- !app_assoc. apply bi_patch_hdr; lia.
Qed.

Lemma bi_insert_aux n v l : forall cur pre fuel tail,
  (length l <= fuel)%nat -> ascending cur l -> Forall opt_wf l -> 0 <= cur <= n ->
  Exists (fun o => n < fst o) l ->
  exists pre' prev nx o,
    bi_locate fuel n cur pre (opts_enc cur l ++ tail) = Some (pre', prev, nx, o) /\
    pre' ++ opt_enc (n - prev) v ++ bi_patch o (nx - prev) (nx - n) =
    pre ++ opts_enc cur (insert_opt n v l) ++ tail.
Proof.
  induction l as [|[k w] tl IH]; intros cur pre fuel tail Hf Ha Hw Hc He; [inversion He|].
  destruct Ha as [Hk Ht]. inversion Hw as [|? ? (Hk2 & Hwl & _) Hw']; subst. cbn [fst snd] in *.
  destruct fuel as [|fuel]; cbn [length] in Hf; [lia|].
  cbn [opts_enc]. rewrite <- app_assoc.
  destruct (opt_enc_first (k - cur) w (opts_enc k tl ++ tail) ltac:(lia)) as (b & r & Eb & Nb).
  cbn [bi_locate]. rewrite Eb. replace (b =? PAYLOAD_START) with false by lia.
  rewrite <- Eb, opt_parse_enc by lia.
  replace (cur + (k - cur)) with k by lia.
  replace (MAX_OPT <? k) with false by (unfold MAX_OPT; lia).
  cbn [insert_opt]. destruct (n <? k) eqn:E.
  - (* the next option is found: patch its delta from k - cur to k - n *)
    replace (k <=? n) with false by lia.
    exists pre, cur, k, (opt_enc (k - cur) w ++ opts_enc k tl ++ tail).
    split; [reflexivity|].
    rewrite bi_patch_enc by lia. cbn [opts_enc]. rewrite <- !app_assoc. reflexivity.
  - replace (k <=? n) with true by lia.
    assert (He' : Exists (fun o => n < fst o) tl).
    { inversion He as [? ? Hh|? ? Hh]; subst; [cbn [fst] in Hh; lia | assumption]. }
    rewrite len_app, Z.add_simpl_r, take_app_exact.
    destruct (IH k (pre ++ opt_enc (k - cur) w) fuel tail ltac:(lia) Ht Hw' ltac:(lia) He')
      as (pre' & prev & nx & o & H1 & H2).
    exists pre', prev, nx, o. split; [exact H1|].
    rewrite H2. cbn [opts_enc]. rewrite <- !app_assoc. reflexivity.
Qed.

Theorem bi_insert_refines n v l tail :
  ascending 0 l -> Forall opt_wf l -> 0 <= n -> Exists (fun o => n < fst o) l ->
  bi_insert (opts_enc 0 l ++ tail) n v = Some (opts_enc 0 (insert_opt n v l) ++ tail).
Proof.
  intros Ha Hw Hn He. unfold bi_insert.
  destruct (bi_insert_aux n v l 0 [] (length (opts_enc 0 l ++ tail)) tail)
    as (pre' & prev & nx & o & -> & ->); [|assumption|assumption|lia|assumption|reflexivity].
  rewrite app_length. pose proof (opts_enc_length l 0). lia.
Qed.

(* the hypothesis "an option with a larger number exists" is the C's branch condition
   number < pdu->max_opt *)
Lemma exists_larger_from n l : forall prev,
  ascending prev l -> (Exists (fun o => n < fst o) l \/ n < prev <-> n < last_from prev l).
Proof.
  induction l as [|o tl IH]; intros prev.
  - rewrite Exists_nil. cbn. tauto.
  - intros [Ho Ht]. rewrite last_from_cons, <- (IH _ Ht), Exists_cons.
    assert (n < prev -> n < fst o) by lia. tauto.
Qed.

Lemma exists_larger_iff_last n l : l <> [] -> ascending 0 l ->
  (Exists (fun o => n < fst o) l <-> n < last_num l).
Proof.
  intros Hne Ha. rewrite last_num_from, <- (exists_larger_from n l 0 Ha).
  destruct l as [|o tl]; [contradiction|]. destruct Ha as [Ho _]. rewrite Exists_cons.
  assert (n < 0 -> n < fst o) by lia. tauto.
Qed.

(* non-vacuity on concrete bytes, by the number of extension bytes the following option's delta
   has before and after: Uri-Path in front of option 65000 (2 -> 2, with a payload behind),
   option 299 in front of 300 (2 -> 0), 40 in front of 300 (2 -> 1), 12 in front of 20 (1 -> 0) *)
Example bi_insert_demo :
  bi_insert (opts_enc 0 [(3, [104]); (65000, [1; 2])] ++ [255; 9]) 11 [97] =
    Some (opts_enc 0 [(3, [104]); (11, [97]); (65000, [1; 2])] ++ [255; 9]) /\
  bi_insert (opts_enc 0 [(300, [7])]) 299 [] = Some (opts_enc 0 [(299, []); (300, [7])]) /\
  bi_insert (opts_enc 0 [(300, [7])]) 40 [5] = Some (opts_enc 0 [(40, [5]); (300, [7])]) /\
  bi_insert (opts_enc 0 [(20, [7])]) 12 [5] = Some (opts_enc 0 [(12, [5]); (20, [7])]).
Proof. vm_compute. repeat split; reflexivity. Qed.
