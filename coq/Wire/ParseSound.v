(* Soundness of the parser model: whatever [parse] accepts is the canonical encoding of the
   message it returns, and that message is well-formed (C03). *)
From LibcoapV Require Import Base.Tactics Base.Bytes Base.BytesProofs Wire.OptCodec
  Wire.OptCodecProofs Wire.Pdu Wire.PduProofs.
Local Open Scope Z_scope.

Definition opi_post (prev : Z) (bs : bytes) (l : list opt) (tail : bytes) : Prop :=
  bs = opts_enc prev l ++ tail /\ ascending prev l /\ Forall opt_wf l /\ tail_ok tail /\ wfb tail.

Lemma opi_stop prev bs : tail_ok bs -> wfb bs -> opi_post prev bs [] bs.
Proof. intros Ht Hb. repeat split; solve [assumption | constructor]. Qed.

Lemma opts_parse_inv fuel : forall prev bs l tail,
  0 <= prev -> wfb bs -> opts_parse fuel prev bs = Some (l, tail) -> opi_post prev bs l tail.
Proof.
  induction fuel as [|fuel IH]; intros prev bs l tail Hp Hb H;
    destruct (tail_ok_cases bs) as [T | (b & r & -> & Nb)];
    try (rewrite (opts_parse_tail _ _ _ T) in H; injection H as <- <-; apply opi_stop; assumption).
  - cbn [opts_parse] in H. destruct (b =? PAYLOAD_START) eqn:E; [lia | discriminate].
  - rewrite opts_parse_unfold in H by assumption.
    destruct (opt_parse (b :: r)) as [[[d v] rest]|] eqn:EP; [|discriminate].
    destruct (prev + d <=? MAX_OPT) eqn:EM; [|discriminate].
    destruct (opts_parse fuel (prev + d) rest) as [[l' tail']|] eqn:ER; [|discriminate].
    injection H as <- <-.
    apply opt_parse_inv in EP; [|assumption]. destruct EP as (-> & Hd & Hv & Hvb & Hrb).
    apply IH in ER; [|lia|assumption]. destruct ER as (-> & Hasc & Hwf & Htw & Htb).
    unfold opi_post, opt_wf, MAX_OPT in *. cbn [opts_enc ascending fst snd].
    replace (prev + d - prev) with d by lia. rewrite <- app_assoc.
    split; [reflexivity|]. split; [split; [lia | assumption]|]. split; [|auto].
    constructor; [|assumption]. cbn [fst snd]. auto with zarith.
Qed.

Lemma parse_token_inv tkl area tok rest :
  0 <= tkl < 16 -> wfb area -> parse_token tkl area = Some (tok, rest) ->
  tkl = tkl_nib tok /\ area = token_area tok ++ rest /\ len tok <= 65804 /\ wfb tok /\ wfb rest.
Proof.
  intros Ht Hb H. rewrite parse_token_value in H. rewrite token_area_ext, <- app_assoc.
  exact (rd_value_inv _ _ _ _ Ht Hb H).
Qed.

Lemma parse_body_inv ty code mid tkl area m :
  0 <= tkl < 16 -> wfb area -> parse_body ty code mid tkl area = Some m ->
  m_type m = ty /\ m_code m = code /\ m_mid m = mid /\
  area = token_area (m_token m) ++ content_area m /\
  tkl = tkl_nib (m_token m) /\
  len (m_token m) <= 65804 /\ wfb (m_token m) /\
  Forall opt_wf (m_opts m) /\ ascending 0 (m_opts m) /\
  limits_ok (m_code m) (m_opts m) = true /\ wfb (m_payload m) /\
  (m_code m = 0 -> m_token m = [] /\ m_opts m = [] /\ m_payload m = []).
Proof.
  intros Ht Hb. unfold parse_body, parse_tail, content_area.
  destruct (parse_token tkl area) as [[tok rest]|] eqn:ET; [|discriminate].
  apply parse_token_inv in ET; [|assumption..]. destruct ET as (-> & Ea & Htl & Htb & Hrb).
  destruct (code =? 0) eqn:Ec.
  - destruct area; intros [= <-]. cbn [m_type m_code m_mid m_token m_opts m_payload].
    rewrite token_area_ext in Ea. symmetry in Ea.
    apply app_eq_nil in Ea as [Ea _]. apply app_eq_nil in Ea as [_ ->].
    repeat split; solve [constructor | reflexivity | cbn; lia].
  - subst area.
    destruct (opts_parse (length rest) 0 rest) as [[os tail]|] eqn:EO; [|discriminate].
    apply opts_parse_inv in EO; [|lia|assumption]. destruct EO as (-> & Hasc & Hwf & Htw & Htlb).
    destruct (limits_ok code os) eqn:EL; [|discriminate].
    destruct Htw as [-> | [pl ->]].
    + intros [= <-]. cbn [m_type m_code m_mid m_token m_opts m_payload payload_area].
      repeat split; solve [assumption | constructor | lia].
    + destruct pl as [|x pl]; intros [= <-].
      cbn [m_type m_code m_mid m_token m_opts m_payload payload_area].
      apply wfb_cons in Htlb. repeat split; solve [assumption | tauto | lia].
Qed.

(* everything after the framing header of an accepted message is the canonical encoding of the
   returned token, options and payload; the returned message is well-formed *)
Theorem parse_sound_body p bs m :
  wfb bs -> parse p bs = Some m ->
  exists b0 rest, bs = b0 :: rest /\
    drop (header_size p b0) bs = token_area (m_token m) ++ content_area m /\
    b0 mod 16 = tkl_nib (m_token m) /\
    len (m_token m) <= 65804 /\ wfb (m_token m) /\
    Forall opt_wf (m_opts m) /\ ascending 0 (m_opts m) /\
    limits_ok (m_code m) (m_opts m) = true /\ wfb (m_payload m) /\
    (m_code m = 0 -> m_token m = [] /\ m_opts m = [] /\ m_payload m = []).
Proof.
  intros Hb. destruct bs as [|b0 r]; [discriminate|].
  rewrite (parse_cons p _ b0 r eq_refl). cbv zeta.
  destruct (len (b0 :: r) <? header_size p b0); [discriminate|].
  destruct (parse_fields p _) as [[[ty code] mid]|]; [|discriminate].
  intros H. apply parse_body_inv in H; [|lia|apply wfb_drop; assumption].
  exists b0, r. tauto.
Qed.

Lemma parse_fields_udp_inv hdr ty code mid :
  wfb hdr -> parse_fields UDP hdr = Some (ty, code, mid) ->
  0 <= ty <= 3 /\ 0 <= code <= 255 /\ 0 <= mid <= 65535 /\
  forall h0 tl, hdr = h0 :: tl ->
                hdr = [64 + 16 * ty + h0 mod 16; code; (mid / 256) mod 256; mid mod 256].
Proof.
  intros Hb. destruct hdr as [|h0 [|h1 [|h2 [|h3 [|h4 t]]]]]; try discriminate.
  cbn [parse_fields]. destruct (h0 / 64 =? 1) eqn:Ev; intros [= <- <- <-].
  repeat (apply wfb_cons in Hb; destruct Hb as [? Hb]). unfold is_byte in *.
  split; [lia|]. split; [lia|]. split; [lia|]. intros ? ? [= <- <-]. repeat f_equal; lia.
Qed.

(* on datagram transports the whole byte string is the canonical serialisation *)
Theorem parse_sound_udp bs m :
  wfb bs -> parse UDP bs = Some m -> msg_wf m /\ serialize UDP m = bs.
Proof.
  intros Hb H. destruct bs as [|b0 r]; [discriminate|].
  rewrite (parse_cons UDP _ b0 r eq_refl) in H. cbv zeta in H. cbn [header_size] in H.
  destruct (len (b0 :: r) <? 4); [discriminate|].
  destruct (parse_fields UDP _) as [[[ty code] mid]|] eqn:EF; [|discriminate].
  apply parse_fields_udp_inv in EF; [|apply wfb_take; assumption].
  destruct EF as (Hty & Hco & Hmid & Hhdr). specialize (Hhdr b0 _ eq_refl).
  apply parse_body_inv in H; [|lia|apply wfb_drop; assumption].
  destruct H as (<- & <- & <- & Hdrop & Htk & Htl & Htb & Hwf & Hasc & Hlim & Hpl & Hemp).
  split; [constructor; auto|].
  unfold serialize, header. rewrite <- Hdrop, <- Htk, <- Hhdr. apply take_drop.
Qed.

Lemma reject_reserved_delta b0 r : 0 <= b0 < 256 -> b0 / 16 = 15 -> opt_parse (b0 :: r) = None.
Proof.
  intros Hb H. unfold opt_parse. rewrite H. reflexivity.
Qed.

Lemma reject_reserved_length b0 r : 0 <= b0 < 256 -> b0 mod 16 = 15 -> opt_parse (b0 :: r) = None.
Proof.
  intros Hb H. unfold opt_parse. rewrite H.
  destruct (rd_delta (b0 / 16) r) as [[d r1]|]; reflexivity.
Qed.

Lemma reject_number_overflow fuel prev d v rest b tl :
  b <> PAYLOAD_START -> opt_parse (b :: tl) = Some (d, v, rest) -> MAX_OPT < prev + d ->
  opts_parse (S fuel) prev (b :: tl) = None.
Proof.
  intros Hb HP Hov. rewrite opts_parse_unfold by assumption. rewrite HP.
  replace (prev + d <=? MAX_OPT) with false by lia. reflexivity.
Qed.

(* the parser is a left inverse of the encoder, so the encoder is injective on what a framing
   carries *)
Lemma serialize_unique p m1 m2 :
  msg_wf m1 -> msg_wf m2 -> serialize p m1 = serialize p m2 -> norm_fields p m1 = norm_fields p m2.
Proof.
  intros W1 W2 E. pose proof (parse_serialize p m1 W1) as P.
  rewrite E, (parse_serialize p m2 W2) in P. congruence.
Qed.
