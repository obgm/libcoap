(* C02 - the index-level parser of Wire/ParseIdx.v never reads outside the received bytes and
   never runs out of fuel, for every byte string and every framing.  On every window of the
   buffer it is determined by the list-level parser (Wire/ParseIdxRefine.v), which has no such
   answers. *)
From LibcoapV Require Import Base.Tactics Base.Bytes Base.BytesProofs Wire.OptCodec
  Wire.OptCodecProofs Wire.Pdu Wire.ParseIdx Wire.ParseIdxRefine.
Local Open Scope Z_scope.

Definition ix_good {A} (r : ix_res A) (P : A -> Prop) : Prop :=
  match r with IxOk a => P a | IxRej => True | IxOob => False | IxFuel => False end.

Lemma ix_rd_byte buf i b : wfb buf -> ix_rd buf i = IxOk b -> is_byte b /\ 0 <= i < len buf.
Proof.
  intros W. unfold ix_rd. destruct ((0 <=? i) && (i <? len buf)) eqn:E; intros [= <-].
  split; [|lia]. eapply Forall_forall; [exact W|]. apply nth_In. unfold len in E. lia.
Qed.

Lemma ix_adv_chk_spec o e :
  ix_good (ix_adv_chk o e) (fun p => fst p = o + 1 /\ snd p = e - 1 /\ 1 <= snd p).
Proof. unfold ix_adv_chk. repeat case_if; cbn [ix_good fst snd]; auto with zarith. Qed.

Theorem ix_opt_parse_spec buf o e :
  wfb buf -> 0 <= o -> o + e <= len buf ->
  ix_good (ix_opt_parse buf o e)
    (fun r => let '(d, l, h) := r in 0 <= d /\ 0 <= l /\ 1 <= h <= 5 /\ h + l <= e).
Proof.
  intros Hb Ho He. destruct (e <? 1) eqn:E1; [unfold ix_opt_parse; rewrite E1; exact I|].
  pose proof (win_slice buf o e Ho ltac:(lia) He) as W.
  pose proof (ix_opt_parse_win Hb W) as P.
  destruct (opt_parse (ix_slice buf o e)) as [[[d v] rest]|] eqn:EP; [|rewrite P; exact I].
  destruct P as (h & -> & Hh & _ & (_ & Hr & _)).
  apply opt_parse_inv in EP; [|exact (win_wfb Hb W)].
  cbn [ix_good]. len_lia.
Qed.

Theorem ix_opts_spec buf code : forall fuel o e maxopt good,
  wfb buf -> 0 <= o -> 0 <= e -> o + e <= len buf -> e <= Z.of_nat fuel ->
  ix_good (ix_opts fuel buf code o e maxopt good)
    (fun r => let '(os, o', e', g) := r in o <= o' /\ o' + e' = o + e /\ 0 <= e' /\
                                          (0 < e -> e' <= e)).
Proof.
  intros fuel o e maxopt good Hb Ho He Hl Hf.
  pose proof (ix_opts_win buf code fuel o e maxopt good _ Hb (win_slice buf o e Ho He Hl) Hf) as P.
  destruct (ix_opts fuel buf code o e maxopt good) as [[[[os o'] e'] g]| | |]; try contradiction.
  cbn [ix_good]. lia.
Qed.

Lemma header_size_udp b0 : header_size UDP b0 = 4.
Proof. reflexivity. Qed.

(* the code as found reads the extended-token length byte of a datagram that ends right after
   its 4-byte header (uninitialised heap bytes decide a branch in coap_pdu_parse_header) *)
Theorem ix_parse_as_found_reads_unreceived_byte :
  exists buf, wfb buf /\ ix_parse false UDP buf = IxOob.
Proof.
  exists [77; 1; 0; 0]. split; [apply wfbb_spec | vm_compute]; reflexivity.
Qed.

Theorem ix_parse_reject_no_message p buf :
  ix_parse true p buf = IxRej -> forall m, ix_parse true p buf <> IxOk m.
Proof. intros H m. rewrite H. discriminate. Qed.
