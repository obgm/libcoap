(* The well-formed abstract messages ([msg_wf]: what the wire format can carry - option numbers
   up to 65535, token and value lengths up to 65804 = 269 + 65535, the largest a two-byte
   extension encodes - within the per-option limits and with the Empty rule of code 0.00), and
   completeness of the parser on them: [parse p (serialize p m)] is [m] up to the header
   fields a framing does not carry ([norm_fields]: no type and no message id outside UDP/DTLS). *)
From LibcoapV Require Import Base.Tactics Base.Bytes Base.BytesProofs Wire.OptCodec
  Wire.OptCodecProofs Wire.Pdu.
Local Open Scope Z_scope.

Definition opt_wf (o : opt) : Prop :=
  0 <= fst o <= 65535 /\ len (snd o) <= 65804 /\ wfb (snd o).

Fixpoint ascending (prev : Z) (l : list opt) : Prop :=
  match l with
  | [] => True
  | o :: tl => prev <= fst o /\ ascending (fst o) tl
  end.

Definition norm_fields (p : proto) (m : msg) : msg :=
  match p with
  | UDP => m
  | _ => mkMsg 0 (m_code m) 0 (m_token m) (m_opts m) (m_payload m)
  end.

Record msg_wf (m : msg) : Prop := {
  wf_type : 0 <= m_type m <= 3;
  wf_code : 0 <= m_code m <= 255;
  wf_mid : 0 <= m_mid m <= 65535;
  wf_token : len (m_token m) <= 65804 /\ wfb (m_token m);
  wf_opts : Forall opt_wf (m_opts m) /\ ascending 0 (m_opts m);
  wf_limits : limits_ok (m_code m) (m_opts m) = true;
  wf_payload : wfb (m_payload m);
  wf_empty : m_code m = 0 -> m_token m = [] /\ m_opts m = [] /\ m_payload m = [] }.

(* [last_num] with the number to report for the empty list made a parameter, so that it can be
   computed from the front *)
Definition last_from (prev : Z) (l : list opt) : Z := fst (last l (prev, [])).

Lemma last_num_from l : last_num l = last_from 0 l.
Proof. reflexivity. Qed.

Lemma last_from_cons prev o tl : last_from prev (o :: tl) = last_from (fst o) tl.
Proof.
  unfold last_from. revert prev o. induction tl as [|x tl IH]; intros prev o; [reflexivity|].
  change (last (o :: x :: tl) (prev, [])) with (last (x :: tl) (prev, [])).
  rewrite IH. symmetry. apply IH.
Qed.

Lemma ascending_last_from l : forall prev, ascending prev l -> prev <= last_from prev l.
Proof.
  induction l as [|o tl IH]; intros prev; [cbn; lia|].
  intros [Ho Ht]. rewrite last_from_cons. specialize (IH _ Ht). lia.
Qed.

Definition tail_ok (tail : bytes) : Prop := tail = [] \/ exists p, tail = PAYLOAD_START :: p.

(* where the option walk stops, and where it does not *)
Lemma tail_ok_cases bs : tail_ok bs \/ exists b r, bs = b :: r /\ b <> PAYLOAD_START.
Proof.
  destruct bs as [|b r]; [left; left; reflexivity|].
  destruct (Z.eq_dec b PAYLOAD_START) as [->|N]; [left; right; eexists; reflexivity | eauto].
Qed.

Lemma payload_area_tail_ok pl : tail_ok (payload_area pl).
Proof. destruct pl; [left | right; eexists]; reflexivity. Qed.

Lemma opts_parse_unfold fuel prev b tl :
  b <> PAYLOAD_START ->
  opts_parse (S fuel) prev (b :: tl) =
  match opt_parse (b :: tl) with
  | None => None
  | Some (d, v, rest) =>
      if prev + d <=? MAX_OPT then
        match opts_parse fuel (prev + d) rest with
        | None => None
        | Some (l, tail) => Some ((prev + d, v) :: l, tail)
        end
      else None
  end.
Proof.
  intros Hb. cbn [opts_parse]. destruct (b =? PAYLOAD_START) eqn:E; [lia|reflexivity].
Qed.

Lemma opts_parse_tail fuel prev tail :
  tail_ok tail -> opts_parse fuel prev tail = Some ([], tail).
Proof. intros [->|[p ->]]; destruct fuel; reflexivity. Qed.

Theorem opts_parse_enc l : forall prev tail fuel,
  0 <= prev -> ascending prev l -> Forall opt_wf l -> tail_ok tail ->
  (length l <= fuel)%nat ->
  opts_parse fuel prev (opts_enc prev l ++ tail) = Some (l, tail).
Proof.
  induction l as [|[n v] tl IH]; intros prev tail fuel Hp Hasc Hwf Htail Hfuel.
  - apply opts_parse_tail; assumption.
  - cbn [opts_enc]. destruct Hasc as [Hpn Hasc]. cbn [fst] in Hpn, Hasc.
    inversion Hwf as [|? ? (Hn & Hv & _) Hwf']; subst. cbn [fst snd] in Hn, Hv.
    destruct fuel as [|fuel]; cbn [length] in Hfuel; [lia|].
    rewrite <- app_assoc.
    destruct (opt_enc_first (n - prev) v (opts_enc n tl ++ tail) ltac:(lia)) as (b & r & Heq & Hb).
    rewrite Heq, opts_parse_unfold, <- Heq, opt_parse_enc by (assumption || lia).
    replace (prev + (n - prev)) with n by lia.
    replace (n <=? MAX_OPT) with true by (unfold MAX_OPT; lia).
    rewrite IH by (assumption || lia). reflexivity.
Qed.

Lemma opts_enc_length l : forall prev, (length l <= length (opts_enc prev l))%nat.
Proof.
  induction l as [|[n v] tl IH]; intros prev; cbn [opts_enc length]; [lia|].
  unfold opt_enc, opt_hdr. cbn [app length]. rewrite !app_length. specialize (IH n). lia.
Qed.

Lemma opts_enc_wfb l : forall prev,
  0 <= prev -> ascending prev l -> Forall opt_wf l -> wfb (opts_enc prev l).
Proof.
  induction l as [|[n v] tl IH]; intros prev Hp Ha Hw; cbn [opts_enc]; [constructor|].
  cbn [ascending fst] in Ha. destruct Ha as [Hpn Ha].
  inversion Hw as [|? ? Ho Hw']; subst. destruct Ho as (Hn & Hv & Hvb). cbn [fst snd] in *.
  apply wfb_app. split; [|apply IH; [lia|assumption|assumption]].
  unfold opt_enc. apply wfb_app. split; [|assumption].
  pose proof (len_nonneg v). apply opt_hdr_wfb; lia.
Qed.

Lemma payload_area_wfb pl : wfb pl -> wfb (payload_area pl).
Proof.
  intros W. unfold payload_area. destruct pl; [constructor|].
  apply wfb_cons. split; [unfold is_byte, PAYLOAD_START; lia|exact W].
Qed.

Lemma content_area_wfb m : msg_wf m -> wfb (content_area m).
Proof.
  intros W. unfold content_area. apply wfb_app. split.
  - apply opts_enc_wfb; [lia|apply W..].
  - apply payload_area_wfb, W.
Qed.

(* the length of the token is a field of the same form as an option's length *)

Lemma token_area_ext t : token_area t = ext_bytes (len t) ++ t.
Proof. unfold token_area, ext_bytes. repeat case_if; reflexivity. Qed.

Lemma token_area_wfb t : wfb t -> wfb (token_area t).
Proof.
  intros W. rewrite token_area_ext. apply wfb_app. split; [apply ext_bytes_wfb|exact W].
Qed.

Lemma parse_token_value tkl area : parse_token tkl area = rd_value tkl area.
Proof.
  unfold parse_token, rd_value, rd_len.
  destruct (tkl <? 13); [reflexivity|]. destruct (tkl =? 13); [destruct area; reflexivity|].
  destruct (tkl =? 14); [|reflexivity]. destruct area as [|b1 [|b2 r]]; try reflexivity.
  replace (b1 * 256 + b2 + 269) with (b1 * 256 + 269 + b2) by lia. reflexivity.
Qed.

Lemma tkl_nib_range t : 0 <= tkl_nib t <= 14.
Proof. exact (ext_nib_range (len t) (len_nonneg t)). Qed.

Lemma parse_token_area t rest :
  len t <= 65804 -> parse_token (tkl_nib t) (token_area t ++ rest) = Some (t, rest).
Proof.
  intros Ht. rewrite parse_token_value, token_area_ext, <- app_assoc.
  apply rd_value_enc. assumption.
Qed.

(* parse, in three steps: header fields, token, options and payload *)

Definition parse_fields (p : proto) (hdr : bytes) : option (Z * Z * Z) :=
  match p, hdr with
  | UDP, [h0; h1; h2; h3] =>
      if h0 / 64 =? 1 then Some ((h0 / 16) mod 4, h1, h2 * 256 + h3) else None
  | UDP, _ => None
  | _, _ => Some (0, last_byte hdr, 0)
  end.

Definition parse_tail (ty code mid : Z) (area tok rest : bytes) : option msg :=
  if code =? 0 then
    match area with [] => Some (mkMsg ty code mid [] [] []) | _ => None end
  else
    match opts_parse (length rest) 0 rest with
    | None => None
    | Some (os, tail) =>
        if limits_ok code os then
          match tail with
          | [] => Some (mkMsg ty code mid tok os [])
          | _ :: [] => None
          | _ :: pl => Some (mkMsg ty code mid tok os pl)
          end
        else None
    end.

Definition parse_body (ty code mid tkl : Z) (area : bytes) : option msg :=
  match parse_token tkl area with
  | None => None
  | Some (tok, rest) => parse_tail ty code mid area tok rest
  end.

Lemma parse_cons p bs b0 tl :
  bs = b0 :: tl ->
  parse p bs =
  let hs := header_size p b0 in
  if len bs <? hs then None else
  match parse_fields p (take hs bs) with
  | None => None
  | Some (ty, code, mid) => parse_body ty code mid (b0 mod 16) (drop hs bs)
  end.
Proof. intros ->. reflexivity. Qed.

Lemma parse_app p hdr area b0 tl :
  hdr = b0 :: tl -> header_size p b0 = len hdr ->
  parse p (hdr ++ area) =
  match parse_fields p hdr with
  | None => None
  | Some (ty, code, mid) => parse_body ty code mid (b0 mod 16) area
  end.
Proof.
  intros E Hs.
  rewrite (parse_cons p (hdr ++ area) b0 (tl ++ area)) by (rewrite E; reflexivity).
  cbv zeta. rewrite Hs, len_app, take_app_exact, drop_app_exact.
  replace (len hdr + len area <? len hdr) with false by len_lia. reflexivity.
Qed.

Lemma parse_body_enc ty code mid tok os pl :
  len tok <= 65804 -> Forall opt_wf os -> ascending 0 os -> limits_ok code os = true ->
  (code = 0 -> tok = [] /\ os = [] /\ pl = []) ->
  parse_body ty code mid (tkl_nib tok) (token_area tok ++ opts_enc 0 os ++ payload_area pl) =
  Some (mkMsg ty code mid tok os pl).
Proof.
  intros Ht Hwf Hasc Hlim Hemp. unfold parse_body, parse_tail.
  rewrite parse_token_area by assumption. destruct (code =? 0) eqn:Ec.
  - destruct Hemp as (-> & -> & ->); [lia|]. reflexivity.
  - rewrite (opts_parse_enc os 0 _ _ ltac:(lia) Hasc Hwf (payload_area_tail_ok pl)), Hlim.
    + destruct pl; reflexivity.
    + rewrite app_length. pose proof (opts_enc_length os 0). lia.
Qed.

Lemma header_size_range p b0 : 2 <= header_size p b0 <= 6.
Proof. unfold header_size. destruct p; repeat case_if; lia. Qed.

(* the four forms of the Len field of RFC 8323: Len nibble and extended length bytes *)
Inductive tcp_len_form (l : Z) : Z -> bytes -> Prop :=
| tcp_len0 : l <= 12 -> tcp_len_form l l []
| tcp_len1 : 12 < l <= 268 -> tcp_len_form l 13 [l - 13]
| tcp_len2 : 268 < l <= 65804 -> tcp_len_form l 14 (be16 (l - 269))
| tcp_len4 : 65804 < l -> tcp_len_form l 15 (be32 (l - 65805)).

Lemma header_tcp m :
  exists n ext, tcp_len_form (len (content_area m)) n ext /\
                header TCP m = (16 * n + tkl_nib (m_token m)) :: ext ++ [m_code m].
Proof.
  unfold header. set (l := len (content_area m)).
  destruct (l <=? 12) eqn:E1; [exists l, [] |
  destruct (l <=? 268) eqn:E2; [exists 13, [l - 13] |
  destruct (l <=? 65804) eqn:E3; [exists 14, (be16 (l - 269)) | exists 15, (be32 (l - 65805))]]];
    (split; [constructor; lia | reflexivity]).
Qed.

Lemma header_size_tcp {l n ext} tk :
  tcp_len_form l n ext -> 0 <= tk < 16 -> header_size TCP (16 * n + tk) = 2 + len ext.
Proof.
  intros F Ht. unfold header_size. replace ((16 * n + tk) / 16) with n by lia.
  destruct F; try reflexivity. replace (l <? 13) with true by lia. reflexivity.
Qed.

Lemma header_shape p m :
  exists b0 tl, header p m = b0 :: tl /\ header_size p b0 = len (header p m) /\
                b0 mod 16 = tkl_nib (m_token m).
Proof.
  pose proof (tkl_nib_range (m_token m)) as Ht. destruct p.
  - eexists; eexists; split; [reflexivity|]. split; [reflexivity|]. lia.
  - destruct (header_tcp m) as (n & ext & F & ->).
    eexists; eexists; split; [reflexivity|]. split; [|lia].
    rewrite (header_size_tcp _ F), len_cons, len_app by lia.
    change (len [m_code m]) with 1. lia.
  - eexists; eexists; split; [reflexivity|]. split; [reflexivity|]. lia.
Qed.

Lemma header_wfb p m : msg_wf m -> wfb (header p m).
Proof.
  intros W. pose proof (tkl_nib_range (m_token m)) as Ht.
  pose proof (wf_type m W) as Hty. pose proof (wf_code m W) as Hco. destruct p.
  - unfold header. repeat (apply wfb_cons; split); try apply is_byte_mod; try constructor;
      unfold is_byte; lia.
  - destruct (header_tcp m) as (n & ext & F & ->). pose proof (len_nonneg (content_area m)).
    apply wfb_cons. split; [destruct F; unfold is_byte; lia|].
    apply wfb_app. split; [|repeat constructor; unfold is_byte; lia].
    destruct F; [constructor| |apply be16_wfb|apply be32_wfb].
    repeat constructor; lia.
  - unfold header. repeat constructor; unfold is_byte; lia.
Qed.

Lemma serialize_wfb p m : msg_wf m -> wfb (serialize p m).
Proof.
  intros W. unfold serialize. rewrite !wfb_app. split; [apply header_wfb, W|].
  split; [apply token_area_wfb, W|apply content_area_wfb, W].
Qed.

Lemma header_last p m : p <> UDP -> last_byte (header p m) = m_code m.
Proof.
  intros Hp. destruct p; [congruence| |reflexivity].
  unfold header, last_byte. repeat case_if; reflexivity.
Qed.

Lemma parse_fields_header p m :
  0 <= m_type m <= 3 -> 0 <= m_mid m <= 65535 ->
  parse_fields p (header p m) = Some (m_type (norm_fields p m), m_code m, m_mid (norm_fields p m)).
Proof.
  intros Hty Hmid. destruct p; [|cbn [parse_fields]; rewrite header_last by congruence; reflexivity..].
  pose proof (tkl_nib_range (m_token m)) as Ht. cbn [parse_fields header norm_fields].
  replace ((64 + 16 * m_type m + tkl_nib (m_token m)) / 64 =? 1) with true by lia.
  do 2 f_equal; [f_equal|]; lia.
Qed.

Theorem parse_serialize p m : msg_wf m -> parse p (serialize p m) = Some (norm_fields p m).
Proof.
  intros [Hty Hco Hmid [Htl Htb] [Hof Hasc] Hlim Hpl Hemp].
  destruct (header_shape p m) as (b0 & htl & Hh & Hsz & Htk).
  unfold serialize, content_area.
  rewrite (parse_app p _ _ b0 htl Hh Hsz), parse_fields_header, Htk, parse_body_enc by assumption.
  destruct p, m; reflexivity.
Qed.
