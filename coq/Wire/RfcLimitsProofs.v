(* The limit tables of the parser (Pdu.base_limit / Pdu.csm_limit, transcribed from
   coap_pdu_parse_opt_base / coap_pdu_parse_opt_csm and tied to the C by the limit sweep) are
   the tables of the RFCs (RfcLimits.v), for every option number, every code and every length -
   and the table the pinned tree started with was not. *)
From LibcoapV Require Import Base.Tactics Base.Bytes Wire.Pdu Wire.RfcLimits.
Local Open Scope Z_scope.

(* every positive number above 2^11 is outside both tables; below, both compute *)
Theorem base_limit_is_rfc n : base_limit n = rfc_base_limit n.
Proof.
  destruct n as [|p|p]; [reflexivity| |reflexivity].
  do 11 (try (destruct p as [p|p|]; try reflexivity)).
Qed.

Theorem csm_limit_is_rfc code n : csm_limit code n = rfc_csm_limit code n.
Proof.
  destruct code as [|c|c]; [reflexivity| |reflexivity].
  do 9 (try (destruct c as [c|c|]; try reflexivity));
  (destruct n as [|p|p]; [reflexivity| |reflexivity]; do 4 (try (destruct p as [p|p|]; try reflexivity))).
Qed.

Theorem limit_ok_is_rfc code n l : limit_ok code n l = rfc_limit_ok code n l.
Proof. unfold limit_ok, rfc_limit_ok. rewrite base_limit_is_rfc, csm_limit_is_rfc. reflexivity. Qed.

Theorem limits_ok_is_rfc code os :
  limits_ok code os = forallb (fun o => rfc_limit_ok code (fst o) (len (snd o))) os.
Proof.
  unfold limits_ok. induction os as [|o tl IH]; cbn [forallb]; [reflexivity|].
  rewrite limit_ok_is_rfc, IH. reflexivity.
Qed.

(* the as-found table agrees with the RFCs everywhere except at four option numbers ... *)
Theorem as_found_agrees_elsewhere n :
  n <> 15 -> n <> 19 -> n <> 31 -> n <> 252 -> base_limit_as_found n = rfc_base_limit n.
Proof.
  intros H1 H2 H3 H4. rewrite <- base_limit_is_rfc.
  destruct n as [|p|p]; [reflexivity| |reflexivity].
  do 8 (try (destruct p as [p|p|]; try reflexivity)); congruence.
Qed.

(* ... and there it differs, in both directions: a legal empty Uri-Query was refused; an empty
   Echo and 4-byte Q-Block1 / Q-Block2 values were accepted *)
Theorem as_found_refuted :
  in_range (base_limit_as_found 15) 0 = false /\ in_range (rfc_base_limit 15) 0 = true /\
  in_range (base_limit_as_found 252) 0 = true /\ in_range (rfc_base_limit 252) 0 = false /\
  in_range (base_limit_as_found 19) 4 = true /\ in_range (rfc_base_limit 19) 4 = false /\
  in_range (base_limit_as_found 31) 4 = true /\ in_range (rfc_base_limit 31) 4 = false.
Proof. repeat split; reflexivity. Qed.
