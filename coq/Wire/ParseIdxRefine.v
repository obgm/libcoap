(* C02/C03 - the index-level parser of Wire/ParseIdx.v (the safe one) computes exactly what the
   list-level parser of Wire/Pdu.v computes (the one proved sound and complete against the
   canonical encoder): same accept/reject, same message.

   The two are related through windows: [win buf o e s] says that the [e] bytes of [buf] from
   index [o] on are the list [s].  Each index-level function, run on a window, is determined by
   what its list-level counterpart does on [s]; the results are again windows.  Since the
   list-level functions never answer Oob or Fuel, the equations carry the safety statements of
   Wire/ParseIdxProofs.v as well. *)
From LibcoapV Require Import Base.Tactics Base.Bytes Base.BytesProofs Wire.OptCodec
  Wire.OptCodecProofs Wire.Pdu Wire.PduProofs Wire.ParseIdx.
Local Open Scope Z_scope.

Lemma drop_0 {A} (l : list A) : drop 0 l = l.
Proof. reflexivity. Qed.

Definition win (buf : bytes) (o e : Z) (s : bytes) : Prop :=
  0 <= o /\ len s = e /\ exists post, drop o buf = s ++ post.

Lemma ix_rd_nth buf i : 0 <= i < len buf -> ix_rd buf i = IxOk (nth (Z.to_nat i) buf 0).
Proof.
  intros H. unfold ix_rd. replace ((0 <=? i) && (i <? len buf)) with true by lia. reflexivity.
Qed.

Lemma win_rd {buf o e b r} :
  win buf o e (b :: r) -> ix_rd buf o = IxOk b /\ win buf (o + 1) (e - 1) r.
Proof.
  intros (Ho & He & post & Hd). rewrite len_cons in He.
  destruct (drop_cons buf 0 o b _ Ho Hd) as (E & L & D). split.
  - rewrite ix_rd_nth, E by lia. reflexivity.
  - split; [lia|]. split; [lia|]. exists post. exact D.
Qed.

Lemma win_all {buf o e s} : win buf o e s -> ix_slice buf o e = s.
Proof. intros (_ & <- & post & Hd). unfold ix_slice. rewrite Hd. apply take_app_exact. Qed.

Lemma win_split buf o e v r :
  win buf o e (v ++ r) -> win buf o (len v) v /\ win buf (o + len v) (e - len v) r.
Proof.
  intros (Ho & He & post & Hd). rewrite len_app in He. rewrite <- app_assoc in Hd. split.
  - split; [lia|]. split; [reflexivity|]. exists (r ++ post). exact Hd.
  - split; [len_lia|]. split; [lia|]. exists post.
    rewrite drop_drop, Hd by len_lia. apply drop_app_exact.
Qed.

Lemma win_suffix buf o : 0 <= o <= len buf -> win buf o (len buf - o) (drop o buf).
Proof.
  intros H. split; [lia|]. split; [apply len_drop; lia|]. exists []. symmetry. apply app_nil_r.
Qed.

Lemma win_slice buf o e : 0 <= o -> 0 <= e -> o + e <= len buf -> win buf o e (ix_slice buf o e).
Proof.
  intros Ho He Hb. unfold ix_slice. split; [lia|]. split.
  - apply len_take. rewrite len_drop by lia. lia.
  - exists (drop e (drop o buf)). symmetry. apply take_drop.
Qed.

Lemma win_wfb {buf o e s} : wfb buf -> win buf o e s -> wfb s.
Proof.
  intros Hb (_ & _ & post & Hd). apply (wfb_drop o) in Hb. rewrite Hd in Hb.
  apply wfb_app in Hb. tauto.
Qed.

(* ADVANCE_OPT_CHECK and the read that follows it *)
Lemma win_adv {A buf o e b0 r0} (k : Z * Z -> Z -> ix_res A) :
  win buf o e (b0 :: r0) ->
  (p <- ix_adv_chk o e ;; b <- ix_rd buf (fst p) ;; k p b) =
  match r0 with [] => IxRej | b1 :: _ => k (o + 1, e - 1) b1 end.
Proof.
  intros W. destruct (win_rd W) as [_ W1]. unfold ix_adv_chk.
  pose proof W1 as (_ & He & _). destruct r0 as [|b1 r1].
  - replace (e <? 1) with false by len_lia. replace (e - 1 <? 1) with true by len_lia.
    reflexivity.
  - replace (e <? 1) with false by len_lia. replace (e - 1 <? 1) with false by len_lia.
    cbn [ix_bind fst]. destruct (win_rd W1) as [-> _]. reflexivity.
Qed.

(* on a window that starts at the option's first byte; the result window starts at the last
   byte the switch has consumed *)
Lemma ix_length_win {buf} ln {o e b0 r0} :
  win buf o e (b0 :: r0) -> 0 <= ln <= 15 ->
  match rd_len ln r0 with
  | Some (l, r1) => exists o1 e1 x, ix_length buf ln o e = IxOk (l, o1, e1) /\
                                    win buf o1 e1 (x :: r1) /\ o <= o1 <= o + 2 /\ o1 + e1 = o + e
  | None => ix_length buf ln o e = IxRej
  end.
Proof.
  intros W Hln. destruct (win_rd W) as [_ W1]. unfold ix_length, rd_len.
  destruct (ln =? 15) eqn:E15; [|destruct (ln =? 14) eqn:E14; [|destruct (ln =? 13) eqn:E13]].
  - replace (ln <? 13) with false by lia. replace (ln =? 13) with false by lia.
    replace (ln =? 14) with false by lia. reflexivity.
  - replace (ln <? 13) with false by lia. replace (ln =? 13) with false by lia.
    rewrite (win_adv _ W). destruct r0 as [|b1 r0]; [reflexivity|]. cbn [fst snd].
    rewrite (win_adv _ W1). destruct r0 as [|b2 r1]; [reflexivity|]. cbn [fst snd].
    destruct (win_rd W1) as [_ W2].
    exists (o + 1 + 1), (e - 1 - 1), b2. split; [reflexivity | split; [exact W2 | lia]].
  - replace (ln <? 13) with false by lia.
    rewrite (win_adv _ W). destruct r0 as [|b1 r1]; [reflexivity|]. cbn [fst snd].
    rewrite Z.add_comm. exists (o + 1), (e - 1), b1. split; [reflexivity | split; [exact W1 | lia]].
  - replace (ln <? 13) with true by lia.
    exists o, e, b0. split; [reflexivity | split; [exact W | lia]].
Qed.

(* as for the list-level readers, the delta switch is the length switch with the 16-bit cap of
   coap_option_t.delta; the C applies the cap in two steps, the first before the second byte
   is read *)
Lemma ix_delta_length {buf} dn {o e b0 r0} :
  wfb buf -> win buf o e (b0 :: r0) ->
  ix_delta buf dn o e =
  (r <- ix_length buf dn o e ;;
   if (dn =? 14) && (65535 <? fst (fst r)) then IxRej else IxOk r).
Proof.
  intros Hb W. destruct (win_rd W) as [_ W1].
  pose proof (win_wfb Hb W1) as Hs. unfold ix_delta, ix_length.
  destruct (dn =? 15); [reflexivity|]. destruct (dn =? 14); [|destruct (dn =? 13)].
  - rewrite !(win_adv _ W). destruct r0 as [|b1 r0]; [reflexivity|]. cbn [fst snd].
    apply wfb_cons in Hs as [B1 Hs]. unfold is_byte in B1.
    rewrite (win_adv _ W1).
    destruct ((b1 * 256 + 269) mod 65536 <? 269) eqn:Ew;
      rewrite ?(win_adv _ W1); (destruct r0 as [|b2 r1]; [reflexivity|]);
      cbn [ix_bind fst snd andb]; apply wfb_cons in Hs as [B2 _]; unfold is_byte in B2.
    + replace (65535 <? b1 * 256 + 269 + b2) with true by lia. reflexivity.
    + replace ((b1 * 256 + 269) mod 65536) with (b1 * 256 + 269) by lia. reflexivity.
  - rewrite !(win_adv _ W). destruct r0 as [|b1 r1]; [reflexivity|].
    cbn [ix_bind fst snd andb]. apply wfb_cons in Hs as [B1 _]. unfold is_byte in B1.
    replace (65535 <? 13 + b1) with false by lia. reflexivity.
  - cbn [ix_bind andb]. reflexivity.
Qed.

Lemma ix_delta_win {buf} dn {o e b0 r0} :
  wfb buf -> win buf o e (b0 :: r0) -> 0 <= dn <= 15 ->
  match rd_delta dn r0 with
  | Some (d, r1) => exists o1 e1 x, ix_delta buf dn o e = IxOk (d, o1, e1) /\
                                    win buf o1 e1 (x :: r1) /\ o <= o1 <= o + 2 /\ o1 + e1 = o + e
  | None => ix_delta buf dn o e = IxRej
  end.
Proof.
  intros Hb W Hdn. rewrite (ix_delta_length dn Hb W), rd_delta_len.
  pose proof (ix_length_win dn W Hdn) as L.
  destruct (rd_len dn r0) as [[l r1]|]; [|rewrite L; reflexivity].
  destruct L as (o1 & e1 & x & -> & L). cbn [ix_bind fst].
  destruct ((dn =? 14) && (65535 <? l)); [reflexivity | eauto].
Qed.

(* the value and what follows the option are again windows of the buffer *)
Theorem ix_opt_parse_win {buf o e s} :
  wfb buf -> win buf o e s ->
  match opt_parse s with
  | Some (d, v, rest) =>
      exists h, ix_opt_parse buf o e = IxOk (d, len v, h) /\ 1 <= h <= 5 /\
                win buf (o + h) (len v) v /\ win buf (o + h + len v) (e - (h + len v)) rest
  | None => ix_opt_parse buf o e = IxRej
  end.
Proof.
  intros Hb W. pose proof (win_wfb Hb W) as Hs. pose proof W as (_ & He & _).
  unfold ix_opt_parse. destruct s as [|b0 r0]; [subst e; cbn [opt_parse]; reflexivity|].
  rewrite opt_parse_cons. replace (e <? 1) with false by len_lia.
  destruct (win_rd W) as [-> _]. cbn [ix_bind].
  apply wfb_cons in Hs as [B0 Hs]. unfold is_byte in B0.
  assert (Hdn : 0 <= b0 / 16 <= 15) by lia. assert (Hln : 0 <= b0 mod 16 <= 15) by lia.
  clear B0. set (dn := b0 / 16) in *. set (ln := b0 mod 16) in *. clearbody dn ln.
  pose proof (ix_delta_win dn Hb W Hdn) as D.
  destruct (rd_delta dn r0) as [[d r1]|]; [|rewrite D; reflexivity].
  destruct D as (o1 & e1 & x & -> & W1 & Ho1 & Hs1). cbn [ix_bind].
  pose proof (ix_length_win ln W1 Hln) as L. unfold rd_value.
  destruct (rd_len ln r1) as [[l r2]|] eqn:EL; [|rewrite L; reflexivity].
  destruct L as (o2 & e2 & y & -> & W2 & Ho2 & Hs2). cbn [ix_bind].
  apply rd_len_inv in EL; [|lia|apply (win_wfb Hb) in W1; apply wfb_cons in W1; tauto].
  destruct EL as (_ & _ & Hl).
  destruct (win_rd W2) as [_ W3]. pose proof W3 as (_ & He3 & _).
  unfold ix_adv. replace (e2 <? 1) with false by len_lia. cbn [ix_bind fst snd].
  destruct (l <=? len r2) eqn:El; [replace (e2 - 1 <? l) with false by lia
                                  | replace (e2 - 1 <? l) with true by lia; reflexivity].
  assert (Lv : len (take l r2) = l) by (apply len_take; lia).
  rewrite <- (take_drop l r2) in W3. apply win_split in W3. rewrite Lv in *.
  exists (o2 + 1 - o). replace (o + (o2 + 1 - o)) with (o2 + 1) by lia.
  replace (e - (o2 + 1 - o + l)) with (e2 - 1 - l) by lia.
  split; [reflexivity|]. split; [lia | exact W3].
Qed.

Lemma ix_opts_stop buf code fuel o e mx good s :
  win buf o e s -> tail_ok s -> ix_opts fuel buf code o e mx good = IxOk ([], o, e, good).
Proof.
  intros W [-> | [p ->]]; pose proof W as (_ & He & _); destruct fuel; cbn [ix_opts].
  1, 2: replace (e <=? 0) with true by len_lia; reflexivity.
  all: replace (e <=? 0) with false by len_lia; destruct (win_rd W) as [-> _]; reflexivity.
Qed.

Theorem ix_opts_win buf code : forall fuel o e mx good s,
  wfb buf -> win buf o e s -> e <= Z.of_nat fuel ->
  match ix_opts fuel buf code o e mx good with
  | IxOk (os, o', e', g) =>
      o <= o' /\ o' + e' = o + e /\ 0 <= e' /\
      match opts_parse fuel mx s with
      | Some (os', tail) => os' = os /\ win buf o' e' tail /\ g = good && limits_ok code os
      | None => g = false
      end
  | _ => False
  end.
Proof.
  induction fuel as [|f IH]; intros o e mx good s Hb W Hf; pose proof W as (_ & He & _);
    destruct (tail_ok_cases s) as [T | (b & r & -> & Nb)];
    (* where the walk stops, both loops hand back the window as it is *)
    try (rewrite (ix_opts_stop _ _ _ _ _ _ _ _ W T), (opts_parse_tail _ _ _ T);
         cbn [limits_ok forallb]; rewrite andb_true_r;
         repeat (split; [solve [len_lia | reflexivity | exact W]|]); reflexivity).
  { len_lia. }
  cbn [ix_opts]. replace (e <=? 0) with false by len_lia. destruct (win_rd W) as [-> _].
  cbn [ix_bind]. replace (b =? PAYLOAD_START) with false by lia.
  rewrite opts_parse_unfold by assumption.
  pose proof (ix_opt_parse_win Hb W) as P.
  destruct (opt_parse (b :: r)) as [[[d v] rest]|]; [|rewrite P; repeat split; len_lia].
  destruct P as (h & -> & Hh & Wv & Wr). pose proof Wr as (_ & Her & _).
  rewrite Z.leb_antisym. destruct (MAX_OPT <? mx + d); cbn [negb]; [repeat split; len_lia|].
  specialize (IH (o + h + len v) (e - (h + len v)) (mx + d)
                 (good && limit_ok code (mx + d) (len v)) rest Hb Wr ltac:(len_lia)).
  destruct (ix_opts f buf code _ _ _ _) as [[[[os o'] e'] g]| | |]; try contradiction.
  cbn [ix_bind]. destruct IH as (I1 & I2 & I3 & I4). rewrite (win_all Wv).
  split; [len_lia|]. split; [lia|]. split; [lia|].
  destruct (opts_parse f (mx + d) rest) as [[os' tail]|]; [|exact I4].
  destruct I4 as (-> & Wt & ->). split; [reflexivity|]. split; [exact Wt|].
  cbn [limits_ok forallb fst snd]. symmetry. apply andb_assoc.
Qed.

Definition ix_opt {A} (r : ix_res A) : option A := match r with IxOk a => Some a | _ => None end.

(* what the index-level parser answers when the list-level parser answers [r] *)
Definition ix_of {A} (r : option A) : ix_res A := match r with Some a => IxOk a | None => IxRej end.

(* ix_body in two steps: the extended token length, then everything behind it *)
Definition ix_tok (buf : bytes) (hs tkl : Z) : ix_res (Z * Z) :=
  let used := len buf - hs in
  if tkl <? 13 then IxOk (tkl, 0)
  else if tkl =? 13 then
    if true && (used <? 1) then IxRej else
    t0 <- ix_rd buf hs ;; IxOk (t0 + 13 + 1, 1)
  else if tkl =? 14 then
    if true && (used <? 2) then IxRej else
    t0 <- ix_rd buf hs ;; t1 <- ix_rd buf (hs + 1) ;; IxOk (t0 * 256 + t1 + 269 + 2, 2)
  else IxOk (0, 0).

Definition ix_tail (buf : bytes) (hs ty code mid etl ext : Z) : ix_res msg :=
  let used := len buf - hs in
  if (code =? 0) && (negb (used =? 0) || negb (etl =? 0)) then IxRej else
  if code =? 0 then IxOk (mkMsg ty code mid [] [] []) else
  r <- ix_opts (Z.to_nat (used - etl)) buf code (hs + etl) (used - etl) 0 true ;;
  let '(os, o, e, good) := r in
  if negb good then IxRej else
  let tok := ix_slice buf (hs + ext) (etl - ext) in
  if 0 <? e then
    if e - 1 =? 0 then IxRej else IxOk (mkMsg ty code mid tok os (ix_slice buf (o + 1) (e - 1)))
  else IxOk (mkMsg ty code mid tok os []).

Lemma ix_body_steps buf hs ty code mid tkl :
  ix_body true buf hs ty code mid tkl =
  (te <- ix_tok buf hs tkl ;;
   let '(etl, ext) := te in
   if (len buf - hs <? etl) || (tkl =? 15) then IxRej else ix_tail buf hs ty code mid etl ext).
Proof. reflexivity. Qed.

(* the token length is read like an option's length field, from the area behind the header *)
Lemma ix_tok_win buf hs tkl area :
  win buf hs (len buf - hs) area -> 0 <= tkl < 15 ->
  match rd_len tkl area with
  | Some (n, r) => exists ext, ix_tok buf hs tkl = IxOk (n + ext, ext) /\ 0 <= ext /\
                               win buf (hs + ext) (len buf - hs - ext) r
  | None => ix_tok buf hs tkl = IxRej
  end.
Proof.
  intros W Ht. pose proof W as (_ & He & _). unfold ix_tok, rd_len. cbn [andb].
  destruct (tkl <? 13) eqn:E1; [|destruct (tkl =? 13) eqn:E13; [|replace (tkl =? 14) with true by lia]].
  - exists 0. rewrite !Z.add_0_r, Z.sub_0_r. auto with zarith.
  - destruct area as [|b r]; [replace (len buf - hs <? 1) with true by len_lia; reflexivity|].
    replace (len buf - hs <? 1) with false by len_lia.
    destruct (win_rd W) as [-> W1]. cbn [ix_bind].
    exists 1. auto with zarith.
  - destruct area as [|b1 [|b2 r]];
      [replace (len buf - hs <? 2) with true by len_lia; reflexivity..|].
    replace (len buf - hs <? 2) with false by len_lia.
    destruct (win_rd W) as [-> W1]. destruct (win_rd W1) as [-> W2].
    cbn [ix_bind]. exists 2.
    replace (b1 * 256 + b2 + 269 + 2) with (b1 * 256 + 269 + b2 + 2) by lia.
    replace (hs + 2) with (hs + 1 + 1) by lia.
    replace (len buf - hs - 2) with (len buf - hs - 1 - 1) by lia. auto with zarith.
Qed.

Lemma length_len {A} (l : list A) : length l = Z.to_nat (len l).
Proof. unfold len. rewrite Nat2Z.id. reflexivity. Qed.

(* behind a token of n bytes that starts ext bytes into the area *)
Lemma ix_tail_win {buf hs} ty code mid {n ext area r} :
  wfb buf -> win buf hs (len buf - hs) area -> win buf (hs + ext) (len buf - hs - ext) r ->
  0 <= n -> 0 <= ext ->
  (if len buf - hs <? n + ext then IxRej else ix_tail buf hs ty code mid (n + ext) ext) =
  ix_of (if n <=? len r then parse_tail ty code mid area (take n r) (drop n r) else None).
Proof.
  intros Hb Wa Wr Hn He. pose proof Wa as (_ & Ha & _). pose proof Wr as (_ & Hr & _).
  destruct (n <=? len r) eqn:El; [replace (len buf - hs <? n + ext) with false by lia
                                 | replace (len buf - hs <? n + ext) with true by lia; reflexivity].
  rewrite <- (take_drop n r) in Wr. apply win_split in Wr as [Wt Wo].
  rewrite len_take in Wt, Wo by lia. pose proof Wo as (_ & Ho & _).
  unfold ix_tail, parse_tail. destruct (code =? 0); cbn [andb].
  - destruct area.
    + replace (len buf - hs =? 0) with true by len_lia.
      replace (n + ext =? 0) with true by len_lia. reflexivity.
    + replace (len buf - hs =? 0) with false by len_lia. reflexivity.
  - rewrite length_len, Ho.
    replace (hs + (n + ext)) with (hs + ext + n) by lia.
    replace (len buf - hs - (n + ext)) with (len buf - hs - ext - n) by lia.
    replace (n + ext - ext) with n by lia. rewrite (win_all Wt).
    pose proof (ix_opts_win buf code (Z.to_nat (len buf - hs - ext - n)) _ _ 0 true _ Hb Wo
                  ltac:(lia)) as O.
    destruct (ix_opts _ buf code _ _ 0 true) as [[[[os o] e] g]| | |]; try contradiction.
    destruct O as (_ & _ & _ & O). cbn [ix_bind].
    destruct (opts_parse _ 0 (drop n r)) as [[os' tail]|]; [|subst g; reflexivity].
    destruct O as (-> & Wl & ->). cbn [andb]. destruct (limits_ok code os); [|reflexivity].
    cbn [negb]. pose proof Wl as (_ & Hl & _).
    destruct tail as [|t0 [|t1 pl]].
    + replace (0 <? e) with false by len_lia. reflexivity.
    + replace (0 <? e) with true by len_lia. replace (e - 1 =? 0) with true by len_lia.
      reflexivity.
    + replace (0 <? e) with true by len_lia. replace (e - 1 =? 0) with false by len_lia.
      destruct (win_rd Wl) as [_ Wp]. rewrite (win_all Wp). reflexivity.
Qed.

Lemma ix_body_eq buf hs ty code mid tkl :
  wfb buf -> 0 <= hs <= len buf -> 0 <= tkl <= 15 ->
  ix_body true buf hs ty code mid tkl = ix_of (parse_body ty code mid tkl (drop hs buf)).
Proof.
  intros Hb Hhs Ht. pose proof (win_suffix buf hs Hhs) as W.
  rewrite ix_body_steps. unfold parse_body. rewrite parse_token_value. unfold rd_value.
  destruct (Z.eq_dec tkl 15) as [->|N15].
  { change (ix_tok buf hs 15) with (@IxOk (Z * Z) (0, 0)). cbn [ix_bind].
    rewrite orb_true_r. reflexivity. }
  replace (tkl =? 15) with false by lia.
  pose proof (ix_tok_win buf hs tkl _ W ltac:(lia)) as T.
  destruct (rd_len tkl (drop hs buf)) as [[n r]|] eqn:EL; [|rewrite T; reflexivity].
  destruct T as (ext & -> & He & Wr). cbn [ix_bind]. rewrite orb_false_r.
  apply rd_len_inv in EL; [|lia|apply wfb_drop; assumption].
  rewrite (ix_tail_win ty code mid Hb W Wr) by lia.
  destruct (n <=? len r); reflexivity.
Qed.

Theorem ix_parse_eq p buf : wfb buf -> ix_parse true p buf = ix_of (parse p buf).
Proof.
  intros Hb. destruct buf as [|b0 tl]; [reflexivity|].
  rewrite (parse_cons p _ b0 tl eq_refl). cbv zeta. unfold ix_parse.
  assert (R0 : ix_rd (b0 :: tl) 0 = IxOk b0) by (apply ix_rd_nth; len_lia).
  assert (B0 : is_byte b0) by (apply wfb_cons in Hb; tauto). unfold is_byte in B0.
  set (buf := b0 :: tl) in *.
  replace (len buf =? 0) with false by (subst buf; len_lia). rewrite R0. cbn [ix_bind].
  pose proof (header_size_range p b0) as Hhs.
  destruct (len buf <? header_size p b0) eqn:El; [reflexivity|].
  destruct p; cbn [header_size] in *.
  - destruct tl as [|h1 [|h2 [|h3 area]]]; try discriminate El.
    rewrite !ix_rd_nth by (subst buf; len_lia).
    cbn [ix_bind]. change (take 4 buf) with [b0; h1; h2; h3]. cbn [parse_fields nth Z.to_nat].
    destruct (b0 / 64 =? 1); [|reflexivity]. apply ix_body_eq; [assumption|lia..].
  - rewrite ix_rd_nth by lia. cbn [ix_bind parse_fields]. unfold last_byte.
    rewrite last_take by lia. apply ix_body_eq; [assumption|lia..].
  - rewrite ix_rd_nth by lia. cbn [ix_bind parse_fields]. unfold last_byte.
    rewrite last_take by lia. apply ix_body_eq; [assumption|lia..].
Qed.

Theorem ix_parse_refines p buf : wfb buf -> ix_opt (ix_parse true p buf) = parse p buf.
Proof. intros W. rewrite ix_parse_eq by assumption. destruct (parse p buf); reflexivity. Qed.

Corollary ix_parse_iff p buf m :
  wfb buf -> (ix_parse true p buf = IxOk m <-> parse p buf = Some m).
Proof.
  intros W. rewrite ix_parse_eq by assumption.
  destruct (parse p buf); cbn [ix_of]; split; congruence.
Qed.

Corollary ix_parse_rej_iff p buf :
  wfb buf -> (ix_parse true p buf = IxRej <-> parse p buf = None).
Proof.
  intros W. rewrite ix_parse_eq by assumption.
  destruct (parse p buf); cbn [ix_of]; split; congruence.
Qed.
