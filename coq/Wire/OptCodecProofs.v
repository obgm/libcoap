(* The option codec of Wire/OptCodec.v, field by field and then for a whole option: what the
   encoder writes the decoder reads back (_ext, _enc), and what the decoder accepts is what the
   encoder writes (_inv). *)
From LibcoapV Require Import Base.Tactics Base.Bytes Base.BytesProofs Wire.OptCodec.
Local Open Scope Z_scope.

(* The three forms of a field, as a view: [destruct (ext_formP x)] replaces [ext_nib x] and
   [ext_bytes x] by their values in each of the ranges 0..12 / 13..268 / 269.. *)
Inductive ext_form (x : Z) : Z -> bytes -> Prop :=
| ext_small : x < 13 -> ext_form x x []
| ext_mid : 13 <= x < 269 -> ext_form x 13 [x - 13]
| ext_big : 269 <= x -> ext_form x 14 [((x - 269) / 256) mod 256; (x - 269) mod 256].

Lemma ext_formP x : ext_form x (ext_nib x) (ext_bytes x).
Proof. unfold ext_nib, ext_bytes. repeat case_if; constructor; lia. Qed.

Lemma ext_nib_range x : 0 <= x -> 0 <= ext_nib x <= 14.
Proof. intros. destruct (ext_formP x); lia. Qed.

Lemma ext_bytes_wfb x : wfb (ext_bytes x).
Proof.
  destruct (ext_formP x); unfold wfb; repeat apply Forall_cons; try apply Forall_nil;
    try (apply Z.mod_pos_bound; reflexivity).
  unfold is_byte. lia.
Qed.

Lemma ext_bytes_len x : len (ext_bytes x) = ext_size x.
Proof. unfold ext_bytes, ext_size. repeat case_if; reflexivity. Qed.

Lemma rd_len_small nib bs : nib < 13 -> rd_len nib bs = Some (nib, bs).
Proof. intros H. unfold rd_len. replace (nib <? 13) with true by lia. reflexivity. Qed.

Lemma rd_len_13 b r : rd_len 13 (b :: r) = Some (b + 13, r).
Proof. reflexivity. Qed.

Lemma rd_len_14 b1 b2 r : rd_len 14 (b1 :: b2 :: r) = Some (b1 * 256 + 269 + b2, r).
Proof. reflexivity. Qed.

Lemma rd_len_ext x r :
  0 <= x <= 65804 -> rd_len (ext_nib x) (ext_bytes x ++ r) = Some (x, r).
Proof.
  intros Hx. destruct (ext_formP x); cbn [app].
  - apply rd_len_small. assumption.
  - rewrite rd_len_13. do 2 f_equal. lia.
  - rewrite rd_len_14. do 2 f_equal. lia.
Qed.

Lemma rd_len_inv nib bs x r :
  0 <= nib < 16 -> wfb bs -> rd_len nib bs = Some (x, r) ->
  nib = ext_nib x /\ bs = ext_bytes x ++ r /\ 0 <= x <= 65804.
Proof.
  intros Hn Hb. unfold rd_len, wfb in *.
  destruct (nib <? 13) eqn:E1; [|destruct (nib =? 13) eqn:E2; [|destruct (nib =? 14) eqn:E3]].
  - intros [= <- <-]. destruct (ext_formP nib); [|lia..]. auto with zarith.
  - destruct Hb as [|b tl Hb _]; intros [= <- <-]. unfold is_byte in Hb.
    destruct (ext_formP (b + 13)); [lia| |lia].
    replace (b + 13 - 13) with b by lia. auto with zarith.
  - destruct Hb as [|b1 ? Hb1 [|b2 tl Hb2 _]]; intros [= <- <-]. unfold is_byte in *.
    destruct (ext_formP (b1 * 256 + 269 + b2)); [lia..|].
    replace ((b1 * 256 + 269 + b2 - 269) / 256 mod 256) with b1 by lia.
    replace ((b1 * 256 + 269 + b2 - 269) mod 256) with b2 by lia. auto with zarith.
  - discriminate.
Qed.

(* The delta reader is the length reader with the 16-bit cap of coap_option_t.delta; only the
   two-byte form can exceed it.  Every fact about rd_delta comes from this equation. *)
Lemma rd_delta_len nib bs :
  rd_delta nib bs =
  match rd_len nib bs with
  | Some (x, r) => if (nib =? 14) && (65535 <? x) then None else Some (x, r)
  | None => None
  end.
Proof.
  unfold rd_delta, rd_len.
  destruct (nib <? 13) eqn:E1; [replace (nib =? 14) with false by lia; reflexivity|].
  destruct (nib =? 13) eqn:E2; [replace (nib =? 14) with false by lia; destruct bs; reflexivity|].
  destruct (nib =? 14); [|reflexivity].
  destruct bs as [|b1 [|b2 r]]; try reflexivity.
  cbn [andb]. rewrite Z.leb_antisym. destruct (65535 <? _); reflexivity.
Qed.

Lemma rd_delta_ext x r :
  0 <= x <= 65535 -> rd_delta (ext_nib x) (ext_bytes x ++ r) = Some (x, r).
Proof.
  intros Hx. rewrite rd_delta_len, rd_len_ext by lia.
  replace (65535 <? x) with false by lia. rewrite andb_false_r. reflexivity.
Qed.

Lemma rd_delta_inv nib bs x r :
  0 <= nib < 16 -> wfb bs -> rd_delta nib bs = Some (x, r) ->
  nib = ext_nib x /\ bs = ext_bytes x ++ r /\ 0 <= x <= 65535.
Proof.
  intros Hn Hb. rewrite rd_delta_len.
  destruct (rd_len nib bs) as [[x' r']|] eqn:EL; [|discriminate].
  destruct ((nib =? 14) && (65535 <? x')) eqn:EC; intros [= <- <-].
  destruct (rd_len_inv _ _ _ _ Hn Hb EL) as (N & B & Hx).
  split; [exact N|]. split; [exact B|]. split; [lia|]. destruct (ext_formP x'); lia.
Qed.

(* a length field followed by that many bytes: the value of an option, and (Wire/Pdu.v) the
   token *)
Definition rd_value (nib : Z) (bs : bytes) : option (bytes * bytes) :=
  match rd_len nib bs with
  | Some (l, r) => if l <=? len r then Some (take l r, drop l r) else None
  | None => None
  end.

Lemma rd_value_ext l bs :
  0 <= l <= 65804 ->
  rd_value (ext_nib l) (ext_bytes l ++ bs) =
  if l <=? len bs then Some (take l bs, drop l bs) else None.
Proof. intros Hl. unfold rd_value. rewrite rd_len_ext by assumption. reflexivity. Qed.

Lemma rd_value_enc v rest :
  len v <= 65804 -> rd_value (ext_nib (len v)) (ext_bytes (len v) ++ v ++ rest) = Some (v, rest).
Proof.
  intros Hv. rewrite rd_value_ext, len_app by len_lia.
  replace (len v <=? len v + len rest) with true by len_lia.
  rewrite take_app_exact, drop_app_exact. reflexivity.
Qed.

Lemma rd_value_inv nib bs v rest :
  0 <= nib < 16 -> wfb bs -> rd_value nib bs = Some (v, rest) ->
  nib = ext_nib (len v) /\ bs = ext_bytes (len v) ++ v ++ rest /\ len v <= 65804 /\
  wfb v /\ wfb rest.
Proof.
  intros Hn Hb. unfold rd_value.
  destruct (rd_len nib bs) as [[l r]|] eqn:EL; [|discriminate].
  destruct (l <=? len r) eqn:E; intros [= <- <-].
  destruct (rd_len_inv _ _ _ _ Hn Hb EL) as (N & -> & Hl).
  apply wfb_app in Hb as [_ Hr]. rewrite len_take, take_drop by lia.
  destruct Hl. repeat split; auto using wfb_take, wfb_drop.
Qed.

Lemma opt_parse_cons b0 r0 :
  opt_parse (b0 :: r0) =
  match rd_delta (b0 / 16) r0 with
  | Some (d, r1) =>
      match rd_value (b0 mod 16) r1 with Some (v, rest) => Some (d, v, rest) | None => None end
  | None => None
  end.
Proof.
  unfold opt_parse, rd_value. destruct (rd_delta _ r0) as [[d r1]|]; [|reflexivity].
  destruct (rd_len _ r1) as [[l r2]|]; [|reflexivity]. destruct (l <=? len r2); reflexivity.
Qed.

Lemma opt_hdr_nibbles d l bs :
  0 <= d -> 0 <= l ->
  exists b0, opt_hdr d l ++ bs = b0 :: ext_bytes d ++ ext_bytes l ++ bs /\
             b0 / 16 = ext_nib d /\ b0 mod 16 = ext_nib l /\ is_byte b0.
Proof.
  intros Hd Hl. pose proof (ext_nib_range d Hd). pose proof (ext_nib_range l Hl).
  exists (16 * ext_nib d + ext_nib l). unfold opt_hdr, is_byte. cbn [app]. rewrite <- app_assoc.
  repeat split; lia.
Qed.

Lemma opt_parse_hdr d l bs :
  0 <= d <= 65535 -> 0 <= l <= 65804 ->
  opt_parse (opt_hdr d l ++ bs) =
  if l <=? len bs then Some (d, take l bs, drop l bs) else None.
Proof.
  intros Hd Hl. destruct (opt_hdr_nibbles d l bs) as (b0 & -> & Nd & Nl & _); [lia..|].
  rewrite opt_parse_cons, Nd, Nl, rd_delta_ext, rd_value_ext by lia.
  destruct (l <=? len bs); reflexivity.
Qed.

Theorem opt_parse_enc d v rest :
  0 <= d <= 65535 -> len v <= 65804 ->
  opt_parse (opt_enc d v ++ rest) = Some (d, v, rest).
Proof.
  intros Hd Hv. unfold opt_enc. rewrite <- app_assoc, opt_parse_hdr, len_app by len_lia.
  replace (len v <=? len v + len rest) with true by len_lia.
  rewrite take_app_exact, drop_app_exact. reflexivity.
Qed.

Theorem opt_enc_len d v : len (opt_enc d v) = opt_encode_size d (len v).
Proof.
  unfold opt_enc, opt_hdr, opt_encode_size.
  rewrite len_app, len_cons, len_app, !ext_bytes_len. lia.
Qed.

Lemma opt_hdr_wfb d l : 0 <= d <= 65535 -> 0 <= l <= 65804 -> wfb (opt_hdr d l).
Proof.
  intros Hd Hl. destruct (opt_hdr_nibbles d l []) as (b0 & E & _ & _ & Hb0); [lia..|].
  rewrite !app_nil_r in E. rewrite E. apply wfb_cons. split; [assumption|].
  apply wfb_app. split; apply ext_bytes_wfb.
Qed.

Lemma opt_enc_first d v rest :
  0 <= d -> exists b tl, opt_enc d v ++ rest = b :: tl /\ b <> PAYLOAD_START.
Proof.
  intros Hd. unfold opt_enc. rewrite <- app_assoc.
  destruct (opt_hdr_nibbles d (len v) (v ++ rest) Hd (len_nonneg v)) as (b0 & -> & _ & Hl & Hb0).
  pose proof (ext_nib_range (len v) (len_nonneg v)).
  exists b0. eexists. split; [reflexivity|]. unfold PAYLOAD_START. lia.
Qed.

Theorem opt_parse_inv bs d v rest :
  wfb bs -> opt_parse bs = Some (d, v, rest) ->
  bs = opt_enc d v ++ rest /\ 0 <= d <= 65535 /\ len v <= 65804 /\ wfb v /\ wfb rest.
Proof.
  intros Hb. destruct bs as [|b0 r0]; [discriminate|]. rewrite opt_parse_cons.
  apply wfb_cons in Hb. destruct Hb as [Hb0 Hr0]. unfold is_byte in Hb0.
  destruct (rd_delta (b0 / 16) r0) as [[d' r1]|] eqn:ED; [|discriminate].
  destruct (rd_value (b0 mod 16) r1) as [[v' rest']|] eqn:EV; intros [= <- <- <-].
  apply rd_delta_inv in ED; [|lia|assumption]. destruct ED as (Nd & -> & Hd).
  apply wfb_app in Hr0. apply rd_value_inv in EV; [|lia|tauto].
  destruct EV as (Nl & -> & Hl & Hv & Hrest).
  split; [|auto with zarith].
  unfold opt_enc, opt_hdr. cbn [app]. rewrite <- !app_assoc. f_equal. lia.
Qed.
