(* The stream framing function cuts exactly at message boundaries: for every well-formed message,
   coap_pdu_parse_size applied to its TCP encoding is the number of bytes that follow the
   header. *)
From LibcoapV Require Import Base.Tactics Base.Bytes Base.BytesProofs Wire.OptCodec
  Wire.OptCodecProofs Wire.Pdu Wire.PduProofs Wire.Frame.
Local Open Scope Z_scope.

Lemma fr_tok_area t rest :
  len t <= 65804 -> fr_tok_area_size (tkl_nib t) (token_area t ++ rest) = len (token_area t).
Proof.
  intros Ht. pose proof (len_nonneg t) as H0. rewrite token_area_ext.
  change (tkl_nib t) with (ext_nib (len t)). unfold fr_tok_area_size.
  destruct (ext_formP (len t)); cbn [app]; rewrite ?len_cons.
  - replace (len t <? 13) with true by lia. reflexivity.
  - cbn [Z.ltb Z.eqb Z.compare Pos.compare Pos.compare_cont Pos.eqb]. lia.
  - cbn [Z.ltb Z.eqb Z.compare Pos.compare Pos.compare_cont Pos.eqb]. lia.
Qed.

Lemma fr_len_field_form {l n ext} tk bs :
  tcp_len_form l n ext -> 0 <= tk < 16 -> 0 <= l <= 65805 + 4294967295 ->
  fr_len_field ((16 * n + tk) :: ext ++ bs) = Some (l, bs).
Proof.
  intros F Ht Hl. unfold fr_len_field. replace ((16 * n + tk) / 16) with n by lia.
  destruct F; cbn [Z.ltb Z.eqb Z.compare Pos.compare Pos.compare_cont Pos.eqb app be16 be32].
  - replace (l <? 13) with true by lia. reflexivity.
  - do 2 f_equal. lia.
  - do 2 f_equal. lia.
  - do 2 f_equal. lia.
Qed.

Theorem fr_parse_size_serialize m :
  msg_wf m -> len (content_area m) <= 65805 + 4294967295 ->
  fr_parse_size TCP (serialize TCP m) = len (token_area (m_token m)) + len (content_area m).
Proof.
  intros W Hmax. destruct W as [_ _ _ [Htl _] _ _ _ _].
  pose proof (tkl_nib_range (m_token m)) as Ht.
  pose proof (len_nonneg (content_area m)) as Hl.
  destruct (header_tcp m) as (n & ext & F & E).
  unfold fr_parse_size, serialize. rewrite E. cbn [app]. rewrite <- app_assoc.
  rewrite (fr_len_field_form _ _ F) by lia. cbn [app].
  replace ((16 * n + tkl_nib (m_token m)) mod 16) with (tkl_nib (m_token m)) by lia.
  rewrite fr_tok_area by assumption. lia.
Qed.

Lemma fr_parse_size_ws bs : fr_parse_size WS bs = 0.
Proof. reflexivity. Qed.
