From LibcoapV Require Import Base.Tactics Wire.BlockCount.
Local Open Scope Z_scope.

(* the quotient fits the uint32_t it is stored in *)
Lemma bc_div_small x chunk :
  0 <= x < U32 * chunk -> 0 < chunk -> (x / chunk) mod U32 = x / chunk.
Proof.
  intros Hx Hc. apply Z.mod_small.
  split; [apply Z.div_pos | apply Z.div_lt_upper_bound]; lia.
Qed.

(* the count is the ceiling of total / chunk: count blocks cover the body and count - 1 do
   not *)
Lemma bc_count_ceiling total chunk :
  0 <= total < U32 -> 0 < chunk ->
  let n := bc_count total chunk in
  total <= n * chunk /\ (0 < total -> (n - 1) * chunk < total) /\ (total = 0 -> n = 0).
Proof.
  intros Ht Hc. unfold bc_count. cbv zeta. rewrite bc_div_small by (unfold U32 in *; lia).
  pose proof (Z.div_mod (total + chunk - 1) chunk ltac:(lia)) as E.
  pose proof (Z.mod_pos_bound (total + chunk - 1) chunk ltac:(lia)) as B.
  set (q := (total + chunk - 1) / chunk) in *. set (m := (total + chunk - 1) mod chunk) in *.
  clearbody q m. repeat split; intros; nia.
Qed.

(* the count of the pinned tree is wrong exactly at the top of the range: a declared size within
   chunk - 1 bytes of 2^32 gives a count near 0, so one received block "completes" the body *)
Theorem bc_count_as_found_refuted :
  bc_count_as_found 4294967295 64 = 0 /\ bc_count 4294967295 64 = 67108864 /\
  bc_count_as_found 4294967233 64 = 0 /\ bc_count_as_found 4294967232 64 = 67108863.
Proof. vm_compute. repeat split; reflexivity. Qed.

Theorem bc_count_as_found_agrees_below total chunk :
  0 <= total -> 16 <= chunk <= 1024 -> total + chunk - 1 < U32 ->
  bc_count_as_found total chunk = bc_count total chunk.
Proof.
  intros Ht Hc Hs. unfold bc_count, bc_count_as_found.
  rewrite (Z.mod_small (total + chunk - 1)), bc_div_small by (unfold U32 in *; lia). reflexivity.
Qed.
