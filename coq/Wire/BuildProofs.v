(* C01, builder part: what the PDU-building API (model Wire/Build.v, tied to coap_pdu_init /
   coap_add_token / coap_add_option / coap_add_data on every run) does to the abstract message,
   for every operation list:
     - where an accepted option lands (after the last option whose number is <= n: ascending
       order, insertion order kept among equal numbers);
     - a refused operation disturbs nothing that is already present (at most the implicit
       Hop-Limit of coap_add_option for Proxy-Uri / Proxy-Scheme has been added);
     - every message the builder can produce is well-formed in token, options and payload
       ([body_wf]); where its option values also respect the per-option limits and a 0.00
       message stays empty, it serialises, on every framing, to bytes that parse back to
       exactly that message (Wire/PduProofs.v);
     - what is built stays within the maximum size, whatever it is (0 means none). *)
From LibcoapV Require Import Base.Tactics Base.Bytes Base.BytesProofs Wire.OptCodec
  Wire.OptCodecProofs Wire.Pdu Wire.PduProofs Wire.Build.
Local Open Scope Z_scope.

Lemma insert_opt_split n v l :
  exists a b, l = a ++ b /\ insert_opt n v l = a ++ (n, v) :: b /\
              Forall (fun o => fst o <= n) a /\
              match b with [] => True | o :: _ => n < fst o end.
Proof.
  induction l as [|[k w] tl IH]; cbn [insert_opt].
  - exists [], []. repeat split; constructor.
  - destruct (k <=? n) eqn:E.
    + destruct IH as (a & b & Hl & Hi & Ha & Hb).
      exists ((k, w) :: a), b. cbn [app]. rewrite Hl at 1. rewrite Hi.
      repeat split; try assumption. constructor; [cbn; lia | assumption].
    + exists [], ((k, w) :: tl). cbn [app fst]. repeat split; try constructor. lia.
Qed.

Lemma ascending_weaken l : forall p q, q <= p -> ascending p l -> ascending q l.
Proof. destruct l as [|o tl]; cbn [ascending]; intros; [exact I | intuition lia]. Qed.

Lemma insert_opt_ascending n v l : forall prev,
  prev <= n -> ascending prev l -> ascending prev (insert_opt n v l).
Proof.
  induction l as [|[k w] tl IH]; intros prev Hp Ha; cbn [insert_opt].
  - cbn [ascending fst]. auto.
  - cbn [ascending fst] in Ha. destruct Ha as [Hk Ht].
    destruct (k <=? n) eqn:E.
    + cbn [ascending fst]. split; [assumption|]. apply IH; [lia | assumption].
    + cbn [ascending fst]. split; [lia | split; [lia | assumption]].
Qed.

Lemma insert_opt_forall (P : opt -> Prop) n v l :
  P (n, v) -> Forall P l -> Forall P (insert_opt n v l).
Proof.
  intros Ho Hl. destruct (insert_opt_split n v l) as (a & b & E1 & E2 & _).
  rewrite E2. rewrite E1 in Hl. apply Forall_app in Hl. destruct Hl as [Ha Hb].
  apply Forall_app. split; [assumption | constructor; assumption].
Qed.

(* the options that were there before are still there, same values, same relative order *)
Inductive subseq {A} : list A -> list A -> Prop :=
| sub_nil : forall l, subseq [] l
| sub_keep : forall x a b, subseq a b -> subseq (x :: a) (x :: b)
| sub_skip : forall x a b, subseq a b -> subseq a (x :: b).

Lemma subseq_refl {A} (l : list A) : subseq l l.
Proof. induction l; constructor; assumption. Qed.

Lemma subseq_trans {A} (b c : list A) : subseq b c -> forall a, subseq a b -> subseq a c.
Proof.
  induction 1; intros a' Hab; [inversion Hab; constructor | inversion Hab; subst |];
    auto using @subseq.
Qed.

Lemma insert_opt_subseq n v l : subseq l (insert_opt n v l).
Proof.
  induction l as [|[k w] tl IH]; cbn [insert_opt].
  - constructor.
  - destruct (k <=? n); [apply sub_keep; assumption | apply sub_skip; apply subseq_refl].
Qed.

Lemma insert_opt_length n v l : length (insert_opt n v l) = S (length l).
Proof.
  induction l as [|[k w] tl IH]; cbn [insert_opt]; [reflexivity|].
  destruct (k <=? n); cbn [length]; [rewrite IH|]; reflexivity.
Qed.

Definition op_ok (o : bop) : Prop :=
  match o with
  | OpToken t => wfb t
  | OpOpt n v => opt_wf (n, v)
  | OpData d => wfb d
  end.

(* everything of msg_wf except the header fields, the per-option limits and the Empty rule *)
Record body_wf (m : msg) : Prop := {
  bw_token : len (m_token m) <= 65804 /\ wfb (m_token m);
  bw_opts : Forall opt_wf (m_opts m) /\ ascending 0 (m_opts m);
  bw_payload : wfb (m_payload m) }.

Definition same_header (m m' : msg) : Prop :=
  m_type m' = m_type m /\ m_code m' = m_code m /\ m_mid m' = m_mid m.

Definition with_opt (p : pdu) (n : Z) (v : bytes) : pdu :=
  set_opts p (insert_opt n v (m_opts (p_msg p))).

Lemma add_opt_raw_spec p n v :
  let '(r, p') := add_opt_raw p n v in p' = if r then with_opt p n v else p.
Proof.
  unfold add_opt_raw.
  destruct ((n =? last_num (m_opts (p_msg p))) && negb (repeatable n)); [reflexivity|].
  destruct (fits p _); reflexivity.
Qed.

(* for an option, [q] is the PDU after the implicit Hop-Limit step, taken or not *)
Theorem apply_op_spec p o :
  let '(r, p') := apply_op p o in
  match o with
  | OpToken t =>
      if r then p' = mkPdu (mkMsg (m_type (p_msg p)) (m_code (p_msg p)) (m_mid (p_msg p)) t
                                  (m_opts (p_msg p)) (m_payload (p_msg p))) (p_max p) /\
                len t <= 65804
      else p' = p
  | OpOpt n v =>
      exists q, (q = p \/ q = with_opt p 16 [16]) /\ p' = if r then with_opt q n v else q
  | OpData d =>
      if r then (d = [] /\ p' = p) \/
                (m_payload (p_msg p) = [] /\
                 p' = mkPdu (mkMsg (m_type (p_msg p)) (m_code (p_msg p)) (m_mid (p_msg p))
                                   (m_token (p_msg p)) (m_opts (p_msg p)) d) (p_max p))
      else p' = p
  end.
Proof.
  destruct o as [t | n v | d]; unfold apply_op.
  - destruct (negb (used (p_msg p) =? 0)); [reflexivity|].
    destruct (65804 <? len t) eqn:E; [reflexivity|].
    destruct (fits p _); [split; [reflexivity | lia] | reflexivity].
  - destruct (m_payload (p_msg p)); [|exists p; auto].
    destruct ((n =? last_num (m_opts (p_msg p))) && negb (repeatable n)); [exists p; auto|].
    set (q := if _ && negb (has_opt 16 _) then _ else p).
    pose proof (add_opt_raw_spec q n v) as H. destruct (add_opt_raw q n v) as [r p'].
    exists q. split; [|exact H]. subst q.
    destruct (_ && negb (has_opt 16 _)); [|auto].
    pose proof (add_opt_raw_spec p 16 [16]) as H1. destruct (add_opt_raw p 16 [16]) as [[] p1];
      cbn [snd]; auto.
  - destruct d as [|x xs]; [auto|].
    destruct (m_payload (p_msg p)) eqn:Epl; [|reflexivity].
    destruct (fits p _); [right; auto | reflexivity].
Qed.

(* the one thing a refused coap_add_option may have added is the implicit Hop-Limit *)
Theorem refused_is_noop p o :
  fst (apply_op p o) = false ->
  let m := p_msg p in let m' := p_msg (snd (apply_op p o)) in
  same_header m m' /\ m_token m' = m_token m /\ m_payload m' = m_payload m /\
  subseq (m_opts m) (m_opts m') /\
  (m_opts m' = m_opts m \/ m_opts m' = insert_opt 16 [16] (m_opts m)).
Proof.
  pose proof (apply_op_spec p o) as H. destruct (apply_op p o) as [r p']. cbn [fst snd].
  intros ->. unfold same_header.
  assert (Hcase : p' = p \/ p' = with_opt p 16 [16]).
  { destruct o; [auto | destruct H as (q & Hq & ->); exact Hq | auto]. }
  destruct Hcase as [-> | ->]; cbn; auto 10 using subseq_refl, insert_opt_subseq.
Qed.

Theorem accepted_changes_only_named p o :
  fst (apply_op p o) = true ->
  let m := p_msg p in let m' := p_msg (snd (apply_op p o)) in
  same_header m m' /\
  match o with
  | OpToken t => m_token m' = t /\ m_opts m' = m_opts m /\ m_payload m' = m_payload m
  | OpOpt n v => m_token m' = m_token m /\ m_payload m' = m_payload m /\
                 subseq (m_opts m) (m_opts m') /\
                 (m_opts m' = insert_opt n v (m_opts m) \/
                  m_opts m' = insert_opt n v (insert_opt 16 [16] (m_opts m)))
  | OpData d => m_token m' = m_token m /\ m_opts m' = m_opts m /\
                (m_payload m' = d \/ (d = [] /\ m_payload m' = m_payload m))
  end.
Proof.
  pose proof (apply_op_spec p o) as H. destruct (apply_op p o) as [r p']. cbn [fst snd].
  intros ->. unfold same_header. destruct o as [t | n v | d].
  - destruct H as [-> _]. cbn. auto.
  - destruct H as (q & [-> | ->] & ->); cbn;
      eauto 10 using insert_opt_subseq, subseq_trans.
  - destruct H as [(-> & ->) | (_ & ->)]; cbn; auto 10.
Qed.

Lemma hop_wf : opt_wf (16, [16]).
Proof. split; [cbn; lia|]. split; [cbn; lia | apply wfbb_spec; reflexivity]. Qed.

Lemma with_opt_body_wf p n v :
  opt_wf (n, v) -> body_wf (p_msg p) -> body_wf (p_msg (with_opt p n v)).
Proof.
  intros Ho [Htok [Hof Hasc] Hpl]. pose proof Ho as ((Hn & _) & _). cbn [fst] in Hn.
  constructor; cbn; try assumption.
  split; [apply insert_opt_forall | apply insert_opt_ascending]; assumption.
Qed.

Theorem apply_op_body_wf p o :
  op_ok o -> body_wf (p_msg p) -> body_wf (p_msg (snd (apply_op p o))).
Proof.
  intros Hok Hw. pose proof (apply_op_spec p o) as H. destruct (apply_op p o) as [r p']. cbn [snd].
  destruct o as [t | n v | d]; cbn [op_ok] in Hok.
  - destruct r; [|subst p'; assumption]. destruct H as [-> Hl], Hw as [_ Ho Hp].
    constructor; cbn; auto.
  - destruct H as (q & Hq & ->).
    assert (Hwq : body_wf (p_msg q))
      by (destruct Hq as [-> | ->]; [|apply with_opt_body_wf, Hw; exact hop_wf]; assumption).
    destruct r; [apply with_opt_body_wf|]; assumption.
  - destruct r; [|subst p'; assumption].
    destruct H as [(_ & ->) | (_ & ->)]; [assumption|]. destruct Hw as [Ht Ho _].
    constructor; cbn; auto.
Qed.

Theorem apply_op_header p o : same_header (p_msg p) (p_msg (snd (apply_op p o))).
Proof.
  destruct (fst (apply_op p o)) eqn:E.
  - apply (accepted_changes_only_named p o E).
  - apply (refused_is_noop p o E).
Qed.

Lemma apply_op_max p o : p_max (snd (apply_op p o)) = p_max p.
Proof.
  pose proof (apply_op_spec p o) as H. destruct (apply_op p o) as [r p']. cbn [snd].
  destruct o; [destruct r; [destruct H as [-> _]|subst p']; reflexivity | |
               destruct r; [destruct H as [(_ & ->) | (_ & ->)]|subst p']; reflexivity].
  destruct H as (q & [-> | ->] & ->); destruct r; reflexivity.
Qed.

Lemma run_ops_cons p o tl :
  run_ops p (o :: tl) =
  (fst (apply_op p o) :: fst (run_ops (snd (apply_op p o)) tl),
   snd (run_ops (snd (apply_op p o)) tl)).
Proof.
  cbn [run_ops]. destruct (apply_op p o) as [r p1]. cbn [fst snd].
  destruct (run_ops p1 tl) as [rs p2]. reflexivity.
Qed.

Lemma run_ops_inv (Q : bop -> Prop) (I : pdu -> Prop) :
  (forall p o, Q o -> I p -> I (snd (apply_op p o))) ->
  forall ops p, Forall Q ops -> I p -> I (snd (run_ops p ops)).
Proof.
  intros Step. induction ops as [|o tl IH]; intros p Hq Hi; [exact Hi|].
  rewrite run_ops_cons. cbn [snd]. inversion Hq; subst. apply IH; auto.
Qed.

Theorem run_ops_body_wf ops p :
  Forall op_ok ops -> body_wf (p_msg p) ->
  body_wf (p_msg (snd (run_ops p ops))) /\ same_header (p_msg p) (p_msg (snd (run_ops p ops))).
Proof.
  intros Hok Hw.
  apply (run_ops_inv op_ok (fun q => body_wf (p_msg q) /\ same_header (p_msg p) (p_msg q)));
    [|assumption|unfold same_header; auto].
  intros q o Ho [Hb Hh]. split; [apply apply_op_body_wf; assumption|].
  pose proof (apply_op_header q o). unfold same_header in *. intuition congruence.
Qed.

Lemma init_body_wf ty code mid max : body_wf (p_msg (pdu_init ty code mid max)).
Proof.
  unfold pdu_init. cbn [p_msg]. constructor; cbn [m_token m_opts m_payload len length Z.of_nat];
    repeat split; try constructor; lia.
Qed.

Theorem run_ops_keeps_options ops : forall p,
  subseq (m_opts (p_msg p)) (m_opts (p_msg (snd (run_ops p ops)))).
Proof.
  intros p.
  apply (run_ops_inv (fun _ => True) (fun q => subseq (m_opts (p_msg p)) (m_opts (p_msg q))));
    [|apply Forall_forall; auto|apply subseq_refl].
  intros q o _ Hq. eapply subseq_trans; [|exact Hq].
  destruct (fst (apply_op q o)) eqn:E; [|apply (refused_is_noop q o E)].
  pose proof (accepted_changes_only_named q o E) as (_ & H).
  destruct o; [destruct H as (_ & -> & _) | destruct H as (_ & _ & H & _)
               | destruct H as (_ & -> & _)]; auto using subseq_refl.
Qed.

(* The wire round trip for everything the API can build: any header fields, any operation list
   with well-formed arguments (tokens of any accepted length, option numbers 0..65535 in any
   order, values up to 65804 bytes, any payload), any maximum size; provided the option values
   respect the per-option length limits and a code-0.00 message stays empty (the two conditions
   under which the decoder accepts at all, see C03). *)
Theorem built_message_roundtrips pr ty code mid max ops :
  0 <= ty <= 3 -> 0 <= code <= 255 -> 0 <= mid <= 65535 ->
  Forall op_ok ops ->
  let m := p_msg (snd (run_ops (pdu_init ty code mid max) ops)) in
  limits_ok code (m_opts m) = true ->
  (code = 0 -> m_token m = [] /\ m_opts m = [] /\ m_payload m = []) ->
  parse pr (serialize pr m) = Some (norm_fields pr m).
Proof.
  intros Hty Hco Hmid Hok m Hlim Hemp.
  destruct (run_ops_body_wf ops (pdu_init ty code mid max) Hok (init_body_wf ty code mid max))
    as [[Ht Ho Hp] (E1 & E2 & E3)].
  fold m in Ht, Ho, Hp, E1, E2, E3. cbn [pdu_init p_msg m_type m_code m_mid] in E1, E2, E3.
  apply parse_serialize. constructor; try assumption; try (rewrite ?E1, ?E2, ?E3; assumption).
Qed.

(* non-vacuity: an out-of-order build with an extended token, a Proxy-Scheme option that pulls
   in the implicit Hop-Limit, a refused repeat and a payload, on all three framings *)
Definition demo_ops : list bop :=
  [OpToken (List.repeat 7 13); OpOpt 11 [97]; OpOpt 39 [99]; OpOpt 11 [98]; OpOpt 60 [0];
   OpOpt 60 [1]; OpOpt 60000 [1]; OpOpt 12 [0]; OpData [1; 2; 3]].
Example demo_build :
  let (rs, p) := run_ops (pdu_init 0 1 4660 0) demo_ops in
  rs = [true; true; true; true; true; false; true; true; true] /\
  m_opts (p_msg p) =
    [(11, [97]); (11, [98]); (12, [0]); (16, [16]); (39, [99]); (60, [0]); (60000, [1])] /\
  parse UDP (serialize UDP (p_msg p)) = Some (p_msg p) /\
  parse TCP (serialize TCP (p_msg p)) = Some (norm_fields TCP (p_msg p)) /\
  parse WS (serialize WS (p_msg p)) = Some (norm_fields WS (p_msg p)).
Proof. vm_compute. repeat split; reflexivity. Qed.

Lemma ext_size_mono a b : a <= b -> ext_size a <= ext_size b.
Proof. unfold ext_size. intros. repeat case_if; lia. Qed.

Lemma opt_enc_len_mono a b w : a <= b -> len (opt_enc a w) <= len (opt_enc b w).
Proof.
  intros H. rewrite !opt_enc_len. unfold opt_encode_size.
  pose proof (ext_size_mono a b H). lia.
Qed.

(* inserting costs at most the size computed against the preceding option's number: the
   following option's delta can only shrink *)
Lemma enc_insert_len n v l : forall prev,
  prev <= n -> ascending prev l ->
  len (opts_enc prev (insert_opt n v l)) <=
  len (opts_enc prev l) + opt_encode_size (n - prev_num n prev l) (len v).
Proof.
  induction l as [|[k w] tl IH]; intros prev Hp Ha.
  - cbn [insert_opt opts_enc prev_num]. rewrite app_nil_r, opt_enc_len. cbn [len length Z.of_nat].
    lia.
  - cbn [ascending fst] in Ha. destruct Ha as [Hk Ht]. cbn [insert_opt prev_num].
    destruct (k <=? n) eqn:E.
    + cbn [opts_enc]. rewrite !len_app. specialize (IH k ltac:(lia) Ht). lia.
    + cbn [opts_enc]. rewrite !len_app, opt_enc_len.
      pose proof (opt_enc_len_mono (k - n) (k - prev) w ltac:(lia)). lia.
Qed.

(* at or behind the last option, the option in front of the new one is the last *)
Lemma prev_num_last n l : forall prev,
  ascending prev l -> last_from prev l <= n -> prev_num n prev l = last_from prev l.
Proof.
  induction l as [|[k w] tl IH]; intros prev; [reflexivity|].
  intros [Hk Ht]. rewrite last_from_cons. cbn [prev_num fst] in *. intros Hn.
  pose proof (ascending_last_from _ _ Ht). replace (k <=? n) with true by lia. auto.
Qed.

Definition within_max (p : pdu) : Prop := p_max p <> 0 -> used (p_msg p) <= p_max p.

Lemma add_opt_raw_within p n v :
  0 <= n -> ascending 0 (m_opts (p_msg p)) -> within_max p ->
  ascending 0 (m_opts (p_msg (snd (add_opt_raw p n v)))) /\ within_max (snd (add_opt_raw p n v)).
Proof.
  intros Hn Ha Hw. split.
  { pose proof (add_opt_raw_spec p n v) as H. destruct (add_opt_raw p n v) as [[] p']; subst p';
      [apply insert_opt_ascending|]; assumption. }
  unfold add_opt_raw.
  destruct ((n =? last_num (m_opts (p_msg p))) && negb (repeatable n)); [exact Hw|].
  set (prev := if n <? last_num (m_opts (p_msg p)) then prev_num n 0 (m_opts (p_msg p))
               else last_num (m_opts (p_msg p))).
  destruct (fits p _) eqn:Ef; [|exact Hw].
  cbn [snd]. unfold within_max, set_opts. cbn [p_max p_msg]. intros Hmax.
  unfold fits in Ef. assert (Hsz : used (p_msg p) + opt_encode_size (n - prev) (len v) <= p_max p)
    by lia.
  assert (Hprev : prev = prev_num n 0 (m_opts (p_msg p))).
  { unfold prev. destruct (n <? last_num (m_opts (p_msg p))) eqn:El; [reflexivity|].
    symmetry. apply prev_num_last; [assumption | rewrite <- last_num_from; lia]. }
  pose proof (enc_insert_len n v (m_opts (p_msg p)) 0 Hn Ha) as Hl. rewrite <- Hprev in Hl.
  unfold used, content_area in *. cbn [m_token m_opts m_payload]. rewrite len_app in *. lia.
Qed.

Theorem apply_op_within p o :
  op_ok o -> body_wf (p_msg p) -> within_max p -> within_max (snd (apply_op p o)).
Proof.
  intros Hok [_ [Hof Hasc] _] Hw. destruct o as [t | n v | d]; unfold apply_op.
  - destruct (negb (used (p_msg p) =? 0)) eqn:Eu; [exact Hw|].
    destruct (65804 <? len t); [exact Hw|].
    destruct (fits p _) eqn:Ef; [|exact Hw].
    cbn [snd]. unfold within_max. cbn [p_max p_msg]. intros Hmax. unfold fits in Ef.
    unfold used in *. cbn [m_token]. unfold content_area in *. cbn [m_opts m_payload].
    pose proof (len_nonneg (token_area (m_token (p_msg p)))).
    pose proof (len_nonneg (opts_enc 0 (m_opts (p_msg p)) ++ payload_area (m_payload (p_msg p)))).
    lia.
  - destruct (m_payload (p_msg p)) eqn:Epl; [|exact Hw].
    destruct ((n =? last_num (m_opts (p_msg p))) && negb (repeatable n)); [exact Hw|].
    cbn [op_ok] in Hok. destruct Hok as ((Hn & _) & _). cbn [fst] in Hn.
    set (q := if _ && negb (has_opt 16 _) then _ else p).
    assert (Hq : ascending 0 (m_opts (p_msg q)) /\ within_max q)
      by (subst q; destruct (_ && negb (has_opt 16 _)); [apply add_opt_raw_within; [lia|..]|];
          auto).
    apply add_opt_raw_within; tauto.
  - destruct d as [|x xs]; [exact Hw|].
    destruct (m_payload (p_msg p)) eqn:Epl; [|exact Hw].
    destruct (fits p _) eqn:Ef; [|exact Hw].
    cbn [snd]. unfold within_max. cbn [p_max p_msg]. intros Hmax. unfold fits in Ef.
    unfold used, content_area in *. cbn [m_token m_opts m_payload]. rewrite Epl in Ef.
    cbn [payload_area] in *. rewrite !len_app in *. rewrite len_cons.
    rewrite (@len_nil Z) in Ef. lia.
Qed.

Theorem run_ops_within ops p :
  Forall op_ok ops -> body_wf (p_msg p) -> within_max p -> within_max (snd (run_ops p ops)).
Proof.
  intros Hok Hb Hw.
  apply (run_ops_inv op_ok (fun q => body_wf (p_msg q) /\ within_max q)); auto.
  intros q o Ho [Hq Hm]. split; [apply apply_op_body_wf | apply apply_op_within]; assumption.
Qed.

Lemma run_ops_max ops p : p_max (snd (run_ops p ops)) = p_max p.
Proof.
  apply (run_ops_inv (fun _ => True) (fun q => p_max q = p_max p));
    [|apply Forall_forall; auto|reflexivity].
  intros q o _ <-. apply apply_op_max.
Qed.

Theorem built_message_within_max ty code mid max ops :
  Forall op_ok ops -> 0 < max ->
  used (p_msg (snd (run_ops (pdu_init ty code mid max) ops))) <= max.
Proof.
  intros Hok Hmax.
  assert (Hw : within_max (pdu_init ty code mid max)).
  { unfold within_max, pdu_init, used, content_area. cbn. lia. }
  pose proof (run_ops_within ops _ Hok (init_body_wf ty code mid max) Hw) as H.
  unfold within_max in H. rewrite run_ops_max in H. cbn [pdu_init p_max] in H. apply H. lia.
Qed.
