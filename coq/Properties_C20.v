(* C20 - /.well-known/core lists exactly the registered resources in any window/filter.
   Statements only; models in Link/LinkFormat.v, proofs in Link/*Proofs.v, Link/LinkExamples.v.

   lf_print_link / lf_print_wellknown / lf_get_wellknown are the transcriptions of
   coap_print_link, coap_print_wellknown_lkd (with match(), the query split and the three
   printing macros as explicit state machines over (bytes stored, position, Offset, Result))
   and hnd_get_wellknown_lkd; lf_listing / lf_selected / lf_filter_spec / lf_window are the
   RFC 6690 specification.  LfOob = a read outside an object, LfFuel = loop bound exhausted:
   the theorems say that neither happens - for every table: there is no hypothesis on paths, attribute
   names or values. *)
From LibcoapV Require Import Base.Tactics Base.Bytes Link.LinkFormat Link.LinkProofs
  Link.FilterProofs Link.WellknownProofs Link.LinkExamples Link.LinkParse Link.LinkParseProofs.
Local Open Scope Z_scope.

(* one link, any (offset, buffer length): bytes stored = that window of "</path>;attr..;obs;osc",
   *len = length of the link, TRUNC rule, *offset decreased by what was consumed *)
Theorem C20_link_window : forall r len0 off,
  0 <= off -> 0 <= len0 <= lf_status_max ->
  lf_print_link r len0 off =
  (LfDone (len (lf_window off len0 (lf_link r))) (lf_trunc_spec off len0 (len (lf_link r))),
   lf_window off len0 (lf_link r),
   len (lf_link r),
   if 0 <? len0 then Z.max 0 (off - len (lf_link r)) else off).
Proof. exact lf_print_link_window. Qed.
Print Assumptions C20_link_window.

(* the listing: for every table, filter, offset and buffer length the bytes written are
   take buflen (drop offset listing) of the comma-joined links of the selected resources in
   registration order, the reported total is the length of that listing, the count in the
   status word is the number of bytes written, and the TRUNC bit follows lf_trunc_spec *)
Theorem C20_wellknown_window : forall rs filter off buflen,
  0 <= off -> 0 <= buflen <= lf_status_max ->
  lf_print_wellknown rs filter off buflen =
  LfVal {| lf_rstatus := LfDone (len (lf_window off buflen (lf_listing (lf_selected filter rs))))
                                (lf_trunc_spec off buflen (len (lf_listing (lf_selected filter rs))));
           lf_rbytes := lf_window off buflen (lf_listing (lf_selected filter rs));
           lf_rtotal := len (lf_listing (lf_selected filter rs)) |}.
Proof. exact lf_wellknown_window. Qed.
Print Assumptions C20_wellknown_window.

(* the same whatever bytes lie behind a path or an attribute value in its memory object
   (term = [0] for the library's copies, [] for exact-size strings handed over with the
   RELEASE flags): the code reads only inside [s, s + length) *)
Theorem C20_wellknown_window_any_storage : forall term rs filter off buflen,
  0 <= off -> 0 <= buflen <= lf_status_max ->
  lf_print_wellknown_g true term rs filter off buflen =
  LfVal {| lf_rstatus := LfDone (len (lf_window off buflen (lf_listing (lf_selected filter rs))))
                                (lf_trunc_spec off buflen (len (lf_listing (lf_selected filter rs))));
           lf_rbytes := lf_window off buflen (lf_listing (lf_selected filter rs));
           lf_rtotal := len (lf_listing (lf_selected filter rs)) |}.
Proof. exact lf_wellknown_window_term. Qed.
Print Assumptions C20_wellknown_window_any_storage.

(* for a non-empty buffer the truncation flag is set exactly when listing remains beyond the
   window; the number of bytes written in closed form *)
Theorem C20_trunc_rule : forall off buflen (l : bytes),
  0 <= off -> 0 < buflen ->
  lf_trunc_spec off buflen (len l) = (off + buflen <? len l) /\
  len (lf_window off buflen l) = Z.min buflen (Z.max 0 (len l - off)).
Proof. exact lf_trunc_rule. Qed.
Print Assumptions C20_trunc_rule.

(* the size probe of the GET handler: an empty buffer reports the exact total *)
Theorem C20_probe : forall rs filter off,
  0 <= off ->
  lf_print_wellknown rs filter off 0 =
  LfVal {| lf_rstatus := LfDone 0 (0 <? len (lf_listing (lf_selected filter rs)));
           lf_rbytes := [];
           lf_rtotal := len (lf_listing (lf_selected filter rs)) |}.
Proof. exact lf_wellknown_probe. Qed.
Print Assumptions C20_probe.

(* match() with in-bounds operands decides the RFC 6690 s.4.1 relation: equality, prefix when
   the pattern ended in '*', and for rt/if/rel the same on some space-separated token; no read
   outside the operands, loop bound never reached *)
Theorem C20_match_relation : forall text p prefix substring,
  lf_inb text -> lf_inb p ->
  lf_match true text (Some p) prefix substring =
  LfVal (if substring then existsb (lf_str_match prefix (lf_view p)) (lf_tokens (lf_view text))
         else lf_str_match prefix (lf_view p) (lf_view text)).
Proof. exact lf_match_ok. Qed.
Print Assumptions C20_match_relation.

(* the query split stays inside the query string, and the per-resource decision of
   coap_print_wellknown_lkd is lf_filter_spec: href / rt / if / rel / other attributes, exact,
   prefix '*', token-wise, quoted and unquoted and empty values *)
Theorem C20_filter_spec : forall term q r,
  exists f, lf_split_filter true q = LfVal f /\ lf_select true term f r = LfVal (lf_filter_spec q r).
Proof. exact lf_filter_spec_ok. Qed.
Print Assumptions C20_filter_spec.

(* what the relation means *)
Theorem C20_str_match_spec : forall prefix pat s,
  lf_str_match prefix pat s = true <-> (if prefix then exists t, s = pat ++ t else s = pat).
Proof. exact lf_str_match_spec. Qed.
Print Assumptions C20_str_match_spec.

Theorem C20_tokens_equations :
  lf_tokens [] = [] /\
  (forall a, ~ In 32 a -> a <> [] -> lf_tokens a = [a]) /\
  (forall a b, ~ In 32 a -> lf_tokens (a ++ 32 :: b) = a :: lf_tokens b).
Proof. exact lf_tokens_equations. Qed.
Print Assumptions C20_tokens_equations.

(* the GET handler (probe, full print into a buffer of the probed size) hands exactly the
   listing to the response *)
Theorem C20_get_equals_listing : forall rs query,
  len (lf_listing (lf_selected query rs)) <= lf_status_max ->
  lf_get_wellknown rs query = Lf205 (lf_listing (lf_selected query rs)).
Proof. exact lf_get_equals_listing. Qed.
Print Assumptions C20_get_equals_listing.

(* a block-wise GET with any Block2 size (blocks 0,1,2,.. until More is clear) reassembles to
   the body *)
Theorem C20_blockwise_reassembly : forall body szx,
  0 <= szx -> lf_reassemble (S (length body)) body szx 0 = Some body.
Proof. exact lf_reassemble_body. Qed.
Print Assumptions C20_blockwise_reassembly.

(* registration: coap_add_resource replaces a resource with the same path and appends;
   paths stay unique *)
Theorem C20_register : forall tbl r,
  (forall x, In x (lf_register tbl r) <-> x = r \/ (In x tbl /\ lf_path x <> lf_path r)) /\
  (NoDup (map lf_path tbl) -> NoDup (map lf_path (lf_register tbl r))) /\
  ((forall x, In x tbl -> lf_path x <> lf_path r) -> lf_register tbl r = tbl ++ [r]).
Proof. exact lf_register_props. Qed.
Print Assumptions C20_register.

(* a non-trivial table (three resources, quoted rt with two tokens, observable, OSCORE-only,
   attribute without value): filters select what they should (a 16-byte window at offset 40 of
   its 113-byte listing, delivered with TRUNC: LinkExamples.lf_ex_window) *)
Theorem C20_nonvacuous :
  lf_table_ok lf_ex_table = true /\
  lf_selected (Some [114;116;61;115;101;110;115;111;114]) lf_ex_table = [lf_ex_temp] /\
  lf_selected (Some [114;116;61;115;101;110;115]) lf_ex_table = [] /\
  lf_selected (Some [114;116;61;115;101;110;115;42]) lf_ex_table = [lf_ex_temp] /\
  lf_selected (Some [104;114;101;102;61;47;115;101;110;115;111;114;115;47;42]) lf_ex_table
    = [lf_ex_temp; lf_ex_light] /\
  lf_selected (Some [99;116;61;52;48]) lf_ex_table = [lf_ex_light] /\
  lf_selected None lf_ex_table = lf_ex_table.
Proof. exact lf_ex_filter_token. Qed.
Print Assumptions C20_nonvacuous.

(* libcoap before the repairs (guard = false): the prefix comparison in match() ran over the
   end of a token - out of the object, or into the next token (a resource without a matching
   token was listed); the split read the byte behind a filter ending in '='.  The witnesses are
   replayed on the real code from corpus/C20. *)
Theorem C20_match_unguarded_refuted :
  (exists text pat, lf_inb text /\ lf_inb pat /\ lf_match false text (Some pat) true true = LfOob) /\
  (exists rs q, lf_table_ok rs = true /\ lf_selected (Some q) rs = [] /\
     exists r, lf_print_wellknown_g false [0] rs (Some q) 0 64 = LfVal r /\ lf_rtotal r <> 0).
Proof. exact lf_match_unguarded_refuted. Qed.
Print Assumptions C20_match_unguarded_refuted.

(* finding F20e, repaired: a value consisting of one double quote made the old code compute the
   length 1 - 2 in size_t and read far outside the value (segmentation fault on the real code) *)
Theorem C20_lone_quote_refuted :
  exists rs q, lf_table_ok rs = false /\
    lf_print_wellknown_g false [0] rs (Some q) 0 64 = LfOob /\
    lf_print_wellknown rs (Some q) 0 64 =
    LfVal {| lf_rstatus := LfDone 0 false; lf_rbytes := []; lf_rtotal := 0 |}.
Proof. exact lf_lone_quote_refuted. Qed.
Print Assumptions C20_lone_quote_refuted.

Theorem C20_split_unguarded_refuted :
  exists q, lf_split_filter false q = LfOob /\ exists f, lf_split_filter true q = LfVal f.
Proof. exact lf_split_unguarded_refuted. Qed.
Print Assumptions C20_split_unguarded_refuted.

(* the whole GET path: Uri-Query options -> coap_get_query (escaping) -> handler (decoding,
   probe, full print): the body is the listing restricted by the bytes of the request's
   Uri-Query options (joined by '&'; none: the full listing) *)
Theorem C20_handle_get : forall rs opts,
  Forall wfb opts ->
  len (lf_listing (lf_selected (lf_raw_query opts) rs)) <= lf_status_max ->
  lf_handle_get rs opts = Lf205 (lf_listing (lf_selected (lf_raw_query opts) rs)).
Proof. exact lf_handle_get_listing. Qed.
Print Assumptions C20_handle_get.

Theorem C20_raw_query_single : forall q, q <> [] -> lf_raw_query [q] = Some q.
Proof. exact lf_raw_query_single. Qed.
Print Assumptions C20_raw_query_single.

(* the handler's decoding is the inverse of coap_get_query's escaping *)
Theorem C20_unescape_escape : forall opts,
  Forall wfb opts ->
  lf_unescape_query (lf_join_amp (map lf_escape_query opts)) = lf_join_amp opts.
Proof. exact lf_unescape_join. Qed.
Print Assumptions C20_unescape_escape.

(* finding F20c, repaired: the handler used to filter with the escaped text - a filter value
   with a byte that coap_get_query escapes (hash, space, double quote, percent, ...) never
   matched; the witness on the old and on the repaired handler *)
Theorem C20_handle_get_escaped_refuted :
  exists rs q r, lf_table_ok rs = true /\ rs = [r] /\ lf_filter_spec q r = true /\
                 lf_handle_get_escaped rs [q] = Lf205 [] /\
                 lf_handle_get rs [q] = Lf205 (lf_link r).
Proof. exact lf_handle_get_escaped_refuted. Qed.
Print Assumptions C20_handle_get_escaped_refuted.

(* finding F20d, repaired: with block mode 0 (no COAP_BLOCK_USE_LIBCOAP) a listing longer than
   the room in one PDU was delivered cut, as a complete response (lf_handle_get_nolib is the
   old branch; now every request renders the listing and block n is lf_block body szx n, to
   which C20_blockwise_reassembly applies) *)
Theorem C20_handle_get_nolib_refuted :
  exists rs room, lf_table_ok rs = true /\
    lf_handle_get rs [] = Lf205 (lf_listing (lf_selected None rs)) /\
    exists b, lf_handle_get_nolib rs [] room = Lf205 b /\ len b < len (lf_listing (lf_selected None rs)).
Proof. exact lf_handle_get_nolib_refuted. Qed.
Print Assumptions C20_handle_get_nolib_refuted.

(* "lists exactly": reading the listing back with an RFC 6690 link-format reader (lf_parse:
   "<" "/" path ">" *( ";" name [ "=" ( quoted-string | token ) ] ) separated by ",") yields
   exactly the listed resources - path, every attribute with its value in order, and the
   obs / osc markers - whenever their texts are unambiguous link-format (lf_clean_res: no '>'
   in a path, no ';' ',' '=' in a name, values quoted without inner quote or free of ';' ',').
   Hence two such tables with the same listing list the same resources as a reader sees them
   (lf_canon: an observable resource and one whose last printed attribute is a value-less "obs"
   read back alike, and so for "osc"). *)
Theorem C20_listing_determines_table : forall rs,
  forallb lf_clean_res rs = true -> lf_parse (lf_listing rs) = Some (map lf_canon rs).
Proof. exact lf_parse_listing. Qed.
Print Assumptions C20_listing_determines_table.

Theorem C20_listing_injective : forall rs1 rs2,
  forallb lf_clean_res rs1 = true -> forallb lf_clean_res rs2 = true ->
  lf_listing rs1 = lf_listing rs2 -> map lf_canon rs1 = map lf_canon rs2.
Proof. exact lf_listing_injective. Qed.
Print Assumptions C20_listing_injective.

(* the concrete table of C20_nonvacuous is clean *)
Theorem C20_clean_nonvacuous : forallb lf_clean_res lf_ex_table = true.
Proof. exact lf_ex_clean. Qed.
Print Assumptions C20_clean_nonvacuous.

(* GET /.well-known/core reaches the built-in handler (to which C20_handle_get applies) exactly
   when no application resource has that path and no unknown-resource handler asked for it with
   COAP_RESOURCE_HANDLE_WELLKNOWN_CORE - an unknown-resource GET handler without the flag does
   not capture it (the selection is tied on live servers with such handlers) *)
Theorem C20_get_target : forall registered unk_get unk_flag,
  lf_wk_target registered unk_get unk_flag = LfToBuiltin <->
  registered = false /\ (unk_flag = false \/ unk_get = false).
Proof. exact lf_wk_target_builtin. Qed.
Print Assumptions C20_get_target.
