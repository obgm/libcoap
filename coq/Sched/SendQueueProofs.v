(* C06 - correctness of the relative-time bookkeeping of the send queue, for every queue:
   through the abstraction sq_abs (absolute deadlines) insertion is ordered insertion that is
   FIFO among equal deadlines, pop removes the earliest entry, removal takes out exactly the
   first matching node, and in all three the deadlines of the other nodes are unchanged. *)
From LibcoapV Require Import Base.Tactics Sched.SendQueue.
From Coq Require Import Sorting.Sorted Sorting.Permutation.
Local Open Scope Z_scope.

Definition sq_le (a b : Z * sq_node) : Prop := fst a <= fst b.
Definition sq_sorted (l : list (Z * sq_node)) : Prop := StronglySorted sq_le l.

Lemma sq_insert_eq_go : forall q t n, sq_insert q t n = sq_ins_go t n q.
Proof.
  intros [|[t0 n0] rest] t n; [reflexivity|].
  unfold sq_insert. cbn [sq_ins_go].
  destruct (t <? t0) eqn:E1; destruct (t0 <=? t) eqn:E2; try lia; reflexivity.
Qed.

Lemma sq_abs_ins_go : forall q base t n,
  sq_abs base (sq_ins_go t n q) = sq_spec_insert (base + t) n (sq_abs base q).
Proof.
  induction q as [|[t1 n1] rest IH]; intros base t n; [reflexivity|].
  cbn [sq_ins_go sq_abs sq_spec_insert].
  destruct (t1 <=? t) eqn:E1.
  - assert (E2 : (base + t1 <=? base + t) = true) by lia. rewrite E2.
    cbn [sq_abs]. rewrite IH. replace (base + t1 + (t - t1)) with (base + t) by lia. reflexivity.
  - assert (E2 : (base + t1 <=? base + t) = false) by lia. rewrite E2.
    cbn [sq_abs]. replace (base + t + (t1 - t)) with (base + t1) by lia. reflexivity.
Qed.

Theorem sq_abs_insert : forall q base t n,
  sq_abs base (sq_insert q t n) = sq_spec_insert (base + t) n (sq_abs base q).
Proof. intros. rewrite sq_insert_eq_go. apply sq_abs_ins_go. Qed.

Lemma sq_spec_insert_split : forall l d n,
  exists l1 l2, l = l1 ++ l2 /\ sq_spec_insert d n l = l1 ++ (d, n) :: l2 /\
    Forall (fun e => fst e <= d) l1 /\
    match l2 with [] => True | e :: _ => d < fst e end.
Proof.
  induction l as [|[d1 n1] r IH]; intros d n.
  - exists [], []. repeat split; auto.
  - cbn [sq_spec_insert]. destruct (d1 <=? d) eqn:E.
    + destruct (IH d n) as (l1 & l2 & E1 & E2 & F & H).
      exists ((d1, n1) :: l1), l2. repeat split.
      * rewrite E1; reflexivity.
      * rewrite E2; reflexivity.
      * constructor; [cbn; lia|exact F].
      * exact H.
    + exists [], ((d1, n1) :: r). repeat split; auto. cbn. lia.
Qed.

Lemma sq_spec_insert_perm : forall l d n, Permutation ((d, n) :: l) (sq_spec_insert d n l).
Proof.
  intros. destruct (sq_spec_insert_split l d n) as (l1 & l2 & E1 & E2 & _).
  rewrite E2, E1. apply Permutation_middle.
Qed.

Lemma sq_spec_insert_sorted : forall l d n, sq_sorted l -> sq_sorted (sq_spec_insert d n l).
Proof.
  unfold sq_sorted. induction l as [|[d1 n1] r IH]; intros d n S.
  - cbn. constructor; constructor.
  - cbn [sq_spec_insert]. inversion S as [|? ? S' F]; subst.
    destruct (d1 <=? d) eqn:E.
    + constructor; [apply IH; exact S'|].
      eapply Permutation_Forall; [apply sq_spec_insert_perm|].
      constructor; [unfold sq_le; cbn; lia|exact F].
    + constructor; [exact S|].
      constructor; [unfold sq_le; cbn; lia|].
      eapply Forall_impl; [|exact F]. intros a Ha. unfold sq_le in *. cbn in *. lia.
Qed.

Lemma sq_sorted_app_r : forall l1 l2, sq_sorted (l1 ++ l2) -> sq_sorted l2.
Proof.
  unfold sq_sorted. induction l1 as [|a l1 IH]; intros l2 S; [exact S|].
  cbn in S. inversion S; subst. apply IH. assumption.
Qed.

(* in a sorted list the new entry goes after ALL entries that are not later, before all later *)
Lemma sq_spec_insert_stable : forall l d n, sq_sorted l ->
  exists l1 l2, l = l1 ++ l2 /\ sq_spec_insert d n l = l1 ++ (d, n) :: l2 /\
    Forall (fun e => fst e <= d) l1 /\ Forall (fun e => d < fst e) l2.
Proof.
  intros l d n S. destruct (sq_spec_insert_split l d n) as (l1 & l2 & E1 & E2 & F & H).
  exists l1, l2. repeat split; auto.
  destruct l2 as [|e l2']; [constructor|].
  subst l. apply sq_sorted_app_r in S. unfold sq_sorted in S.
  inversion S; subst. constructor; [exact H|].
  eapply Forall_impl; [|eassumption]. intros a Ha. unfold sq_le in Ha. lia.
Qed.

Lemma sq_abs_sorted_from : forall q base,
  Forall (fun e => 0 <= fst e) q ->
  sq_sorted (sq_abs base q) /\ Forall (fun e => base <= fst e) (sq_abs base q).
Proof.
  induction q as [|[t n] rest IH]; intros base F.
  - split; constructor.
  - inversion F; subst. cbn in H1. destruct (IH (base + t) H2) as [S B]. cbn [sq_abs]. split.
    + constructor; [exact S|]. eapply Forall_impl; [|exact B]. intros a Ha. unfold sq_le in *; cbn in *. lia.
    + constructor; [cbn; lia|]. eapply Forall_impl; [|exact B]. intros a Ha. cbn in *. lia.
Qed.

Theorem sq_abs_sorted : forall q base, sq_wf q -> sq_sorted (sq_abs base q).
Proof.
  intros [|[t n] rest] base W; [constructor|].
  cbn in W. cbn [sq_abs]. destruct (sq_abs_sorted_from rest (base + t) W) as [S B].
  constructor; [exact S|]. eapply Forall_impl; [|exact B]. intros a Ha. unfold sq_le in *; cbn in *. lia.
Qed.

Lemma sq_nonneg_wf : forall q, Forall (fun e => 0 <= fst e) q -> sq_wf q.
Proof. intros [|e q] F; [exact I|]. inversion F; assumption. Qed.

Lemma sq_ins_go_nonneg : forall q t n, 0 <= t -> Forall (fun e => 0 <= fst e) q ->
  Forall (fun e => 0 <= fst e) (sq_ins_go t n q).
Proof.
  induction q as [|[t1 n1] rest IH]; intros t n Ht F.
  - repeat constructor; cbn; lia.
  - inversion F; subst. cbn in H1. cbn [sq_ins_go]. destruct (t1 <=? t) eqn:E.
    + constructor; [cbn; lia|]. apply IH; [lia|assumption].
    + constructor; [cbn; lia|]. constructor; [cbn; lia|assumption].
Qed.

Lemma sq_insert_wf : forall q t n, sq_wf q -> sq_wf (sq_insert q t n).
Proof.
  intros [|[t0 n0] rest] t n W; [cbn; constructor|].
  cbn in W. unfold sq_insert. destruct (t <? t0) eqn:E.
  - cbn. constructor; [cbn; lia|exact W].
  - cbn. apply sq_ins_go_nonneg; [lia|exact W].
Qed.

Lemma sq_bump_wf : forall d q, Forall (fun e => 0 <= fst e) q -> sq_wf (sq_bump d q).
Proof.
  intros d [|[t n] r] F; [exact I|]. inversion F; subst. cbn. assumption.
Qed.

Lemma sq_bump_nonneg : forall d q, 0 <= d -> Forall (fun e => 0 <= fst e) q ->
  Forall (fun e => 0 <= fst e) (sq_bump d q).
Proof.
  intros d [|[t n] r] Hd F; [constructor|]. inversion F; subst. cbn in *.
  constructor; [cbn; lia|assumption].
Qed.

Lemma sq_abs_bump : forall d q base, sq_abs base (sq_bump d q) = sq_abs (base + d) q.
Proof.
  intros d [|[t n] r] base; [reflexivity|]. cbn [sq_bump sq_abs].
  replace (base + (t + d)) with (base + d + t) by lia. reflexivity.
Qed.

Theorem sq_abs_pop : forall q base t n q',
  sq_pop q = Some ((t, n), q') ->
  sq_abs base q = (base + t, n) :: sq_abs base q'.
Proof.
  intros [|[t0 n0] rest] base t n q' H; [discriminate|].
  cbn in H. inversion H; subst. cbn [sq_abs]. rewrite sq_abs_bump. reflexivity.
Qed.

Lemma sq_pop_none : forall q, sq_pop q = None <-> q = [].
Proof. intros [|[t n] r]; cbn; split; intros; congruence. Qed.

Theorem sq_pop_min : forall q base t n q', sq_wf q ->
  sq_pop q = Some ((t, n), q') ->
  Forall (fun e => base + t <= fst e) (sq_abs base q').
Proof.
  intros q base t n q' W H. pose proof (sq_abs_sorted q base W) as S.
  rewrite (sq_abs_pop _ _ _ _ _ H) in S. inversion S; assumption.
Qed.

Lemma sq_pop_wf : forall q e q', sq_wf q -> sq_pop q = Some (e, q') -> sq_wf q'.
Proof.
  intros [|[t0 n0] rest] e q' W H; [discriminate|]. cbn in H. inversion H; subst.
  apply sq_bump_wf. exact W.
Qed.

Definition sq_rm_view (base : Z) (r : option (sq_entry * sq_queue)) :=
  match r with None => None | Some (e, q') => Some (snd e, sq_abs base q') end.
Definition sq_spec_rm_view (r : option ((Z * sq_node) * list (Z * sq_node))) :=
  match r with None => None | Some (e, l') => Some (snd e, l') end.

Theorem sq_abs_remove : forall q base s m,
  sq_rm_view base (sq_remove q s m) = sq_spec_rm_view (sq_spec_remove (sq_abs base q) s m).
Proof.
  induction q as [|[t0 n0] rest IH]; intros base s m; [reflexivity|].
  cbn [sq_remove sq_abs sq_spec_remove]. destruct (sq_match s m n0) eqn:E.
  - cbn. rewrite sq_abs_bump. reflexivity.
  - specialize (IH (base + t0) s m).
    destruct (sq_remove rest s m) as [[e q']|];
      destruct (sq_spec_remove (sq_abs (base + t0) rest) s m) as [[e' l']|]; cbn in *;
      try discriminate; try reflexivity.
    inversion IH; subst. reflexivity.
Qed.

Lemma sq_spec_remove_some : forall l s m e l',
  sq_spec_remove l s m = Some (e, l') ->
  exists l1 l2, l = l1 ++ e :: l2 /\ l' = l1 ++ l2 /\ sq_match s m (snd e) = true /\
    Forall (fun x => sq_match s m (snd x) = false) l1.
Proof.
  induction l as [|[d n] r IH]; intros s m e l' H; [discriminate|].
  cbn [sq_spec_remove] in H. destruct (sq_match s m n) eqn:E.
  - inversion H; subst. exists [], l'. repeat split; auto.
  - destruct (sq_spec_remove r s m) as [[e1 r1]|] eqn:R; [|discriminate].
    inversion H; subst. destruct (IH s m e r1 R) as (l1 & l2 & E1 & E2 & M & F).
    exists ((d, n) :: l1), l2. repeat split.
    + rewrite E1; reflexivity.
    + rewrite E2; reflexivity.
    + exact M.
    + constructor; [exact E|exact F].
Qed.

Lemma sq_spec_remove_none : forall l s m,
  sq_spec_remove l s m = None <-> Forall (fun x => sq_match s m (snd x) = false) l.
Proof.
  induction l as [|[d n] r IH]; intros s m; cbn [sq_spec_remove].
  - split; auto.
  - destruct (sq_match s m n) eqn:E.
    + split; [discriminate|]. intros F. inversion F; subst. cbn in *. congruence.
    + specialize (IH s m). destruct (sq_spec_remove r s m) as [[e r']|].
      * split; [discriminate|]. intros F. inversion F; subst. apply IH in H2. discriminate.
      * split; auto. intros _. constructor; [exact E|]. apply IH. reflexivity.
Qed.

(* removal through the abstraction, in one statement: the queue's absolute view loses exactly the
   first entry of that session with that id; every other entry keeps its deadline and place *)
Theorem sq_remove_others : forall q base s m t n q',
  sq_remove q s m = Some ((t, n), q') ->
  exists l1 l2 d, sq_abs base q = l1 ++ (d, n) :: l2 /\ sq_abs base q' = l1 ++ l2 /\
    sq_match s m n = true /\ Forall (fun x => sq_match s m (snd x) = false) l1.
Proof.
  intros q base s m t n q' H. pose proof (sq_abs_remove q base s m) as V. rewrite H in V.
  cbn [sq_rm_view snd] in V.
  destruct (sq_spec_remove (sq_abs base q) s m) as [[[d n1] l']|] eqn:R; cbn in V; [|discriminate].
  inversion V; subst. destruct (sq_spec_remove_some _ _ _ _ _ R) as (l1 & l2 & E1 & E2 & M & F).
  exists l1, l2, d. cbn in M. auto.
Qed.

Theorem sq_remove_none_iff : forall q base s m,
  sq_remove q s m = None <-> Forall (fun x => sq_match s m (snd x) = false) (sq_abs base q).
Proof.
  intros q base s m. rewrite <- sq_spec_remove_none. pose proof (sq_abs_remove q base s m) as V.
  destruct (sq_remove q s m) as [[e q']|]; destruct (sq_spec_remove (sq_abs base q) s m) as [[e' l']|];
    cbn in V; try discriminate; split; intros; try discriminate; reflexivity.
Qed.

Lemma sq_remove_nonneg : forall q s m e q', Forall (fun e => 0 <= fst e) q ->
  sq_remove q s m = Some (e, q') -> Forall (fun e => 0 <= fst e) q'.
Proof.
  induction q as [|[t0 n0] rest IH]; intros s m e q' F H; [discriminate|].
  inversion F as [|? ? H0 F']; subst. cbn in H0. cbn [sq_remove] in H. destruct (sq_match s m n0).
  - inversion H; subst. apply sq_bump_nonneg; assumption.
  - destruct (sq_remove rest s m) as [[e1 r1]|] eqn:R; [|discriminate]. inversion H; subst.
    constructor; [exact H0|]. eapply IH; eauto.
Qed.

(* (the head's time may be anything) *)
Lemma sq_remove_wf : forall q s m e q', sq_wf q -> sq_remove q s m = Some (e, q') -> sq_wf q'.
Proof.
  intros [|[t0 n0] rest] s m e q' W H; [discriminate|].
  cbn in W. cbn [sq_remove] in H. destruct (sq_match s m n0).
  - inversion H; subst. apply sq_bump_wf. exact W.
  - destruct (sq_remove rest s m) as [[e1 r1]|] eqn:R; [|discriminate]. inversion H; subst.
    exact (sq_remove_nonneg _ _ _ _ _ W R).
Qed.

Lemma sq_abs_cancel_go : forall p q base carry,
  sq_abs base (snd (sq_cancel_go p carry q)) =
  filter (fun e => negb (p (snd e))) (sq_abs (base + carry) q) /\
  fst (sq_cancel_go p carry q) = filter p (map snd q).
Proof.
  induction q as [|[t n] rest IH]; intros base carry; [split; reflexivity|].
  cbn [sq_cancel_go sq_abs map snd filter]. destruct (p n) eqn:E.
  - destruct (IH base (carry + t)) as [A B].
    destruct (sq_cancel_go p (carry + t) rest) as [rm q']. cbn [fst snd negb] in *.
    cbn [negb]. split; [|rewrite B; reflexivity].
    rewrite A. replace (base + (carry + t)) with (base + carry + t) by lia. reflexivity.
  - destruct (IH (base + carry + t) 0) as [A B].
    destruct (sq_cancel_go p 0 rest) as [rm q']. cbn [fst snd negb] in *.
    cbn [negb sq_abs]. split; [|exact B].
    replace (base + (t + carry)) with (base + carry + t) by lia.
    rewrite A. replace (base + carry + t + 0) with (base + carry + t) by lia. reflexivity.
Qed.

Theorem sq_abs_cancel : forall p q base,
  sq_abs base (snd (sq_cancel p q)) = filter (fun e => negb (p (snd e))) (sq_abs base q) /\
  fst (sq_cancel p q) = filter p (map snd q).
Proof.
  intros. unfold sq_cancel. destruct (sq_abs_cancel_go p q base 0) as [A B].
  replace (base + 0) with base in A by lia. auto.
Qed.

(* before /repo f424a16 the nodes behind a cancelled one became due earlier *)
Theorem sq_cancel_nobump_shifts : exists p q base,
  sq_wf q /\
  sq_abs base (snd (sq_cancel_nobump p q)) <> filter (fun e => negb (p (snd e))) (sq_abs base q).
Proof.
  exists (fun n => qn_mid n =? 1),
         [(2000, sq_mk_node 0 0 1 0 2000 4 []); (500, sq_mk_node 1 1 2 0 2500 4 [])], 0.
  split; [repeat constructor; cbn; lia|]. cbn. intros H. inversion H.
Qed.

Lemma sq_cancel_go_nonneg : forall p q carry, 0 <= carry -> Forall (fun e => 0 <= fst e) q ->
  Forall (fun e => 0 <= fst e) (snd (sq_cancel_go p carry q)).
Proof.
  induction q as [|[t n] rest IH]; intros carry Hc F; [constructor|].
  inversion F as [|? ? H0 F']; subst. cbn in H0. cbn [sq_cancel_go]. destruct (p n).
  - specialize (IH (carry + t) ltac:(lia) F'). destruct (sq_cancel_go p (carry + t) rest). exact IH.
  - specialize (IH 0 ltac:(lia) F'). destruct (sq_cancel_go p 0 rest). cbn [snd] in *.
    constructor; [cbn; lia|exact IH].
Qed.

(* (the head's time, and so the time carried to it, may be anything) *)
Lemma sq_cancel_go_wf : forall p q carry, sq_wf q -> sq_wf (snd (sq_cancel_go p carry q)).
Proof.
  induction q as [|[t n] rest IH]; intros carry W; [exact I|]. cbn in W. cbn [sq_cancel_go]. destruct (p n).
  - specialize (IH (carry + t) (sq_nonneg_wf _ W)). destruct (sq_cancel_go p (carry + t) rest). exact IH.
  - pose proof (sq_cancel_go_nonneg p rest 0 ltac:(lia) W) as X.
    destruct (sq_cancel_go p 0 rest). exact X.
Qed.

Lemma sq_cancel_wf : forall p q, sq_wf q -> sq_wf (snd (sq_cancel p q)).
Proof. intros. apply sq_cancel_go_wf. assumption. Qed.

(* moving the base time backwards (or not at all) keeps every deadline *)
Theorem sq_adjust_back : forall base q now c b' q',
  now <= base -> sq_adjust_basetime base q now = (c, b', q') ->
  c = 0 /\ b' = now /\ sq_abs b' q' = sq_abs base q.
Proof.
  intros base [|[t0 n0] rest] now c b' q' Hn H; unfold sq_adjust_basetime in H.
  - inversion H; subst. repeat split; lia.
  - assert (E : (now - base <=? 0) = true) by lia. rewrite E in H. inversion H; subst.
    repeat split; [lia|]. cbn [sq_abs].
    replace (base + (now - base) + (t0 - (now - base))) with (base + t0) by lia. reflexivity.
Qed.

(* moving it forwards does NOT: the first node that has not expired gets t = delta - t_expired
   instead of its remaining time.  One node due at 10, base 0, adjust to now = 3: due at 6.
   (coap_adjust_basetime has no caller inside the library; tests/test_sendqueue.c asserts this
   very value, so it is recorded as a finding and not repaired.) *)
Theorem sq_adjust_shifts_deadline : exists base q now c b' q',
  sq_wf q /\ base < now /\ sq_adjust_basetime base q now = (c, b', q') /\
  Forall (fun e => now < fst e) (sq_abs base q) /\
  sq_abs b' q' <> sq_abs base q.
Proof.
  exists 0, [(10, sq_mk_node 0 0 0 0 0 0 [])], 3, 0, 3, [(3, sq_mk_node 0 0 0 0 0 0 [])].
  split; [constructor|]. split; [lia|]. split; [reflexivity|]. split.
  - repeat constructor.
  - cbn. intros H. inversion H.
Qed.

Example sq_example :
  let n k s m := sq_mk_node k s m 0 2000 4 [] in
  let q := sq_insert (sq_insert (sq_insert (sq_insert [] 100 (n 1 0 1)) 30 (n 2 0 2)) 100 (n 3 1 1)) 70 (n 4 0 4) in
  q = [(30, n 2 0 2); (40, n 4 0 4); (30, n 1 0 1); (0, n 3 1 1)] /\
  map fst (sq_abs 5 q) = [35; 75; 105; 105] /\
  sq_wf q /\
  (exists e q', sq_remove q 1 1 = Some (e, q') /\ map fst (sq_abs 5 q') = [35; 75; 105]).
Proof.
  cbv zeta. split; [reflexivity|]. split; [reflexivity|]. split.
  - cbn. repeat constructor; cbn; lia.
  - eexists _, _. split; reflexivity.
Qed.
