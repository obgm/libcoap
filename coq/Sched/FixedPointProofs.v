(* C06 - range of the initial retransmission timeout (proofs). *)
From LibcoapV Require Import Base.Tactics Sched.FixedPoint.
Local Open Scope Z_scope.

Lemma fp_u32_small : forall x, 0 <= x < 4294967296 -> fp_u32 x = x.
Proof. intros; unfold fp_u32; apply Z.mod_small; lia. Qed.

Lemma fp_u32_le : forall x, 0 <= x -> 0 <= fp_u32 x <= x.
Proof.
  intros x H. unfold fp_u32. split; [apply Z.mod_pos_bound; lia|apply Z.mod_le; lia].
Qed.

Lemma fp_u64_small : forall x, 0 <= x < 18446744073709551616 -> fp_u64 x = x.
Proof. intros; unfold fp_u64; apply Z.mod_small; lia. Qed.

(* the shape of every step of coap_calc_timeout: a product, a rounding constant *)
Lemma fp_u64_muladd : forall p c, 0 <= p -> 0 <= c -> p + c < 18446744073709551616 ->
  fp_u64 (fp_u64 p + c) = p + c.
Proof. intros. rewrite (fp_u64_small p) by lia. apply fp_u64_small. lia. Qed.

Lemma fp_u32_muladd : forall p c, 0 <= p -> 0 <= c -> p + c < 4294967296 ->
  fp_u32 (fp_u32 p + c) = p + c.
Proof. intros. rewrite (fp_u32_small p) by lia. apply fp_u32_small. lia. Qed.

Lemma fp_shr8_range : forall v b, 0 <= v <= 256 * b -> 0 <= fp_shr8 v <= b.
Proof. intros. unfold fp_shr8. lia. Qed.

Lemma fp_shr6_range : forall v b, 0 <= v <= 64 * b -> 0 <= fp_shr6 v <= b.
Proof. intros. unfold fp_shr6. lia. Qed.

Lemma fp_shr6_mono : forall v v', v <= v' -> fp_shr6 v <= fp_shr6 v'.
Proof. intros. unfold fp_shr6. apply Z.div_le_mono; lia. Qed.

Lemma fp_mul_range : forall a b a' b', 0 <= a <= a' -> 0 <= b <= b' -> 0 <= a * b <= a' * b'.
Proof. intros. split; [apply Z.mul_nonneg_nonneg; lia|apply Z.mul_le_mono_nonneg; lia]. Qed.

Lemma fp_Q_ok : forall ip fp, fp_setting_ok ip fp ->
  fp_Q ip fp = fp_Qraw ip fp /\ 64 <= fp_Q ip fp <= 4194304.
Proof.
  unfold fp_setting_ok, fp_Q, fp_u32, fp_Qraw, fp_one; intros ip fp (Hi & Hf).
  assert (0 <= (64 * fp + 500) / 1000 <= 64) by lia.
  rewrite Z.mod_small by lia. lia.
Qed.

(* the quantisation of a setting to 1/64: |Q/64 - setting| <= 1/128, in integers *)
Lemma fp_Q_quant : forall ip fp, fp_setting_ok ip fp ->
  -500 < 1000 * fp_Q ip fp - 64 * fp_ms ip fp <= 500.
Proof.
  intros ip fp H. destruct (fp_Q_ok ip fp H) as [E _]. rewrite E.
  unfold fp_setting_ok, fp_Qraw, fp_ms, fp_one in *. lia.
Qed.

(* settings with a fractional part that is a multiple of 1/8 are represented exactly *)
Lemma fp_Q_exact : forall ip fp, fp_setting_ok ip fp -> fp mod 125 = 0 ->
  1000 * fp_Q ip fp = 64 * fp_ms ip fp.
Proof.
  intros ip fp H M. destruct (fp_Q_ok ip fp H) as [E _]. rewrite E.
  unfold fp_setting_ok, fp_Qraw, fp_ms, fp_one in *. lia.
Qed.

Lemma fp_step1_range : forall F r, 64 <= F -> 0 <= r <= 255 ->
  0 <= fp_shr8 ((F - fp_one) * r) <= F - 64.
Proof.
  intros F r HF Hr. unfold fp_one. apply fp_shr8_range.
  pose proof (fp_mul_range (F - 64) r (F - 64) 255). lia.
Qed.

(* the unwrapped form of the computation *)
Definition fp_calc_plain (A F r : Z) : Z :=
  fp_shr6 (fp_tps * fp_shr6 ((fp_shr8 ((F - fp_one) * r) + fp_one) * A)).

(* ... as a function of the value s of step 1: monotone, the lower end at s = 0, the upper end
   at s = F - 64 *)
Definition fp_plain_of (s A : Z) : Z := fp_shr6 (fp_tps * fp_shr6 ((s + fp_one) * A)).

Lemma fp_plain_of_mono : forall A s s', 0 <= A -> s <= s' -> fp_plain_of s A <= fp_plain_of s' A.
Proof.
  intros A s s' HA Hs. apply fp_shr6_mono. unfold fp_tps.
  assert (fp_shr6 ((s + fp_one) * A) <= fp_shr6 ((s' + fp_one) * A)); [|lia].
  apply fp_shr6_mono. apply Z.mul_le_mono_nonneg_r; lia.
Qed.

Lemma fp_plain_of_0 : forall A, fp_plain_of 0 A = fp_lo A.
Proof. intros. unfold fp_plain_of, fp_lo, fp_ticks, fp_one. f_equal. f_equal. unfold fp_shr6. lia. Qed.

Lemma fp_plain_of_top : forall A F, fp_plain_of (F - 64) A = fp_hi A F.
Proof. intros. unfold fp_plain_of, fp_hi, fp_ticks, fp_mulq, fp_one. do 4 f_equal. lia. Qed.

(* the sizes of the intermediate values when the product of the two Q.6 operands is at most
   64 q, and 1000 q at most 64 t *)
Lemma fp_plain_sizes : forall A F r q t, 0 <= A -> 64 <= F -> 0 <= r <= 255 ->
  F * A <= 64 * q -> 1000 * q <= 64 * t ->
  let s := fp_shr8 ((F - fp_one) * r) in
  let m := fp_shr6 ((s + fp_one) * A) in
  0 <= s <= F - 64 /\ 0 <= (s + 64) * A <= 64 * q /\ 0 <= m <= q /\ 0 <= fp_calc_plain A F r <= t.
Proof.
  intros A F r q t HA HF Hr Hq Ht s m. pose proof (fp_step1_range F r HF Hr) as Hs. fold s in Hs.
  pose proof (fp_mul_range (s + 64) A F A ltac:(lia) ltac:(lia)) as Hp.
  assert (Hm : 0 <= m <= q) by (apply fp_shr6_range; unfold fp_one; lia).
  split; [exact Hs|]. split; [lia|]. split; [exact Hm|].
  unfold fp_calc_plain. fold s. fold m. apply fp_shr6_range. unfold fp_tps. lia.
Qed.

Lemma fp_saturate : forall x m, (if m <? x then m else x) = Z.min x m.
Proof. intros. destruct (m <? x) eqn:E; lia. Qed.

(* no step wraps; the result is the plain value, saturated at UINT_MAX *)
Lemma fp_calc_q_plain : forall A F r,
  64 <= A <= 4194304 -> 64 <= F <= 4194304 -> 0 <= r <= 255 ->
  fp_calc_q A F r = Z.min (fp_calc_plain A F r) fp_uint_max.
Proof.
  intros A F r HA HF Hr. unfold fp_calc_q. rewrite fp_saturate. f_equal.
  pose proof (fp_mul_range F A 4194304 4194304 ltac:(lia) ltac:(lia)) as HP.
  (* F * A <= 2^44 = 64 * 2^38, and 1000 * 2^38 = 64 * (1000 * 2^32) *)
  destruct (fp_plain_sizes A F r 274877906944 4294967296000 ltac:(lia) ltac:(lia) Hr ltac:(lia) ltac:(lia))
    as (Hs & Hp & Hm & _).
  pose proof (fp_mul_range (F - 64) r 4194304 255 ltac:(lia) Hr) as H0.
  unfold fp_one, fp_tps in *.
  rewrite (fp_u32_small (F - 64)), (fp_u64_muladd ((F - 64) * r) 128) by lia.
  change (((F - 64) * r + 128) / 256) with (fp_shr8 ((F - 64) * r)).
  rewrite (fp_u64_small (_ + 64)), (fp_u64_muladd (_ * A) 32) by lia.
  change ((?p + 32) / 64) with (fp_shr6 p) in *.
  rewrite (fp_u64_muladd (1000 * _) 32) by lia. reflexivity.
Qed.

Lemma fp_calc_plain_bounds : forall A F r, 0 <= A -> 64 <= F -> 0 <= r <= 255 ->
  fp_lo A <= fp_calc_plain A F r <= fp_hi A F.
Proof.
  intros A F r HA HF Hr. pose proof (fp_step1_range F r HF Hr).
  rewrite <- fp_plain_of_0, <- fp_plain_of_top. split; apply fp_plain_of_mono; lia.
Qed.

Lemma fp_calc_plain_0 : forall A F, fp_calc_plain A F 0 = fp_lo A.
Proof. intros. rewrite <- fp_plain_of_0. unfold fp_calc_plain. rewrite Z.mul_0_r. reflexivity. Qed.

(* r = 255 reaches the upper end whenever the factor is at most 3.0 *)
Lemma fp_calc_plain_255 : forall A F, 64 <= F <= 192 -> fp_calc_plain A F 255 = fp_hi A F.
Proof.
  intros A F HF. rewrite <- fp_plain_of_top. unfold fp_calc_plain, fp_plain_of.
  replace (fp_shr8 ((F - fp_one) * 255)) with (F - 64) by (unfold fp_shr8, fp_one; lia). reflexivity.
Qed.

(* the two roundings of the upper end cost at most 34048 / 4096 ms *)
Lemma fp_hi_upper : forall A F, 4096 * fp_hi A F <= 1000 * (F * A) + 34048.
Proof. intros. unfold fp_hi, fp_ticks, fp_mulq, fp_shr6, fp_tps. lia. Qed.

Theorem fp_timeout_range : forall at_ip at_fp arf_ip arf_fp r,
  fp_setting_ok at_ip at_fp -> fp_setting_ok arf_ip arf_fp -> 0 <= r <= 255 ->
  let A := fp_Q at_ip at_fp in
  let F := fp_Q arf_ip arf_fp in
  let T := fp_calc_timeout at_ip at_fp arf_ip arf_fp r in
  (* between the two ends computed from the quantised settings ... *)
  fp_lo A <= T <= fp_hi A F /\
  (* ... which are ACK_TIMEOUT and ACK_TIMEOUT * ACK_RANDOM_FACTOR up to the 1/64 quantisation
     of each setting and the rounding to a tick, in ms *)
  fp_ms at_ip at_fp - 8 <= fp_lo A <= fp_ms at_ip at_fp + 8 /\
  1000 * fp_hi A F <= (fp_ms at_ip at_fp + 8) * (fp_ms arf_ip arf_fp + 8) + 8313 /\
  (* the lower end is taken at r = 0 *)
  fp_calc_timeout at_ip at_fp arf_ip arf_fp 0 = fp_lo A /\
  (* the upper end at r = 255 (for factors up to 3.0; above, the largest value is below it),
     and T is the unsaturated value unless it exceeds UINT_MAX ticks (49.7 days) *)
  (F <= 192 -> fp_calc_timeout at_ip at_fp arf_ip arf_fp 255 = fp_hi A F) /\
  T = Z.min (fp_calc_plain A F r) fp_uint_max.
Proof.
  intros at_ip at_fp arf_ip arf_fp r Ha Hf Hr A F T.
  destruct (fp_Q_ok _ _ Ha) as [_ HA]. destruct (fp_Q_ok _ _ Hf) as [_ HF].
  pose proof (fp_Q_quant _ _ Ha) as QA. pose proof (fp_Q_quant _ _ Hf) as QF.
  fold A in HA, QA. fold F in HF, QF.
  unfold T, fp_calc_timeout. fold A F.
  rewrite !fp_calc_q_plain by lia. rewrite fp_calc_plain_0.
  pose proof (fp_calc_plain_bounds A F r ltac:(lia) ltac:(lia) Hr) as B.
  (* the lower end is far below UINT_MAX, and so is the upper end for factors up to 3.0 *)
  assert (LS : 0 <= fp_lo A <= 65536032).
  { unfold fp_lo, fp_ticks, fp_tps. apply fp_shr6_range. lia. }
  unfold fp_uint_max.
  split; [lia|]. split; [unfold fp_lo, fp_ticks, fp_shr6, fp_tps; lia|]. split; [|split; [lia|split; [|reflexivity]]].
  - pose proof (fp_hi_upper A F) as U.
    assert (Hprod : 1000 * F * (1000 * A) <= (64 * fp_ms arf_ip arf_fp + 500) * (64 * fp_ms at_ip at_fp + 500)).
    { apply Z.mul_le_mono_nonneg; lia. }
    nia.
  - intros HF3. rewrite fp_calc_plain_255 by lia.
    assert (0 <= fp_hi A F <= 196608048); [|lia].
    pose proof (fp_mul_range F A 192 4194304 ltac:(lia) ltac:(lia)).
    unfold fp_hi, fp_ticks, fp_tps. apply fp_shr6_range.
    assert (0 <= fp_mulq F A <= 12582912) by (apply fp_shr6_range; lia). lia.
Qed.

Theorem fp_timeout_range_exact : forall at_ip at_fp arf_ip arf_fp r,
  fp_setting_ok at_ip at_fp -> fp_setting_ok arf_ip arf_fp -> 0 <= r <= 255 ->
  at_fp mod 125 = 0 -> arf_fp mod 125 = 0 ->
  let T := fp_calc_timeout at_ip at_fp arf_ip arf_fp r in
  fp_ms at_ip at_fp <= T /\
  1000 * T <= fp_ms at_ip at_fp * fp_ms arf_ip arf_fp + 8313 /\
  fp_calc_timeout at_ip at_fp arf_ip arf_fp 0 = fp_ms at_ip at_fp.
Proof.
  intros at_ip at_fp arf_ip arf_fp r Ha Hf Hr Ma Mf T.
  destruct (fp_timeout_range _ _ _ _ r Ha Hf Hr) as (B & _ & _ & E0 & _ & _). fold T in B.
  pose proof (fp_Q_exact _ _ Ha Ma) as XA. pose proof (fp_Q_exact _ _ Hf Mf) as XF.
  pose proof (fp_hi_upper (fp_Q at_ip at_fp) (fp_Q arf_ip arf_fp)) as U.
  assert (L : fp_lo (fp_Q at_ip at_fp) = fp_ms at_ip at_fp) by (unfold fp_lo, fp_ticks, fp_shr6, fp_tps; lia).
  rewrite E0, L in *. split; [lia|]. split; [nia|reflexivity].
Qed.

Lemma fp_setting_ok_nonvacuous :
  fp_setting_ok 2 0 /\ fp_setting_ok 1 500 /\
  (forall ip fp, fp_setting_ok ip fp <-> (0 < ip < 65536 /\ 0 <= fp < 1000)).
Proof. unfold fp_setting_ok. repeat split; lia. Qed.

Lemma fp_setting_ok_default : fp_setting_ok 2 0 /\ fp_setting_ok 1 500.
Proof. unfold fp_setting_ok. lia. Qed.

Lemma fp_timeout_default_ends :
  fp_calc_timeout 2 0 1 500 0 = 2000 /\ fp_calc_timeout 2 0 1 500 255 = 3000.
Proof. split; vm_compute; reflexivity. Qed.

(* Before the repair the Q.6 values were cast to uint16_t: a timeout of 1024.000 s became Q.6
   value 0 and every message got T = 0 ticks. *)
Theorem fp_timeout_range_old_refuted : exists at_ip at_fp arf_ip arf_fp r,
  fp_setting_ok at_ip at_fp /\ fp_setting_ok arf_ip arf_fp /\ 0 <= r <= 255 /\
  fp_calc_timeout_old at_ip at_fp arf_ip arf_fp r < fp_ms at_ip at_fp - 8.
Proof. exists 1024, 0, 1, 500, 255. unfold fp_setting_ok. vm_compute. repeat split; discriminate. Qed.

(* ... while for Q.6 values that fit 16 bits the old function computes the plain value too *)
Lemma fp_calc_q_old_plain : forall A F r,
  64 <= A < 65536 -> 64 <= F < 65536 -> 0 <= r <= 255 ->
  fp_calc_q_old A F r = fp_calc_plain A F r /\ fp_calc_plain A F r < 4294967296.
Proof.
  intros A F r HA HF Hr. unfold fp_calc_q_old.
  pose proof (fp_mul_range F A 65535 65535 ltac:(lia) ltac:(lia)) as HP.
  (* 65535^2 <= 64 * 67106817, and 1000 * 67106817 <= 64 * 1048544016 < 64 * 2^32 *)
  destruct (fp_plain_sizes A F r 67106817 1048544016 ltac:(lia) ltac:(lia) Hr ltac:(lia) ltac:(lia))
    as (Hs & Hp & Hm & Hc).
  unfold fp_one in *.
  rewrite (fp_u32_small (fp_shr8 _)), (fp_u32_small (_ + 64)), (fp_u32_muladd (_ * A) 32) by lia.
  change ((?p + 32) / 64) with (fp_shr6 p).
  change (fp_shr6 (fp_tps * _)) with (fp_calc_plain A F r).
  rewrite fp_u32_small by lia. split; [reflexivity|lia].
Qed.

Lemma fp_calc_old_eq : forall at_ip at_fp arf_ip arf_fp r,
  fp_setting_ok at_ip at_fp -> fp_setting_ok arf_ip arf_fp -> 0 <= r <= 255 ->
  fp_Qraw at_ip at_fp < 65536 -> fp_Qraw arf_ip arf_fp < 65536 ->
  fp_calc_timeout_old at_ip at_fp arf_ip arf_fp r = fp_calc_timeout at_ip at_fp arf_ip arf_fp r.
Proof.
  intros at_ip at_fp arf_ip arf_fp r Ha Hf Hr Sa Sf.
  destruct (fp_Q_ok _ _ Ha) as [Ea HA]. destruct (fp_Q_ok _ _ Hf) as [Ef HF].
  unfold fp_calc_timeout_old, fp_calc_timeout, fp_Q_old, fp_u16.
  rewrite !Z.mod_small, <- Ea, <- Ef by lia.
  destruct (fp_calc_q_old_plain (fp_Q at_ip at_fp) (fp_Q arf_ip arf_fp) r) as [E B]; [lia..|].
  rewrite E, fp_calc_q_plain by lia. unfold fp_uint_max. lia.
Qed.

Lemma fp_calc_q_nonneg : forall A F r, 0 <= fp_calc_q A F r.
Proof.
  intros. unfold fp_calc_q, fp_uint_max.
  match goal with |- context [if ?c then _ else ?x] => destruct c; [lia|] end.
  apply Z.div_pos; [|lia]. unfold fp_u64. apply Z.mod_pos_bound. lia.
Qed.

Lemma fp_calc_timeout_nonneg : forall a b c d r, 0 <= fp_calc_timeout a b c d r.
Proof. intros. apply fp_calc_q_nonneg. Qed.

Lemma fp_calc_row_spec : forall a b c d, fp_calc_row a b c d =
  map (fun r => fp_calc_timeout a b c d r) (map Z.of_nat (seq 0 256)).
Proof.
  intros. unfold fp_calc_row, fp_calc_timeout.
  set (A := fp_Q a b). set (F := fp_Q c d).
  assert (G : forall n r, fp_row_go n A F r =
              map (fun r => fp_calc_q A F r) (map (fun k => r + Z.of_nat k) (seq 0 n))).
  { induction n; intros r; [reflexivity|].
    cbn [fp_row_go]. rewrite IHn. cbn [seq map]. f_equal; [f_equal; lia|].
    rewrite <- seq_shift, !map_map. apply map_ext. intros. f_equal. lia. }
  rewrite G. rewrite !map_map. apply map_ext. intros. reflexivity.
Qed.
