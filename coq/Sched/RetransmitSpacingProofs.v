(* C06 - the back-off law for EVERY driver and every traffic (proofs).
   Whatever the tick times, the answers of the peer and the other messages are:
   - the deadline of a queued message is (time of its last transmission) + T * 2^retransmit_cnt,
     with T the timeout computed when it was accepted - T never changes;
   - the j-th transmission of a message (j = 0 the first) carries counter j, and transmission
     j+1 is never earlier than T * 2^j after transmission j.
   Together with rt_tick_wait_sound (a prepare call leaves nothing behind that is due) this fixes the
   schedule for any driver: a retransmission happens at the first prepare call or datagram
   arrival at or after its deadline. *)
From LibcoapV Require Import Base.Tactics Sched.SendQueue Sched.SendQueueProofs Sched.Retransmit
  Sched.RetransmitSteps Sched.RetransmitProofs.
From Coq Require Import Sorting.Permutation.
Local Open Scope Z_scope.

Definition rt_tx3 : Type := (Z * Z * Z)%type.      (* time, retransmit_cnt, timeout *)

Definition rt_tproj1 (u : Z) (o : rt_out) : list rt_tx3 :=
  match o with
  | RoTx t u' _ _ c T => if u' =? u then [(t, c, T)] else []
  | _ => []
  end.
Definition rt_tproj (u : Z) (tr : list rt_out) : list rt_tx3 := flat_map (rt_tproj1 u) tr.

Lemma rt_tproj_app : forall u a b, rt_tproj u (a ++ b) = rt_tproj u a ++ rt_tproj u b.
Proof. intros. unfold rt_tproj. apply flat_map_app. Qed.

Lemma rt_proj_nil_tproj_nil : forall u o, rt_proj u o = [] -> rt_tproj u o = [].
Proof.
  intros u. induction o as [|a o IH]; intros H; [reflexivity|].
  change (rt_proj u (a :: o)) with (rt_proj1 u a ++ rt_proj u o) in H.
  apply app_eq_nil in H. destruct H as [H1 H2].
  change (rt_tproj u (a :: o)) with (rt_tproj1 u a ++ rt_tproj u o). rewrite (IH H2), app_nil_r.
  destruct a; cbn in *; try reflexivity. destruct (uid =? u); [discriminate|reflexivity].
Qed.

(* a chain of transmissions: counters 0, 1, 2, ..., one T, gaps of at least T * 2^counter *)
Inductive rt_chain : list rt_tx3 -> Prop :=
| rt_ch_nil : rt_chain []
| rt_ch_first : forall t T, rt_chain [(t, 0, T)]
| rt_ch_next : forall l t c T t',
    rt_chain (l ++ [(t, c, T)]) -> 0 <= c -> t + T * 2 ^ c <= t' ->
    rt_chain ((l ++ [(t, c, T)]) ++ [(t', c + 1, T)]).

Lemma rt_chain_last : forall l t c T, rt_chain (l ++ [(t, c, T)]) -> c = Z.of_nat (length l).
Proof.
  intros l t c T H. remember (l ++ [(t, c, T)]) as L eqn:E. revert l t c T E.
  induction H as [|t1 T1|l1 t1 c1 T1 t2 H IH Hc Hle]; intros l t c T E.
  - destruct l; discriminate.
  - destruct l as [|a l]; [inversion E; reflexivity|]. destruct l; discriminate.
  - apply app_inj_tail in E. destruct E as [E1 E2]. inversion E2; subst.
    rewrite app_length. cbn [length]. rewrite (IH _ _ _ _ eq_refl). lia.
Qed.

(* what a queue entry knows about its message's transmissions *)
Definition rt_entry_ok (tr : list rt_out) (e : Z * sq_node) : Prop :=
  exists l t, rt_tproj (qn_uid (snd e)) tr = l ++ [(t, qn_cnt (snd e), qn_timeout (snd e))] /\
              fst e = t + qn_timeout (snd e) * 2 ^ qn_cnt (snd e).

(* every NACK TOO_MANY_RETRIES in the trace comes no earlier than T * 2^cnt after the last
   transmission of that message (cnt = its counter then = max_retransmit, C06_one_outcome) *)
Definition rt_giveup_ok (before : list rt_out) (o : rt_out) : Prop :=
  match o with
  | RoNack t u _ r _ c _ =>
      r = rt_NACK_TOO_MANY_RETRIES ->
      exists l tl T, rt_tproj u before = l ++ [(tl, c, T)] /\ tl + T * 2 ^ c <= t
  | _ => True
  end.
Definition rt_giveups_ok (tr : list rt_out) : Prop :=
  forall tr1 o tr2, tr = tr1 ++ o :: tr2 -> rt_giveup_ok tr1 o.

Lemma rt_giveups_nil : rt_giveups_ok [].
Proof. intros tr1 o tr2 E. destruct tr1; discriminate. Qed.

Lemma rt_giveups_snoc : forall tr o, rt_giveups_ok tr -> rt_giveup_ok tr o -> rt_giveups_ok (tr ++ [o]).
Proof.
  intros tr o G Ho tr1 x tr2 E. apply app_eq_app in E. destruct E as [l [[E1 E2]|[E1 E2]]].
  - destruct l as [|a l'].
    + cbn in E2. inversion E2; subst. rewrite app_nil_r in Ho. exact Ho.
    + cbn in E2. inversion E2; subst. apply (G tr1 a l' eq_refl).
  - destruct l as [|a l'].
    + cbn in E2. inversion E2; subst. rewrite app_nil_r. exact Ho.
    + cbn in E2. inversion E2. destruct l'; discriminate.
Qed.

(* outputs with neither a transmission nor a give-up *)
Definition rt_calm (o : rt_out) : Prop :=
  match o with
  | RoTx _ _ _ _ _ _ => False
  | RoNack _ _ _ r _ _ _ => r <> rt_NACK_TOO_MANY_RETRIES
  | _ => True
  end.

Lemma rt_calm_tproj : forall o u, Forall rt_calm o -> rt_tproj u o = [].
Proof.
  intros o u F. induction F as [|a o Ha _ IH]; [reflexivity|].
  change (rt_tproj u (a :: o)) with (rt_tproj1 u a ++ rt_tproj u o). rewrite IH.
  destruct a; try contradiction; reflexivity.
Qed.

Lemma rt_giveups_app : forall o tr, rt_giveups_ok tr -> Forall rt_calm o -> rt_giveups_ok (tr ++ o).
Proof.
  induction o as [|x o IH]; intros tr G N; [rewrite app_nil_r; exact G|].
  inversion N; subst. replace (tr ++ x :: o) with ((tr ++ [x]) ++ o) by (rewrite <- app_assoc; reflexivity).
  apply IH; [|assumption]. apply rt_giveups_snoc; [exact G|].
  destruct x; cbn; auto. intros E. contradiction.
Qed.

Lemma rt_silent_calm : forall o, Forall rt_silent o -> Forall rt_calm o.
Proof. intros o F. eapply Forall_impl; [|exact F]. intros []; cbn; auto. Qed.

Lemma rt_calm_map : forall (f : sq_node -> rt_out) rm, (forall n, rt_calm (f n)) -> Forall rt_calm (map f rm).
Proof. intros f rm H. apply Forall_map. apply Forall_forall. intros n _. apply H. Qed.

(* every entry of the queue, and the node beside the state, knows its last transmission; the
   transmissions of every message form a chain; no give-up so far was early *)
Definition rt_entries (c : rt_conf) : list (Z * sq_node) :=
  snd c ++ sq_abs (rs_base (fst c)) (rs_q (fst c)).
Definition rt_sinv (tr : list rt_out) (c : rt_conf) : Prop :=
  Forall (rt_entry_ok tr) (rt_entries c) /\ (forall u, rt_chain (rt_tproj u tr)) /\ rt_giveups_ok tr.

Lemma rt_entry_ok_other : forall tr o e, rt_tproj (qn_uid (snd e)) o = [] ->
  rt_entry_ok tr e -> rt_entry_ok (tr ++ o) e.
Proof.
  intros tr o e N (l & t & E & D). exists l, t. rewrite rt_tproj_app, N, app_nil_r. auto.
Qed.

(* calm outputs, and entries that only go away *)
Lemma rt_sinv_calm : forall tr c c' o, Forall rt_calm o -> incl (rt_entries c') (rt_entries c) ->
  rt_sinv tr c -> rt_sinv (tr ++ o) c'.
Proof.
  intros tr c c' o N Sub (F & C & G). split; [|split].
  - rewrite Forall_forall in F |- *. intros e I. apply rt_entry_ok_other; [apply rt_calm_tproj; exact N|]. auto.
  - intros u. rewrite rt_tproj_app, (rt_calm_tproj o u N), app_nil_r. apply C.
  - apply rt_giveups_app; assumption.
Qed.

(* the absolute view after coap_wait_ack / re-insertion: the new entry is due at now + delay *)
Lemma rt_abs_enqueue : forall st n d,
  Permutation (sq_abs (rs_base (rt_enqueue st n d)) (rs_q (rt_enqueue st n d)))
              ((rs_now st + d, n) :: sq_abs (rs_base st) (rs_q st)).
Proof.
  intros st n d. unfold rt_enqueue. destruct (rs_q st) as [|e q] eqn:E.
  - cbn. apply Permutation_refl.
  - cbn [rs_base rs_q rt_set_q]. rewrite sq_abs_insert.
    replace (rs_base st + (rs_now st - rs_base st + d)) with (rs_now st + d) by lia.
    apply Permutation_sym. apply sq_spec_insert_perm.
Qed.

Lemma rt_nodes_abs : forall q base, map snd (sq_abs base q) = rt_nodes q.
Proof. induction q as [|[t n] r IH]; intros base; [reflexivity|]. cbn. f_equal. apply IH. Qed.

(* a message whose uid differs from those of all entries is transmitted and (re-)enters the
   queue with the matching deadline *)
Lemma rt_sinv_tx : forall tr st x n' c,
  c = qn_cnt n' ->
  rt_chain (rt_tproj (qn_uid n') tr ++ [(rs_now st, c, qn_timeout n')]) ->
  (forall e, In e (rt_entries (st, x)) -> qn_uid (snd e) <> qn_uid n') ->
  rt_sinv tr (st, x) ->
  rt_sinv (tr ++ [RoTx (rs_now st) (qn_uid n') (qn_sess n') (qn_bytes n') c (qn_timeout n')])
          (rt_enqueue st n' (qn_timeout n' * 2 ^ c), x).
Proof.
  intros tr st x n' c Ec Hch Oth (F & C & G).
  set (o := [RoTx (rs_now st) (qn_uid n') (qn_sess n') (qn_bytes n') c (qn_timeout n')]).
  assert (To : rt_tproj (qn_uid n') o = [(rs_now st, c, qn_timeout n')]) by (cbn; rewrite Z.eqb_refl; reflexivity).
  assert (Tother : forall u, u <> qn_uid n' -> rt_tproj u o = []).
  { intros u Hn. cbn. assert (X : (qn_uid n' =? u) = false) by lia. rewrite X. reflexivity. }
  split; [|split].
  - unfold rt_entries in *. cbn [fst snd] in *.
    eapply Permutation_Forall; [apply Permutation_app_head; apply Permutation_sym; apply rt_abs_enqueue|].
    eapply Permutation_Forall; [apply Permutation_middle|]. constructor.
    + exists (rt_tproj (qn_uid n') tr), (rs_now st). cbn [fst snd]. rewrite rt_tproj_app, To, Ec. split; reflexivity.
    + rewrite Forall_forall in F |- *. intros e I. apply rt_entry_ok_other; [apply Tother; exact (Oth e I)|exact (F e I)].
  - intros u. rewrite rt_tproj_app. destruct (Z.eq_dec u (qn_uid n')) as [->|Ne].
    + rewrite To. exact Hch.
    + rewrite (Tother u Ne), app_nil_r. apply C.
  - apply rt_giveups_snoc; [exact G|exact I].
Qed.

(* from rt_rel: a message that is not accepted yet, or waits for a slot, has not been transmitted;
   pending messages have different uids *)
Lemma rt_rel_fresh : forall tr k L, rt_rel tr k L -> rt_tproj k tr = [].
Proof.
  intros tr k L (_ & _ & F & C). apply rt_proj_nil_tproj_nil. apply C; [|lia].
  intros I. apply in_map_iff in I. destruct I as (n & E & I).
  rewrite Forall_forall in F. destruct (F n I) as (A & _). lia.
Qed.

Lemma rt_rel_unsent : forall tr k L n, rt_rel tr k L -> In n L -> qn_cnt n = -1 ->
  rt_tproj (qn_uid n) tr = [].
Proof.
  intros tr k L n (_ & _ & F & _) I E. apply rt_proj_nil_tproj_nil.
  rewrite Forall_forall in F. destruct (F n I) as (_ & _ & _ & O). unfold rt_open in O. rewrite O, E. reflexivity.
Qed.

Lemma rt_inv_held_unsent : forall tr st n,
  rt_inv tr st -> In n (rt_held (rs_sess st)) -> rt_tproj (qn_uid n) tr = [].
Proof.
  intros tr st n (R & H & _) I. rewrite Forall_forall in H. apply (rt_rel_unsent _ _ _ n R); [|exact (H n I)].
  unfold rt_live. cbn [app]. apply in_or_app. right. exact I.
Qed.

Lemma rt_rel_uids : forall tr k L, rt_rel tr k L ->
  NoDup (map qn_uid L) /\ Forall (fun n => qn_uid n < k) L.
Proof.
  intros tr k L (_ & D & F & _). split; [exact D|].
  eapply Forall_impl; [|exact F]. intros n (A & _). lia.
Qed.

Lemma rt_uids_apart : forall (l1 l2 : list sq_node) a b,
  NoDup (map qn_uid (l1 ++ l2)) -> In a l1 -> In b l2 -> qn_uid a <> qn_uid b.
Proof.
  induction l1 as [|x l1 IH]; intros l2 a b D Ia Ib; [contradiction|].
  cbn in D. inversion D as [|? ? Nx D']; subst. destruct Ia as [->|Ia]; [|exact (IH l2 a b D' Ia Ib)].
  intros E. apply Nx. rewrite E. apply in_map. apply in_or_app. right. exact Ib.
Qed.

Lemma rt_entries_live : forall st x e, In e (rt_entries (st, x)) ->
  In (snd e) (map snd x ++ rt_nodes (rs_q st)).
Proof.
  intros st x e I. unfold rt_entries in I. cbn [fst snd] in I. rewrite <- (rt_nodes_abs (rs_q st) (rs_base st)), <- map_app.
  apply in_map. exact I.
Qed.

Lemma rt_removed_sub : forall st s m t n q', sq_remove (rs_q st) s m = Some ((t, n), q') ->
  incl (sq_abs (rs_base st) q') (sq_abs (rs_base st) (rs_q st)).
Proof.
  intros st s m t n q' Rm e I.
  destruct (sq_remove_others _ (rs_base st) _ _ _ _ _ Rm) as (l1 & l2 & d & E1 & E2 & _ & _).
  rewrite E2 in I. rewrite E1. apply in_app_or in I. apply in_or_app. destruct I; [left|right; right]; assumption.
Qed.

Lemma rt_cancelled_sub : forall p q base, incl (sq_abs base (snd (sq_cancel p q))) (sq_abs base q).
Proof. intros p q base e I. rewrite (proj1 (sq_abs_cancel p q base)) in I. apply filter_In in I. tauto. Qed.

Lemma rt_mstep_sinv : forall ev c o c' tr,
  rt_ev_ok ev -> rt_mstep ev c o c' -> rt_cinv tr c -> rt_sinv tr c -> rt_sinv (tr ++ o) c'.
Proof.
  intros ev c o c' tr Hev S. unfold rt_cinv.
  destruct S as [st x o Q|st t _|st x s a si Ha|st s m b cfg r Ev si T|st s m b cfg r Ev T|st x s n dq si Eh Ha c
                |st t n rest Eq|st d n Hc Due c|st d n si Bad c|st s m t n q' d Rm Id|st d n reason Hr|st d n
                |st p|st s reason Ev];
    cbn [fst snd map]; intros (R & Hm & SO) Si.
  (* clock, con_active, a message that waits: neither outputs nor entries change *)
  2-4: exact (rt_sinv_calm _ _ _ [] (Forall_nil _) (incl_refl _) Si).
  - exact (rt_sinv_calm _ _ _ _ (rt_silent_calm _ Q) (incl_refl _) Si).
  - (* first transmission of a new message *)
    destruct (rt_rel_uids _ _ _ R) as [_ Ub].
    set (n := sq_mk_node (rs_uid st) s m 0 T (rc_max cfg) b).
    pose proof (rt_sinv_tx tr (rt_mk_state (rs_now st) (rs_base st) (rs_q st) (rs_uid st + 1) (rs_sess st)) [] n 0 eq_refl) as X.
    cbn [n qn_uid qn_sess qn_bytes qn_timeout rs_now] in X. rewrite Z.pow_0_r, Z.mul_1_r in X. apply X.
    + rewrite (rt_rel_fresh _ _ _ R). apply rt_ch_first.
    + intros e I. apply (rt_entries_live st []) in I. rewrite Forall_forall in Ub.
      assert (qn_uid (snd e) < rs_uid st); [|lia]. apply Ub. apply in_or_app. right. apply in_or_app. left. exact I.
    + exact Si.
  - (* first transmission of a message that waited *)
    destruct (rt_rel_uids _ _ _ R) as [D _]. unfold rt_live in D. rewrite app_assoc in D.
    assert (In_n : In n (rt_held (rs_sess st))).
    { apply (rt_held_sget_in s). fold si. rewrite Eh. left. reflexivity. }
    assert (Hn : qn_cnt n = -1) by (rewrite Forall_forall in Hm; exact (Hm n In_n)).
    pose proof (rt_sinv_tx tr st x (rt_bump_node n c) c eq_refl) as X.
    cbn [rt_bump_node qn_uid qn_sess qn_bytes qn_timeout] in X. apply X; [| |exact Si].
    + rewrite (rt_rel_unsent _ _ _ n R); [|apply in_or_app; right; apply in_or_app; right; exact In_n|exact Hn].
      unfold c. rewrite Hn. apply rt_ch_first.
    + intros e I. exact (rt_uids_apart _ _ _ _ D (rt_entries_live _ _ _ I) In_n).
  - apply (rt_sinv_calm _ (st, []) _ [] (Forall_nil _)); [|exact Si].
    unfold rt_entries. cbn [fst snd rt_set_q rs_base rs_q app]. rewrite sq_abs_bump, Eq. apply incl_refl.
  - (* the next transmission of the popped node: its entry says when the last one was *)
    destruct Si as (F & C & G). inversion F as [|? ? (l & t & E & Ed) F']; subst. cbn [fst snd] in E, Ed.
    destruct (rt_rel_uids _ _ _ R) as [D _].
    pose proof R as (_ & _ & Fn & _). inversion Fn as [|? ? (_ & B & M & _) _]; subst.
    assert (Ec : c = qn_cnt n + 1) by (apply Z.mod_small; lia).
    pose proof (rt_sinv_tx tr st [] (rt_bump_node n c) c eq_refl) as X.
    cbn [rt_bump_node qn_uid qn_sess qn_bytes qn_timeout] in X. apply X; [| |split; [exact F'|split; assumption]].
    + rewrite E, Ec. pose proof (C (qn_uid n)) as Ch. rewrite E in Ch.
      apply rt_ch_next; [exact Ch|rewrite (rt_chain_last _ _ _ _ Ch); lia|lia].
    + intros e I. apply not_eq_sym.
      refine (rt_uids_apart [n] _ n (snd e) D (or_introl eq_refl) _).
      apply in_or_app. left. exact (rt_entries_live st [] e I).
  - destruct Bad. apply (rt_sget_ok _ _ SO).
  - apply (rt_sinv_calm _ (st, []) _ [] (Forall_nil _)); [|exact Si].
    unfold rt_entries. cbn [fst snd rt_set_q rs_base rs_q app].
    apply incl_cons; [exact Id|exact (rt_removed_sub st s m t n q' Rm)].
  - (* a give-up: the node was due, and its entry says when it was transmitted last *)
    destruct Si as (F & C & G). inversion F as [|? ? (l & t & E & Ed) F']; subst. cbn [fst snd] in E, Ed.
    split; [|split].
    + rewrite Forall_forall in F' |- *. intros e I. apply rt_entry_ok_other; [reflexivity|exact (F' e I)].
    + intros u. rewrite rt_tproj_app. cbn. rewrite app_nil_r. apply C.
    + apply rt_giveups_snoc; [exact G|]. cbn. intros Er. destruct Hr as [->|(_ & _ & Due)]; [discriminate|].
      exists l, t, (qn_timeout n). split; [exact E|lia].
  - apply (rt_sinv_calm _ (st, [(d, n)])); [repeat constructor| |exact Si].
    unfold rt_entries. cbn [fst snd app]. apply incl_tl. apply incl_refl.
  - apply (rt_sinv_calm _ (st, [])); [apply rt_calm_map; intros; exact I| |exact Si].
    apply rt_cancelled_sub.
  - apply (rt_sinv_calm _ (st, [])); [| |exact Si].
    + subst ev. cbn in Hev. unfold rt_disconnect. destruct (sq_cancel _ _) as [rm q']. cbn [snd].
      destruct (_ ++ rm); [repeat constructor|]. apply rt_calm_map. intros. cbn. tauto.
    + unfold rt_disconnect.
      pose proof (rt_cancelled_sub (rt_sess_match s) (rs_q st) (rs_base st)) as Sub.
      destruct (sq_cancel _ _) as [rm q']. exact Sub.
Qed.

Lemma rt_run_sinv : forall t0 nst evs, rt_nst_ok nst -> Forall rt_ev_ok evs ->
  let R := rt_run (rt_init t0 nst) evs in rt_inv (snd R) (fst R) /\ rt_sinv (snd R) (fst R, []).
Proof.
  intros t0 nst evs Hn F.
  apply (rt_run_keep_any_fuel rt_ev_ok (fun tr c => rt_cinv tr c /\ rt_sinv tr c)) with (tr := []); [| |exact F|].
  - intros ev c o c' tr Hev S [Ir Is]. split; [exact (rt_mstep_inv ev c o c' tr Hev S Ir)|].
    exact (rt_mstep_sinv ev c o c' tr Hev S Ir Is).
  - intros st tr [Ir Is]. split; [apply rt_invx_neutral; [intros u; reflexivity|exact Ir]|].
    apply (rt_sinv_calm _ (st, [])); [repeat constructor|apply incl_refl|exact Is].
  - split; [exact (rt_inv_init t0 nst Hn)|].
    split; [constructor|]. split; [intros; constructor|exact rt_giveups_nil].
Qed.

(* transmission number i carries counter i; the next one comes with the same T, no earlier than
   T * 2^i after it *)
Lemma rt_nth_snoc : forall (A : Type) (l : list A) a i x, nth_error (l ++ [a]) i = Some x ->
  nth_error l i = Some x \/ (i = length l /\ x = a).
Proof.
  intros A l a i x H. destruct (Nat.lt_ge_cases i (length l)) as [Lt|Ge].
  - left. rewrite nth_error_app1 in H by exact Lt. exact H.
  - right. rewrite nth_error_app2 in H by exact Ge.
    destruct (i - length l)%nat as [|k] eqn:Ek; [|destruct k; discriminate].
    inversion H. split; [lia|reflexivity].
Qed.

Lemma rt_chain_nth : forall L, rt_chain L ->
  forall i t c T, nth_error L i = Some (t, c, T) ->
    c = Z.of_nat i /\
    forall t' c' T', nth_error L (S i) = Some (t', c', T') -> T' = T /\ t + T * 2 ^ Z.of_nat i <= t'.
Proof.
  intros L H. induction H as [|t1 T1|l1 t1 c1 T1 t2 H IH Hc Hle]; intros i t c T N.
  - destruct i; discriminate.
  - destruct i as [|i]; [|destruct i; discriminate]. cbn in N. inversion N; subst.
    split; [reflexivity|]. intros t' c' T' N'. discriminate.
  - unfold rt_tx3 in *.   (* lia tells lengths over rt_tx3 and over Z * Z * Z apart *)
    pose proof (rt_chain_last l1 t1 c1 T1 H) as Ec.
    assert (Len : length (l1 ++ [(t1, c1, T1)]) = S (length l1)) by (rewrite app_length; cbn; lia).
    destruct (rt_nth_snoc _ _ _ _ _ N) as [N1|[Ei Ex]].
    + destruct (IH i t c T N1) as [Ei Nx]. split; [exact Ei|]. intros t' c' T' N'.
      destruct (rt_nth_snoc _ _ _ _ _ N') as [N1'|[Ei' Ex']]; [exact (Nx t' c' T' N1')|].
      (* the next one is the new transmission: this one is the last of the chain so far *)
      assert (Ei2 : i = length l1) by lia. subst i.
      rewrite nth_error_app2, Nat.sub_diag in N1 by lia. inversion N1; inversion Ex'; subst.
      split; [reflexivity|exact Hle].
    + split; [inversion Ex; lia|]. intros t' c' T' N'.
      rewrite (proj2 (nth_error_None _ _)) in N' by (rewrite app_length; cbn; lia). discriminate.
Qed.

Section Run.
  Variables (t0 : Z) (nst : list (Z * Z)) (evs : list rt_event).
  Hypotheses (Hn : rt_nst_ok nst) (F : Forall rt_ev_ok evs).
  Let st := fst (rt_run (rt_init t0 nst) evs).
  Let tr := snd (rt_run (rt_init t0 nst) evs).

  Lemma rt_run_chain : forall u, rt_chain (rt_tproj u tr).
  Proof. exact (proj1 (proj2 (proj2 (rt_run_sinv t0 nst evs Hn F)))). Qed.

  (* the deadline of every queued message: last transmission + T * 2^retransmit_cnt *)
  Lemma rt_run_entries : forall e, In e (sq_abs (rs_base st) (rs_q st)) -> rt_entry_ok tr e.
  Proof. apply Forall_forall. exact (proj1 (proj2 (rt_run_sinv t0 nst evs Hn F))). Qed.

  Lemma rt_run_giveups : rt_giveups_ok tr.
  Proof. exact (proj2 (proj2 (proj2 (rt_run_sinv t0 nst evs Hn F)))). Qed.
End Run.
