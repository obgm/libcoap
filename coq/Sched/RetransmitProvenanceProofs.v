(* C06 - provenance (proofs): every datagram the machine transmits is the unchanged byte string of
   a message that was submitted, on the session it was submitted on, and the timeout T it is
   scheduled with is coap_calc_timeout of THAT session's settings and the one random byte drawn
   at submission.  With fp_timeout_range this puts every T of every trace into
   [ACK_TIMEOUT, ACK_TIMEOUT * ACK_RANDOM_FACTOR] of its session. *)
From LibcoapV Require Import Base.Tactics Sched.FixedPoint Sched.FixedPointProofs Sched.SendQueue
  Sched.Retransmit Sched.RetransmitSteps Sched.RetransmitProofs.
From Coq Require Import Sorting.Permutation.
Local Open Scope Z_scope.

Definition rt_cfg_T (cfg : rt_cfg) (r : Z) : Z :=
  fp_calc_timeout (rc_at_ip cfg) (rc_at_fp cfg) (rc_arf_ip cfg) (rc_arf_fp cfg) r.

(* node n stems from a submission among the events E *)
Definition rt_node_from (E : list rt_event) (n : sq_node) : Prop :=
  exists cfg r, In (RtSend (qn_sess n) (qn_mid n) (qn_bytes n) cfg r) E /\
                qn_timeout n = rt_cfg_T cfg r /\ qn_max n = rc_max cfg.

Definition rt_out_from (E : list rt_event) (o : rt_out) : Prop :=
  match o with
  | RoTx _ _ s b _ T => exists m cfg r, In (RtSend s m b cfg r) E /\ T = rt_cfg_T cfg r
  | RoNack _ _ s _ m _ mx => exists b cfg r, In (RtSend s m b cfg r) E /\ mx = rc_max cfg
  | _ => True
  end.

(* all pending nodes stem from E, and so do the outputs so far *)
Definition rt_pinv (E : list rt_event) (tr : list rt_out) (c : rt_conf) : Prop :=
  Forall (rt_node_from E) (map snd (snd c)) /\ Forall (rt_node_from E) (rt_nodes (rs_q (fst c))) /\
  Forall (rt_node_from E) (rt_held (rs_sess (fst c))) /\ Forall (rt_out_from E) tr.

Lemma rt_tx_from : forall E n t c, rt_node_from E n ->
  rt_out_from E (RoTx t (qn_uid n) (qn_sess n) (qn_bytes n) c (qn_timeout n)).
Proof. intros E n t c (cfg & r & I & A & _). exists (qn_mid n), cfg, r. auto. Qed.

Lemma rt_nack_from : forall E n t reason, rt_node_from E n -> rt_out_from E (rt_nack_of t reason n).
Proof. intros E n t reason (cfg & r & I & _ & B). exists (qn_bytes n), cfg, r. auto. Qed.

Lemma rt_silent_from : forall E o, Forall rt_silent o -> Forall (rt_out_from E) o.
Proof. intros E o F. eapply Forall_impl; [|exact F]. intros []; cbn; tauto. Qed.

Lemma rt_mstep_pinv : forall E ev c o c' tr,
  In ev E -> rt_mstep ev c o c' -> rt_pinv E tr c -> rt_pinv E (tr ++ o) c'.
Proof.
  intros E ev c o c' tr Iev S. unfold rt_pinv.
  destruct S as [st x o Q|st t _|st x s a si Ha|st s m b cfg r Ev si T|st s m b cfg r Ev T|st x s n dq si Eh Ha c
                |st t n rest Eq|st d n Hc Due c|st d n si Bad c|st s m t n q' d Rm _|st d n reason Hr|st d n
                |st p|st s reason Ev];
    cbn [fst snd map]; intros (Px & Pq & Ph & Po); try rewrite app_nil_r.
  - repeat split; try assumption. apply Forall_app. split; [exact Po|apply rt_silent_from; exact Q].
  - auto.
  - repeat split; try assumption. cbn [rt_set_sess rs_sess].
    apply rt_held_sset_Forall; [exact Ph|]. apply rt_held_sget_Forall. exact Ph.
  - repeat split; try assumption. cbn [rs_sess]. apply rt_held_sset_Forall; [exact Ph|]. cbn [si_hold].
    apply Forall_app. split.
    + apply rt_held_sget_Forall. exact Ph.
    + constructor; [|constructor]. exists cfg, r. subst ev. cbn. auto.
  - destruct (rt_enqueue_fields (rt_mk_state (rs_now st) (rs_base st) (rs_q st) (rs_uid st + 1) (rs_sess st))
                (sq_mk_node (rs_uid st) s m 0 T (rc_max cfg) b) T) as (_ & _ & Se).
    split; [exact Px|]. split; [|split; [rewrite Se; exact Ph|]].
    + eapply Permutation_Forall; [apply Permutation_sym; apply rt_enqueue_nodes|]. constructor; [|exact Pq].
      exists cfg, r. subst ev. cbn. auto.
    + apply Forall_app. split; [exact Po|]. constructor; [|constructor]. exists m, cfg, r. subst ev. auto.
  - assert (Hs : Forall (rt_node_from E) (n :: dq)).
    { rewrite <- Eh. apply rt_held_sget_Forall. exact Ph. }
    inversion Hs as [|? ? Hn Hdq]; subst.
    split; [exact Px|]. cbn [rt_set_sess rs_q rs_sess]. split; [|split].
    + eapply Permutation_Forall; [apply Permutation_sym; apply rt_enqueue_nodes|]. constructor; assumption.
    + apply rt_held_sset_Forall; assumption.
    + apply Forall_app. split; [exact Po|]. constructor; [|constructor]. apply (rt_tx_from E n). exact Hn.
  - rewrite Eq in Pq. inversion Pq; subst. cbn [rt_set_q rs_q rs_sess]. rewrite rt_nodes_bump. repeat split; auto.
  - inversion Px as [|? ? Hn _]; subst.
    destruct (rt_enqueue_fields st (rt_bump_node n c) (qn_timeout n * 2 ^ c)) as (_ & _ & Se).
    split; [constructor|]. split; [|split; [rewrite Se; exact Ph|]].
    + eapply Permutation_Forall; [apply Permutation_sym; apply rt_enqueue_nodes|]. constructor; assumption.
    + apply Forall_app. split; [exact Po|]. constructor; [|constructor]. apply (rt_tx_from E n). exact Hn.
  - inversion Px as [|? ? Hn _]; subst.
    destruct (rt_enqueue_fields st (rt_bump_node n c) (qn_timeout n * 2 ^ c)) as (_ & _ & Se).
    split; [constructor|]. split; [|split; [rewrite Se; exact Ph|]].
    + eapply Permutation_Forall; [apply Permutation_sym; apply rt_enqueue_nodes|]. constructor; assumption.
    + apply Forall_app. split; [exact Po|]. repeat constructor.
  - destruct (rt_nodes_remove _ _ _ _ _ _ Rm) as [Pm _]. eapply Permutation_Forall in Pq; [|exact Pm].
    inversion Pq; subst. cbn [rt_set_q rs_q rs_sess]. repeat split; auto.
  - inversion Px as [|? ? Hn _]; subst. repeat split; auto. apply Forall_app. split; [exact Po|].
    constructor; [|constructor]. apply rt_nack_from. exact Hn.
  - repeat split; auto. apply Forall_app. split; [exact Po|]. repeat constructor.
  - pose proof (rt_nodes_cancel p (rs_q st)) as Pm. eapply Permutation_Forall in Pq; [|exact Pm].
    apply Forall_app in Pq. cbn [rt_set_q rs_q rs_sess]. repeat split; try tauto.
    apply Forall_app. split; [exact Po|]. apply Forall_map. apply Forall_forall. intros; exact I.
  - unfold rt_disconnect. pose proof (rt_nodes_cancel (rt_sess_match s) (rs_q st)) as Pm.
    destruct (sq_cancel (rt_sess_match s) (rs_q st)) as [rm q']. cbn [fst snd] in *.
    eapply Permutation_Forall in Pq; [|exact Pm]. apply Forall_app in Pq. destruct Pq as [Prm Pq'].
    cbn [rt_set_sess rt_set_q rs_q rs_sess]. split; [constructor|]. split; [exact Pq'|]. split.
    + apply rt_held_sset_Forall; [exact Ph|constructor].
    + apply Forall_app. split; [exact Po|].
      assert (Hg : Forall (rt_node_from E) (si_hold (rt_sget s (rs_sess st)) ++ rm)).
      { apply Forall_app. split; [apply rt_held_sget_Forall; exact Ph|exact Prm]. }
      destruct (_ ++ rm); [repeat constructor|]. apply Forall_map.
      eapply Forall_impl; [|exact Hg]. intros y. apply rt_nack_from.
Qed.

(* every transmitted datagram: bytes, session and T of a submitted message *)
Theorem rt_tx_provenance : forall t0 nst evs t u s b c T,
  In (RoTx t u s b c T) (snd (rt_run (rt_init t0 nst) evs)) ->
  exists m cfg r, In (RtSend s m b cfg r) evs /\ T = rt_cfg_T cfg r.
Proof.
  intros t0 nst evs t u s b c T I.
  assert (P : rt_pinv evs (snd (rt_run (rt_init t0 nst) evs)) (fst (rt_run (rt_init t0 nst) evs), [])).
  { apply (rt_run_keep_any_fuel (fun ev => In ev evs) (rt_pinv evs) (rt_mstep_pinv evs)) with (tr := []).
    - intros st tr (Px & Pq & Ph & Po). repeat split; try assumption. apply Forall_app. split; [exact Po|repeat constructor].
    - apply Forall_forall. auto.
    - unfold rt_pinv, rt_init. cbn [fst snd map rs_q rs_sess rt_nodes]. rewrite rt_held_init. repeat split; constructor. }
  destruct P as (_ & _ & _ & O). rewrite Forall_forall in O. exact (O _ I).
Qed.

(* hence every T of every trace lies in the range of its session's settings *)
Theorem rt_tx_timeout_in_range : forall t0 nst evs t u s b c T,
  (forall s' m b' cfg r, In (RtSend s' m b' cfg r) evs ->
     fp_setting_ok (rc_at_ip cfg) (rc_at_fp cfg) /\ fp_setting_ok (rc_arf_ip cfg) (rc_arf_fp cfg) /\
     0 <= r <= 255) ->
  In (RoTx t u s b c T) (snd (rt_run (rt_init t0 nst) evs)) ->
  exists m cfg r, In (RtSend s m b cfg r) evs /\
    fp_lo (fp_Q (rc_at_ip cfg) (rc_at_fp cfg)) <= T <=
    fp_hi (fp_Q (rc_at_ip cfg) (rc_at_fp cfg)) (fp_Q (rc_arf_ip cfg) (rc_arf_fp cfg)) /\
    fp_ms (rc_at_ip cfg) (rc_at_fp cfg) - 8 <= T /\
    1000 * T <= (fp_ms (rc_at_ip cfg) (rc_at_fp cfg) + 8) * (fp_ms (rc_arf_ip cfg) (rc_arf_fp cfg) + 8) + 8313.
Proof.
  intros t0 nst evs t u s b c T Ok I.
  destruct (rt_tx_provenance _ _ _ _ _ _ _ _ _ I) as (m & cfg & r & Is & ET).
  exists m, cfg, r. split; [exact Is|]. destruct (Ok _ _ _ _ _ Is) as (Ha & Hf & Hr).
  destruct (fp_timeout_range _ _ _ _ r Ha Hf Hr) as (B & L & H & _). unfold rt_cfg_T in ET. rewrite <- ET in B.
  split; [exact B|]. split; lia.
Qed.
