(* C06 - timing of the retransmission machine (proofs): the firing loop always terminates within
   its bound, soundness of the reported wait, and the exact schedule under a punctual driver. *)
From LibcoapV Require Import Base.Tactics Sched.FixedPoint Sched.FixedPointProofs Sched.SendQueue Sched.SendQueueProofs
  Sched.Retransmit Sched.RetransmitSteps Sched.RetransmitProofs.
From Coq Require Import Sorting.Permutation.
Local Open Scope Z_scope.

Definition rt_nbound (n : sq_node) : Prop :=
  0 <= qn_cnt n <= qn_max n /\ qn_max n <= 255 /\ 0 <= qn_timeout n.
(* a message that waits for a slot *)
Definition rt_hbound (n : sq_node) : Prop :=
  qn_cnt n = -1 /\ 0 <= qn_max n <= 255 /\ 0 <= qn_timeout n.

(* the queue's part ... *)
Definition rt_qinv (st : rt_state) : Prop :=
  sq_wf (rs_q st) /\ (rs_q st <> [] -> rs_base st <= rs_now st) /\
  Forall rt_nbound (rt_nodes (rs_q st)).
(* ... and the sessions' part *)
Definition rt_tinv (st : rt_state) : Prop :=
  rt_qinv st /\ Forall rt_hbound (rt_held (rs_sess st)) /\ rt_slots_ok (rs_sess st).

Lemma rt_tinv_init : forall t0 nst, rt_nst_ok nst -> rt_tinv (rt_init t0 nst).
Proof.
  intros t0 nst H. split; [|split; [|exact (rt_slots_ok_init t0 nst H)]].
  - split; [exact I|split; [intros X; contradiction|constructor]].
  - cbn [rt_init rs_sess]. rewrite rt_held_init. constructor.
Qed.

Lemma rt_enqueue_qinv : forall st n d, rt_qinv st -> rt_nbound n -> rt_qinv (rt_enqueue st n d).
Proof.
  intros st n d (W & B & F) Hn. unfold rt_qinv, rt_enqueue. destruct (rs_q st) as [|e q] eqn:E.
  - cbn. split; [constructor|]. split; [intros _; lia|]. constructor; [exact Hn|constructor].
  - cbn [rs_q rt_set_q rs_base rs_now]. split; [apply sq_insert_wf; exact W|]. split.
    + intros _. apply B. discriminate.
    + eapply Permutation_Forall; [apply Permutation_sym; apply rt_nodes_insert|].
      constructor; assumption.
Qed.

Lemma rt_enqueue_tinv : forall st n d, rt_tinv st -> rt_nbound n -> rt_tinv (rt_enqueue st n d).
Proof.
  intros st n d (Q & H & SO) Hn. destruct (rt_enqueue_fields st n d) as (_ & _ & S).
  split; [apply rt_enqueue_qinv; assumption|]. rewrite S. split; assumption.
Qed.

Lemma rt_set_q_tinv : forall st q', rt_tinv st -> sq_wf q' -> (q' <> [] -> rs_q st <> []) ->
  Forall rt_nbound (rt_nodes q') -> rt_tinv (rt_set_q st q').
Proof.
  intros st q' ((W & B & F) & H & SO) W' Hne F'. split; [|split; assumption].
  split; [exact W'|]. split; [|exact F']. cbn. intros X. apply B. apply Hne. exact X.
Qed.

Lemma rt_set_sess_tinv : forall st s e, rt_tinv st -> rt_sinfo_ok e -> Forall rt_hbound (si_hold e) ->
  rt_tinv (rt_set_sess st (rt_sset s e (rs_sess st))).
Proof.
  intros st s e (Q & H & SO) Oe He. split; [exact Q|]. cbn [rt_set_sess rs_sess].
  split; [apply rt_held_sset_Forall|apply rt_sset_ok]; assumption.
Qed.

Lemma rt_set_now_tinv : forall st t, rt_tinv st -> rs_now st <= t -> rt_tinv (rt_set_now st t).
Proof.
  intros st t ((W & B & F) & H & SO) Le. split; [|split; assumption]. split; [exact W|]. split; [|exact F].
  cbn. intros X. specialize (B X). lia.
Qed.

Lemma rt_removed_tinv : forall st s m t n q', rt_tinv st -> sq_remove (rs_q st) s m = Some ((t, n), q') ->
  rt_tinv (rt_set_q st q') /\ rt_nbound n.
Proof.
  intros st s m t n q' T Rm. pose proof T as ((W & B & F) & _ & _).
  destruct (rt_nodes_remove _ _ _ _ _ _ Rm) as [P _].
  eapply Permutation_Forall in F; [|exact P]. inversion F; subst. split; [|assumption].
  apply rt_set_q_tinv; [exact T| | |assumption].
  - eapply sq_remove_wf; eauto.
  - intros _ X. rewrite X in Rm. discriminate.
Qed.

Lemma rt_cancelled_tinv : forall st p, rt_tinv st -> rt_tinv (rt_set_q st (snd (sq_cancel p (rs_q st)))).
Proof.
  intros st p T. pose proof T as ((W & B & F) & _ & _).
  pose proof (rt_nodes_cancel p (rs_q st)) as P. pose proof (sq_cancel_wf p (rs_q st) W) as Wc.
  destruct (sq_cancel p (rs_q st)) as [rm q'] eqn:Ec. cbn [fst snd] in *.
  apply rt_set_q_tinv; [exact T|exact Wc| |].
  - intros X Y. rewrite Y in Ec. cbn in Ec. inversion Ec; subst. contradiction.
  - eapply Permutation_Forall in F; [|exact P]. apply Forall_app in F. tauto.
Qed.

(* the node beside the state is within its bounds too *)
Definition rt_tinvx (c : rt_conf) : Prop := rt_tinv (fst c) /\ Forall rt_nbound (map snd (snd c)).

Lemma rt_silent_nofuel : forall o, Forall rt_silent o -> ~ In RoFuel o.
Proof. intros o F I. rewrite Forall_forall in F. exact (F _ I). Qed.

Lemma rt_mstep_tinv : forall ev c o c',
  rt_ev_ok ev -> rt_mstep ev c o c' -> rt_tinvx c -> rt_tinvx c' /\ ~ In RoFuel o.
Proof.
  intros ev c o c' Hev S. unfold rt_tinvx.
  destruct S as [st x o Q|st t Ht|st x s a si Ha|st s m b cfg r Ev si T|st s m b cfg r Ev T|st x s n dq si Eh Ha c
                |st t n rest Eq|st d n Hc Due c|st d n si Bad c|st s m t n q' d Rm _|st d n reason Hr|st d n
                |st p|st s reason Ev];
    cbn [fst snd map]; intros [Ti Tx].
  - split; [split; assumption|apply rt_silent_nofuel; exact Q].
  - split; [|intros []]. split; [|exact Tx]. apply rt_set_now_tinv; [exact Ti|]. destruct ev; cbn in Hev; lia.
  - split; [|intros []]. split; [|exact Tx]. pose proof Ti as (_ & H & SO).
    destruct (rt_sget_ok s _ SO) as [Oa On]. apply rt_set_sess_tinv; [exact Ti|split; [apply Ha|]; assumption|].
    apply rt_held_sget_Forall. exact H.
  - split; [|intros []]. split; [|exact Tx]. pose proof Ti as (_ & H & SO). subst ev. cbn in Hev.
    destruct (rt_sget_ok s _ SO) as [Oa On].
    refine (rt_set_sess_tinv st s (rt_mk_sinfo _ _ _) Ti (conj Oa On) _). cbn [si_hold].
    apply Forall_app. split; [apply rt_held_sget_Forall; exact H|]. constructor; [|constructor].
    unfold rt_hbound. cbn [qn_cnt qn_max qn_timeout].
    pose proof (fp_calc_timeout_nonneg (rc_at_ip cfg) (rc_at_fp cfg) (rc_arf_ip cfg) (rc_arf_fp cfg) r) as HT. fold T in HT. lia.
  - split; [|intros [X|[]]; discriminate]. split; [|exact Tx]. subst ev. cbn in Hev.
    apply rt_enqueue_tinv; [exact Ti|]. unfold rt_nbound. cbn [qn_cnt qn_max qn_timeout].
    pose proof (fp_calc_timeout_nonneg (rc_at_ip cfg) (rc_at_fp cfg) (rc_arf_ip cfg) (rc_arf_fp cfg) r) as HT. fold T in HT. lia.
  - split; [|intros [X|[]]; discriminate]. split; [|exact Tx]. pose proof Ti as (_ & H & SO).
    destruct (rt_sget_ok s _ SO) as [Oa On]. fold si in Oa, On.
    pose proof (rt_held_sget_Forall _ s _ H) as Hs. fold si in Hs. rewrite Eh in Hs.
    inversion Hs as [|? ? (Hc & Hm & Ht) Hdq]; subst.
    assert (T1 : rt_tinv (rt_enqueue st (rt_bump_node n c) (qn_timeout n * 2 ^ c))).
    { apply rt_enqueue_tinv; [exact Ti|]. unfold rt_nbound, rt_bump_node, c. cbn [qn_cnt qn_max qn_timeout]. lia. }
    destruct (rt_enqueue_fields st (rt_bump_node n c) (qn_timeout n * 2 ^ c)) as (_ & _ & Se). rewrite <- Se.
    apply rt_set_sess_tinv; [exact T1|split; cbn; lia|exact Hdq].
  - split; [|intros []]. pose proof Ti as ((W & B & F) & _ & _). rewrite Eq in W, F. inversion F; subst. split.
    + apply rt_set_q_tinv; [exact Ti|apply sq_bump_wf; exact W|rewrite Eq; discriminate|rewrite rt_nodes_bump; assumption].
    + constructor; [assumption|constructor].
  - split; [|intros [X|[]]; discriminate]. inversion Tx as [|? ? (C0 & M & TO) _]; subst. split; [|constructor].
    apply rt_enqueue_tinv; [exact Ti|]. unfold rt_nbound, rt_bump_node. cbn [qn_cnt qn_max qn_timeout].
    assert (c = qn_cnt n + 1) by (apply Z.mod_small; lia). lia.
  - destruct Bad. destruct Ti as (_ & _ & SO). apply (rt_sget_ok _ _ SO).
  - split; [|intros []]. destruct (rt_removed_tinv st s m t n q' Ti Rm). split; [assumption|]. constructor; [assumption|constructor].
  - split; [split; [exact Ti|constructor]|intros [X|[]]; discriminate].
  - split; [split; [exact Ti|constructor]|intros [X|[]]; discriminate].
  - split; [split; [apply rt_cancelled_tinv; exact Ti|constructor]|].
    intros I. apply in_map_iff in I. destruct I as (y & Y & _). discriminate.
  - unfold rt_disconnect. pose proof (rt_cancelled_tinv st (rt_sess_match s) Ti) as T1.
    destruct (sq_cancel (rt_sess_match s) (rs_q st)) as [rm q']. cbn [fst snd] in *. split.
    + split; [|constructor]. pose proof Ti as (_ & _ & SO). destruct (rt_sget_ok s _ SO) as [Oa On].
      apply (rt_set_sess_tinv (rt_set_q st q') s _ T1); [split; cbn [si_nstart si_active]; lia|constructor].
    + destruct (_ ++ rm); [intros [X|[]]; discriminate|].
      intros I. apply in_map_iff in I. destruct I as (y & Y & _). discriminate.
Qed.

Definition rt_cost (n : sq_node) : nat := S (Z.to_nat (qn_max n - qn_cnt n)).
Definition rt_hb (l : list sq_node) : nat := rt_budget (map (fun n => (0, n)) l).

Lemma rt_budget_cons : forall t n q, rt_budget ((t, n) :: q) = (rt_cost n + rt_budget q)%nat.
Proof. reflexivity. Qed.

Lemma rt_hb_cons : forall n l, rt_hb (n :: l) = (rt_cost n + rt_hb l)%nat.
Proof. reflexivity. Qed.

Lemma rt_hb_app : forall a b, rt_hb (a ++ b) = (rt_hb a + rt_hb b)%nat.
Proof. induction a as [|n a IH]; intros b; [reflexivity|]. cbn [app]. rewrite !rt_hb_cons, IH. lia. Qed.

Lemma rt_hb_perm : forall a b, Permutation a b -> rt_hb a = rt_hb b.
Proof.
  intros a b P. induction P.
  - reflexivity.
  - rewrite !rt_hb_cons. lia.
  - rewrite !rt_hb_cons. lia.
  - congruence.
Qed.

Lemma rt_budget_bump : forall d q, rt_budget (sq_bump d q) = rt_budget q.
Proof. intros d [|[t n] r]; reflexivity. Qed.

Lemma rt_budget_ins_go : forall q t n, rt_budget (sq_ins_go t n q) = (rt_cost n + rt_budget q)%nat.
Proof.
  induction q as [|[t1 n1] rest IH]; intros t n; [reflexivity|].
  cbn [sq_ins_go]. destruct (t1 <=? t).
  - rewrite !rt_budget_cons, IH. lia.
  - rewrite !rt_budget_cons. reflexivity.
Qed.

Lemma rt_budget_enqueue : forall st n d,
  rt_budget (rs_q (rt_enqueue st n d)) = (rt_cost n + rt_budget (rs_q st))%nat.
Proof.
  intros. unfold rt_enqueue. destruct (rs_q st) as [|e q] eqn:E; cbn [rs_q rt_set_q];
    rewrite sq_insert_eq_go; apply rt_budget_ins_go.
Qed.

Lemma rt_budget_all_eq : forall st, rt_budget_all st = (rt_budget (rs_q st) + rt_hb (rt_held (rs_sess st)))%nat.
Proof. reflexivity. Qed.

(* releasing never raises the bound: the released node is one transmission nearer to its end *)
Lemma rt_release_go_budget : forall dq st ns ca,
  let '(st2, _, dq2, _) := rt_release_go st ns ca dq in
  (rt_budget (rs_q st2) + rt_hb dq2 <= rt_budget (rs_q st) + rt_hb dq)%nat.
Proof.
  induction dq as [|n dq IH]; intros st ns ca; cbn [rt_release_go]; [lia|].
  destruct (ns <=? ca); [lia|].
  specialize (IH (rt_enqueue st (rt_bump_node n (qn_cnt n + 1)) (qn_timeout n * 2 ^ (qn_cnt n + 1))) ns (ca + 1)).
  destruct (rt_release_go _ ns (ca + 1) dq) as [[[st2 ca2] dq2] o2].
  rewrite rt_budget_enqueue in IH. rewrite rt_hb_cons. unfold rt_cost, rt_bump_node in *. cbn [qn_max qn_cnt] in *. lia.
Qed.

Lemma rt_free_slot_budget : forall st s, (rt_budget_all (fst (rt_free_slot st s)) <= rt_budget_all st)%nat.
Proof.
  intros st s. unfold rt_free_slot, rt_release. set (si := rt_sget s (rs_sess st)).
  destruct (0 <? si_active si); [|cbn; lia].
  cbn [rt_set_sess rs_sess]. rewrite rt_sget_sset. cbn [si_nstart si_active si_hold].
  set (tbl0 := rt_sset s (rt_mk_sinfo (si_nstart si) (si_active si - 1) (si_hold si)) (rs_sess st)).
  pose proof (rt_release_go_budget (si_hold si) (rt_set_sess st tbl0) (si_nstart si) (si_active si - 1)) as B.
  pose proof (rt_release_go_fields (si_hold si) (rt_set_sess st tbl0) (si_nstart si) (si_active si - 1)) as F.
  destruct (rt_release_go _ _ _ (si_hold si)) as [[[st1 ca] dq] o]. destruct F as [_ S].
  cbn [fst rt_set_sess rs_q rs_sess] in *. rewrite !rt_budget_all_eq. cbn [rs_q rs_sess]. rewrite S.
  unfold tbl0. rewrite rt_sset_sset. destruct (rt_held_get_set s (rs_sess st)) as (rest & P1 & P2).
  cbn [rt_set_sess rs_q rs_sess]. rewrite (rt_hb_perm _ _ (P2 _)), (rt_hb_perm _ _ P1), !rt_hb_app. cbn [si_hold]. fold si. lia.
Qed.

Lemma rt_retransmit_budget : forall st n, rt_nbound n ->
  (S (rt_budget_all (fst (rt_retransmit st n))) <= rt_cost n + rt_budget_all st)%nat.
Proof.
  intros st n (C & M & _). unfold rt_retransmit. destruct (qn_cnt n <? qn_max n) eqn:E.
  - assert (Em : (qn_cnt n + 1) mod 256 = qn_cnt n + 1) by (apply Z.mod_small; lia). rewrite Em.
    pose proof (rt_budget_enqueue st (rt_bump_node n (qn_cnt n + 1)) (qn_timeout n * 2 ^ (qn_cnt n + 1))) as Bq.
    destruct (rt_enqueue_fields st (rt_bump_node n (qn_cnt n + 1)) (qn_timeout n * 2 ^ (qn_cnt n + 1))) as (_ & _ & Se).
    set (st1 := rt_enqueue st _ _) in *.
    assert (B1 : (S (rt_budget_all st1) <= rt_cost n + rt_budget_all st)%nat).
    { rewrite !rt_budget_all_eq, Bq, Se. unfold rt_cost, rt_bump_node. cbn [qn_max qn_cnt]. lia. }
    destruct (_ <=? _); cbn [fst]; [exact B1|].
    rewrite rt_budget_all_eq in *. cbn [rt_set_sess rs_q rs_sess].
    erewrite rt_hb_perm; [|apply rt_held_same_hold; reflexivity]. exact B1.
  - pose proof (rt_free_slot_budget st (qn_sess n)) as B. destruct (rt_free_slot st (qn_sess n)) as [st1 o1].
    cbn [fst] in *. unfold rt_cost. lia.
Qed.

(* the invariant, and no marker of the loop bound so far *)
Definition rt_tinvf (tr : list rt_out) (c : rt_conf) : Prop := rt_tinvx c /\ ~ In RoFuel tr.

Lemma rt_mstep_tinvf : forall ev c o c' tr,
  rt_ev_ok ev -> rt_mstep ev c o c' -> rt_tinvf tr c -> rt_tinvf (tr ++ o) c'.
Proof.
  intros ev c o c' tr Hev S [T NF]. destruct (rt_mstep_tinv ev c o c' Hev S T) as [T' NF'].
  split; [exact T'|]. intros I. apply in_app_or in I. tauto.
Qed.

Lemma rt_fire_enough : forall ev fuel st, rt_ev_ok ev ->
  rt_tinv st -> (rt_budget_all st <= fuel)%nat ->
  let (st', o) := rt_fire fuel st in
  ~ In RoFuel o /\ rt_due st' = false /\ rt_tinv st' /\ rs_now st' = rs_now st.
Proof.
  intros ev. induction fuel as [|f IH]; intros st Hev T Bu; cbn [rt_fire].
  - assert (Q : rs_q st = []).
    { destruct (rs_q st) as [|[t n] q] eqn:E; [reflexivity|]. rewrite rt_budget_all_eq, E, rt_budget_cons in Bu.
      unfold rt_cost in Bu. lia. }
    unfold rt_due. rewrite Q. cbn. tauto.
  - destruct (rt_due st) eqn:D; [|cbn; tauto].
    destruct (rt_due_head st D) as (t0 & n0 & rest & Q & Le). rewrite Q. cbn [sq_pop].
    set (st0 := rt_set_q st (sq_bump t0 rest)).
    assert (T0 : rt_tinvf [] (st0, [(rs_base st + t0, n0)])).
    { apply (rt_mstep_tinvf ev _ [] _ [] Hev (rt_ms_pop ev st t0 n0 rest Q)). split; [split; [exact T|constructor]|intros []]. }
    destruct (rt_retransmit_keep ev rt_tinvf (fun c o c' tr => rt_mstep_tinvf ev c o c' tr Hev) st0 _ n0 [] Le T0)
      as [[T1 _] NF1].
    pose proof T0 as [[_ Hn] _]. inversion Hn as [|? ? Hn0 _]; subst.
    pose proof (rt_retransmit_budget st0 n0 Hn0) as B1. pose proof (rt_retransmit_now st0 n0) as N1.
    assert (Bq : rt_budget_all st = (rt_cost n0 + rt_budget_all st0)%nat).
    { rewrite !rt_budget_all_eq. unfold st0. cbn [rt_set_q rs_q rs_sess]. rewrite Q, rt_budget_cons, rt_budget_bump. lia. }
    destruct (rt_retransmit st0 n0) as [st1 o1]. cbn [fst snd app] in *.
    specialize (IH st1 Hev T1 ltac:(lia)). destruct (rt_fire f st1) as [st2 o2].
    destruct IH as (NF & D2 & T3 & N3). split; [|split; [exact D2|split; [exact T3|]]].
    + intros I. apply in_app_or in I. tauto.
    + rewrite N3, N1. reflexivity.
Qed.

Lemma rt_fire_all_ok : forall st, rt_tinv st ->
  let (st', o) := rt_fire_all st in
  ~ In RoFuel o /\ rt_due st' = false /\ rt_tinv st' /\ rs_now st' = rs_now st.
Proof. intros st T. unfold rt_fire_all. apply (rt_fire_enough RtTick); [exact I|exact T|lia]. Qed.

Lemma rt_fire_all_tinvf : forall st tr,
  rt_tinvf tr (st, []) -> rt_tinvf (tr ++ snd (rt_fire_all st)) (fst (rt_fire_all st), []).
Proof.
  intros st tr [[T _] NF]. pose proof (rt_fire_all_ok st T) as H. destruct (rt_fire_all st) as [st' o].
  destruct H as (NF' & _ & T' & _). split; [split; [exact T'|constructor]|].
  intros I. apply in_app_or in I. tauto.
Qed.

Lemma rt_step_tinv : forall st ev, rt_ev_ok ev -> rt_tinv st ->
  rt_tinv (fst (rt_step st ev)) /\ ~ In RoFuel (snd (rt_step st ev)).
Proof.
  intros st ev Hev T.
  destruct (rt_step_keep rt_ev_ok rt_tinvf rt_mstep_tinvf (fun _ st tr _ => rt_fire_all_tinvf st tr) st ev [] Hev)
    as [[T' _] NF]; [split; [split; [exact T|constructor]|intros []]|]. auto.
Qed.

Theorem rt_run_tinv : forall evs st, Forall rt_ev_ok evs -> rt_tinv st ->
  rt_tinv (fst (rt_run st evs)) /\ ~ In RoFuel (snd (rt_run st evs)).
Proof.
  intros evs st F T.
  destruct (rt_run_keep rt_ev_ok rt_tinvf rt_mstep_tinvf (fun _ st tr _ => rt_fire_all_tinvf st tr) evs st [] F)
    as [[T' _] NF]; [split; [split; [exact T|constructor]|intros []]|]. auto.
Qed.

Lemma rt_ceil_ms : forall t, (t * 1000 + fp_tps - 1) / fp_tps = t.
Proof. intros. unfold fp_tps. lia. Qed.

(* the value reported by a prepare call in a state that satisfies the invariant *)
Definition rt_wait_ok (st' : rt_state) (w hd : Z) : Prop :=
  match sq_abs (rs_base st') (rs_q st') with
  | [] => w = 0 /\ hd = -1                       (* 0 = nothing pending *)
  | (d, _) :: rest =>
      hd = d /\ rs_now st' < d /\                 (* everything that was due has been fired *)
      Forall (fun e => d <= fst e) rest /\        (* d is the earliest pending deadline *)
      w = fp_u32 (d - rs_now st') /\              (* (unsigned int) of the distance *)
      0 <= w <= d - rs_now st' /\                 (* never later than that deadline *)
      (d - rs_now st' < 4294967296 -> w = d - rs_now st' /\ 0 < w)
  end.

Lemma rt_wait_after_fire : forall st1 w hd,
  rt_tinv st1 -> rt_due st1 = false -> rt_wait st1 = (w, hd) -> rt_wait_ok st1 w hd.
Proof.
  intros st1 w hd ((W & B & F) & _ & _) D Wt. unfold rt_wait_ok. unfold rt_wait in Wt.
  destruct (rs_q st1) as [|[t0 n0] rest] eqn:Q.
  - inversion Wt; subst. cbn. tauto.
  - inversion Wt; subst. cbn [sq_abs].
    assert (Lt : rs_base st1 <= rs_now st1 < rs_base st1 + t0).
    { unfold rt_due in D. rewrite Q in D. specialize (B ltac:(discriminate)). lia. }
    rewrite rt_ceil_ms.
    replace (t0 - (rs_now st1 - rs_base st1)) with (rs_base st1 + t0 - rs_now st1) by lia.
    split; [reflexivity|]. split; [lia|]. split; [|split; [reflexivity|split]].
    + cbn in W. exact (proj2 (sq_abs_sorted_from rest (rs_base st1 + t0) W)).
    + apply fp_u32_le. lia.
    + intros Small. rewrite fp_u32_small by lia. lia.
Qed.

Theorem rt_tick_wait_sound : forall st, rt_tinv st ->
  let (st', o) := rt_tick st in
  exists o' w hd, o = o' ++ [RoWait (rs_now st) w hd] /\ ~ In RoFuel o' /\
                  rs_now st' = rs_now st /\ rt_wait_ok st' w hd.
Proof.
  intros st T. unfold rt_tick. pose proof (rt_fire_all_ok st T) as H.
  destruct (rt_fire_all st) as [st1 o]. destruct H as (NF & D & T1 & N).
  destruct (rt_wait st1) as [w hd] eqn:Wt. exists o, w, hd. rewrite N.
  repeat split; auto. exact (rt_wait_after_fire st1 w hd T1 D Wt).
Qed.

Lemma rt_fire_not_due : forall fuel st, rt_due st = false -> rt_fire fuel st = (st, []).
Proof. intros [|f] st D; cbn [rt_fire]; rewrite D; reflexivity. Qed.

(* a prepare call that finds one entry, due, and nothing due once coap_retransmit has dealt with it *)
Lemma rt_tick_single : forall st t n st1 o1, rs_q st = [(t, n)] -> rt_due st = true ->
  rt_retransmit (rt_set_q st []) n = (st1, o1) -> rt_due st1 = false ->
  rt_tick st = (st1, o1 ++ [RoWait (rs_now st1) (fst (rt_wait st1)) (snd (rt_wait st1))]).
Proof.
  intros st t n st1 o1 Q D R D1. unfold rt_tick, rt_fire_all, rt_budget_all. rewrite Q.
  cbn [rt_budget fold_right snd Nat.add rt_fire]. rewrite D, Q. cbn [sq_pop sq_bump].
  rewrite R, (rt_fire_not_due _ _ D1), app_nil_r. destruct (rt_wait st1). reflexivity.
Qed.

(* One message, nobody answers, and the driver is punctual (it sleeps exactly as long as the
   library says).  T is the timeout computed at the first transmission. *)
Section Schedule.
  Variables (t0 u s m T mx : Z) (b : list Z).
  Hypothesis T_pos : 1 <= T.
  Hypothesis mx_range : 1 <= mx <= 255.
  Hypothesis waits_fit : T * 2 ^ mx < 4294967296.   (* every wait fits the unsigned int result *)
  (* the session table while the message is in flight: its session holds one slot, nothing waits *)
  Variables (ns : Z) (tbl : list (Z * rt_sinfo)).
  Hypothesis ns_pos : 1 <= ns.
  Hypothesis tbl_s : rt_sget s tbl = rt_mk_sinfo ns 1 [].
  Hypothesis tbl_fix : rt_sset s (rt_mk_sinfo ns 1 []) tbl = tbl.

  Definition rt_sched_node (c : nat) : sq_node := sq_mk_node u s m (Z.of_nat c) T mx b.
  (* time of the transmission number j (0 = the first one) *)
  Definition rt_sched_time (j : nat) : Z := t0 + T * (2 ^ Z.of_nat j - 1).

  Lemma rt_pow2_S : forall c : nat, 2 ^ Z.of_nat (S c) = 2 * 2 ^ Z.of_nat c.
  Proof. intros. rewrite Nat2Z.inj_succ, Z.pow_succ_r by lia. reflexivity. Qed.

  Lemma rt_pow2_pos : forall c : nat, 1 <= 2 ^ Z.of_nat c.
  Proof. intros. pose proof (Z.pow_pos_nonneg 2 (Z.of_nat c) ltac:(lia) ltac:(lia)). lia. Qed.

  Lemma rt_sched_time_S : forall j, rt_sched_time (S j) = rt_sched_time j + T * 2 ^ Z.of_nat j.
  Proof. intros. unfold rt_sched_time. rewrite rt_pow2_S. lia. Qed.

  Lemma rt_wait_fits : forall c : nat, Z.of_nat c <= mx -> 1 <= T * 2 ^ Z.of_nat c < 4294967296.
  Proof.
    intros c Hc. pose proof (rt_pow2_pos c).
    assert (2 ^ Z.of_nat c <= 2 ^ mx) by (apply Z.pow_le_mono_r; lia).
    assert (T * 2 ^ Z.of_nat c <= T * 2 ^ mx) by (apply Z.mul_le_mono_nonneg_l; lia).
    split; [|lia]. assert (1 * 1 <= T * 2 ^ Z.of_nat c) by (apply Z.mul_le_mono_nonneg; lia). lia.
  Qed.

  (* the state in which transmission c has just happened *)
  Definition rt_sched_waiting (k : Z) (c : nat) : rt_state :=
    rt_mk_state (rt_sched_time c) (rt_sched_time c) [(T * 2 ^ Z.of_nat c, rt_sched_node c)] k tbl.
  (* ... and the same after sleeping for the reported wait *)
  Definition rt_sched_due (k : Z) (c : nat) : rt_state :=
    rt_mk_state (rt_sched_time (S c)) (rt_sched_time c) [(T * 2 ^ Z.of_nat c, rt_sched_node c)] k tbl.

  Lemma rt_waiting_not_due : forall k c, Z.of_nat c <= mx -> rt_due (rt_sched_waiting k c) = false.
  Proof.
    intros k c Hc. unfold rt_due, rt_sched_waiting. cbn [rs_q rs_base rs_now].
    pose proof (rt_wait_fits c Hc). lia.
  Qed.

  Lemma rt_u32_ms : forall x, 0 <= x < 4294967296 ->
    fp_u32 (((x - 0) * 1000 + fp_tps - 1) / fp_tps) = x.
  Proof. intros. replace (x - 0) with x by lia. rewrite rt_ceil_ms. unfold fp_u32; apply Z.mod_small; lia. Qed.

  Lemma rt_wait_waiting : forall k c, Z.of_nat c <= mx ->
    rt_wait (rt_sched_waiting k c) = (T * 2 ^ Z.of_nat c, rt_sched_time (S c)).
  Proof.
    intros k c Hc. unfold rt_wait, rt_sched_waiting. cbn [rs_q rs_now rs_base].
    replace (rt_sched_time c - rt_sched_time c) with 0 by lia.
    rewrite rt_u32_ms by (pose proof (rt_wait_fits c Hc); lia).
    rewrite rt_sched_time_S. reflexivity.
  Qed.

  Lemma rt_tick_waiting : forall k c, Z.of_nat c <= mx ->
    rt_tick (rt_sched_waiting k c) =
    (rt_sched_waiting k c,
     [RoWait (rt_sched_time c) (T * 2 ^ Z.of_nat c) (rt_sched_time (S c))]).
  Proof.
    intros k c Hc. unfold rt_tick, rt_fire_all.
    rewrite rt_fire_not_due by (apply rt_waiting_not_due; exact Hc).
    rewrite rt_wait_waiting by exact Hc. reflexivity.
  Qed.

  Lemma rt_due_due : forall k c, rt_due (rt_sched_due k c) = true.
  Proof.
    intros. unfold rt_due, rt_sched_due. cbn [rs_q rs_base rs_now]. rewrite rt_sched_time_S.
    pose proof (rt_pow2_pos c). assert (0 <= T * 2 ^ Z.of_nat c) by (apply Z.mul_nonneg_nonneg; lia). lia.
  Qed.

  (* coap_retransmit at the deadline of transmission c < mx: the next transmission *)
  Lemma rt_retransmit_again : forall k c, Z.of_nat c < mx ->
    rt_retransmit (rt_set_q (rt_sched_due k c) []) (rt_sched_node c) =
    (rt_sched_waiting k (S c), [RoTx (rt_sched_time (S c)) u s b (Z.of_nat (S c)) T]).
  Proof.
    intros k c Hc. unfold rt_retransmit, rt_sched_node.
    cbn [qn_uid qn_sess qn_mid qn_cnt qn_timeout qn_max qn_bytes].
    assert (E : (Z.of_nat c <? mx) = true) by lia. rewrite E.
    assert (Em : (Z.of_nat c + 1) mod 256 = Z.of_nat (S c)) by (rewrite Z.mod_small; lia).
    rewrite Em. unfold rt_enqueue, rt_set_q, rt_set_sess, rt_bump_node, rt_sched_due.
    cbn [rs_q rs_now rs_base rs_uid rs_sess sq_insert qn_uid qn_sess qn_mid qn_cnt qn_timeout qn_max qn_bytes].
    rewrite tbl_s. cbn [si_active si_nstart si_hold].
    change (0 <? 1) with true. cbv iota. change (1 - 1) with 0.
    assert (En : (ns <=? 0) = false) by lia. rewrite En. change (0 + 1) with 1. rewrite tbl_fix. reflexivity.
  Qed.

  (* ... and at the deadline of transmission mx: the slot is released, one NACK *)
  Lemma rt_retransmit_giveup : forall k c, Z.of_nat c = mx ->
    rt_retransmit (rt_set_q (rt_sched_due k c) []) (rt_sched_node c) =
    (rt_mk_state (rt_sched_time (S c)) (rt_sched_time c) [] k (rt_sset s (rt_mk_sinfo ns 0 []) tbl),
     [RoNack (rt_sched_time (S c)) u s rt_NACK_TOO_MANY_RETRIES m mx mx]).
  Proof.
    intros k c Hc. unfold rt_retransmit, rt_sched_node.
    cbn [qn_uid qn_sess qn_mid qn_cnt qn_timeout qn_max qn_bytes].
    assert (E : (Z.of_nat c <? mx) = false) by lia. rewrite E.
    unfold rt_free_slot, rt_release, rt_set_q, rt_set_sess, rt_sched_due. cbn [rs_q rs_now rs_base rs_uid rs_sess].
    rewrite tbl_s. cbn [si_active si_nstart si_hold]. change (0 <? 1) with true. cbv iota.
    cbn [rs_q rs_now rs_base rs_uid rs_sess]. rewrite rt_sget_sset. cbn [si_active si_nstart si_hold rt_release_go].
    cbn [rs_q rs_now rs_base rs_uid rs_sess app]. change (1 - 1) with 0. rewrite rt_sset_sset, Hc. reflexivity.
  Qed.

  (* a prepare call at the deadline of transmission c < mx: retransmission, next wait doubled *)
  Lemma rt_tick_due_retransmit : forall k c, Z.of_nat c < mx ->
    rt_tick (rt_sched_due k c) =
    (rt_sched_waiting k (S c),
     [RoTx (rt_sched_time (S c)) u s b (Z.of_nat (S c)) T;
      RoWait (rt_sched_time (S c)) (T * 2 ^ Z.of_nat (S c)) (rt_sched_time (S (S c)))]).
  Proof.
    intros k c Hc.
    rewrite (rt_tick_single (rt_sched_due k c) _ (rt_sched_node c) _ _ eq_refl (rt_due_due k c) (rt_retransmit_again k c Hc))
      by (apply rt_waiting_not_due; lia).
    rewrite rt_wait_waiting by lia. reflexivity.
  Qed.

  (* ... and at the deadline of transmission mx: give up, one NACK, nothing pending *)
  Lemma rt_tick_due_giveup : forall k c, Z.of_nat c = mx ->
    rt_tick (rt_sched_due k c) =
    (rt_mk_state (rt_sched_time (S c)) (rt_sched_time c) [] k (rt_sset s (rt_mk_sinfo ns 0 []) tbl),
     [RoNack (rt_sched_time (S c)) u s rt_NACK_TOO_MANY_RETRIES m mx mx;
      RoWait (rt_sched_time (S c)) 0 (-1)]).
  Proof.
    intros k c Hc.
    exact (rt_tick_single (rt_sched_due k c) _ (rt_sched_node c) _ _ eq_refl (rt_due_due k c) (rt_retransmit_giveup k c Hc) eq_refl).
  Qed.

  (* the outputs of the punctual driver from the deadline of transmission c on *)
  Fixpoint rt_sched_from (left : nat) (c : nat) : list rt_out :=
    match left with
    | O => [RoNack (rt_sched_time (S c)) u s rt_NACK_TOO_MANY_RETRIES m mx mx;
            RoWait (rt_sched_time (S c)) 0 (-1)]
    | S l => [RoTx (rt_sched_time (S c)) u s b (Z.of_nat (S c)) T;
              RoWait (rt_sched_time (S c)) (T * 2 ^ Z.of_nat (S c)) (rt_sched_time (S (S c)))]
             ++ rt_sched_from l (S c)
    end.

  (* a prepare call that ends in the state after transmission c reports T * 2^c; the driver sleeps
     that long and goes on at the deadline *)
  Lemma rt_punctual_sleep : forall st k c o1 f, Z.of_nat c <= mx ->
    rt_tick st = (rt_sched_waiting k c, o1) ->
    rt_punctual (S f) st = let (st2, o2) := rt_punctual f (rt_sched_due k c) in (st2, o1 ++ o2).
  Proof.
    intros st k c o1 f Hc Tk. cbn [rt_punctual]. rewrite Tk, rt_wait_waiting by exact Hc.
    assert (Ne : (T * 2 ^ Z.of_nat c =? 0) = false) by (pose proof (rt_wait_fits c Hc); lia).
    rewrite Ne. cbn [rt_sched_waiting rs_now]. rewrite <- rt_sched_time_S. reflexivity.
  Qed.

  Lemma rt_punctual_from_due : forall left c k fuel,
    Z.of_nat c + Z.of_nat left = mx -> (left < fuel)%nat ->
    rt_punctual fuel (rt_sched_due k c) =
    (rt_mk_state (rt_sched_time (S (c + left))) (rt_sched_time (c + left)) [] k
                 (rt_sset s (rt_mk_sinfo ns 0 []) tbl),
     rt_sched_from left c).
  Proof.
    induction left as [|l IH]; intros c k fuel Hc Hf; destruct fuel as [|f]; try lia.
    - cbn [rt_punctual]. rewrite rt_tick_due_giveup by lia. unfold rt_wait. cbn [rs_q].
      rewrite Nat.add_0_r. reflexivity.
    - rewrite (rt_punctual_sleep _ k (S c) _ f ltac:(lia) (rt_tick_due_retransmit k c ltac:(lia))).
      rewrite (IH (S c) k f) by lia.
      replace (S c + l)%nat with (c + S l)%nat by lia. reflexivity.
  Qed.

  (* from the state right after coap_send at time t0 *)
  Theorem rt_punctual_schedule : forall k fuel, (Z.to_nat mx + 1 < fuel)%nat ->
    rt_punctual fuel (rt_sched_waiting k 0) =
    (rt_mk_state (rt_sched_time (S (Z.to_nat mx))) (rt_sched_time (Z.to_nat mx)) [] k
                 (rt_sset s (rt_mk_sinfo ns 0 []) tbl),
     RoWait t0 T (t0 + T) :: rt_sched_from (Z.to_nat mx) 0).
  Proof.
    intros k [|f] Hf; [lia|].
    rewrite (rt_punctual_sleep _ k 0%nat _ f ltac:(lia) (rt_tick_waiting k 0%nat ltac:(lia))).
    rewrite (rt_punctual_from_due (Z.to_nat mx) 0 k f) by lia.
    cbn [Nat.add app]. f_equal. f_equal.
    unfold rt_sched_time. change (Z.of_nat 0) with 0. change (Z.of_nat 1) with 1.
    rewrite Z.pow_0_r, Z.pow_1_r. f_equal; lia.
  Qed.

  (* the transmissions and handler calls among those outputs *)
  Definition rt_is_tx_nack (o : rt_out) : bool :=
    match o with RoTx _ _ _ _ _ _ => true | RoNack _ _ _ _ _ _ _ => true | RoNackNoPdu _ _ _ _ => true
               | _ => false end.

  Lemma rt_sched_from_filter : forall left c,
    filter rt_is_tx_nack (rt_sched_from left c) =
    map (fun j => RoTx (rt_sched_time j) u s b (Z.of_nat j) T) (seq (S c) left) ++
    [RoNack (rt_sched_time (S (c + left))) u s rt_NACK_TOO_MANY_RETRIES m mx mx].
  Proof.
    induction left as [|l IH]; intros c; cbn [rt_sched_from].
    - cbn. rewrite Nat.add_0_r. reflexivity.
    - cbn [app filter rt_is_tx_nack seq map]. rewrite IH.
      replace (S c + l)%nat with (c + S l)%nat by lia. reflexivity.
  Qed.

  Lemma rt_sched_from_last : forall left c, exists o',
    rt_sched_from left c = o' ++ [RoWait (rt_sched_time (S (c + left))) 0 (-1)].
  Proof.
    induction left as [|l IH]; intros c; cbn [rt_sched_from].
    - rewrite Nat.add_0_r. eexists [_]. reflexivity.
    - destruct (IH (S c)) as [o' E]. rewrite E. replace (S c + l)%nat with (c + S l)%nat by lia.
      eexists (_ :: _ :: o'). reflexivity.
  Qed.
End Schedule.

(* C06_schedule in one statement: after coap_send at t0 on an idle context (the model's
   rt_send), a punctual driver sees exactly max_retransmit + 1 transmissions of the same bytes at
   t0 + T (2^j - 1), j = 0 .. max_retransmit, then exactly one NACK TOO_MANY_RETRIES at
   t0 + T (2^(max_retransmit+1) - 1), the queue is empty, and the last reported wait is 0. *)
Theorem rt_schedule : forall t0 base0 k s m b cfg r fuel ns tbl0,
  let T := fp_calc_timeout (rc_at_ip cfg) (rc_at_fp cfg) (rc_arf_ip cfg) (rc_arf_fp cfg) r in
  let mx := rc_max cfg in
  1 <= T -> 1 <= mx <= 255 -> T * 2 ^ mx < 4294967296 -> (Z.to_nat mx + 1 < fuel)%nat ->
  (* the session is idle: no Confirmable in flight, none waiting *)
  1 <= ns -> rt_sget s tbl0 = rt_mk_sinfo ns 0 [] ->
  let (st1, o1) := rt_send (rt_mk_state t0 base0 [] k tbl0) s m b cfg r in
  let (st2, o2) := rt_punctual fuel st1 in
  filter rt_is_tx_nack (o1 ++ o2) =
    map (fun j => RoTx (rt_sched_time t0 T j) k s b (Z.of_nat j) T) (seq 0 (S (Z.to_nat mx))) ++
    [RoNack (rt_sched_time t0 T (S (Z.to_nat mx))) k s rt_NACK_TOO_MANY_RETRIES m mx mx] /\
  rs_q st2 = [] /\ rs_now st2 = rt_sched_time t0 T (S (Z.to_nat mx)) /\
  (exists o', o2 = o' ++ [RoWait (rs_now st2) 0 (-1)]).
Proof.
  intros t0 base0 k s m b cfg r fuel ns tbl0 T mx HT Hmx Hfit Hfuel Hns Htbl.
  unfold rt_send. cbn [rs_uid rs_now rs_base rs_q rs_sess]. fold T. fold mx.
  rewrite Htbl. cbn [si_nstart si_active si_hold].
  assert (En : (ns <=? 0) = false) by lia. rewrite En.
  set (tbl := rt_sset s (rt_mk_sinfo ns (0 + 1) []) tbl0).
  unfold rt_enqueue. cbn [rs_q rs_now rs_uid rs_sess sq_insert].
  assert (Ts : rt_sget s tbl = rt_mk_sinfo ns 1 []) by (unfold tbl; rewrite rt_sget_sset; reflexivity).
  assert (Tf : rt_sset s (rt_mk_sinfo ns 1 []) tbl = tbl) by (unfold tbl; rewrite rt_sset_sset; reflexivity).
  assert (E0 : rt_mk_state t0 t0 [(T, sq_mk_node k s m 0 T mx b)] (k + 1) tbl
             = rt_sched_waiting t0 k s m T mx b tbl (k + 1) 0).
  { unfold rt_sched_waiting, rt_sched_time, rt_sched_node. change (Z.of_nat 0) with 0.
    rewrite Z.pow_0_r. replace (t0 + T * (1 - 1)) with t0 by lia. rewrite Z.mul_1_r. reflexivity. }
  rewrite E0. rewrite (rt_punctual_schedule t0 k s m T mx b HT Hmx Hfit ns tbl Hns Ts Tf (k + 1) fuel Hfuel).
  split; [|split; [reflexivity|split; [reflexivity|]]].
  - cbn [app filter rt_is_tx_nack]. rewrite rt_sched_from_filter.
    assert (Z0 : rt_sched_time t0 T 0 = t0).
    { unfold rt_sched_time. change (Z.of_nat 0) with 0. rewrite Z.pow_0_r. lia. }
    cbn [seq map Nat.add app]. rewrite Z0. reflexivity.
  - cbn [rs_now]. destruct (rt_sched_from_last t0 k s m T mx b (Z.to_nat mx) 0%nat) as [o' E].
    rewrite E. cbn [Nat.add].
    exists (RoWait t0 T (t0 + T) :: o'). reflexivity.
Qed.

(* an unsigned int handed to epoll_wait as int: values from 2^31 on become INT_MAX *)
Lemma rt_as_int_clamp : forall e, 0 <= e < 4294967296 ->
  let c := if rt_as_int e <? 0 then rt_INT_MAX else rt_as_int e in
  0 <= c <= rt_INT_MAX /\ c <= e /\ (e < 2147483648 -> c = e).
Proof.
  intros e He. unfold rt_as_int, rt_INT_MAX. destruct (e <? 2147483648) eqn:E.
  - destruct (e <? 0) eqn:E0; lia.
  - destruct (e - 4294967296 <? 0) eqn:E0; lia.
Qed.

Lemma rt_epoll_timeout_spec : forall w tmo, 0 <= w < 4294967296 -> 0 <= tmo < 4294967296 ->
  let et := rt_epoll_timeout w tmo in
  -1 <= et <= rt_INT_MAX /\
  (et = -1 -> w = 0 /\ tmo = rt_IO_WAIT) /\        (* sleeps for ever only if nothing is pending *)
  (0 < w < 2147483648 -> 0 <= et <= w) /\          (* never longer than the reported wait *)
  (tmo = rt_IO_WAIT -> 0 < w < 2147483648 -> et = w) /\
  (tmo = rt_IO_NO_WAIT -> et = 0).
Proof.
  intros w tmo Hw Ht. unfold rt_epoll_timeout, rt_IO_WAIT, rt_IO_NO_WAIT.
  pose proof (rt_as_int_clamp w Hw) as Cw. pose proof (rt_as_int_clamp tmo Ht) as Ct.
  unfold rt_INT_MAX in *. cbv zeta in Cw, Ct.
  destruct (tmo =? 4294967295) eqn:E1; [lia|].
  destruct ((w =? 0) && (tmo =? 0)) eqn:E2; [lia|].
  destruct ((w =? 0) || (negb (tmo =? 0) && (tmo <? w))) eqn:E3; lia.
Qed.

(* coap_io_process in a state that satisfies the invariant: it fires what is due, hands
   epoll_wait a sleep that is never longer than the reported wait - hence (rt_wait_ok) never past
   the earliest pending deadline - and "for ever" only when nothing is pending; afterwards again
   nothing due is left; it returns the time it slept *)
Theorem rt_io_process_sound : forall st tmo,
  rt_tinv st -> 0 <= tmo < 4294967296 ->
  let (st', o) := rt_io_process st tmo in
  exists st1 o1 w hd o3,
    rt_fire_all st = (st1, o1) /\ rt_wait st1 = (w, hd) /\ rt_wait_ok st1 w hd /\
    let et := rt_epoll_timeout w tmo in
    o = o1 ++ RoEpoll (rs_now st) et :: o3 ++ [RoIoRet (rs_now st') (rs_now st' - rs_now st)] /\
    ~ In RoFuel o /\ rt_due st' = false /\ rt_tinv st' /\
    rs_now st' = rs_now st + (if 0 <? et then et else 0) /\
    (et = -1 -> w = 0 /\ tmo = rt_IO_WAIT) /\ (0 < w < 2147483648 -> 0 <= et <= w).
Proof.
  intros st tmo T Ht. unfold rt_io_process.
  pose proof (rt_fire_all_ok st T) as H1. destruct (rt_fire_all st) as [st1 o1] eqn:F1.
  destruct H1 as (NF1 & D1 & T1 & N1). destruct (rt_wait st1) as [w hd] eqn:Wt.
  pose proof (rt_wait_after_fire st1 w hd T1 D1 Wt) as WO.
  assert (Hw : 0 <= w < 4294967296).
  { unfold rt_wait in Wt. destruct (rs_q st1) as [|[t0 n0] r]; inversion Wt; subst; [lia|].
    unfold fp_u32. apply Z.mod_pos_bound. lia. }
  destruct (rt_epoll_timeout_spec w tmo Hw Ht) as (Rg & Inf & Le & _ & _).
  set (et := rt_epoll_timeout w tmo) in *.
  set (st2 := rt_set_now st1 _).
  assert (T2 : rt_tinv st2) by (apply rt_set_now_tinv; [exact T1|destruct (0 <? et) eqn:E; lia]).
  pose proof (rt_fire_all_ok st2 T2) as H3. destruct (rt_fire_all st2) as [st3 o3].
  destruct H3 as (NF3 & D3 & T3 & N3).
  exists st1, o1, w, hd, o3. split; [reflexivity|]. split; [exact Wt|]. split; [exact WO|].
  cbv zeta. rewrite N1. split; [reflexivity|]. split.
  - intros I. apply in_app_or in I. destruct I as [I|[I|I]]; [exact (NF1 I)|discriminate|].
    apply in_app_or in I. destruct I as [I|[I|[]]]; [exact (NF3 I)|discriminate].
  - split; [exact D3|]. split; [exact T3|]. split; [rewrite N3; cbn [st2 rt_set_now rs_now]; rewrite N1; reflexivity|].
    split; [exact Inf|exact Le].
Qed.
