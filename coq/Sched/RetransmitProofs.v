(* C06 - one outcome per message: invariants of the retransmission machine (proofs).
   For EVERY event sequence (any number of messages and sessions, ACK/RST at any time, repeated
   or for unknown ids, any tick times) the outputs that concern one message are
        Tx b, Tx b, ..., Tx b  [ Acked | Nack r ]
   with the same bytes b each time, at most max_retransmit + 1 transmissions, and nothing after
   the outcome; a message without outcome is still in the queue. *)
From LibcoapV Require Import Base.Tactics Sched.FixedPoint Sched.SendQueue Sched.SendQueueProofs
  Sched.Retransmit Sched.RetransmitSteps.
From Coq Require Import Sorting.Permutation.
Local Open Scope Z_scope.

Definition rt_nodes (q : sq_queue) : list sq_node := map snd q.

Lemma rt_nodes_ins_go : forall q t n, Permutation (rt_nodes (sq_ins_go t n q)) (n :: rt_nodes q).
Proof.
  induction q as [|[t1 n1] rest IH]; intros t n; [apply Permutation_refl|].
  cbn [sq_ins_go]. destruct (t1 <=? t).
  - cbn [rt_nodes map snd]. fold (rt_nodes (sq_ins_go (t - t1) n rest)).
    eapply Permutation_trans; [apply perm_skip; apply IH|]. apply perm_swap.
  - apply Permutation_refl.
Qed.

Lemma rt_nodes_insert : forall q t n, Permutation (rt_nodes (sq_insert q t n)) (n :: rt_nodes q).
Proof. intros. rewrite sq_insert_eq_go. apply rt_nodes_ins_go. Qed.

Lemma rt_nodes_bump : forall d q, rt_nodes (sq_bump d q) = rt_nodes q.
Proof. intros d [|[t n] r]; reflexivity. Qed.

Lemma rt_nodes_pop : forall q t n q', sq_pop q = Some ((t, n), q') -> rt_nodes q = n :: rt_nodes q'.
Proof.
  intros [|[t0 n0] rest] t n q' H; [discriminate|]. cbn in H. inversion H; subst.
  cbn. rewrite rt_nodes_bump. reflexivity.
Qed.

Lemma rt_nodes_remove : forall q s m t n q', sq_remove q s m = Some ((t, n), q') ->
  Permutation (rt_nodes q) (n :: rt_nodes q') /\ sq_match s m n = true.
Proof.
  induction q as [|[t0 n0] rest IH]; intros s m t n q' H; [discriminate|].
  cbn [sq_remove] in H. destruct (sq_match s m n0) eqn:E.
  - inversion H; subst. cbn. rewrite rt_nodes_bump. split; [apply Permutation_refl|exact E].
  - destruct (sq_remove rest s m) as [[[t1 n1] r1]|] eqn:R; [|discriminate].
    inversion H; subst. destruct (IH s m t n r1 R) as [P M]. split; [|exact M].
    cbn. eapply Permutation_trans; [apply perm_skip; exact P|]. apply perm_swap.
Qed.

Lemma rt_remove_none_nodes : forall q s m, sq_remove q s m = None ->
  Forall (fun n => sq_match s m n = false) (rt_nodes q).
Proof.
  induction q as [|[t0 n0] rest IH]; intros s m H; [constructor|].
  cbn [sq_remove] in H. destruct (sq_match s m n0) eqn:E; [discriminate|].
  destruct (sq_remove rest s m) as [[e r]|] eqn:R; [discriminate|].
  cbn. constructor; [exact E|apply IH; exact R].
Qed.

Lemma rt_nodes_cancel : forall p q,
  Permutation (rt_nodes q) (fst (sq_cancel p q) ++ rt_nodes (snd (sq_cancel p q))).
Proof.
  intros p q. unfold sq_cancel. generalize 0 as carry. induction q as [|[t n] rest IH]; intros carry.
  - apply Permutation_refl.
  - cbn [sq_cancel_go]. destruct (p n).
    + specialize (IH (carry + t)). destruct (sq_cancel_go p (carry + t) rest) as [rm q'].
      cbn [fst snd rt_nodes map app] in *. apply perm_skip. exact IH.
    + specialize (IH 0). destruct (sq_cancel_go p 0 rest) as [rm q'].
      cbn [fst snd rt_nodes map app] in *. apply Permutation_cons_app. exact IH.
Qed.

Inductive rt_tag := PTx (b : list Z) | PNack (r c mx : Z) | PAcked.

Definition rt_proj1 (u : Z) (o : rt_out) : list rt_tag :=
  match o with
  | RoTx _ u' _ b _ _ => if u' =? u then [PTx b] else []
  | RoNack _ u' _ r _ c mx => if u' =? u then [PNack r c mx] else []
  | RoAcked _ u' => if u' =? u then [PAcked] else []
  | _ => []
  end.
Definition rt_proj (u : Z) (tr : list rt_out) : list rt_tag := flat_map (rt_proj1 u) tr.

Lemma rt_proj_app : forall u a b, rt_proj u (a ++ b) = rt_proj u a ++ rt_proj u b.
Proof. intros. unfold rt_proj. apply flat_map_app. Qed.

Definition rt_out_uid (o : rt_out) : option Z :=
  match o with RoTx _ u _ _ _ _ | RoNack _ u _ _ _ _ _ | RoAcked _ u => Some u | _ => None end.

Lemma rt_proj_other : forall u o, rt_out_uid o <> Some u -> rt_proj u [o] = [].
Proof.
  intros u o H. destruct o; cbn in *; try reflexivity;
    (destruct (uid =? u) eqn:E; [apply Z.eqb_eq in E; congruence|reflexivity]).
Qed.

Lemma rt_tok_drop_acked : forall n u, u <> qn_uid n -> rt_proj u [RoAcked 0 (qn_uid n)] = [].
Proof. intros n u Hu. apply rt_proj_other. cbn. congruence. Qed.

(* an outcome after j transmissions: removed by an ACK (or implicitly acknowledged, or deleted), or
   one NACK call - the node's counter c then is j - 1, and if the reason is TOO_MANY_RETRIES then
   c is exactly the message's max_retransmit (the other reasons: RST from the peer, or the reason
   given to coap_session_disconnected; only the latter can hit a message that still waits for an
   NSTART slot: c = -1, j = 0) *)
Definition rt_outcome_ok (j : nat) (o : rt_tag) : Prop :=
  match o with
  | PAcked => True
  | PNack r c mx => Z.of_nat j = c + 1 /\ -1 <= c <= mx /\ mx <= 255 /\
                    (r = rt_NACK_TOO_MANY_RETRIES -> c = mx)
  | PTx _ => False
  end.
(* a closed history: transmissions of the same bytes, then exactly one outcome *)
Definition rt_closed (l : list rt_tag) : Prop :=
  exists b j o, l = repeat (PTx b) j ++ [o] /\ (j <= 256)%nat /\ rt_outcome_ok j o.
(* an open history of a pending node: cnt + 1 transmissions of its bytes (none while it waits
   for a slot, cnt = -1) *)
Definition rt_open (n : sq_node) (l : list rt_tag) : Prop :=
  l = repeat (PTx (qn_bytes n)) (Z.to_nat (qn_cnt n + 1)).

Definition rt_node_ok (tr : list rt_out) (k : Z) (n : sq_node) : Prop :=
  0 <= qn_uid n < k /\ -1 <= qn_cnt n <= qn_max n /\ 0 <= qn_max n <= 255 /\
  rt_open n (rt_proj (qn_uid n) tr).

(* the relation between the outputs so far, the number of accepted messages and the pending
   messages (queued or waiting for a slot) *)
Definition rt_rel (tr : list rt_out) (k : Z) (ns : list sq_node) : Prop :=
  0 <= k /\
  NoDup (map qn_uid ns) /\
  Forall (rt_node_ok tr k) ns /\
  (forall u, ~ In u (map qn_uid ns) ->
     (0 <= u < k -> rt_closed (rt_proj u tr)) /\ (~ 0 <= u < k -> rt_proj u tr = [])).

Lemma rt_rel_perm : forall tr k ns ns', Permutation ns ns' -> rt_rel tr k ns -> rt_rel tr k ns'.
Proof.
  intros tr k ns ns' P (K & D & F & C). split; [exact K|]. split; [|split].
  - eapply Permutation_NoDup; [apply Permutation_map; exact P|exact D].
  - eapply Permutation_Forall; eauto.
  - intros u Hu. apply C. intros I. apply Hu.
    eapply Permutation_in; [apply Permutation_map; exact P|exact I].
Qed.

Lemma rt_rel_init : rt_rel [] 0 [].
Proof.
  split; [lia|]. split; [constructor|]. split; [constructor|].
  intros u _. split; [lia|reflexivity].
Qed.

(* outputs that are not about a pending node leave what the relation says of it alone *)
Lemma rt_node_ok_other : forall tr o k k' n, rt_proj (qn_uid n) o = [] -> k <= k' ->
  rt_node_ok tr k n -> rt_node_ok (tr ++ o) k' n.
Proof.
  intros tr o k k' n N Hk (A & B & M & O). split; [lia|]. split; [exact B|]. split; [exact M|].
  unfold rt_open in *. rewrite rt_proj_app, N, app_nil_r. exact O.
Qed.

Definition rt_neutral (o : list rt_out) : Prop := forall u, rt_proj u o = [].

Lemma rt_silent_neutral : forall o, Forall rt_silent o -> rt_neutral o.
Proof.
  intros o F u. induction F as [|a o Ha _ IH]; [reflexivity|].
  change (rt_proj u (a :: o)) with (rt_proj1 u a ++ rt_proj u o). rewrite IH.
  destruct a; try contradiction; reflexivity.
Qed.

Lemma rt_rel_neutral : forall tr k ns o, rt_neutral o -> rt_rel tr k ns -> rt_rel (tr ++ o) k ns.
Proof.
  intros tr k ns o N (K & D & F & C). split; [exact K|]. split; [exact D|]. split.
  - eapply Forall_impl; [|exact F]. intros n. apply rt_node_ok_other; [apply N|lia].
  - intros u Hu. rewrite rt_proj_app, N, app_nil_r. apply C. exact Hu.
Qed.

(* a new message with fresh uid k: o is what the trace gets (its first transmission, or nothing
   while it waits), c its counter (0, or -1) *)
Lemma rt_rel_add : forall tr k ns s m b T mx c o,
  0 <= mx <= 255 -> -1 <= c <= 0 ->
  rt_proj k o = repeat (PTx b) (Z.to_nat (c + 1)) ->
  (forall u, u <> k -> rt_proj u o = []) ->
  rt_rel tr k ns ->
  rt_rel (tr ++ o) (k + 1) (sq_mk_node k s m c T mx b :: ns).
Proof.
  intros tr k ns s m b T mx c o Hmx Hc Po Pother (K & D & F & C).
  assert (Fresh : ~ In k (map qn_uid ns)).
  { intros I. apply in_map_iff in I. destruct I as (n & E & I).
    rewrite Forall_forall in F. destruct (F n I) as (A & _). lia. }
  split; [lia|]. split; [|split].
  - cbn. constructor; assumption.
  - constructor.
    + unfold rt_node_ok, rt_open. cbn [qn_uid qn_cnt qn_max qn_bytes]. repeat split; try lia.
      rewrite rt_proj_app. destruct (C k Fresh) as [_ E]. rewrite E by lia. exact Po.
    + rewrite Forall_forall in *. intros n I. pose proof (F n I) as Hn.
      apply (rt_node_ok_other tr o k); [apply Pother; destruct Hn; lia|lia|exact Hn].
  - intros u Hu. cbn in Hu. assert (Hk : u <> k) by (intros X; apply Hu; left; congruence).
    assert (Hn : ~ In u (map qn_uid ns)) by tauto.
    rewrite rt_proj_app, (Pother u Hk), app_nil_r.
    destruct (C u Hn) as [C1 C2]. split; intros; [apply C1|apply C2]; lia.
Qed.

Lemma rt_rel_bump : forall tr k n ns t c,
  c = qn_cnt n + 1 -> qn_cnt n < qn_max n ->
  rt_rel tr k (n :: ns) ->
  rt_rel (tr ++ [RoTx t (qn_uid n) (qn_sess n) (qn_bytes n) c (qn_timeout n)]) k
         (rt_bump_node n c :: ns).
Proof.
  intros tr k n ns t c Ec Hc (K & D & F & C). inversion F as [|? ? (A & B & M & O) F']; subst.
  cbn in D. inversion D as [|? ? Dn D']; subst.
  split; [exact K|]. split; [|split].
  - cbn. constructor; assumption.
  - constructor.
    + unfold rt_node_ok, rt_open, rt_bump_node in *. cbn [qn_uid qn_cnt qn_max qn_bytes].
      repeat split; try lia. rewrite rt_proj_app, O. cbn [rt_proj flat_map rt_proj1].
      rewrite Z.eqb_refl. change ([PTx (qn_bytes n)] ++ []) with [PTx (qn_bytes n)].
      replace (Z.to_nat (qn_cnt n + 1 + 1)) with (S (Z.to_nat (qn_cnt n + 1))) by lia.
      rewrite <- repeat_cons. reflexivity.
    + rewrite Forall_forall in *. intros n' I. apply (rt_node_ok_other tr _ k); [|lia|exact (F' n' I)].
      apply rt_proj_other. cbn. intros E. injection E as E. apply Dn. rewrite E. apply in_map. exact I.
  - intros u Hu. cbn [map qn_uid rt_bump_node] in Hu. cbn in Hu.
    assert (Ne : (qn_uid n =? u) = false) by (apply Z.eqb_neq; tauto).
    rewrite rt_proj_app. cbn. rewrite Ne. cbn. rewrite app_nil_r. apply C. cbn. tauto.
Qed.

Lemma rt_rel_drop : forall tr k n ns o tag,
  (rt_node_ok tr k n -> rt_outcome_ok (Z.to_nat (qn_cnt n + 1)) tag) ->
  rt_proj (qn_uid n) o = [tag] ->
  (forall u, u <> qn_uid n -> rt_proj u o = []) ->
  rt_rel tr k (n :: ns) ->
  rt_rel (tr ++ o) k ns.
Proof.
  intros tr k n ns o tag Ho Po Pother (K & D & F & C).
  inversion F as [|? ? NO F']; subst. pose proof (Ho NO) as Ho'. destruct NO as (A & B & M & O).
  cbn in D. inversion D as [|? ? Dn D']; subst.
  split; [exact K|]. split; [exact D'|]. split.
  - rewrite Forall_forall in *. intros n' I. apply (rt_node_ok_other tr o k); [apply Pother|lia|exact (F' n' I)].
    intros E. apply Dn. rewrite <- E. apply in_map. exact I.
  - intros u Hu. rewrite rt_proj_app. destruct (Z.eq_dec u (qn_uid n)) as [E|Ne].
    + subst u. rewrite Po. split; [|intros; lia]. intros _.
      unfold rt_open in O. rewrite O. exists (qn_bytes n), (Z.to_nat (qn_cnt n + 1)), tag.
      split; [reflexivity|]. split; [lia|exact Ho'].
    + rewrite Pother by exact Ne. rewrite app_nil_r. apply C. cbn.
      intros [X|X]; [apply Ne; congruence|apply Hu; exact X].
Qed.

(* several nodes end, each with one output f n of its own *)
Lemma rt_rel_drop_all : forall (f : sq_node -> rt_out) (tag : sq_node -> rt_tag),
  (forall n, rt_proj (qn_uid n) [f n] = [tag n] /\ rt_out_uid (f n) = Some (qn_uid n) /\
             (-1 <= qn_cnt n <= qn_max n -> qn_max n <= 255 -> rt_outcome_ok (Z.to_nat (qn_cnt n + 1)) (tag n))) ->
  forall rm tr k ns, rt_rel tr k (rm ++ ns) -> rt_rel (tr ++ map f rm) k ns.
Proof.
  intros f tag Hf. induction rm as [|n rm IH]; intros tr k ns R; cbn [map app] in *.
  - rewrite app_nil_r. exact R.
  - destruct (Hf n) as (Pn & Un & On).
    change (f n :: map f rm) with ([f n] ++ map f rm). rewrite app_assoc. apply IH.
    apply (rt_rel_drop _ _ n _ _ (tag n)); [| exact Pn| |exact R].
    + intros (_ & B & M & _). apply On; lia.
    + intros u Hu. apply rt_proj_other. rewrite Un. congruence.
Qed.

Lemma rt_rel_drop_acked : forall t rm tr k ns,
  rt_rel tr k (rm ++ ns) -> rt_rel (tr ++ map (fun n => RoAcked t (qn_uid n)) rm) k ns.
Proof.
  intros t. apply (rt_rel_drop_all _ (fun _ => PAcked)). intros n. cbn. rewrite Z.eqb_refl. auto.
Qed.

Lemma rt_rel_drop_nacked : forall t reason rm tr k ns,
  reason <> rt_NACK_TOO_MANY_RETRIES ->
  rt_rel tr k (rm ++ ns) -> rt_rel (tr ++ map (rt_nack_of t reason) rm) k ns.
Proof.
  intros t reason rm tr k ns Hr. apply (rt_rel_drop_all _ (fun n => PNack reason (qn_cnt n) (qn_max n))).
  intros n. cbn. rewrite Z.eqb_refl. repeat split; try lia; intros X; contradiction.
Qed.

Lemma rt_sget_sset_other : forall s s' e tbl, s' <> s -> rt_sget s' (rt_sset s e tbl) = rt_sget s' tbl.
Proof.
  intros s s' e tbl Hs. induction tbl as [|[k e0] r IH]; cbn.
  - assert (X : (s =? s') = false) by lia. rewrite X. reflexivity.
  - destruct (k =? s) eqn:E; cbn.
    + assert (X : (k =? s') = false) by lia. rewrite X. reflexivity.
    + destruct (k =? s'); [reflexivity|exact IH].
Qed.

(* the waiting messages of the table: those of session s, and the rest which an update of s
   does not touch *)
Lemma rt_held_get_set : forall s tbl, exists rest,
  Permutation (rt_held tbl) (si_hold (rt_sget s tbl) ++ rest) /\
  forall e, Permutation (rt_held (rt_sset s e tbl)) (si_hold e ++ rest).
Proof.
  intros s. induction tbl as [|[k e0] r IH].
  - exists []. split; [apply Permutation_refl|]. intros e. cbn. apply Permutation_refl.
  - cbn [rt_sget rt_sset]. destruct (k =? s) eqn:E.
    + exists (rt_held r). split; [apply Permutation_refl|]. intros e. apply Permutation_refl.
    + destruct IH as (rest & P1 & P2). exists (si_hold e0 ++ rest). split.
      * cbn [rt_held flat_map snd]. fold (rt_held r).
        eapply Permutation_trans; [apply Permutation_app_head; exact P1|].
        rewrite !app_assoc. apply Permutation_app_tail. apply Permutation_app_comm.
      * intros e. cbn [rt_held flat_map snd]. fold (rt_held (rt_sset s e r)).
        eapply Permutation_trans; [apply Permutation_app_head; apply P2|].
        rewrite !app_assoc. apply Permutation_app_tail. apply Permutation_app_comm.
Qed.

Lemma rt_held_sget_in : forall s tbl n, In n (si_hold (rt_sget s tbl)) -> In n (rt_held tbl).
Proof.
  intros s tbl n I. destruct (rt_held_get_set s tbl) as (rest & P1 & _).
  eapply Permutation_in; [apply Permutation_sym; exact P1|]. apply in_or_app. left. exact I.
Qed.

Lemma rt_held_sget_Forall : forall (P : sq_node -> Prop) s tbl,
  Forall P (rt_held tbl) -> Forall P (si_hold (rt_sget s tbl)).
Proof.
  intros P s tbl H. rewrite Forall_forall in H |- *. intros n I. exact (H n (rt_held_sget_in s tbl n I)).
Qed.

Lemma rt_held_sset_Forall : forall (P : sq_node -> Prop) s e tbl,
  Forall P (rt_held tbl) -> Forall P (si_hold e) -> Forall P (rt_held (rt_sset s e tbl)).
Proof.
  intros P s e tbl H He. destruct (rt_held_get_set s tbl) as (rest & P1 & P2).
  eapply Permutation_Forall; [apply Permutation_sym; apply P2|].
  eapply Permutation_Forall in H; [|exact P1]. apply Forall_app in H. apply Forall_app. tauto.
Qed.

(* hence: what an update of s's entry does to the list of all waiting messages follows from what
   it does to the waiting messages of s *)
Lemma rt_held_sset : forall s e tbl a b,
  Permutation (a ++ si_hold e) (b ++ si_hold (rt_sget s tbl)) ->
  Permutation (a ++ rt_held (rt_sset s e tbl)) (b ++ rt_held tbl).
Proof.
  intros s e tbl a b P. destruct (rt_held_get_set s tbl) as (rest & P1 & P2).
  eapply Permutation_trans; [apply Permutation_app_head; apply P2|].
  eapply Permutation_trans; [|apply Permutation_app_head; apply Permutation_sym; exact P1].
  rewrite !app_assoc. apply Permutation_app_tail. exact P.
Qed.

Lemma rt_held_same_hold : forall s e tbl, si_hold e = si_hold (rt_sget s tbl) ->
  Permutation (rt_held (rt_sset s e tbl)) (rt_held tbl).
Proof. intros s e tbl He. apply (rt_held_sset s e tbl [] []). rewrite He. apply Permutation_refl. Qed.

(* every entry of the table keeps con_active between 0 and NSTART *)
Definition rt_sinfo_ok (e : rt_sinfo) : Prop := 0 <= si_active e <= si_nstart e /\ 1 <= si_nstart e.
Definition rt_slots_ok (tbl : list (Z * rt_sinfo)) : Prop := Forall (fun p => rt_sinfo_ok (snd p)) tbl.

Lemma rt_sget_ok : forall s tbl, rt_slots_ok tbl -> rt_sinfo_ok (rt_sget s tbl).
Proof.
  intros s. induction tbl as [|[k e] r IH]; intros H; cbn.
  - unfold rt_sinfo_ok. cbn. lia.
  - inversion H; subst. destruct (k =? s); [assumption|apply IH; assumption].
Qed.

Lemma rt_sset_ok : forall s e tbl, rt_sinfo_ok e -> rt_slots_ok tbl -> rt_slots_ok (rt_sset s e tbl).
Proof.
  intros s e. induction tbl as [|[k e0] r IH]; intros He H; cbn.
  - constructor; [exact He|constructor].
  - inversion H; subst. destruct (k =? s); constructor; auto. apply IH; assumption.
Qed.

(* all pending messages of a state *)
Definition rt_live (st : rt_state) : list sq_node := rt_nodes (rs_q st) ++ rt_held (rs_sess st).

(* the invariant behind rt_one_outcome: rt_rel over the pending messages (plus those in extra: a node
   that has just been taken out of the queue and is being processed); the waiting ones have
   counter -1; slots are within NSTART *)
Definition rt_invx (tr : list rt_out) (st : rt_state) (extra : list sq_node) : Prop :=
  rt_rel tr (rs_uid st) (extra ++ rt_live st) /\
  Forall (fun n => qn_cnt n = -1) (rt_held (rs_sess st)) /\
  rt_slots_ok (rs_sess st).
Definition rt_inv (tr : list rt_out) (st : rt_state) : Prop := rt_invx tr st [].

Lemma rt_enqueue_nodes : forall st n d,
  Permutation (rt_nodes (rs_q (rt_enqueue st n d))) (n :: rt_nodes (rs_q st)).
Proof.
  intros st n d. unfold rt_enqueue. destruct (rs_q st) as [|e q] eqn:E.
  - apply Permutation_refl.
  - apply rt_nodes_insert.
Qed.

Lemma rt_invx_neutral : forall tr st extra o, rt_neutral o -> rt_invx tr st extra -> rt_invx (tr ++ o) st extra.
Proof. intros tr st extra o N (R & H & SO). split; [apply rt_rel_neutral; assumption|split; assumption]. Qed.

Lemma rt_invx_set_same_hold : forall tr st extra s e,
  si_hold e = si_hold (rt_sget s (rs_sess st)) -> rt_sinfo_ok e ->
  rt_invx tr st extra -> rt_invx tr (rt_set_sess st (rt_sset s e (rs_sess st))) extra.
Proof.
  intros tr st extra s e He Oe (R & H & SO).
  pose proof (rt_held_same_hold s e _ He) as P. split; [|split].
  - eapply rt_rel_perm; [|exact R]. unfold rt_live. cbn [rt_set_sess rs_q rs_sess].
    do 2 apply Permutation_app_head. apply Permutation_sym. exact P.
  - eapply Permutation_Forall; [apply Permutation_sym; exact P|exact H].
  - apply rt_sset_ok; assumption.
Qed.

Lemma rt_inv_removed : forall tr st s m t n q',
  sq_remove (rs_q st) s m = Some ((t, n), q') -> rt_inv tr st -> rt_invx tr (rt_set_q st q') [n].
Proof.
  intros tr st s m t n q' Rm (R & H & SO). destruct (rt_nodes_remove _ _ _ _ _ _ Rm) as [P _].
  split; [|split; assumption]. cbn [rt_set_q rs_uid app]. unfold rt_live in *. cbn [rt_set_q rs_q rs_sess app] in *.
  eapply rt_rel_perm; [|exact R]. apply (Permutation_app_tail _ P).
Qed.

(* events the theorems quantify over: time does not run backwards; max_retransmit as the
   setter accepts it (> 0) and within the 8-bit counter *)
Definition rt_ev_ok (ev : rt_event) : Prop :=
  match ev with
  | RtAdvance dt => 0 <= dt
  | RtSend _ _ _ cfg _ => 1 <= rc_max cfg <= 255
  | RtDisconnect _ reason => reason <> rt_NACK_TOO_MANY_RETRIES /\ reason <> rt_NACK_ICMP_ISSUE
  | _ => True
  end.

(* the invariant on a configuration: the node beside the state is pending too *)
Definition rt_cinv (tr : list rt_out) (c : rt_conf) : Prop := rt_invx tr (fst c) (map snd (snd c)).

Lemma rt_mstep_inv : forall ev c o c' tr,
  rt_ev_ok ev -> rt_mstep ev c o c' -> rt_cinv tr c -> rt_cinv (tr ++ o) c'.
Proof.
  intros ev c o c' tr Hev S. unfold rt_cinv.
  destruct S as [st x o Q|st t _|st x s a si Ha|st s m b cfg r Ev si T|st s m b cfg r Ev T|st x s n dq si Eh Ha c
                |st t n rest Eq|st d n Hc Due c|st d n si Bad c|st s m t n q' d Rm _|st d n reason Hr|st d n
                |st p|st s reason Ev];
    cbn [fst snd map]; intros I.
  - apply rt_invx_neutral; [apply rt_silent_neutral; exact Q|exact I].
  - rewrite app_nil_r. exact I.   (* the invariant does not read the clock *)
  - rewrite app_nil_r. apply rt_invx_set_same_hold; [reflexivity| |exact I].
    destruct I as (_ & _ & SO). destruct (rt_sget_ok s _ SO) as [Oa On]. split; [apply Ha|]; assumption.
  - (* the new message waits for a slot *)
    destruct I as (R & H & SO). destruct (rt_sget_ok s _ SO) as [Oa On]. fold si in Oa, On. subst ev. cbn in Hev.
    set (n := sq_mk_node (rs_uid st) s m (-1) T (rc_max cfg) b) in *.
    set (e := rt_mk_sinfo (si_nstart si) (si_active si) (si_hold si ++ [n])).
    assert (P : Permutation (rt_held (rt_sset s e (rs_sess st))) (n :: rt_held (rs_sess st))).
    { apply (rt_held_sset s e _ [] [n]). apply Permutation_sym. apply Permutation_cons_append. }
    split; [|split]; cbn [rs_uid rs_sess app].
    + eapply rt_rel_perm; [|apply (rt_rel_add tr (rs_uid st) (rt_live st) s m b T (rc_max cfg) (-1) []);
                              [lia|lia|reflexivity|intros; reflexivity|exact R]].
      unfold rt_live. cbn [rs_q rs_sess]. eapply Permutation_trans; [apply Permutation_middle|].
      apply Permutation_app_head. apply Permutation_sym. exact P.
    + eapply Permutation_Forall; [apply Permutation_sym; exact P|]. constructor; [reflexivity|exact H].
    + apply rt_sset_ok; [split; assumption|exact SO].
  - (* the new message is transmitted and queued *)
    destruct I as (R & H & SO). subst ev. cbn in Hev.
    set (st1 := rt_mk_state _ _ _ _ _). set (n := sq_mk_node (rs_uid st) s m 0 T (rc_max cfg) b).
    destruct (rt_enqueue_fields st1 n T) as (U & _ & Se).
    split; [|rewrite Se; split; assumption]. rewrite U. unfold rt_live. rewrite Se. cbn [app].
    eapply rt_rel_perm; [apply Permutation_app_tail; apply Permutation_sym; apply rt_enqueue_nodes|].
    apply rt_rel_add; try exact R; try lia.
    + cbn. rewrite Z.eqb_refl. reflexivity.
    + intros u Hu. apply rt_proj_other. cbn. congruence.
  - (* a waiting message of s takes a slot: first transmission, into the queue *)
    destruct I as (R & H & SO). destruct (rt_sget_ok s _ SO) as [Oa On]. fold si in Oa, On.
    set (n' := rt_bump_node n c). set (e := rt_mk_sinfo (si_nstart si) (si_active si + 1) dq).
    assert (P : Permutation (rt_held (rs_sess st)) (n :: rt_held (rt_sset s e (rs_sess st)))).
    { apply Permutation_sym. apply (rt_held_sset s e _ [n] []). fold si. rewrite Eh. apply Permutation_refl. }
    assert (Hn : qn_cnt n = -1 /\ Forall (fun n => qn_cnt n = -1) (rt_held (rt_sset s e (rs_sess st)))).
    { eapply Permutation_Forall in H; [|exact P]. inversion H; auto. }
    destruct Hn as [Hn H'].
    destruct (rt_enqueue_fields st n' (qn_timeout n * 2 ^ c)) as (U & _ & _).
    split; [|split; [exact H'|apply rt_sset_ok; [split; cbn; lia|exact SO]]].
    cbn [rt_set_sess rs_uid]. rewrite U. unfold rt_live. cbn [rt_set_sess rs_q rs_sess].
    assert (R1 : rt_rel tr (rs_uid st) (n :: map snd x ++ rt_nodes (rs_q st) ++ rt_held (rt_sset s e (rs_sess st)))).
    { eapply rt_rel_perm; [|exact R]. unfold rt_live.
      eapply Permutation_trans; [do 2 apply Permutation_app_head; exact P|].
      rewrite !app_assoc. apply Permutation_sym. apply Permutation_middle. }
    pose proof R1 as (_ & _ & F & _). inversion F as [|? ? (_ & _ & M & _) _]; subst.
    eapply rt_rel_perm; [|apply (rt_rel_bump _ _ _ _ (rs_now st) c eq_refl ltac:(lia) R1)].
    fold n'. eapply Permutation_trans; [apply Permutation_middle|]. apply Permutation_app_head.
    exact (Permutation_app_tail _ (Permutation_sym (rt_enqueue_nodes st n' _))).
  - rewrite app_nil_r. destruct I as (R & H & SO). split; [|split; assumption].
    unfold rt_live in *. cbn [rt_set_q rs_uid rs_q rs_sess app] in *. rewrite rt_nodes_bump.
    rewrite Eq in R. exact R.
  - (* the popped node is transmitted again *)
    destruct I as (R & H & SO). cbn [app] in R.
    pose proof R as (_ & _ & F & _). inversion F as [|? ? (_ & B & M & _) _]; subst.
    assert (Ec : c = qn_cnt n + 1) by (apply Z.mod_small; lia).
    destruct (rt_enqueue_fields st (rt_bump_node n c) (qn_timeout n * 2 ^ c)) as (U & _ & Se).
    split; [|rewrite Se; split; assumption]. cbn [app]. rewrite U. unfold rt_live. rewrite Se.
    eapply rt_rel_perm; [apply Permutation_app_tail; apply Permutation_sym; apply rt_enqueue_nodes|].
    apply (rt_rel_bump _ _ _ _ _ _ Ec Hc R).
  - destruct I as (_ & _ & SO). destruct Bad. apply (rt_sget_ok _ _ SO).
  - rewrite app_nil_r. exact (rt_inv_removed tr st s m t n q' Rm I).
  - destruct I as (R & H & SO). split; [|split; assumption].
    apply (rt_rel_drop _ _ n _ _ (PNack reason (qn_cnt n) (qn_max n))); [| | |exact R].
    + intros (_ & B & M & _). cbn. repeat split; try lia.
      destruct Hr as [->|(-> & Hm & _)]; [discriminate|lia].
    + cbn. rewrite Z.eqb_refl. reflexivity.
    + intros u Hu. apply rt_proj_other. cbn. congruence.
  - destruct I as (R & H & SO). split; [|split; assumption]. exact (rt_rel_drop_acked (rs_now st) [n] tr _ _ R).
  - pose proof (rt_nodes_cancel p (rs_q st)) as P.
    destruct (sq_cancel p (rs_q st)) as [rm q']. cbn [fst snd] in *.
    destruct I as (R & H & SO). split; [|split; assumption].
    unfold rt_live in *. cbn [rt_set_q rs_uid rs_q rs_sess app] in *.
    apply rt_rel_drop_acked. eapply rt_rel_perm; [|exact R]. rewrite app_assoc. apply Permutation_app_tail. exact P.
  - (* the session's waiting and queued messages end with one NACK each *)
    subst ev. cbn in Hev. unfold rt_disconnect.
    pose proof (rt_nodes_cancel (rt_sess_match s) (rs_q st)) as P.
    destruct (sq_cancel (rt_sess_match s) (rs_q st)) as [rm q']. cbn [fst snd] in *.
    destruct I as (R & H & SO). cbn [app] in R. destruct (rt_sget_ok s _ SO) as [Oa On].
    set (si := rt_sget s (rs_sess st)) in *. set (e := rt_mk_sinfo (si_nstart si) 0 []).
    assert (Ph : Permutation (rt_held (rs_sess st)) (si_hold si ++ rt_held (rt_sset s e (rs_sess st)))).
    { apply Permutation_sym. apply (rt_held_sset s e _ (si_hold si) []). cbn [e si_hold app].
      rewrite app_nil_r. apply Permutation_refl. }
    split; [|split]; cbn [rt_set_sess rt_set_q rs_uid rs_sess].
    + assert (G : rt_rel (tr ++ map (rt_nack_of (rs_now st) reason) (si_hold si ++ rm)) (rs_uid st)
                         (rt_nodes q' ++ rt_held (rt_sset s e (rs_sess st)))).
      { apply rt_rel_drop_nacked; [tauto|]. eapply rt_rel_perm; [|exact R]. unfold rt_live.
        eapply Permutation_trans; [apply Permutation_app; [exact P|exact Ph]|].
        rewrite !app_assoc. apply Permutation_app_tail. rewrite <- (app_assoc (si_hold si)).
        apply Permutation_app_comm. }
      destruct (si_hold si ++ rm); [|exact G].
      cbn [map] in G. rewrite app_nil_r in G. apply rt_rel_neutral; [intros u; reflexivity|exact G].
    + eapply Permutation_Forall in H; [|exact Ph]. apply Forall_app in H. tauto.
    + apply rt_sset_ok; [split; cbn; lia|exact SO].
Qed.

Lemma rt_run_rel : forall evs st tr,
  Forall rt_ev_ok evs -> rt_inv tr st -> rt_inv (tr ++ snd (rt_run st evs)) (fst (rt_run st evs)).
Proof.
  intros evs st tr F I. apply (rt_run_keep_any_fuel rt_ev_ok rt_cinv rt_mstep_inv); [|exact F|exact I].
  intros st' tr'. apply rt_invx_neutral. intros u. reflexivity.
Qed.

(* the initial state: sessions with their NSTART (at least 1), nothing pending *)
Definition rt_nst_ok (nst : list (Z * Z)) : Prop := Forall (fun p => 1 <= snd p) nst.

Lemma rt_held_init : forall nst, rt_held (map (fun p => (fst p, rt_mk_sinfo (snd p) 0 [])) nst) = [].
Proof. induction nst as [|p r IH]; [reflexivity|]. cbn. exact IH. Qed.

Lemma rt_slots_ok_init : forall t0 nst, rt_nst_ok nst -> rt_slots_ok (rs_sess (rt_init t0 nst)).
Proof.
  intros t0 nst H. unfold rt_slots_ok. cbn [rt_init rs_sess]. rewrite Forall_map. eapply Forall_impl; [|exact H].
  intros p Hp. unfold rt_sinfo_ok. cbn in *. lia.
Qed.

Lemma rt_inv_init : forall t0 nst, rt_nst_ok nst -> rt_inv [] (rt_init t0 nst).
Proof.
  intros t0 nst H. unfold rt_inv, rt_invx, rt_live. cbn [rt_init rs_uid rs_q rs_sess app rt_nodes map].
  rewrite rt_held_init. split; [exact rt_rel_init|]. split; [constructor|exact (rt_slots_ok_init t0 nst H)].
Qed.

(* the three possible shapes of a message's history *)
Definition rt_shape (l : list rt_tag) : Prop :=
  l = [] \/                                                   (* never accepted, or waiting for a slot *)
  (exists b j, l = repeat (PTx b) (S j) /\ (j <= 255)%nat) \/ (* pending: transmissions only *)
  rt_closed l.                                                (* transmissions, one outcome *)

Theorem rt_one_outcome : forall t0 nst evs u,
  rt_nst_ok nst -> Forall rt_ev_ok evs ->
  let (st, tr) := rt_run (rt_init t0 nst) evs in
  rt_shape (rt_proj u tr) /\
  (* pending <-> still queued or waiting for a slot, and then it was transmitted
     retransmit_cnt + 1 times (not yet: counter -1), at most max_retransmit + 1 *)
  (forall n, In n (rt_live st) -> qn_uid n = u ->
     rt_proj u tr = repeat (PTx (qn_bytes n)) (Z.to_nat (qn_cnt n + 1)) /\
     -1 <= qn_cnt n <= qn_max n) /\
  (~ In u (map qn_uid (rt_live st)) -> rt_proj u tr = [] \/ rt_closed (rt_proj u tr)).
Proof.
  intros t0 nst evs u Hn F.
  pose proof (rt_run_rel evs (rt_init t0 nst) [] F (rt_inv_init t0 nst Hn)) as H.
  destruct (rt_run (rt_init t0 nst) evs) as [st tr]. cbn [app fst snd] in H.
  destruct H as ((K & D & Fn & C) & _ & _). cbn [app] in *.
  assert (Q : forall n, In n (rt_live st) -> qn_uid n = u ->
     rt_proj u tr = repeat (PTx (qn_bytes n)) (Z.to_nat (qn_cnt n + 1)) /\
     -1 <= qn_cnt n <= qn_max n /\ qn_max n <= 255).
  { intros n I E. rewrite Forall_forall in Fn. destruct (Fn n I) as (A & B & M & O).
    subst u. unfold rt_open in O. split; [exact O|lia]. }
  assert (Cl : ~ In u (map qn_uid (rt_live st)) -> rt_proj u tr = [] \/ rt_closed (rt_proj u tr)).
  { intros Hu. destruct (C u Hu) as [C1 C2].
    destruct (Z_le_gt_dec 0 u); [destruct (Z_lt_le_dec u (rs_uid st))|].
    - right. apply C1. lia.
    - left. apply C2. lia.
    - left. apply C2. lia. }
  split; [|split].
  - destruct (in_dec Z.eq_dec u (map qn_uid (rt_live st))) as [I|NI].
    + apply in_map_iff in I. destruct I as (n & E & I). destruct (Q n I E) as (P & B & M).
      destruct (Z.eq_dec (qn_cnt n) (-1)) as [Em|Em].
      * left. rewrite P, Em. reflexivity.
      * right; left. exists (qn_bytes n), (Z.to_nat (qn_cnt n)). split; [|lia].
        rewrite P. f_equal. lia.
    + destruct (Cl NI) as [E|E]; [left; exact E|right; right; exact E].
  - intros n I E. destruct (Q n I E) as (P & B & M). tauto.
  - exact Cl.
Qed.

Lemma rt_run_app : forall e1 e2 st,
  rt_run st (e1 ++ e2) =
  let (st1, o1) := rt_run st e1 in let (st2, o2) := rt_run st1 e2 in (st2, o1 ++ o2).
Proof.
  induction e1 as [|ev rest IH]; intros e2 st; cbn [rt_run app].
  - destruct (rt_run st e2); reflexivity.
  - destruct (rt_step st ev) as [st1 o1]. rewrite IH.
    destruct (rt_run st1 rest) as [st2 o2]. destruct (rt_run st2 e2) as [st3 o3].
    rewrite app_assoc. reflexivity.
Qed.

Lemma rt_repeat_split : forall b b' a a' y y' r r',
  (forall x, y <> PTx x) -> (forall x, y' <> PTx x) ->
  repeat (PTx b) a ++ y :: r = repeat (PTx b') a' ++ y' :: r' -> a = a' /\ y = y' /\ r = r'.
Proof.
  intros b b'. induction a as [|a IH]; intros [|a'] y y' r r' Hy Hy' E; cbn in E.
  - inversion E; auto.
  - inversion E; subst. exfalso. eapply Hy; reflexivity.
  - inversion E; subst. exfalso. eapply Hy'; reflexivity.
  - injection E as Eb Et. subst b. destruct (IH a' y y' r r' Hy Hy' Et) as (A & B & C). auto.
Qed.

Lemma rt_outcome_not_tx : forall j o b, rt_outcome_ok j o -> o <> PTx b.
Proof. intros j [b'|r c mx|] b H; cbn in H; [contradiction|discriminate|discriminate]. Qed.

Lemma rt_closed_final : forall l1 l2, rt_closed l1 -> rt_shape (l1 ++ l2) -> l2 = [].
Proof.
  intros l1 l2 (b & j & o & E & _ & Ho) [Sh|[Sh|Sh]]; subst l1.
  - apply (f_equal (@length _)) in Sh. rewrite !app_length in Sh. cbn in Sh. lia.
  - destruct Sh as (b' & j' & E'). destruct E' as [E' _].
    assert (I : In o (repeat (PTx b') (S j'))).
    { rewrite <- E'. apply in_or_app. left. apply in_or_app. right. left. reflexivity. }
    apply repeat_spec in I. exfalso. eapply rt_outcome_not_tx; eauto.
  - destruct Sh as (b' & j' & o' & E' & _ & Ho').
    rewrite <- app_assoc in E'. cbn [app] in E'.
    destruct (rt_repeat_split b b' j j' o o' l2 []
                (fun x => rt_outcome_not_tx _ _ x Ho) (fun x => rt_outcome_not_tx _ _ x Ho') E') as (_ & _ & L).
    exact L.
Qed.

Theorem rt_nothing_after_outcome : forall t0 nst e1 e2 u,
  rt_nst_ok nst -> Forall rt_ev_ok (e1 ++ e2) ->
  rt_closed (rt_proj u (snd (rt_run (rt_init t0 nst) e1))) ->
  rt_proj u (snd (rt_run (rt_init t0 nst) (e1 ++ e2))) = rt_proj u (snd (rt_run (rt_init t0 nst) e1)).
Proof.
  intros t0 nst e1 e2 u Hn F C.
  pose proof (rt_one_outcome t0 nst (e1 ++ e2) u Hn F) as H.
  rewrite rt_run_app in *. destruct (rt_run (rt_init t0 nst) e1) as [st1 o1].
  destruct (rt_run st1 e2) as [st2 o2]. cbn [snd] in *. destruct H as [Sh _].
  rewrite rt_proj_app in *. rewrite (rt_closed_final _ _ C Sh). apply app_nil_r.
Qed.

(* An ACK or RST whose (session, mid) is not in the queue is, for the queue, just a prepare call
   whose result nobody sees (plus, for RST, a handler call without PDU). *)
Theorem rt_unknown_ack_rst : forall st s m,
  sq_remove (rs_q st) s m = None ->
  rt_step st (RtAck s m) = rt_fire_all st /\
  rt_step st (RtRst s m) =
    (fst (rt_fire_all st), RoNackNoPdu (rs_now st) s rt_NACK_RST m :: snd (rt_fire_all st)).
Proof.
  intros st s m H. cbn [rt_step]. unfold rt_ack, rt_rst. rewrite H.
  destruct (rt_fire_all st); split; reflexivity.
Qed.

(* One that is in the queue removes exactly the first node of that session with that mid; all
   other messages - other mids, other sessions - keep their deadlines and counters. *)
Theorem rt_known_ack_rst : forall st s m t n q',
  sq_remove (rs_q st) s m = Some ((t, n), q') ->
  qn_sess n = s /\ qn_mid n = m /\
  (exists l1 l2 d, sq_abs (rs_base st) (rs_q st) = l1 ++ (d, n) :: l2 /\
                   sq_abs (rs_base st) q' = l1 ++ l2 /\
                   Forall (fun x => sq_match s m (snd x) = false) l1) /\
  (* the freed NSTART slot goes to a waiting message of that session (if any), then a prepare *)
  rt_step st (RtAck s m) =
    (let (st1, o1) := rt_free_slot (rt_set_q st q') s in
     let (st2, o2) := rt_fire_all st1 in
     (st2, RoAcked (rs_now st) (qn_uid n) :: o1 ++ o2)) /\
  rt_step st (RtRst s m) =
    (let (st1, o1) := rt_free_slot (rt_set_q st q') s in
     let (st2, o2) := rt_fire_all st1 in
     (st2, o1 ++ RoNack (rs_now st) (qn_uid n) (qn_sess n) rt_NACK_RST (qn_mid n) (qn_cnt n) (qn_max n) :: o2)).
Proof.
  intros st s m t n q' H.
  destruct (sq_remove_others _ (rs_base st) _ _ _ _ _ H) as (l1 & l2 & d & E1 & E2 & M & F).
  unfold sq_match in M. apply andb_true_iff in M. destruct M as [M1 M2].
  split; [lia|]. split; [lia|]. split; [exists l1, l2, d; auto|].
  cbn [rt_step]. unfold rt_ack, rt_rst. rewrite H. split; reflexivity.
Qed.

(* coap_session_disconnected: exactly the session's messages leave the queue, each with one NACK
   call, in queue order; the messages of all other sessions keep deadline and place *)
Theorem rt_disconnect_spec : forall st s reason,
  let (st', o) := rt_disconnect st s reason in
  sq_abs (rs_base st') (rs_q st') =
    filter (fun e => negb (rt_sess_match s (snd e))) (sq_abs (rs_base st) (rs_q st)) /\
  rs_now st' = rs_now st /\
  (* first the messages of the session that wait for a slot, then its queued ones *)
  let rm := si_hold (rt_sget s (rs_sess st)) ++ filter (rt_sess_match s) (rt_nodes (rs_q st)) in
  o = match rm with
      | [] => [RoNackNoPdu (rs_now st) s reason 0]
      | _ => map (rt_nack_of (rs_now st) reason) rm
      end /\
  si_hold (rt_sget s (rs_sess st')) = [] /\ si_active (rt_sget s (rs_sess st')) = 0.
Proof.
  intros st s reason. unfold rt_disconnect.
  destruct (sq_abs_cancel (rt_sess_match s) (rs_q st) (rs_base st)) as [A B].
  destruct (sq_cancel (rt_sess_match s) (rs_q st)) as [rm q']. cbn [fst snd] in *.
  cbn [rt_set_sess rt_set_q rs_base rs_q rs_now rs_sess]. split; [exact A|]. split; [reflexivity|].
  rewrite rt_sget_sset. cbn [si_hold si_active]. split; [|split; reflexivity].
  unfold rt_nodes. rewrite <- B. reflexivity.
Qed.

(* before the repair the first queued message of the session was reported twice *)
Theorem rt_disconnect_old_double_nack : exists st s reason u,
  reason <> rt_NACK_TOO_MANY_RETRIES /\ reason <> rt_NACK_ICMP_ISSUE /\
  rt_proj u (snd (rt_disconnect_old st s reason)) = [PNack reason 0 4; PNack reason 0 4].
Proof.
  exists (rt_mk_state 600 0 [(2000, sq_mk_node 0 0 10 0 2000 4 []); (500, sq_mk_node 1 1 20 0 2000 4 [])] 2 []),
         0, 1, 0.
  split; [discriminate|]. split; [discriminate|]. vm_compute. reflexivity.
Qed.

(* coap_delete_node on a queued node: exactly that node leaves, silently; every other message
   keeps deadline, counter and place; nothing queued under that (session, mid): nothing happens *)
Theorem rt_delete_spec : forall st s m,
  (forall t n q', sq_remove (rs_q st) s m = Some ((t, n), q') ->
     rt_delete st s m = (rt_set_q st q', [RoAcked (rs_now st) (qn_uid n)]) /\
     exists l1 l2 d, sq_abs (rs_base st) (rs_q st) = l1 ++ (d, n) :: l2 /\
                     sq_abs (rs_base st) q' = l1 ++ l2) /\
  (sq_remove (rs_q st) s m = None -> rt_delete st s m = (st, [])).
Proof.
  intros st s m. split.
  - intros t n q' H. unfold rt_delete. rewrite H. split; [reflexivity|].
    destruct (sq_remove_others _ (rs_base st) _ _ _ _ _ H) as (l1 & l2 & d & E1 & E2 & _ & _).
    exists l1, l2, d. auto.
  - intros H. unfold rt_delete. rewrite H. reflexivity.
Qed.

Theorem rt_send_free_spec : forall st s m b cfg r,
  si_active (rt_sget s (rs_sess st)) < si_nstart (rt_sget s (rs_sess st)) ->
  snd (rt_send st s m b cfg r) =
  [RoTx (rs_now st) (rs_uid st) s b 0
        (fp_calc_timeout (rc_at_ip cfg) (rc_at_fp cfg) (rc_arf_ip cfg) (rc_arf_fp cfg) r);
   RoSent m].
Proof.
  intros st s m b cfg r H. unfold rt_send.
  assert (E : (si_nstart (rt_sget s (rs_sess st)) <=? si_active (rt_sget s (rs_sess st))) = false) by lia.
  rewrite E. reflexivity.
Qed.

Theorem rt_send_held_spec : forall st s m b cfg r,
  let si := rt_sget s (rs_sess st) in
  si_nstart si <= si_active si ->
  existsb (fun n => qn_mid n =? m) (si_hold si) = false ->
  let st' := fst (rt_send st s m b cfg r) in
  snd (rt_send st s m b cfg r) = [RoSent m] /\ rs_q st' = rs_q st /\
  si_hold (rt_sget s (rs_sess st')) =
    si_hold si ++ [sq_mk_node (rs_uid st) s m (-1)
                     (fp_calc_timeout (rc_at_ip cfg) (rc_at_fp cfg) (rc_arf_ip cfg) (rc_arf_fp cfg) r)
                     (rc_max cfg) b].
Proof.
  intros st s m b cfg r si H Ex st'. unfold st', rt_send. fold si.
  assert (E : (si_nstart si <=? si_active si) = true) by lia. rewrite E, Ex. cbn [fst snd rs_q rs_sess].
  rewrite rt_sget_sset. cbn [si_hold]. auto.
Qed.
