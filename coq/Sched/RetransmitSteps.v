(* C06 - the retransmission machine as a sequence of atomic changes.
   Whatever an event does (rt_step) is made of a few kinds of change to the queue, the session
   table and the outputs: a message is accepted, a waiting message is released, the head of the
   queue is popped, a node is re-inserted and transmitted, a node leaves with an outcome, ...
   rt_mstep lists them; the lemmas of section Keep show that every function of Retransmit.v only
   chains such changes: whatever they all keep, the function keeps.  An invariant of the machine
   is checked once per kind of change and holds along every run (rt_run_keep).
   A node that has left the queue but has not got its outcome yet (the release of its NSTART
   slot comes in between) is kept beside the state, with its deadline. *)
From LibcoapV Require Import Base.Tactics Sched.FixedPoint Sched.SendQueue Sched.SendQueueProofs
  Sched.Retransmit.
Local Open Scope Z_scope.

Lemma rt_sget_sset : forall s e tbl, rt_sget s (rt_sset s e tbl) = e.
Proof.
  intros s e. induction tbl as [|[k e0] r IH]; cbn.
  - rewrite Z.eqb_refl. reflexivity.
  - destruct (k =? s) eqn:E; cbn; rewrite E; [reflexivity|exact IH].
Qed.

Lemma rt_sset_sset : forall s e1 e2 tbl, rt_sset s e2 (rt_sset s e1 tbl) = rt_sset s e2 tbl.
Proof.
  intros s e1 e2. induction tbl as [|[k e0] r IH]; cbn.
  - rewrite Z.eqb_refl. reflexivity.
  - destruct (k =? s) eqn:E; cbn; rewrite E; [reflexivity|]. rewrite IH. reflexivity.
Qed.

Lemma rt_sinfo_eta : forall e, e = rt_mk_sinfo (si_nstart e) (si_active e) (si_hold e).
Proof. intros []. reflexivity. Qed.

Lemma rt_enqueue_fields : forall st n d,
  rs_uid (rt_enqueue st n d) = rs_uid st /\ rs_now (rt_enqueue st n d) = rs_now st /\
  rs_sess (rt_enqueue st n d) = rs_sess st.
Proof. intros st n d. unfold rt_enqueue. destruct (rs_q st); cbn; auto. Qed.

Lemma rt_enqueue_set_sess : forall st tbl n d,
  rt_enqueue (rt_set_sess st tbl) n d = rt_set_sess (rt_enqueue st n d) tbl.
Proof. intros st tbl n d. unfold rt_enqueue. cbn [rt_set_sess rs_q]. destruct (rs_q st); reflexivity. Qed.

Definition rt_conf : Type := (rt_state * list (Z * sq_node))%type.

(* outputs that concern no message (and are not the marker of the loop bound) *)
Definition rt_silent (o : rt_out) : Prop :=
  match o with RoTx _ _ _ _ _ _ | RoNack _ _ _ _ _ _ _ | RoAcked _ _ | RoFuel => False | _ => True end.

Inductive rt_mstep (ev : rt_event) : rt_conf -> list rt_out -> rt_conf -> Prop :=
| rt_ms_silent : forall st x o, Forall rt_silent o -> rt_mstep ev (st, x) o (st, x)
  (* the clock moves: as the event says, or forwards *)
| rt_ms_clock : forall st t,
    match ev with RtAdvance dt => t = rs_now st + dt | _ => rs_now st <= t end ->
    rt_mstep ev (st, []) [] (rt_set_now st t, [])
  (* con_active of a session changes (and stays within NSTART if it was) *)
| rt_ms_slot : forall st x s a,
    let si := rt_sget s (rs_sess st) in
    (0 <= si_active si <= si_nstart si -> 0 <= a <= si_nstart si) ->
    rt_mstep ev (st, x) []
      (rt_set_sess st (rt_sset s (rt_mk_sinfo (si_nstart si) a (si_hold si)) (rs_sess st)), x)
  (* coap_session_delay_pdu *)
| rt_ms_hold : forall st s m b cfg r,
    ev = RtSend s m b cfg r ->
    let si := rt_sget s (rs_sess st) in
    let T := fp_calc_timeout (rc_at_ip cfg) (rc_at_fp cfg) (rc_arf_ip cfg) (rc_arf_fp cfg) r in
    rt_mstep ev (st, []) []
      (rt_mk_state (rs_now st) (rs_base st) (rs_q st) (rs_uid st + 1)
         (rt_sset s (rt_mk_sinfo (si_nstart si) (si_active si)
                                 (si_hold si ++ [sq_mk_node (rs_uid st) s m (-1) T (rc_max cfg) b]))
                  (rs_sess st)), [])
  (* first transmission and coap_wait_ack of a new message *)
| rt_ms_accept : forall st s m b cfg r,
    ev = RtSend s m b cfg r ->
    let T := fp_calc_timeout (rc_at_ip cfg) (rc_at_fp cfg) (rc_arf_ip cfg) (rc_arf_fp cfg) r in
    rt_mstep ev (st, []) [RoTx (rs_now st) (rs_uid st) s b 0 T]
      (rt_enqueue (rt_mk_state (rs_now st) (rs_base st) (rs_q st) (rs_uid st + 1) (rs_sess st))
                  (sq_mk_node (rs_uid st) s m 0 T (rc_max cfg) b) T, [])
  (* one turn of the loop of coap_session_connected *)
| rt_ms_release : forall st x s n dq,
    let si := rt_sget s (rs_sess st) in
    si_hold si = n :: dq -> si_active si < si_nstart si ->
    let c := qn_cnt n + 1 in
    rt_mstep ev (st, x) [RoTx (rs_now st) (qn_uid n) (qn_sess n) (qn_bytes n) c (qn_timeout n)]
      (rt_set_sess (rt_enqueue st (rt_bump_node n c) (qn_timeout n * 2 ^ c))
                   (rt_sset s (rt_mk_sinfo (si_nstart si) (si_active si + 1) dq) (rs_sess st)), x)
  (* coap_pop_next *)
| rt_ms_pop : forall st t n rest,
    rs_q st = (t, n) :: rest ->
    rt_mstep ev (st, []) [] (rt_set_q st (sq_bump t rest), [(rs_base st + t, n)])
  (* coap_retransmit, the node goes back into the queue *)
| rt_ms_retx : forall st d n,
    qn_cnt n < qn_max n -> d <= rs_now st ->
    let c := (qn_cnt n + 1) mod 256 in
    rt_mstep ev (st, [(d, n)]) [RoTx (rs_now st) (qn_uid n) (qn_sess n) (qn_bytes n) c (qn_timeout n)]
      (rt_enqueue st (rt_bump_node n c) (qn_timeout n * 2 ^ c), [])
  (* ... which finds no slot only if con_active was out of range *)
| rt_ms_nofree : forall st d n,
    let si := rt_sget (qn_sess n) (rs_sess st) in
    ~ (0 <= si_active si <= si_nstart si /\ 1 <= si_nstart si) ->
    let c := (qn_cnt n + 1) mod 256 in
    rt_mstep ev (st, [(d, n)]) [RoFuel] (rt_enqueue st (rt_bump_node n c) (qn_timeout n * 2 ^ c), [])
  (* coap_remove_from_queue *)
| rt_ms_unlink : forall st s m t n q' d,
    sq_remove (rs_q st) s m = Some ((t, n), q') -> In (d, n) (sq_abs (rs_base st) (rs_q st)) ->
    rt_mstep ev (st, []) [] (rt_set_q st q', [(d, n)])
  (* the NACK handler is called: RST, or the give-up of a node that was due *)
| rt_ms_nack : forall st d n reason,
    reason = rt_NACK_RST \/
    (reason = rt_NACK_TOO_MANY_RETRIES /\ qn_max n <= qn_cnt n /\ d <= rs_now st) ->
    rt_mstep ev (st, [(d, n)]) [rt_nack_of (rs_now st) reason n] (st, [])
  (* ... or it is gone without one: acknowledged, or deleted *)
| rt_ms_acked : forall st d n, rt_mstep ev (st, [(d, n)]) [RoAcked (rs_now st) (qn_uid n)] (st, [])
  (* coap_cancel_all_messages *)
| rt_ms_cancel : forall st p,
    rt_mstep ev (st, []) (map (fun n => RoAcked (rs_now st) (qn_uid n)) (fst (sq_cancel p (rs_q st))))
      (rt_set_q st (snd (sq_cancel p (rs_q st))), [])
  (* coap_session_disconnected *)
| rt_ms_disconnect : forall st s reason,
    ev = RtDisconnect s reason ->
    rt_mstep ev (st, []) (snd (rt_disconnect st s reason)) (fst (rt_disconnect st s reason), []).

Lemma rt_release_go_set_sess : forall dq st tbl ns ca,
  rt_release_go (rt_set_sess st tbl) ns ca dq =
  let '(st2, ca2, dq2, o) := rt_release_go st ns ca dq in (rt_set_sess st2 tbl, ca2, dq2, o).
Proof.
  induction dq as [|n dq IH]; intros st tbl ns ca; cbn [rt_release_go]; [reflexivity|].
  destruct (ns <=? ca); [reflexivity|]. rewrite rt_enqueue_set_sess, IH.
  destruct (rt_release_go _ ns (ca + 1) dq) as [[[st2 ca2] dq2] o2]. reflexivity.
Qed.

Lemma rt_release_go_fields : forall dq st ns ca,
  let '(st2, _, _, _) := rt_release_go st ns ca dq in
  rs_now st2 = rs_now st /\ rs_sess st2 = rs_sess st.
Proof.
  induction dq as [|n dq IH]; intros st ns ca; cbn [rt_release_go]; [auto|].
  destruct (ns <=? ca); [auto|].
  destruct (rt_enqueue_fields st (rt_bump_node n (qn_cnt n + 1)) (qn_timeout n * 2 ^ (qn_cnt n + 1))) as (_ & N & S).
  specialize (IH (rt_enqueue st (rt_bump_node n (qn_cnt n + 1)) (qn_timeout n * 2 ^ (qn_cnt n + 1))) ns (ca + 1)).
  destruct (rt_release_go _ ns (ca + 1) dq) as [[[st2 ca2] dq2] o2]. destruct IH. split; congruence.
Qed.

Lemma rt_free_slot_now : forall st s, rs_now (fst (rt_free_slot st s)) = rs_now st.
Proof.
  intros st s. unfold rt_free_slot, rt_release. set (si := rt_sget s (rs_sess st)).
  destruct (0 <? si_active si); [|reflexivity]. set (st0 := rt_set_sess st _).
  pose proof (rt_release_go_fields (si_hold (rt_sget s (rs_sess st0))) st0 (si_nstart (rt_sget s (rs_sess st0)))
                (si_active (rt_sget s (rs_sess st0)))) as H.
  destruct (rt_release_go st0 _ _ _) as [[[st1 ca] dq] o]. exact (proj1 H).
Qed.

Lemma rt_retransmit_now : forall st n, rs_now (fst (rt_retransmit st n)) = rs_now st.
Proof.
  intros st n. unfold rt_retransmit. destruct (qn_cnt n <? qn_max n).
  - destruct (rt_enqueue_fields st (rt_bump_node n ((qn_cnt n + 1) mod 256))
                (qn_timeout n * 2 ^ ((qn_cnt n + 1) mod 256))) as (_ & N & _).
    destruct (_ <=? _); exact N.
  - pose proof (rt_free_slot_now st (qn_sess n)) as N. destruct (rt_free_slot st (qn_sess n)). exact N.
Qed.

Lemma rt_due_head : forall st, rt_due st = true ->
  exists t0 n0 rest, rs_q st = (t0, n0) :: rest /\ rs_base st + t0 <= rs_now st.
Proof.
  intros st D. unfold rt_due in D. destruct (rs_q st) as [|[t0 n0] rest]; [discriminate|].
  exists t0, n0, rest. split; [reflexivity|lia].
Qed.

Section Keep.
  (* an invariant of trace and configuration that every atomic change keeps *)
  Variables (ev : rt_event) (I : list rt_out -> rt_conf -> Prop).
  Hypothesis K : forall c o c' tr, rt_mstep ev c o c' -> I tr c -> I (tr ++ o) c'.

  Lemma rt_keep0 : forall c c' tr, rt_mstep ev c [] c' -> I tr c -> I tr c'.
  Proof. intros c c' tr S H. rewrite <- (app_nil_r tr). exact (K _ _ _ _ S H). Qed.

  (* the model writes the session's entry once, after the loop; here every released node updates
     it, and the last update is the one that counts (rt_release_go_set_sess, rt_sset_sset) *)
  Lemma rt_release_go_keep : forall s x dq st ns ca tr,
    rt_sget s (rs_sess st) = rt_mk_sinfo ns ca dq -> I tr (st, x) ->
    let '(st2, ca2, dq2, o) := rt_release_go st ns ca dq in
    I (tr ++ o) (rt_set_sess st2 (rt_sset s (rt_mk_sinfo ns ca2 dq2) (rs_sess st)), x).
  Proof.
    intros s x.
    (* the table entry is written even when nothing is released *)
    assert (Stop : forall st ns ca dq tr, rt_sget s (rs_sess st) = rt_mk_sinfo ns ca dq -> I tr (st, x) ->
              I (tr ++ []) (rt_set_sess st (rt_sset s (rt_mk_sinfo ns ca dq) (rs_sess st)), x)).
    { intros st ns ca dq tr E H. apply (K (st, x)); [|exact H].
      pose proof (rt_ms_slot ev st x s ca) as S. cbv zeta in S. rewrite E in S. apply S. cbn. tauto. }
    induction dq as [|n dq IH]; intros st ns ca tr E H; cbn [rt_release_go]; [auto|].
    destruct (ns <=? ca) eqn:Full; [auto|].
    set (c := qn_cnt n + 1). set (st1 := rt_enqueue st (rt_bump_node n c) (qn_timeout n * 2 ^ c)).
    set (tbl1 := rt_sset s (rt_mk_sinfo ns (ca + 1) dq) (rs_sess st)).
    pose proof (rt_ms_release ev st x s n dq) as R. cbv zeta in R. rewrite E in R.
    specialize (R eq_refl ltac:(cbn; lia)). cbn [si_nstart si_active] in R. fold c st1 tbl1 in R.
    specialize (IH (rt_set_sess st1 tbl1) ns (ca + 1) _ (rt_sget_sset _ _ _) (K _ _ _ _ R H)).
    rewrite rt_release_go_set_sess in IH. destruct (rt_release_go st1 ns (ca + 1) dq) as [[[st2 ca2] dq2] o2].
    cbn [rt_set_sess rs_now rs_sess] in IH. unfold tbl1 in IH. rewrite rt_sset_sset, <- app_assoc in IH. exact IH.
  Qed.

  Lemma rt_release_keep : forall st s x tr,
    I tr (st, x) -> I (tr ++ snd (rt_release st s)) (fst (rt_release st s), x).
  Proof.
    intros st s x tr H. unfold rt_release.
    pose proof (rt_release_go_keep s x _ st _ _ tr (rt_sinfo_eta (rt_sget s (rs_sess st))) H) as M.
    pose proof (rt_release_go_fields (si_hold (rt_sget s (rs_sess st))) st (si_nstart (rt_sget s (rs_sess st)))
                  (si_active (rt_sget s (rs_sess st)))) as F.
    destruct (rt_release_go st _ _ _) as [[[st1 ca] dq] o]. destruct F as (_ & S).
    cbn [fst snd]. rewrite S. exact M.
  Qed.

  Lemma rt_free_slot_keep : forall st s x tr,
    I tr (st, x) -> I (tr ++ snd (rt_free_slot st s)) (fst (rt_free_slot st s), x).
  Proof.
    intros st s x tr H. unfold rt_free_slot. set (si := rt_sget s (rs_sess st)).
    destruct (0 <? si_active si) eqn:E; [|rewrite app_nil_r; exact H].
    apply rt_release_keep. apply (rt_keep0 (st, x)); [|exact H].
    pose proof (rt_ms_slot ev st x s (si_active si - 1)) as S. cbv zeta in S. fold si in S. apply S. lia.
  Qed.

  Lemma rt_free_slots_keep : forall s x k st tr,
    I tr (st, x) -> I (tr ++ snd (rt_free_slots k st s)) (fst (rt_free_slots k st s), x).
  Proof.
    intros s x. induction k as [|k IH]; intros st tr H; cbn [rt_free_slots]; [rewrite app_nil_r; exact H|].
    pose proof (rt_free_slot_keep st s x tr H) as H1. destruct (rt_free_slot st s) as [st1 o1].
    specialize (IH st1 _ H1). destruct (rt_free_slots k st1 s) as [st2 o2]. cbn [fst snd] in *.
    rewrite app_assoc. exact IH.
  Qed.

  (* coap_retransmit on the node that was popped, due at d *)
  Lemma rt_retransmit_keep : forall st d n tr, d <= rs_now st ->
    I tr (st, [(d, n)]) -> I (tr ++ snd (rt_retransmit st n)) (fst (rt_retransmit st n), []).
  Proof.
    intros st d n tr Due H. unfold rt_retransmit. destruct (qn_cnt n <? qn_max n) eqn:E.
    - set (c := (qn_cnt n + 1) mod 256).
      destruct (rt_enqueue_fields st (rt_bump_node n c) (qn_timeout n * 2 ^ c)) as (_ & _ & S1).
      set (st1 := rt_enqueue st (rt_bump_node n c) (qn_timeout n * 2 ^ c)) in *.
      set (si := rt_sget (qn_sess n) (rs_sess st1)).
      destruct (si_nstart si <=? _) eqn:Full; cbn [fst snd].
      + apply (K (st, [(d, n)])); [|exact H]. apply rt_ms_nofree. rewrite <- S1. fold si.
        destruct (0 <? si_active si) eqn:E0; lia.
      + apply (rt_keep0 (st1, [])); [|exact (K _ _ _ _ (rt_ms_retx ev st d n ltac:(lia) Due) H)].
        apply rt_ms_slot. fold si. destruct (0 <? si_active si) eqn:E0; lia.
    - pose proof (rt_free_slot_keep st (qn_sess n) _ tr H) as H1. pose proof (rt_free_slot_now st (qn_sess n)) as N.
      destruct (rt_free_slot st (qn_sess n)) as [st1 o1]. cbn [fst snd] in *. rewrite app_assoc, <- N.
      apply (K (st1, [(d, n)])); [|exact H1].
      apply (rt_ms_nack ev st1 d n rt_NACK_TOO_MANY_RETRIES). right. repeat split; lia.
  Qed.

  (* the loop of coap_io_prepare_io; if its bound is hit the marker is all that happens *)
  Hypothesis Kfuel : forall st tr, I tr (st, []) -> I (tr ++ [RoFuel]) (st, []).

  Lemma rt_fire_keep : forall fuel st tr,
    I tr (st, []) -> I (tr ++ snd (rt_fire fuel st)) (fst (rt_fire fuel st), []).
  Proof.
    induction fuel as [|f IH]; intros st tr H; cbn [rt_fire].
    - destruct (rt_due st); [apply Kfuel; exact H|rewrite app_nil_r; exact H].
    - destruct (rt_due st) eqn:D; [|rewrite app_nil_r; exact H].
      destruct (rt_due_head st D) as (t0 & n0 & rest & Q & Le). rewrite Q. cbn [sq_pop].
      pose proof (rt_retransmit_keep (rt_set_q st (sq_bump t0 rest)) _ n0 tr Le
                    (rt_keep0 _ _ _ (rt_ms_pop ev st t0 n0 rest Q) H)) as H1.
      destruct (rt_retransmit _ n0) as [st1 o1]. specialize (IH st1 _ H1). destruct (rt_fire f st1) as [st2 o2].
      cbn [fst snd] in *. rewrite app_assoc. exact IH.
  Qed.
End Keep.

Section KeepRun.
  (* G: what the invariant needs to know of the events *)
  Variables (G : rt_event -> Prop) (I : list rt_out -> rt_conf -> Prop).
  Hypothesis K : forall ev c o c' tr, G ev -> rt_mstep ev c o c' -> I tr c -> I (tr ++ o) c'.
  Hypothesis Kfire : forall ev st tr, G ev ->
    I tr (st, []) -> I (tr ++ snd (rt_fire_all st)) (fst (rt_fire_all st), []).

  Theorem rt_step_keep : forall st ev tr, G ev ->
    I tr (st, []) -> I (tr ++ snd (rt_step st ev)) (fst (rt_step st ev), []).
  Proof.
    intros st ev tr Gev H.
    assert (K1 : forall c o c' tr, rt_mstep ev c o c' -> I tr c -> I (tr ++ o) c') by (intros; eapply K; eauto).
    assert (Silent : forall st tr o, Forall rt_silent o -> I tr (st, []) -> I (tr ++ o) (st, [])).
    { intros st' tr' o Q. apply K1. apply rt_ms_silent. exact Q. }
    assert (Kf : forall st tr, I tr (st, []) -> I (tr ++ snd (rt_fire_all st)) (fst (rt_fire_all st), []))
      by (intros; eapply Kfire; eauto).
    assert (Unlink : forall s m t n q', sq_remove (rs_q st) s m = Some ((t, n), q') ->
              exists d, I tr (rt_set_q st q', [(d, n)])).
    { intros s m t n q' Rm.
      destruct (sq_remove_others _ (rs_base st) _ _ _ _ _ Rm) as (l1 & l2 & d & E1 & _).
      exists d. apply (rt_keep0 ev I K1 (st, [])); [|exact H].
      apply (rt_ms_unlink ev st s m t n q' d Rm). rewrite E1. apply in_elt. }
    enough (E : forall e, ev = e -> I (tr ++ snd (rt_step st e)) (fst (rt_step st e), [])) by exact (E ev eq_refl).
    intros [dt|s m b cfg r| |s m|s m|s m tok|s reason|s m|tmo|] Ev; cbn [rt_step].
    - apply (K1 (st, [])); [|exact H]. apply rt_ms_clock. rewrite Ev. reflexivity.
    - unfold rt_send. set (si := rt_sget s (rs_sess st)).
      destruct (si_nstart si <=? si_active si) eqn:Full; [destruct (existsb _ _)|]; cbn [fst snd].
      + apply Silent; [repeat constructor|exact H].
      + apply Silent; [repeat constructor|]. exact (rt_keep0 ev I K1 _ _ _ (rt_ms_hold ev st s m b cfg r Ev) H).
      + change [?a; ?b] with ([a] ++ [b]). rewrite app_assoc. apply Silent; [repeat constructor|].
        pose proof (rt_ms_slot ev st [] s (si_active si + 1)) as S. cbv zeta in S. fold si in S.
        exact (K1 _ _ _ _ (rt_ms_accept ev _ s m b cfg r Ev) (rt_keep0 ev I K1 _ _ _ (S ltac:(lia)) H)).
    - unfold rt_tick. pose proof (Kf st tr H) as H1. destruct (rt_fire_all st) as [st1 o].
      destruct (rt_wait st1) as [w hd]. cbn [fst snd] in *. rewrite app_assoc.
      apply Silent; [repeat constructor|exact H1].
    - unfold rt_ack. destruct (sq_remove (rs_q st) s m) as [[[t n] q']|] eqn:Rm; [|apply Kf; exact H].
      destruct (Unlink _ _ _ _ _ Rm) as [d U].
      pose proof (rt_free_slot_keep ev I K1 (rt_set_q st q') s [] _ (K1 _ _ _ _ (rt_ms_acked ev _ d n) U)) as H1.
      destruct (rt_free_slot _ s) as [st1 o1]. pose proof (Kf st1 _ H1) as H2.
      destruct (rt_fire_all st1) as [st2 o2]. cbn [fst snd] in *.
      rewrite <- !app_assoc in H2. exact H2.
    - unfold rt_rst. destruct (sq_remove (rs_q st) s m) as [[[t n] q']|] eqn:Rm.
      + destruct (Unlink _ _ _ _ _ Rm) as [d U].
        pose proof (rt_free_slot_keep ev I K1 (rt_set_q st q') s _ _ U) as H1.
        pose proof (rt_free_slot_now (rt_set_q st q') s) as N.
        destruct (rt_free_slot _ s) as [st1 o1]. cbn [fst snd rt_set_q rs_now] in *.
        pose proof (Kf st1 _ (K1 _ _ _ _ (rt_ms_nack ev st1 d n rt_NACK_RST (or_introl eq_refl)) H1)) as H2.
        destruct (rt_fire_all st1) as [st2 o2]. cbn [fst snd] in *.
        rewrite N, <- !app_assoc in H2. exact H2.
      + pose proof (Kf st _ (Silent st tr [RoNackNoPdu (rs_now st) s rt_NACK_RST m] ltac:(repeat constructor) H)) as H1.
        destruct (rt_fire_all st) as [st1 o]. cbn [fst snd] in *. rewrite <- app_assoc in H1. exact H1.
    - unfold rt_non. pose proof (K1 _ _ _ _ (rt_ms_cancel ev st (rt_tok_match s tok)) H) as H0.
      destruct (sq_cancel _ (rs_q st)) as [rm q']. cbn [fst snd] in H0.
      pose proof (rt_free_slots_keep ev I K1 s [] (length rm) (rt_set_q st q') _ H0) as H1.
      destruct (rt_free_slots _ _ s) as [st1 o1]. pose proof (Kf st1 _ H1) as H2.
      destruct (rt_fire_all st1) as [st2 o2]. cbn [fst snd] in *.
      rewrite <- !app_assoc in H2. exact H2.
    - apply (K1 (st, [])); [|exact H]. apply rt_ms_disconnect. exact Ev.
    - unfold rt_delete. destruct (sq_remove (rs_q st) s m) as [[[t n] q']|] eqn:Rm; [|rewrite app_nil_r; exact H].
      destruct (Unlink _ _ _ _ _ Rm) as [d U]. exact (K1 _ _ _ _ (rt_ms_acked ev _ d n) U).
    - unfold rt_io_process. pose proof (Kf st tr H) as H1. destruct (rt_fire_all st) as [st1 o1].
      destruct (rt_wait st1) as [w hd]. set (et := rt_epoll_timeout w tmo). set (st2 := rt_set_now st1 _).
      cbn [fst snd] in H1.
      pose proof (Silent st1 _ [RoEpoll (rs_now st1) et] ltac:(repeat constructor) H1) as H2.
      assert (H3 : I ((tr ++ o1) ++ [RoEpoll (rs_now st1) et]) (st2, [])).
      { apply (rt_keep0 ev I K1 (st1, [])); [|exact H2]. apply rt_ms_clock. rewrite Ev. destruct (0 <? et) eqn:E; lia. }
      pose proof (Kf st2 _ H3) as H4. destruct (rt_fire_all st2) as [st3 o3]. cbn [fst snd] in *.
      pose proof (Silent st3 _ [RoIoRet (rs_now st3) (rs_now st3 - rs_now st)] ltac:(repeat constructor) H4) as H5.
      rewrite <- !app_assoc in H5. exact H5.
    - apply Silent; [repeat constructor|exact H].
  Qed.

  Theorem rt_run_keep : forall evs st tr, Forall G evs ->
    I tr (st, []) -> I (tr ++ snd (rt_run st evs)) (fst (rt_run st evs), []).
  Proof.
    induction evs as [|ev rest IH]; intros st tr F H; cbn [rt_run].
    - rewrite app_nil_r. exact H.
    - inversion F as [|? ? Gev F']; subst. pose proof (rt_step_keep st ev tr Gev H) as H1.
      destruct (rt_step st ev) as [st1 o1]. specialize (IH st1 _ F' H1).
      destruct (rt_run st1 rest) as [st2 o2]. cbn [fst snd] in *. rewrite app_assoc. exact IH.
  Qed.
End KeepRun.

(* for an invariant that does not mind the marker of the loop bound *)
Corollary rt_run_keep_any_fuel : forall (G : rt_event -> Prop) (I : list rt_out -> rt_conf -> Prop),
  (forall ev c o c' tr, G ev -> rt_mstep ev c o c' -> I tr c -> I (tr ++ o) c') ->
  (forall st tr, I tr (st, []) -> I (tr ++ [RoFuel]) (st, [])) ->
  forall evs st tr, Forall G evs ->
  I tr (st, []) -> I (tr ++ snd (rt_run st evs)) (fst (rt_run st evs), []).
Proof.
  intros G I K Kfuel. apply (rt_run_keep G I K). intros ev st tr Gev.
  exact (rt_fire_keep ev I (fun c o c' tr => K ev c o c' tr Gev) Kfuel _ st tr).
Qed.
